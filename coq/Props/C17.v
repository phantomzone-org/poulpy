(* C17 - safe API calls never access memory outside the buffers they were given: the LOGIC of addressing.
   Statements, each proved by `exact` or by a short derivation from the lemmas of Proofs/.  Partial by nature
   (DESIGN.md C17): intrinsic bodies, assembly, uninitialised memory and the allocator are observed by the harness,
   not proved. *)
From PV Require Import Base.MachineInt Model.Znx Model.Limbs Model.LimbsBig Model.Ring Model.DftAbs Model.Flat Model.C12Scratch
  Model.C17Mem Model.C17Ops Model.C17Ops2 Model.C17Run Proofs.C12Arena Proofs.C17Bounds Proofs.C17Total Proofs.C17Total2 Proofs.C17Compact Proofs.C17Hist
  Proofs.C17Main Proofs.C08Cross.
From Coq Require Import Arith PeanoNat.
Open Scope Z_scope.

Theorem C17_at_in_bounds : forall v i j,
  wf_v v -> Inv v -> 0 <= i < v_cols v -> 0 <= j < v_size v ->
  0 <= v_n v * (j * v_cols v + i) /\ v_n v * (j * v_cols v + i) + v_n v <= v_len v / v_w v.
Proof. exact at_in_bounds. Qed.
Print Assumptions C17_at_in_bounds.

Theorem C17_at_in_bounds_capacity : forall v i j,
  wf_v v -> Inv v -> 0 <= i < v_cols v -> 0 <= j < v_max v -> at_end v i j <= cap_words v.
Proof.
  intros v i j Hwf (_ & _ & H3) Hi Hj.
  apply words_le_cap; [apply Hwf | exact (at_end_bytes v (v_max v) i j Hwf Hi Hj H3)].
Qed.
Print Assumptions C17_at_in_bounds_capacity.

Theorem C17_at_disjoint : forall v i j i' j',
  0 <= v_n v -> 0 <= i < v_cols v -> 0 <= i' < v_cols v -> 0 <= j -> 0 <= j' -> (i, j) <> (i', j') ->
  at_end v i j <= at_off v i' j' \/ at_end v i' j' <= at_off v i j.
Proof.
  intros v i j i' j' Hn Hi Hi' Hj Hj' Hne. unfold at_end, at_off.
  assert (j * v_cols v + i <> j' * v_cols v + i') as Hd.
  { intros E. apply Hne. assert (j = j') by nia. subst. f_equal. lia. }
  destruct (Z.lt_ge_cases (j * v_cols v + i) (j' * v_cols v + i')); [left|right]; nia.
Qed.
Print Assumptions C17_at_disjoint.

Theorem C17_raw_in_bounds : forall v,
  wf_v v -> Inv v -> raw_words v * v_w v <= v_len v /\ raw_words v <= cap_words v.
Proof. exact raw_in_bounds. Qed.
Print Assumptions C17_raw_in_bounds.

(* the proposed accessor hook never fires on a well-formed object *)
Theorem C17_hook_silent : forall v i j,
  wf_v v -> Inv v -> 0 <= i < v_cols v -> 0 <= j < v_size v -> hook_at_ok v i j = true /\ hook_raw_ok v = true.
Proof.
  intros v i j Hwf HI Hi Hj. unfold hook_at_ok, hook_raw_ok. rewrite !Z.leb_le.
  split; [apply at_in_bounds; assumption | apply raw_in_bounds; assumption].
Qed.
Print Assumptions C17_hook_silent.

(* MatZnx::at / at_mut: the entry's byte range is inside the buffer and the returned VecZnx view is well formed;
   VmpPMat / MatZnx raw *)
Theorem C17_mat_at_in_bounds : forall m row col,
  wf_m m -> InvM m -> 0 <= row < m_rows m -> 0 <= col < m_cin m ->
  0 <= m_at_start m row col /\ m_at_end m row col <= m_len m /\
  wf_v (m_at_view m) /\ Inv (m_at_view m) /\ v_len (m_at_view m) = m_at_end m row col - m_at_start m row col.
Proof.
  intros m row col (Hn & Hr & Hci & Hco & Hs & Hl & Hw) HI Hrow Hcol.
  unfold InvM, m_bytes_of in HI. unfold m_at_end, m_at_start, m_at_view, m_nb, wf_v, Inv; cbn.
  set (nb := m_n m * m_cout m * m_size m * m_w m) in *.
  assert (0 <= nb) by (unfold nb; nia).
  assert (nb * m_cin m * row + col * nb + nb <= m_rows m * m_cin m * nb) as Hle.
  { assert (m_cin m * row + col + 1 <= m_rows m * m_cin m) by nia. nia. }
  assert (m_rows m * m_cin m * nb <= m_len m) as HI' by (unfold nb; lia).
  repeat split; try lia; try nia.
Qed.
Print Assumptions C17_mat_at_in_bounds.

Theorem C17_mat_raw_in_bounds : forall m,
  wf_m m -> InvM m -> m_raw_words m * m_w m <= m_len m /\ m_raw_words m <= m_len m / m_w m.
Proof.
  intros m (Hn & Hr & Hci & Hco & Hs & Hl & Hw) HI. unfold InvM, m_bytes_of in HI. unfold m_raw_words.
  assert (m_n m * (m_rows m * m_cin m * m_cout m * m_size m) * m_w m <= m_len m) by nia.
  split; [assumption | apply words_le_cap; assumption].
Qed.
Print Assumptions C17_mat_raw_in_bounds.

(* the default trait accessor on a matrix layout needs a non-empty matrix; otherwise refuted *)
Theorem C17_mat_trait_at_in_bounds : forall m i j,
  wf_m m -> InvM m -> 1 <= m_rows m -> 1 <= m_cout m -> 0 <= i < m_cin m -> 0 <= j < m_size m ->
  m_trait_at_end m i j * m_w m <= m_len m.
Proof.
  intros m i j (Hn & Hr & Hci & Hco & Hs & Hl & Hw) HI Hr1 Hc1 Hi Hj. unfold InvM, m_bytes_of in HI. unfold m_trait_at_end.
  pose proof (limb_index_le _ _ _ _ Hi Hj) as Hk.
  assert (m_n m * (j * m_cin m + i) + m_n m <= m_n m * (m_size m * m_cin m)) by nia.
  assert (0 <= m_n m * (m_size m * m_cin m)) as HX by nia.
  assert (1 <= m_rows m * m_cout m) as HR by nia.
  assert (m_n m * (m_size m * m_cin m) <= m_rows m * m_cin m * (m_n m * m_cout m * m_size m)).
  { replace (m_rows m * m_cin m * (m_n m * m_cout m * m_size m)) with (m_n m * (m_size m * m_cin m) * (m_rows m * m_cout m)) by ring.
    nia. }
  nia.
Qed.
Print Assumptions C17_mat_trait_at_in_bounds.
Theorem C17_mat_trait_at_refuted :
  exists m i j, wf_m m /\ InvM m /\ 0 <= i < m_cin m /\ 0 <= j < m_size m /\ ~ (m_trait_at_end m i j * m_w m <= m_len m).
Proof.
  exists (mkM 4 0 1 1 1 0 8), 0, 0. unfold wf_m, InvM, m_trait_at_end, m_bytes_of; cbn. repeat split; try lia.
Qed.
Print Assumptions C17_mat_trait_at_refuted.

Theorem C17_set_size_preserves_inv : forall v v' s,
  wf_v v -> Inv v -> 0 <= s -> v_set_size v s = Some v' ->
  wf_v v' /\ Inv v' /\ v_size v' = s /\ v_max v' = v_max v /\ v_len v' = v_len v.
Proof. exact set_size_preserves_inv. Qed.
Print Assumptions C17_set_size_preserves_inv.

Theorem C17_constructors_establish_inv :
  (forall n cols size w, 0 <= n -> 0 <= cols -> 0 <= size -> 0 < w -> wf_v (v_alloc n cols size w) /\ Inv (v_alloc n cols size w)) /\
  (forall n cols size w len v, 0 <= n -> 0 <= cols -> 0 <= size -> 0 < w -> v_from_bytes n cols size w len = Some v -> wf_v v /\ Inv v) /\
  (forall v new_size, wf_v v -> Inv v -> 0 <= new_size ->
      wf_v (v_realloc v new_size) /\ Inv (v_realloc v new_size) /\ v_size (v_realloc v new_size) = new_size) /\
  (forall v, Inv v -> Inv (v_to_ref v) /\ v_to_ref v = v) /\
  (forall v w_big, wf_v v -> Inv v -> 0 < w_big <= v_w v -> Inv (v_into_big v w_big)) /\
  (forall v, Inv (v_as_scalar v)) /\
  (forall n rows cin cout size w, 0 <= n -> 0 <= rows -> 0 <= cin -> 0 <= cout -> 0 <= size -> 0 < w ->
      wf_m (m_alloc n rows cin cout size w) /\ InvM (m_alloc n rows cin cout size w)) /\
  (forall n rows cin cout size w len m, m_from_bytes n rows cin cout size w len = Some m -> InvM m) /\
  (* the unchecked form (today only a struct literal through the PUBLIC FIELDS of VecZnx / ScalarZnx / VecZnxBig /
     VecZnxDft / SvpPPol; every from_data asserts since 2067fe8 / 122d562): exactly when the buffer is large enough *)
  (forall len n cols size w, Inv (v_from_data len n cols size w) <-> n * cols * size * w <= len).
Proof.
  exact (conj alloc_inv (conj from_bytes_inv (conj realloc_inv (conj to_ref_inv (conj into_big_inv (conj as_scalar_inv
    (conj mat_alloc_inv (conj mat_from_bytes_inv from_data_inv_iff)))))))).
Qed.
Print Assumptions C17_constructors_establish_inv.

Theorem C17_from_data_refuted : exists len n cols size w, 0 <= len /\ 0 < w /\ ~ Inv (v_from_data len n cols size w).
Proof. exists 8, 4, 1, 1, 8. rewrite from_data_inv_iff. lia. Qed.
Print Assumptions C17_from_data_refuted.

(* deserialisation (after repairs 206cd69 / 0b16af7) *)
(* whatever the stream header says, an accepted read leaves a well-formed receiver: checked products, max_size < size
   rejected, max_size clamped to what the receiver's buffer holds *)
Theorem C17_read_from_establishes_inv : forall v v' h avail,
  wf_v v -> v_w v = 8 -> 0 <= sh_n h /\ 0 <= sh_cols h /\ 0 <= sh_size h /\ 0 <= sh_max h ->
  v_read_from v h avail = ROk v' ->
  wf_v v' /\ Inv v' /\ v_len v' = v_len v /\ v_size v' = sh_size h /\ v_max v' <= sh_max h.
Proof. exact read_from_establishes_inv. Qed.
Print Assumptions C17_read_from_establishes_inv.

Theorem C17_mat_read_from_establishes_inv : forall m m' n size rows cin cout len avail,
  m_w m = 8 -> m_read_from m n size rows cin cout len avail = Some m' -> InvM m' /\ m_len m' = m_len m.
Proof. exact mat_read_from_inv. Qed.
Print Assumptions C17_mat_read_from_establishes_inv.

(* both outcomes of a read: Err leaves the receiver EXACTLY as it was (shape and Inv), Ok leaves it well formed *)
Theorem C17_read_from_preserves_inv : forall v h avail,
  wf_v v -> Inv v -> v_w v = 8 -> 0 <= sh_n h /\ 0 <= sh_cols h /\ 0 <= sh_size h /\ 0 <= sh_max h ->
  wf_v (apply_read v (v_read_from v h avail)) /\ Inv (apply_read v (v_read_from v h avail)) /\
  v_len (apply_read v (v_read_from v h avail)) = v_len v /\
  (v_read_from v h avail = RErr -> apply_read v (v_read_from v h avail) = v).
Proof. exact read_preserves. Qed.
Print Assumptions C17_read_from_preserves_inv.

Theorem C17_mat_read_from_preserves_inv : forall m n size rows cin cout len avail,
  InvM m -> m_w m = 8 ->
  InvM (m_apply_read m (m_read_from m n size rows cin cout len avail)) /\
  m_len (m_apply_read m (m_read_from m n size rows cin cout len avail)) = m_len m /\
  (m_read_from m n size rows cin cout len avail = None -> m_apply_read m (m_read_from m n size rows cin cout len avail) = m).
Proof. exact m_read_preserves. Qed.
Print Assumptions C17_mat_read_from_preserves_inv.

(* history 13 (a larger self-consistent object read into the receiver, whatever the outcome) keeps the receiver well formed *)
Theorem C17_read_larger_preserves_inv :
  (forall rc how, wf_v rc -> Inv rc -> v_w rc = 8 ->
     wf_v (read_larger rc how) /\ Inv (read_larger rc how) /\ v_len (read_larger rc how) = v_len rc) /\
  (forall m how, InvM m -> m_w m = 8 -> InvM (m_read_larger m how) /\ m_len (m_read_larger m how) = m_len m).
Proof. exact (conj read_larger_inv m_read_larger_inv). Qed.
Print Assumptions C17_read_larger_preserves_inv.

(* the seeded faulty reader that assigns the shape before the buffer-length check (seeded/C17d) is refuted: a rejected
   read of a matrix with one more limb leaves the sender's shape on the receiver's smaller buffer *)
Theorem C17_read_commit_early_refuted :
  exists m n size rows cin cout len,
    wf_m m /\ InvM m /\ m_w m = 8 /\ m_read_from m n size rows cin cout len len = None /\
    ~ InvM (m_read_from_commit_early m n size rows cin cout len).
Proof.
  exists (m_alloc 16 2 1 2 2 8), 16, 3, 2, 1, 2, (2 * 1 * 16 * 2 * 3 * 8).
  split; [unfold wf_m, m_alloc, round64, m_bytes_of; cbn; lia|].
  split; [unfold InvM, m_alloc, round64, m_bytes_of; cbn; lia|].
  split; [reflexivity|]. split; [vm_compute; reflexivity|].
  unfold InvM, m_read_from_commit_early, m_alloc, round64, m_bytes_of; cbn. lia.
Qed.
Print Assumptions C17_read_commit_early_refuted.

(* VecZnx / ScalarZnx::from_data after repair 2067fe8 *)
Theorem C17_from_data_checked_establishes_inv : forall len n cols size w v,
  0 <= n -> 0 <= cols -> 0 <= size -> 0 < w -> 0 <= len ->
  v_from_data_checked len n cols size w = Some v -> wf_v v /\ Inv v.
Proof. exact from_data_checked_inv. Qed.
Print Assumptions C17_from_data_checked_establishes_inv.

Theorem C17_take_in_window : forall k off len win rest,
  0 <= k -> take k (off, len) = Some (win, rest) ->
  snd win = k /\ fst win mod 64 = 0 /\
  (0 < k -> off <= fst win /\ fst win + snd win <= off + len) /\
  fst rest = fst win + snd win /\ 0 <= snd rest /\
  (0 < snd rest -> off <= fst rest /\ fst rest + snd rest <= off + len).
Proof. exact take_in_window. Qed.
Print Assumptions C17_take_in_window.

Theorem C17_take_typed_aligned : forall len wT alignT off l win rest,
  0 <= len -> 0 <= wT -> 0 < alignT -> (alignT | 64) ->
  take_typed len wT (off, l) = Some (win, rest) -> snd win = len * wT /\ fst win mod alignT = 0.
Proof.
  intros len wT alignT off l win rest Hl Hw Ha Hd H. unfold take_typed in H. apply take_in_window in H; [|nia].
  destruct H as (H1 & H2 & _). split; [assumption|].
  destruct Hd as [q Hq]. apply Z.mod_divide; [lia|]. apply Z.mod_divide in H2; [|lia].
  destruct H2 as [r Hr]. exists (r * q). rewrite Hr, Hq. ring.
Qed.
Print Assumptions C17_take_typed_aligned.

Theorem C17_take_establishes_inv : forall n cols size w off len v win rest,
  0 <= n -> 0 <= cols -> 0 <= size -> 0 < w ->
  v_take n cols size w (off, len) = Some (v, win, rest) ->
  wf_v v /\ Inv v /\ v_len v = snd win /\ snd win = bytes_of n cols size w /\ fst win mod 64 = 0 /\
  (0 < snd win -> off <= fst win /\ fst win + snd win <= off + len) /\ fst rest = fst win + snd win.
Proof.
  intros n cols size w off len v win rest Hn Hc Hs Hw. unfold v_take.
  destruct (take (bytes_of n cols size w) (off, len)) as [[wi re]|] eqn:E; [|discriminate].
  intros R; inversion R; subst; clear R.
  assert (0 <= bytes_of n cols size w) as Hb by (unfold bytes_of; nia).
  apply take_in_window in E; [|exact Hb]. destruct E as (E1 & E2 & E3 & E4 & E5 & E6).
  unfold wf_v, Inv, v_from_data; cbn. rewrite E1. unfold bytes_of in *. repeat split; try lia; try (apply E3; lia).
Qed.
Print Assumptions C17_take_establishes_inv.

Theorem C17_take_zero_outside_refuted :
  exists off len win rest, take 0 (off, len) = Some (win, rest) /\ off + len < fst win.
Proof. exact take_zero_outside_refuted. Qed.
Print Assumptions C17_take_zero_outside_refuted.

(* histories of the harness: every history establishes Inv (chk: from_data validates its buffer, which every layout
   does since 2067fe8 / 122d562) *)
Theorem C17_histories_establish_inv : forall vec chk ser n cols size w hist hp1 hp2 v,
  0 <= n -> 0 <= cols -> 0 <= size -> 0 < w -> 0 <= hp1 -> 0 <= hp2 ->
  (hist = 9 -> chk = true) ->
  hist_hdr vec chk ser n cols size w (cols * size) hist hp1 hp2 = HOk v -> wf_v v /\ Inv v.
Proof. exact histories_inv. Qed.
Print Assumptions C17_histories_establish_inv.


(* op_total: no loop of the modelled reference operations indexes outside its operands *)
Theorem C17_op_total_limbs : forall w b off k a r0 ov,
  normalize_inter_c w b off a r0 = Some (normalize_inter w b off a r0) /\
  normalize_assign_c w b r0 = Some (normalize_assign w b r0) /\
  lsh_assign_c w b k r0 = Some (lsh_assign w b k r0) /\
  lsh_c w ov b k a r0 = Some (lsh w ov b k a r0) /\
  lsh_sub_c w b k a r0 = Some (lsh_sub w b k a r0) /\
  rsh_assign_c w b k r0 = Some (rsh_assign w b k r0) /\
  rsh_c w ov b k a r0 = Some (rsh w ov b k a r0) /\
  rsh_sub_c w b k a r0 = Some (rsh_sub w b k a r0).
Proof.
  intros w b off k a r0 ov.
  exact (conj (normalize_inter_total w b off a r0) (conj (normalize_assign_total w b r0) (conj (lsh_assign_total w b k r0)
    (conj (lsh_total w ov b k a r0) (conj (lsh_sub_total w b k a r0) (conj (rsh_assign_total w b k r0)
    (conj (rsh_total w ov b k a r0) (rsh_sub_total w b k a r0)))))))).
Qed.
Print Assumptions C17_op_total_limbs.

Theorem C17_op_total_vec : forall w n p f a b r0,
  vec_add_c w n a b r0 = Some (vec_add w n a b r0) /\
  vec_sub_c w n a b r0 = Some (vec_sub w n a b r0) /\
  vec_add_assign_c w a r0 = Some (vec_add_assign w a r0) /\
  vec_sub_assign_c w a r0 = Some (vec_sub_assign w a r0) /\
  vec_sub_negate_assign_c w a r0 = Some (vec_sub_negate_assign w a r0) /\
  vec_unary_c n f a r0 = Some (vec_unary n f a r0) /\
  vec_automorphism_c w n p a r0 = Some (vec_automorphism w n p a r0) /\
  vec_switch_ring_c n a r0 = Some (vec_switch_ring n a r0).
Proof.
  intros w n p f a b r0.
  exact (conj (vec_add_total w n a b r0) (conj (vec_sub_total w n a b r0) (conj (vec_add_assign_total w a r0)
    (conj (vec_sub_assign_total w a r0) (conj (vec_sub_negate_assign_total w a r0) (conj (vec_unary_total n f a r0)
    (conj (vec_automorphism_total w n p a r0) (vec_switch_ring_total n a r0)))))))).
Qed.
Print Assumptions C17_op_total_vec.

(* cross-radix normalisation: the i64 routine (gap cap 128), the big-accumulator copy (cap 192) and the same-radix big
   routine (cap as a parameter) perform no access outside their operands (outer Some) and return what the shared models
   return (inner option = the routine's own fuel) *)
Theorem C17_op_total_cross : forall w (cap_small : Z) rb ab off b (cap : nat) a r0,
  1 <= rb -> 1 <= ab ->
  normalize_cross_gc w 128 rb ab off a r0 = Some (normalize_cross w rb ab off a r0) /\
  normalize_cross_gc w 192 rb ab off a r0 = Some (normalize_cross_big w rb ab off a r0) /\
  normalize_inter_cc w cap b off a r0 = Some (LimbsBig.normalize_inter_c w cap b off a r0).
Proof.
  intros w _ rb ab off b cap a r0 Hrb Hab.
  exact (conj (normalize_cross_total_c w rb ab off a r0 Hrb Hab) (conj (normalize_cross_big_total_c w rb ab off a r0 Hrb Hab)
    (normalize_inter_cap_total w cap b off a r0))).
Qed.
Print Assumptions C17_op_total_cross.

(* together with C08_normalize_cross_total (the fuel is never exhausted) *)
Theorem C17_op_total_cross_64 : forall rb ab off a r0,
  1 <= rb -> 1 <= ab ->
  exists r, normalize_cross_gc 64 128 rb ab off a r0 = Some (Some r) /\ normalize_cross 64 rb ab off a r0 = Some r.
Proof.
  intros rb ab off a r0 Hrb Hab. pose proof (normalize_cross_total rb ab Hrb Hab off a r0) as Hne.
  destruct (normalize_cross 64 rb ab off a r0) as [r|] eqn:E; [|congruence].
  exists r. split; [|reflexivity]. rewrite <- E. apply normalize_cross_total_c; assumption.
Qed.
Print Assumptions C17_op_total_cross_64.

(* add_scalar / sub_scalar, the switch_ring kernel on divisible ring degrees, split_ring parts, merge_rings *)
Theorem C17_op_total_scalar_rings : forall w,
  (forall n sub a b b_limb r0, vec_add_scalar_c w n sub a b b_limb r0 = Some (vec_add_scalar w n sub a b b_limb r0)) /\
  (forall sub a res_limb r0, vec_add_scalar_assign_c w sub a res_limb r0 = vec_add_scalar_assign w sub a res_limb r0) /\
  (forall n_out r0 a, (0 < n_out)%nat -> (0 < length a)%nat ->
      (exists g, (0 < g)%nat /\ (length a = g * n_out \/ n_out = g * length a)%nat) ->
      znx_switch_ring_c n_out r0 a = Some (znx_switch_ring n_out r0 a)) /\
  (forall n_in n_out i a r0, (0 < n_out)%nat -> (0 < n_in)%nat -> (exists g, (0 < g)%nat /\ n_in = (g * n_out)%nat) ->
      limbs_wf n_in a -> vec_split_part_c w n_out i a r0 = Some (vec_split_part w n_out i a r0)) /\
  (forall n_in n_out parts r0, (0 < length parts)%nat -> n_out = (length parts * n_in)%nat -> Forall (limbs_wf n_in) parts ->
      vec_merge_rings_c n_out parts r0 = Some (vec_merge_rings n_out parts r0)).
Proof.
  intros w.
  exact (conj (vec_add_scalar_total w) (conj (vec_add_scalar_assign_total w) (conj znx_switch_ring_total
    (conj (vec_split_part_total w) vec_merge_rings_total)))).
Qed.
Print Assumptions C17_op_total_scalar_rings.

(* DFT-domain shape functions: every limb index offset + j*step, j + shift, j - shift, and every flat vmp index (q, c + off)
   is inside its operand *)
Theorem C17_op_total_dft :
  (forall n rsz step offset a, dft_select_c n rsz step offset a = Some (dft_select n rsz step offset a)) /\
  (forall n rsz a b, dft_add_c n rsz a b = Some (dft_add n rsz a b)) /\
  (forall n rsz a b, dft_sub_c n rsz a b = Some (dft_sub n rsz a b)) /\
  (forall a r0, dft_add_assign_c a r0 = Some (dft_add_assign a r0)) /\
  (forall a r0, dft_sub_assign_c a r0 = Some (dft_sub_assign a r0)) /\
  (forall a r0, dft_sub_negate_assign_c a r0 = Some (dft_sub_negate_assign a r0)) /\
  (forall scale a r0, dft_add_scaled_assign_c scale a r0 = Some (dft_add_scaled_assign scale a r0)) /\
  (forall n rsz s b, svp_apply_c n rsz s b = Some (svp_apply n rsz s b)) /\
  (forall n rcols rsz acols asz rows msize limb_offset aflat mflat c,
      vmp_c n rcols rsz acols asz rows msize limb_offset aflat mflat c =
      Some (vmp n rcols rsz acols asz rows msize limb_offset aflat mflat c)).
Proof.
  exact (conj dft_select_total (conj dft_add_total (conj dft_sub_total (conj dft_add_assign_total (conj dft_sub_assign_total
    (conj dft_sub_negate_assign_total (conj dft_add_scaled_assign_total (conj svp_apply_total vmp_total)))))))).
Qed.
Print Assumptions C17_op_total_dft.

Theorem C17_flat_checked_rejects : forall (len nrows ncols q c : nat) (f : nat -> list Z) (g : nat -> nat -> list Z),
  ((len <= q)%nat -> flat1_c len f q = None) /\ ((nrows <= q)%nat \/ (ncols <= c)%nat -> flat2_c nrows ncols g q c = None).
Proof.
  intros len nrows ncols q c f g.
  unfold flat1_c, flat2_c. split; intros H.
  - destruct (Nat.ltb_spec q len); [lia|reflexivity].
  - destruct (Nat.ltb_spec q nrows); destruct (Nat.ltb_spec c ncols); cbn; try reflexivity; lia.
Qed.
Print Assumptions C17_flat_checked_rejects.

(* the twins really check: an index outside the operand is rejected *)
Theorem C17_checked_access_rejects : forall l i x,
  i < 0 \/ Z.of_nat (length l) <= i -> getc l i = None /\ updc l i x = None.
Proof. intros l i x H. exact (conj (getc_out l i H) (updc_out l i x H)). Qed.
Print Assumptions C17_checked_access_rejects.

(* flat layer (col_op / limb_at / write_limb): every active limb is n full words inside the buffer *)
Theorem C17_flat_in_bounds : forall s data j,
  shape_ok s data = true -> (j < s_size s)%nat ->
  (s_n s * (j * s_cols s + s_col s) + s_n s <= length data)%nat /\
  length (limb_at (s_n s) (s_cols s) data (s_col s) j) = s_n s /\
  forall l, length (write_limb (s_n s) (s_cols s) data (s_col s) j l) = length data.
Proof.
  intros s data j H Hj. pose proof (shape_ok_facts s data H) as (_ & Hs & _).
  pose proof (flat_limb_in_bounds s data j H ltac:(lia)) as Hb. unfold flat_off in Hb.
  split; [exact Hb|]. split; [apply flat_limb_at_full; assumption|]. intros l; apply write_limb_length; exact Hb.
Qed.
Print Assumptions C17_flat_in_bounds.

(* coefficient level: switch_ring gathers / scatters and the automorphism permutation stay inside the limb *)
Theorem C17_ring_kernel_indices :
  (forall n_in n_out t, (0 < n_out)%nat -> (n_out <= n_in)%nat -> (t < n_out)%nat -> (switch_down_ix n_in n_out t < n_in)%nat) /\
  (forall n_in n_out t, (0 < n_in)%nat -> (n_in <= n_out)%nat -> (t < n_in)%nat -> (switch_up_ix n_in n_out t < n_out)%nat) /\
  (forall n p i, 0 < n -> 0 <= auto_ix n p i < n) /\
  (forall len, 0 <= len -> 0 <= simd_main_last len <= len /\ len - simd_main_last len < 4).
Proof. exact (conj switch_down_in_bounds (conj switch_up_in_bounds (conj auto_ix_in_bounds simd_partition))). Qed.
Print Assumptions C17_ring_kernel_indices.

Theorem C17_compact_blocks_safe : forall n nb k c k' c',
  0 < n -> 0 <= k < nb -> 0 <= k' < nb -> 0 <= c < n -> 0 <= c' < n ->
  (* every access inside the raw view *)
  (0 <= cb_src n k c /\ cb_src n k c + 4 <= 4 * n * nb /\ 0 <= cb_dst n k c /\ cb_dst n k c + 2 <= 2 * n * nb) /\
  (* a write never reaches a source word of a coefficient processed later *)
  (cb_before k c k' c' -> cb_dst n k c + 2 <= cb_src n k' c') /\
  (* nor the block on which a later inverse NTT runs in place *)
  (k < k' -> cb_dst n k c + 2 <= 4 * n * k') /\
  (* own source / destination overlap only for the very first coefficient (read into locals first) *)
  (cb_src n k c < cb_dst n k c + 2 -> k = 0 /\ c = 0).
Proof. exact compact_blocks_safe. Qed.
Print Assumptions C17_compact_blocks_safe.

Theorem C17_compact_inplace_correct : forall g orig M,
  (4 * M <= length orig)%nat ->
  length (compact_inplace g orig M) = length orig /\
  (forall m, (m < M)%nat ->
     (nthw (compact_inplace g orig M) (2 * m), nthw (compact_inplace g orig M) (2 * m + 1)) = compact_spec g orig m) /\
  (forall i, (2 * M <= i)%nat -> nthw (compact_inplace g orig M) i = nthw orig i).
Proof. exact compact_inplace_correct. Qed.
Print Assumptions C17_compact_inplace_correct.

(* the seeded mutants of the self-test are refuted in the model *)
Theorem C17_mutants_refuted :
  (exists a r0, vec_copy_bad_c a r0 = None) /\
  (exists len, 0 <= len /\ simd_main_last len - 4 < 0) /\
  (exists v s, wf_v v /\ Inv v /\ 0 <= s /\ ~ Inv (mkV (v_n v) (v_cols v) s (v_max v) (v_len v) (v_w v))) /\
  (exists k off len win rest, take_bad k (off, len) = Some (win, rest) /\ 0 < snd rest /\ off + len < fst rest + snd rest).
Proof. exact (conj vec_copy_bad_refuted (conj simd_tail_bad_refuted (conj set_size_unchecked_refuted take_bad_refuted))). Qed.
Print Assumptions C17_mutants_refuted.

(* examples: the hypotheses are satisfiable by non-trivial instances *)
Example C17_inv_example :
  let v := mkV 8 3 2 5 (8 * 3 * 5 * 8) 8 in
  wf_v v /\ Inv v /\ at_off v 2 1 = 40 /\ at_end v 2 1 = 48 /\ cap_words v = 120 /\ raw_words v = 48.
Proof. unfold wf_v, Inv, at_off, at_end, cap_words, raw_words; cbn. repeat split; lia. Qed.

Example C17_take_example :
  take 24 (8, 100) = Some ((64, 24), (88, 20)) /\ take 24 (8, 60) = None.
Proof. split; vm_compute; reflexivity. Qed.

Example C17_history_example :
  (* writer with 2 spare limbs, receiver without: read_from accepts and clamps max_size to the receiver's 2 limbs *)
  run_c17 17000 [1; 8; 4; 3; 1; 2; 0;  1; 2; 0;  1; 1; 0;  0; 0; 0;  0; 0; 0; 0; 7] [] =
    Some [[0; 1; 0; 1]; [4; 1; 1; 2; 64; 8]] /\
  (* a receiver of equal capacity keeps the writer's max_size *)
  run_c17 17000 [1; 8; 4; 3; 1; 2; 2;  1; 2; 0;  1; 1; 0;  0; 0; 0;  0; 0; 0; 0; 7] [] =
    Some [[0; 1; 0; 1]; [4; 1; 1; 3; 128; 8]] /\
  (* VecZnxBig::from_data (NTT120: 16-byte words) on a buffer one word short: rejected by its assert (122d562) *)
  run_c17 17000 [3; 42; 4; 9; 1; 2; 0;  1; 2; 0;  1; 2; 0;  0; 0; 0;  0; 0; 0; 0; 7] [] = None.
Proof. split; [vm_compute; reflexivity | split; vm_compute; reflexivity]. Qed.

Example C17_cross_example :
  normalize_cross_gc 64 128 3 5 (-2) [7; -3; 11] [0; 0; 0; 0] = Some (normalize_cross 64 3 5 (-2) [7; -3; 11] [0; 0; 0; 0]) /\
  vec_merge_rings_c 4 [[[1; 2]]; [[3; 4]]] [[0; 0; 0; 0]] = Some [[1; 3; 2; 4]] /\
  dft_select_c 2 3 2 1 [[1; 1]; [2; 2]; [3; 3]] = Some [[2; 2]; [0; 0]; [0; 0]].
Proof. split; [vm_compute; reflexivity | split; vm_compute; reflexivity]. Qed.

Example C17_normalize_indices_example :
  normalize_inter_c 64 4 (-9) [1; 2; 3] [0; 0; 0; 0; 0] = Some (normalize_inter 64 4 (-9) [1; 2; 3] [0; 0; 0; 0; 0]).
Proof. vm_compute. reflexivity. Qed.

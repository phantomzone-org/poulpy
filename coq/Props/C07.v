(* C07 — DFT-domain products equal exact negacyclic convolution.  Pinned statements, each proved by `exact` or by a
   short derivation from the lemmas of Proofs/. *)
From PV Require Import Base.MachineInt Model.Znx Model.Limbs Model.Ring Model.DftAbs Model.C07Ntt120 Model.C07Run.
From PV Require Import Proofs.C07Dft Proofs.C07Ring Proofs.C07Shape Proofs.C07Round.
Open Scope Z_scope.

Theorem C07_dft_select_length : forall n rsz step offset a, length (dft_select n rsz step offset a) = rsz.
Proof. intros n rsz step offset a. apply mk_length. Qed.
Print Assumptions C07_dft_select_length.

(* A1: pmul is multiplication in Z[X]/(X^n+1) *)
Theorem C07_pmul_spec : forall (a b : list Z) (k : nat),
  length b = length a -> (k < length a)%nat ->
  nth k (pmul a b) 0 = zsum (fun i => nthZ a i * ext' b (Z.of_nat k - Z.of_nat i)) (length a).
Proof. exact pmul_spec. Qed.
Print Assumptions C07_pmul_spec.
Example C07_pmul_spec_ex : pmul [1; 2; 3; 4] [5; 6; 7; 8] = [-56; -36; 2; 60] /\ ext' [5; 6; 7; 8] (-1) = -8.
Proof. split; reflexivity. Qed.

(* A2: ring laws *)
Theorem C07_pmul_comm : forall a b, length b = length a -> pmul a b = pmul b a.
Proof. exact pmul_comm. Qed.
Print Assumptions C07_pmul_comm.

Theorem C07_pmul_assoc : forall a b c, length b = length a -> length c = length a -> pmul (pmul a b) c = pmul a (pmul b c).
Proof. exact pmul_assoc. Qed.
Print Assumptions C07_pmul_assoc.
Example C07_pmul_assoc_ex : pmul (pmul [1; -2] [3; 4]) [5; -6] = pmul [1; -2] (pmul [3; 4] [5; -6]).
Proof. reflexivity. Qed.

Theorem C07_pmul_padd_distr_l : forall a b c, length b = length a -> length c = length a ->
  pmul a (padd b c) = padd (pmul a b) (pmul a c).
Proof. exact pmul_padd_distr_l. Qed.
Print Assumptions C07_pmul_padd_distr_l.

Theorem C07_pmul_padd_distr_r : forall a b c, length b = length a -> length c = length a ->
  pmul (padd a b) c = padd (pmul a c) (pmul b c).
Proof. exact pmul_padd_distr_r. Qed.
Print Assumptions C07_pmul_padd_distr_r.

Theorem C07_pmul_psub_distr_l : forall a b c, length b = length a -> length c = length a ->
  pmul a (psub b c) = psub (pmul a b) (pmul a c).
Proof. exact pmul_psub_distr_l. Qed.
Print Assumptions C07_pmul_psub_distr_l.

Theorem C07_pmul_psub_distr_r : forall a b c, length b = length a -> length c = length a ->
  pmul (psub a b) c = psub (pmul a c) (pmul b c).
Proof. exact pmul_psub_distr_r. Qed.
Print Assumptions C07_pmul_psub_distr_r.

Theorem C07_pmul_pzero : forall a, pmul a (pzero (length a)) = pzero (length a) /\ pmul (pzero (length a)) a = pzero (length a).
Proof. intros a; split; [apply pmul_pzero_r|apply pmul_pzero_l]. Qed.
Print Assumptions C07_pmul_pzero.

Theorem C07_pmul_one : forall a, (1 <= length a)%nat -> pmul (pone (length a)) a = a /\ pmul a (pone (length a)) = a.
Proof. intros a H; split; [apply pmul_one_l|apply pmul_one_r]; exact H. Qed.
Print Assumptions C07_pmul_one.
Example C07_pmul_one_ex : pone 3 = [1; 0; 0] /\ pmul (pone 1) [7] = [7].
Proof. split; reflexivity. Qed.

Theorem C07_pmul_monomial : forall a p, (p < length a)%nat -> pmul (xpow (length a) p) a = monomial_mul' (Z.of_nat p) a.
Proof. exact pmul_monomial. Qed.
Print Assumptions C07_pmul_monomial.
Example C07_pmul_monomial_ex : xpow 4 1 = [0; 1; 0; 0] /\ monomial_mul' 1 [1; 2; 3; 4] = [-4; 1; 2; 3].
Proof. split; reflexivity. Qed.

(* A3: shape theorems *)
Theorem C07_dft_select_spec : forall n rsz step offset a j, (j < rsz)%nat ->
  lim (dft_select n rsz step offset a) j =
  if Nat.ltb j (Nat.min rsz (ceil_div (length a) step)) && Nat.ltb (offset + j * step) (length a)
  then lim a (offset + j * step) else pzero n.
Proof. exact dft_select_spec. Qed.
Print Assumptions C07_dft_select_spec.

Theorem C07_dft_select_natural : forall n rsz step offset a j, (1 <= step)%nat -> (j < rsz)%nat ->
  lim (dft_select n rsz step offset a) j = limz n a (offset + j * step).
Proof. exact dft_select_natural. Qed.
Print Assumptions C07_dft_select_natural.

Theorem C07_dft_select_past_end : forall n rsz step offset a j, (1 <= step)%nat -> (j < rsz)%nat ->
  (length a <= offset + j * step)%nat -> lim (dft_select n rsz step offset a) j = pzero n.
Proof.
  intros n rsz step offset a j Hs H Hp. rewrite dft_select_natural by assumption. unfold limz.
  destruct (Nat.ltb_spec (offset + j * step) (length a)); [lia|reflexivity].
Qed.
Print Assumptions C07_dft_select_past_end.
Example C07_dft_select_ex : dft_select 2 3 2 1 [[1; 2]; [3; 4]; [5; 6]; [7; 8]] = [[3; 4]; [7; 8]; [0; 0]].
Proof. reflexivity. Qed.

Theorem C07_dft_add_limbwise : forall n rsz a b j, wf n a -> wf n b -> (j < rsz)%nat ->
  lim (dft_add n rsz a b) j = padd (limz n a j) (limz n b j).
Proof. exact dft_add_limbwise. Qed.
Print Assumptions C07_dft_add_limbwise.

Theorem C07_dft_sub_limbwise : forall n rsz a b j, wf n a -> wf n b -> (j < rsz)%nat ->
  lim (dft_sub n rsz a b) j = psub (limz n a j) (limz n b j).
Proof. exact dft_sub_limbwise. Qed.
Print Assumptions C07_dft_sub_limbwise.
Example C07_dft_sub_ex : wf 2 [[1; 2]] /\ dft_sub 2 3 [[1; 2]] [[10; 20]; [30; 40]] = [[-9; -18]; [-30; -40]; [0; 0]].
Proof. split; [intros [|j] H; cbn in *; [reflexivity|lia]|reflexivity]. Qed.

Theorem C07_svp_is_product : forall n rsz s b j, (j < rsz)%nat ->
  lim (svp_apply n rsz s b) j = if Nat.ltb j (length b) then pmul s (lim b j) else pzero n.
Proof. exact svp_is_product. Qed.
Print Assumptions C07_svp_is_product.

Theorem C07_svp_coeff : forall n rsz s b j k, length s = n -> wf n b -> (j < rsz)%nat -> (j < length b)%nat -> (k < n)%nat ->
  nth k (lim (svp_apply n rsz s b) j) 0 = zsum (fun i => nthZ s i * ext' (lim b j) (Z.of_nat k - Z.of_nat i)) n.
Proof.
  intros n rsz s b j k Hs Hb H Hj Hk. rewrite svp_is_product by exact H.
  destruct (Nat.ltb_spec j (length b)); [|lia].
  rewrite pmul_spec by (rewrite ?Hs; auto). rewrite Hs. reflexivity.
Qed.
Print Assumptions C07_svp_coeff.

Theorem C07_vmp_is_sum_of_row_products :
  forall (n rcols rsz acols asz rows msize limb_offset : nat) (aflat : nat -> list Z) (mflat : nat -> nat -> list Z) (c : nat),
  let row_max := Nat.min (acols * rows) (acols * asz) in
  let off := (limb_offset * rcols)%nat in
  let col_max := Nat.min (rcols * msize) (rcols * rsz + off) in
  vmp n rcols rsz acols asz rows msize limb_offset aflat mflat c =
  if Nat.ltb c (col_max - off)
  then psum n (fun q => pmul (aflat q) (mflat q (c + off)%nat)) row_max
  else pzero n.
Proof. exact vmp_is_sum_of_row_products. Qed.
Print Assumptions C07_vmp_is_sum_of_row_products.

Theorem C07_vmp_coeff :
  forall (n rcols rsz acols asz rows msize limb_offset : nat) (aflat : nat -> list Z) (mflat : nat -> nat -> list Z) (c k : nat),
  let row_max := Nat.min (acols * rows) (acols * asz) in
  let off := (limb_offset * rcols)%nat in
  let col_max := Nat.min (rcols * msize) (rcols * rsz + off) in
  (forall q, length (aflat q) = n) -> (forall q c', length (mflat q c') = n) ->
  (c < col_max - off)%nat -> (k < n)%nat ->
  nth k (vmp n rcols rsz acols asz rows msize limb_offset aflat mflat c) 0 =
  zsum (fun q => zsum (fun i => nthZ (aflat q) i * ext' (mflat q (c + off)%nat) (Z.of_nat k - Z.of_nat i)) n) row_max.
Proof.
  intros n rcols rsz acols asz rows msize limb_offset aflat mflat c k row_max off col_max Ha Hm Hc Hk.
  rewrite vmp_is_sum_of_row_products. fold row_max off col_max.
  destruct (Nat.ltb_spec c (col_max - off)); [|lia].
  rewrite psum_coeff by (intros; rewrite pmul_length; apply Ha).
  apply zsum_ext; intros q _. rewrite pmul_spec by (rewrite ?Ha, ?Hm; auto). rewrite Ha. reflexivity.
Qed.
Print Assumptions C07_vmp_coeff.
Example C07_vmp_ex :
  vmp 1 1 2 1 2 2 2 0 (fun q => [Z.of_nat q + 1]) (fun q c => [10 * Z.of_nat q + Z.of_nat c + 1]) 1%nat = [2 + 2 * 12].
Proof. reflexivity. Qed.

Theorem C07_pairwise_identity : forall ai aj bi bj, length aj = length ai -> length bi = length ai -> length bj = length ai ->
  psub (psub (pmul (padd ai aj) (padd bi bj)) (pmul ai bi)) (pmul aj bj) = padd (pmul ai bj) (pmul aj bi).
Proof. exact pairwise_identity. Qed.
Print Assumptions C07_pairwise_identity.

(* A4: the numerical hypothesis the FFT64 claim rests on *)
Theorem C07_fft_exact_if_close : forall v y s, 0 < s -> 2 * Z.abs (y - v * s) < s -> round_half y s = v.
Proof. exact fft_exact_if_close. Qed.
Print Assumptions C07_fft_exact_if_close.

Theorem C07_fft_exact_if_close_even : forall v y s, 0 < s -> 2 * Z.abs (y - v * s) < s -> round_half_even y s = v.
Proof. exact fft_exact_if_close_even. Qed.
Print Assumptions C07_fft_exact_if_close_even.
Example C07_round_ex : round_half (-7) 2 = -4 /\ round_half_even (-7) 2 = -4 /\ round_half 5 2 = 3 /\ round_half_even 5 2 = 2
                       /\ 2 * Z.abs (-1000001 - (-1) * 1000000) < 1000000.
Proof. repeat split; reflexivity. Qed.

(* Part B: NTT120 scalar layer.  Constants are the generated ones (Gen/C07Consts_gen.v).
   The butterfly networks ntt_ref / intt_ref are NOT covered by any theorem below. *)
From PV Require Import Proofs.C07Ntt Proofs.C07Lazy Proofs.C07LazyBbb.

Theorem C07_crt_consts_ok : forall ps, In ps [primes29; primes30; primes31] ->
  (forall i j, (i < j < 4)%nat -> Z.gcd (qk ps i) (qk ps j) = 1) /\
  (forall k, (k < 4)%nat -> (Qprod ps / qk ps k * crtk ps k) mod qk ps k = 1 /\ 0 <= crtk ps k < qk ps k).
Proof. exact crt_consts_ok. Qed.
Print Assumptions C07_crt_consts_ok.

Theorem C07_omega_order : forall ps, In ps [primes29; primes30; primes31] -> forall k, (k < 4)%nat ->
  omegak ps k ^ (2 ^ log_max_n) mod qk ps k = qk ps k - 1 /\ 1 < qk ps k.
Proof. exact omega_order. Qed.
Print Assumptions C07_omega_order.

Theorem C07_omega_root_of_unity : forall ps, In ps [primes29; primes30; primes31] -> forall k, (k < 4)%nat ->
  omegak ps k ^ (2 ^ (log_max_n + 1)) mod qk ps k = 1.
Proof.
  intros ps Hin k Hk. destruct (omega_order ps Hin k Hk) as [H Hq].
  replace (2 ^ (log_max_n + 1)) with (2 ^ log_max_n + 2 ^ log_max_n)
    by (rewrite Z.pow_add_r by (vm_compute; discriminate); change (2 ^ 1) with 2; lia).
  rewrite Z.pow_add_r by (vm_compute; discriminate).
  rewrite Z.mul_mod, H by lia.
  replace ((qk ps k - 1) * (qk ps k - 1)) with (1 + (qk ps k - 2) * qk ps k) by ring.
  rewrite Z.mod_add by lia. apply Z.mod_small; lia.
Qed.
Print Assumptions C07_omega_root_of_unity.
Example C07_consts_ex : qk primes30 0 = 2 ^ 30 - 2 * 2 ^ 17 + 1 /\ omegak primes30 3 = 846468380 /\ log_max_n = 16 /\
                        nth 0 Q_SHIFTED 0 = qk primes30 0 * 2 ^ 33.
Proof. repeat split; reflexivity. Qed.

Theorem C07_b_from_znx64_congr : forall x, in_range 64 x -> forall q, 0 < q < 2 ^ 32 ->
  b_from_znx64_k q x mod q = x mod q /\ 0 <= b_from_znx64_k q x < 2 ^ 64.
Proof. exact b_from_znx64_congr. Qed.
Print Assumptions C07_b_from_znx64_congr.

Theorem C07_b_from_znx64_vec : forall ps, In ps [primes29; primes30; primes31] -> forall x, in_range 64 x -> forall k, (k < 4)%nat ->
  nth k (b_from_znx64 ps x) 0 mod qk ps k = x mod qk ps k /\ 0 <= nth k (b_from_znx64 ps x) 0 < 2 ^ 64.
Proof. exact b_from_znx64_vec. Qed.
Print Assumptions C07_b_from_znx64_vec.

Theorem C07_b_from_znx64_masked_congr : forall x m, in_range 64 x -> in_range 64 m -> forall q, 0 < q < 2 ^ 32 ->
  b_from_znx64_k q (Z.land x m) mod q = Z.land x m mod q /\ 0 <= b_from_znx64_k q (Z.land x m) < 2 ^ 64.
Proof. intros x m Hx Hm q Hq. apply b_from_znx64_congr; [apply land_in_range; assumption|exact Hq]. Qed.
Print Assumptions C07_b_from_znx64_masked_congr.
Example C07_b_from_ex : in_range 64 (- 2 ^ 63) /\ b_from_znx64 primes30 (-1) = [9223372037798232568; 9223372036970549444; 9223372037283580214; 9223372037380339331].
Proof. split; [unfold in_range; lia|reflexivity]. Qed.

Theorem C07_c_from_b_correct : forall q x, 0 < q < 2 ^ 32 ->
  exists r r', c_from_b_k q x = [r; r'] /\ 0 <= r < q /\ 0 <= r' < q /\ r mod q = x mod q /\ r' mod q = (x * 2 ^ 32) mod q.
Proof. exact c_from_b_correct. Qed.
Print Assumptions C07_c_from_b_correct.

Theorem C07_c_from_znx64_correct : forall q x, 0 < q < 2 ^ 32 ->
  exists r r', c_from_znx64_k q x = [r; r'] /\ 0 <= r < q /\ 0 <= r' < q /\ r mod q = x mod q /\ r' mod q = (x * 2 ^ 32) mod q.
Proof. exact c_from_znx64_correct. Qed.
Print Assumptions C07_c_from_znx64_correct.

Theorem C07_same_residue_same_output : forall ps x y,
  (forall k, (k < 4)%nat -> nth k x 0 mod qk ps k = nth k y 0 mod qk ps k) -> b_to_znx128 ps x = b_to_znx128 ps y.
Proof. exact same_residue_same_output. Qed.
Print Assumptions C07_same_residue_same_output.

Theorem C07_b_to_znx128_exact : forall ps, In ps [primes29; primes30; primes31] -> forall x v,
  (forall k, (k < 4)%nat -> nth k x 0 mod qk ps k = v mod qk ps k) -> 2 * Z.abs v < Qprod ps ->
  b_to_znx128 ps x = v.
Proof. exact b_to_znx128_exact. Qed.
Print Assumptions C07_b_to_znx128_exact.
Example C07_b_to_znx128_ex : b_to_znx128 primes30 [2 ^ 64 - 1; 5 * qk primes30 1 + 3; 3; qk primes30 3 * 2 ^ 33 + 3] =
                             b_to_znx128 primes30 [(2 ^ 64 - 1) mod qk primes30 0; 3; 3; 3]
                             /\ 2 * Z.abs (- 2 ^ 118) < Qprod primes30.
Proof. split; [vm_compute; reflexivity|vm_compute; reflexivity]. Qed.

Theorem C07_b_round_trip : forall ps, In ps [primes29; primes30; primes31] -> forall x, in_range 64 x ->
  b_to_znx128 ps (b_from_znx64 ps x) = x.
Proof.
  intros ps Hin x Hx. apply b_to_znx128_exact; [exact Hin| |].
  - intros k Hk. apply (b_from_znx64_vec ps Hin x Hx k Hk).
  - unfold in_range in Hx. change (64 - 1) with 63 in Hx.
    assert (Hc : 2 ^ 64 <? Qprod ps = true) by (revert ps Hin; apply three_sets_ind; vm_compute; reflexivity).
    apply Z.ltb_lt in Hc. change (2 ^ 64) with (2 * 2 ^ 63) in Hc. lia.
Qed.
Print Assumptions C07_b_round_trip.

Theorem C07_lazy_budget_bbc : forall h q terms, bbc_h_lo <= h < bbc_h_hi -> 2 ^ 15 <= q < 2 ^ 31 ->
  Z.of_nat (length terms) <= bbc_max_ell -> (forall t, In t terms -> term_ok t) ->
  bbc_k h q terms = bbc_exact h q terms /\ 0 <= bbc_exact h q terms < q * 2 ^ q_shift /\ q * 2 ^ q_shift < 2 ^ 64.
Proof. exact lazy_budget_bbc. Qed.
Print Assumptions C07_lazy_budget_bbc.

Theorem C07_lazy_budget_bbc_acc : forall terms, Z.of_nat (length terms) <= bbc_max_ell -> (forall t, In t terms -> term_ok t) ->
  (sum64 (map bbc_lo terms) = lsum (map lo_z terms) /\ sum64 (map bbc_hi terms) = lsum (map hi_z terms)) /\
  0 <= lsum (map lo_z terms) <= bbc_max_ell * (2 ^ 33 - 2) /\ 0 <= lsum (map hi_z terms) <= bbc_max_ell * (2 ^ 33 - 4).
Proof. exact bbc_sums. Qed.
Print Assumptions C07_lazy_budget_bbc_acc.

Theorem C07_lsum_prefix : forall l m, (forall t, In t l -> 0 <= t) -> 0 <= lsum (firstn m l) <= lsum l.
Proof.
  intros l m H. rewrite <- (firstn_skipn m l) at 3. rewrite lsum_app.
  assert (0 <= lsum (firstn m l)) by (apply lsum_nonneg; intros t Ht; apply H; rewrite <- (firstn_skipn m l); apply in_or_app; left; exact Ht).
  assert (0 <= lsum (skipn m l)) by (apply lsum_nonneg; intros t Ht; apply H; rewrite <- (firstn_skipn m l); apply in_or_app; right; exact Ht).
  lia.
Qed.
Print Assumptions C07_lsum_prefix.

Theorem C07_bbc_exact_congr : forall h q terms, bbc_h_lo <= h < bbc_h_hi -> 2 ^ 15 <= q < 2 ^ 31 ->
  (forall t, In t terms -> term_ok t) -> bbc_exact h q terms mod q = lsum (map prod_z terms) mod q.
Proof. exact bbc_exact_congr. Qed.
Print Assumptions C07_bbc_exact_congr.

Theorem C07_bbc_congr : forall h q terms, bbc_h_lo <= h < bbc_h_hi -> 2 ^ 15 <= q < 2 ^ 31 ->
  Z.of_nat (length terms) <= bbc_max_ell -> (forall t, In t terms -> term_ok t) ->
  (forall t, In t terms -> prepared q t) -> bbc_k h q terms mod q = lsum (map dot_z terms) mod q.
Proof. exact bbc_congr. Qed.
Print Assumptions C07_bbc_congr.
Example C07_bbc_ex : term_ok (2 ^ 32 - 1, 2 ^ 32 - 1, (2 ^ 32 - 1, 2 ^ 32 - 1)) /\ prepared 7 (1, 2, (3, (3 * 2 ^ 32) mod 7 + 7)) /\
                     bbc_k 25 (qk primes30 0) [(5, 0, (7, 0)); (1, 1, (2, 2 * 2 ^ 32 mod qk primes30 0))] = 35 + 2 + 2 * 2 ^ 32 mod qk primes30 0.
Proof.
  split; [|split].
  - cbn [term_ok]. unfold is_u32. change (2 ^ 32) with 4294967296. lia.
  - vm_compute. reflexivity.
  - vm_compute. reflexivity.
Qed.

Theorem C07_lazy_budget_bbb : forall h q xy, 20 <= h <= 28 -> 2 ^ 15 <= q < 2 ^ 31 ->
  Z.of_nat (length xy) <= bbb_max_ell -> (forall p, In p xy -> pair_ok p) ->
  bbb_k h q xy = bbb_exact h q xy /\ 0 <= bbb_exact h q xy < 2 ^ 63.
Proof. exact lazy_budget_bbb. Qed.
Print Assumptions C07_lazy_budget_bbb.

Theorem C07_bbb_congr : forall h q xy, 20 <= h <= 28 -> 2 ^ 15 <= q < 2 ^ 31 ->
  Z.of_nat (length xy) <= bbb_max_ell -> (forall p, In p xy -> pair_ok p) ->
  bbb_k h q xy mod q = bbb_dot xy mod q.
Proof. exact bbb_congr. Qed.
Print Assumptions C07_bbb_congr.

Theorem C07_generated_in_budget_domain : forall ps, In ps [primes29; primes30; primes31] ->
  bbc_h_lo <= ps_bbc_h ps < bbc_h_hi /\ 20 <= ps_bbb_h ps <= 28 /\ forall k, (k < 4)%nat -> 2 ^ 15 <= qk ps k < 2 ^ 31.
Proof.
  intros ps Hin.
  assert (Hc : (bbc_h_lo <=? ps_bbc_h ps) && (ps_bbc_h ps <? bbc_h_hi) && (20 <=? ps_bbb_h ps) && (ps_bbb_h ps <=? 28) &&
               forallb (fun k => (2 ^ 15 <=? qk ps k) && (qk ps k <? 2 ^ 31)) (seq 0 4) = true)
    by (revert ps Hin; apply three_sets_ind; vm_compute; reflexivity).
  apply andb_prop in Hc as [Hc Hall]. apply andb_prop in Hc as [Hc H4]. apply andb_prop in Hc as [Hc H3].
  apply andb_prop in Hc as [H1 H2].
  apply Z.leb_le in H1. apply Z.ltb_lt in H2. apply Z.leb_le in H3. apply Z.leb_le in H4.
  split; [lia|]. split; [lia|].
  intros k Hk. rewrite forallb_forall in Hall. specialize (Hall k ltac:(apply in_seq; lia)).
  apply andb_prop in Hall as [A B]. apply Z.leb_le in A. apply Z.ltb_lt in B. lia.
Qed.
Print Assumptions C07_generated_in_budget_domain.

Theorem C07_add_bbb_congr : forall q, 0 < q < 2 ^ 30 -> forall x y,
  add_bbb_k q x y mod q = (x + y) mod q /\ 0 <= add_bbb_k q x y < 2 * qshift q /\ 2 * qshift q < 2 ^ 64.
Proof. exact add_bbb_congr. Qed.
Print Assumptions C07_add_bbb_congr.

Theorem C07_sub_bbb_congr : forall q, 0 < q < 2 ^ 30 -> forall x y,
  sub_bbb_k q x y mod q = (x - y) mod q /\ 0 <= sub_bbb_k q x y < 2 * qshift q.
Proof. exact sub_bbb_congr. Qed.
Print Assumptions C07_sub_bbb_congr.

Theorem C07_neg_b_congr : forall q, 0 < q < 2 ^ 30 -> forall x, neg_b_k q x mod q = (- x) mod q /\ 0 < neg_b_k q x <= qshift q.
Proof. exact neg_b_congr. Qed.
Print Assumptions C07_neg_b_congr.

(* a documented claim that is false on the faithful model (and on the Rust code: record 7106 with pset 31) *)
Theorem C07_add_bbb_primes31_refuted : exists x y, let q := qk primes31 0 in
  0 <= x < qshift q /\ 0 <= y < qshift q /\ add_bbb_k q x y mod q <> (x + y) mod q.
Proof.
  (* for Primes31, Q[k] << 33 is just below 2^64: the u64 addition wraps and the residue is lost *)
  exists (qshift (qk primes31 0) - 1), (qshift (qk primes31 0) - 1). vm_compute. repeat split; discriminate.
Qed.
Print Assumptions C07_add_bbb_primes31_refuted.

From PV Require Import Proofs.C07LazyBaa.
Theorem C07_lazy_budget_baa : forall h q xy, 45 <= h <= 47 -> 2 ^ 15 <= q < 2 ^ 31 ->
  Z.of_nat (length xy) <= baa_max_ell -> (forall p, In p xy -> baa_pair_ok p) ->
  baa_k h q xy = baa_exact h q xy /\ 0 <= baa_exact h q xy < 2 ^ 64.
Proof. exact lazy_budget_baa. Qed.
Print Assumptions C07_lazy_budget_baa.

Theorem C07_baa_congr : forall h q xy, 45 <= h <= 47 -> 2 ^ 15 <= q < 2 ^ 31 ->
  Z.of_nat (length xy) <= baa_max_ell -> (forall p, In p xy -> baa_pair_ok p) ->
  baa_k h q xy mod q = baa_dot xy mod q.
Proof. exact baa_congr. Qed.
Print Assumptions C07_baa_congr.

Theorem C07_generated_baa_h : forall ps, In ps [primes29; primes30; primes31] -> 45 <= ps_baa_h ps <= 47.
Proof. apply three_sets_ind; vm_compute; split; discriminate. Qed.
Print Assumptions C07_generated_baa_h.

From PV Require Import Proofs.C07Pipeline.
(* i64 a -> q120b, i64 b -> q120c, one-term bbc product: the residue of a*b for every prime; with C07_b_to_znx128_exact
   the reconstructed value is the exact integer a*b whenever 2|a*b| < Q *)
Theorem C07_scalar_product_residue : forall h q a b,
  bbc_h_lo <= h < bbc_h_hi -> 2 ^ 15 <= q < 2 ^ 31 -> in_range 64 a ->
  let x := b_from_znx64_k q a in
  let r := nth 0 (c_from_znx64_k q b) 0 in let r' := nth 1 (c_from_znx64_k q b) 0 in
  bbc_k h q [(x mod 2 ^ 32, x / 2 ^ 32, (r, r'))] mod q = (a * b) mod q.
Proof.
  intros h q a b Hh Hq Ha. cbv zeta.
  assert (Hq32 : 0 < q < 2 ^ 32) by (change (2 ^ 15) with 32768 in Hq; change (2 ^ 31) with 2147483648 in Hq; change (2 ^ 32) with 4294967296; lia).
  destruct (b_from_znx64_congr a Ha q Hq32) as [Hx Hxr].
  destruct (c_from_znx64_correct q b Hq32) as (r & r' & -> & Hr & Hr' & Er & Er').
  cbn [nth]. rewrite bbc_one_term; try assumption.
  - rewrite Z.mul_mod, Hx, Er, <- Z.mul_mod by lia. reflexivity.
  - rewrite Er', <- (Z.mul_mod_idemp_l r), Er, Z.mul_mod_idemp_l by lia. reflexivity.
Qed.
Print Assumptions C07_scalar_product_residue.
Example C07_scalar_product_ex : run_c07_ntt 7116 [3; 30] [[-3; 2 ^ 59]; [7; - 2 ^ 59]] = Some [[-21; - 2 ^ 118]].
Proof. vm_compute. reflexivity. Qed.

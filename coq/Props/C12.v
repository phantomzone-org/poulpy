(* C12 - declared scratch size always suffices; scratch contents never matter.
   Pinned statements, each proved by `exact` or by a short derivation from the lemmas of Proofs/C12*.v, and Print
   Assumptions (plus Examples showing that the hypotheses are satisfiable).  run_takes (tree_Op shape) (0, tmp_bytes_Op shape): the take tree of the operation,
   run on a 64-byte aligned window of EXACTLY the declared number of bytes; the tmp_bytes_* / bytes_of functions
   are the ones GENERATED from /repo (Gen/C12TmpBytes_gen.v).  fam: 0 = FFT64 family, 1 = NTT120 family. *)
From PV Require Import Base.MachineInt Model.C12Scratch Gen.C12TmpBytes_gen Model.C12Trees
  Proofs.C12Arena Proofs.C12Hal Proofs.C12Core Proofs.C12KeySwitch Proofs.C12More Proofs.C12Conv
  Proofs.C12Ggsw Proofs.C12Tensor Proofs.C12KeyEnc Proofs.C12Helpers Proofs.C12Compressed Proofs.C12Cmux Proofs.C12Bdd.
Open Scope Z_scope.

Theorem C12_take_in_window : forall (k off len : Z) (w : window) (r : arena),
  0 <= k -> take k (off, len) = Some (w, r) ->
  snd w = k /\ fst w mod 64 = 0 /\ fst r = fst w + snd w /\ 0 <= snd r /\
  (0 < k -> off <= fst w /\ fst w + snd w <= off + len) /\
  (0 < snd r -> off <= fst r /\ fst r + snd r <= off + len).
Proof. exact take_in_window. Qed.
Print Assumptions C12_take_in_window.

Theorem C12_take_zero_outside_refuted : exists off len w r, take 0 (off, len) = Some (w, r) /\ off + len < fst w.
Proof. exact take_zero_outside_refuted. Qed.
Print Assumptions C12_take_zero_outside_refuted.

Theorem C12_max_serves_all : forall (t : tree) (off len len' : Z),
  len <= len' -> run_takes t (off, len) <> None -> run_takes t (off, len') = run_takes t (off, len).
Proof. exact max_serves_all. Qed.
Print Assumptions C12_max_serves_all.

Theorem C12_fail_kind_sound : forall (t : tree) (s : arena), fail_kind t s = 0 <-> run_takes t s <> None.
Proof. exact fail_kind_run_takes. Qed.
Print Assumptions C12_fail_kind_sound.

Theorem C12_aligned_closed_form : forall (t : tree) (off len : Z), aligned_tree t -> off mod 64 = 0 -> 0 <= len ->
  (demand t <= len -> exists ws, run_tree t (off, len) = Some (ws, (off + persist t, len - persist t))) /\
  (len < demand t -> run_tree t (off, len) = None).
Proof. exact run_aligned. Qed.
Print Assumptions C12_aligned_closed_form.

(* Scratch::split_mut (per-thread regions): its assertion available() >= n * len suffices only for aligned len *)
Theorem C12_split_mut_suffices : forall n len : Z, 0 <= n -> 0 <= len -> len mod 64 = 0 ->
  run_takes (split_mut n len) (0, n * len) <> None.
Proof.
  intros n len Hn Hl Hm. apply budget_suffices. unfold split_mut. cbn [budget persist].
  split; [nia | apply budget_rep_take; [assumption | assumption | rewrite Z2Nat.id; lia]].
Qed.
Print Assumptions C12_split_mut_suffices.
Theorem C12_split_mut_unaligned_refuted :
  exists n len, 0 <= n /\ 0 <= len /\ n * len <= avail (0, n * len) /\ run_takes (split_mut n len) (0, n * len) = None.
Proof. exists 2, 320144. repeat split; try lia; vm_compute; try reflexivity; discriminate. Qed.
Print Assumptions C12_split_mut_unaligned_refuted.

Theorem C12_align_matches : gen_DEFAULTALIGN = ALIGN.
Proof. reflexivity. Qed.
Print Assumptions C12_align_matches.

(* HAL operations, every n >= 0, both families *)
Theorem C12_suffices_vec_znx_normalize : forall fam n : Z, is_fam fam -> 0 <= n ->
  run_takes (t_vec_znx_normalize n) (0, hal_vec_znx_normalize_tmp_bytes fam n) <> None.
Proof.
  intros fam n Hf Hn.
  autounfold with c12gen. apply single_take_words; lia.
Qed.
Print Assumptions C12_suffices_vec_znx_normalize.

Theorem C12_suffices_vec_znx_rsh : forall fam n : Z, is_fam fam -> 0 <= n ->
  run_takes (t_vec_znx_rsh n) (0, hal_vec_znx_rsh_tmp_bytes fam n) <> None.
Proof.
  intros fam n Hf Hn.
  autounfold with c12gen. apply single_take_words; lia.
Qed.
Print Assumptions C12_suffices_vec_znx_rsh.

Theorem C12_suffices_vec_znx_lsh : forall fam n : Z, is_fam fam -> 0 <= n ->
  run_takes (t_vec_znx_lsh n) (0, hal_vec_znx_lsh_tmp_bytes fam n) <> None.
Proof.
  intros fam n Hf Hn.
  autounfold with c12gen. apply single_take_words; lia.
Qed.
Print Assumptions C12_suffices_vec_znx_lsh.

Theorem C12_suffices_vec_znx_rotate_assign : forall fam n : Z, is_fam fam -> 0 <= n ->
  run_takes (t_vec_znx_rotate_assign n) (0, hal_vec_znx_rotate_assign_tmp_bytes fam n) <> None.
Proof.
  intros fam n Hf Hn.
  autounfold with c12gen. apply single_take_words; lia.
Qed.
Print Assumptions C12_suffices_vec_znx_rotate_assign.

Theorem C12_suffices_vec_znx_automorphism_assign : forall fam n : Z, is_fam fam -> 0 <= n ->
  run_takes (t_vec_znx_automorphism_assign n) (0, hal_vec_znx_automorphism_assign_tmp_bytes fam n) <> None.
Proof.
  intros fam n Hf Hn.
  autounfold with c12gen. apply single_take_words; lia.
Qed.
Print Assumptions C12_suffices_vec_znx_automorphism_assign.

Theorem C12_suffices_vec_znx_mul_xp_minus_one_assign : forall fam n : Z, is_fam fam -> 0 <= n ->
  run_takes (t_vec_znx_mul_xp_minus_one_assign n) (0, hal_vec_znx_mul_xp_minus_one_assign_tmp_bytes fam n) <> None.
Proof.
  intros fam n Hf Hn.
  autounfold with c12gen. apply single_take_words; lia.
Qed.
Print Assumptions C12_suffices_vec_znx_mul_xp_minus_one_assign.

Theorem C12_suffices_vec_znx_split_ring : forall fam n : Z, is_fam fam -> 0 <= n ->
  run_takes (t_vec_znx_split_ring n) (0, hal_vec_znx_split_ring_tmp_bytes fam n) <> None.
Proof.
  intros fam n Hf Hn.
  autounfold with c12gen. apply single_take_words; lia.
Qed.
Print Assumptions C12_suffices_vec_znx_split_ring.

Theorem C12_suffices_vec_znx_merge_rings : forall fam n : Z, is_fam fam -> 0 <= n ->
  run_takes (t_vec_znx_merge_rings n) (0, hal_vec_znx_merge_rings_tmp_bytes fam n) <> None.
Proof.
  intros fam n Hf Hn.
  autounfold with c12gen. apply single_take_words; lia.
Qed.
Print Assumptions C12_suffices_vec_znx_merge_rings.

Theorem C12_suffices_vec_znx_big_normalize : forall fam n : Z, is_fam fam -> 0 <= n ->
  run_takes (t_big_normalize fam n) (0, hal_vec_znx_big_normalize_tmp_bytes fam n) <> None.
Proof.
  intros fam n Hf Hn.
  unfold t_big_normalize. autounfold with c12gen. fam_cases Hf; apply single_take_words; lia.
Qed.
Print Assumptions C12_suffices_vec_znx_big_normalize.

Theorem C12_suffices_vec_znx_big_automorphism_assign : forall fam n : Z, is_fam fam -> 0 <= n ->
  run_takes (t_big_automorphism_assign fam n) (0, hal_vec_znx_big_automorphism_assign_tmp_bytes fam n) <> None.
Proof.
  intros fam n Hf Hn.
  unfold t_big_automorphism_assign. autounfold with c12gen. fam_cases Hf; apply single_take_words; lia.
Qed.
Print Assumptions C12_suffices_vec_znx_big_automorphism_assign.

Theorem C12_suffices_vec_znx_idft_apply : forall fam n : Z, is_fam fam -> 0 <= n ->
  run_takes (t_idft_apply fam n) (0, hal_vec_znx_idft_apply_tmp_bytes fam n) <> None.
Proof.
  intros fam n Hf Hn.
  unfold t_idft_apply. autounfold with c12gen. fam_cases Hf; [vm_compute; congruence | apply single_take_words; lia].
Qed.
Print Assumptions C12_suffices_vec_znx_idft_apply.

Theorem C12_suffices_vmp_prepare : forall fam n : Z, is_fam fam -> 0 <= n -> forall rows cols_in cols_out size : Z,
  run_takes (t_vmp_prepare fam n) (0, hal_vmp_prepare_tmp_bytes fam n rows cols_in cols_out size) <> None.
Proof.
  intros fam n Hf Hn rows cols_in cols_out size.
  unfold t_vmp_prepare. autounfold with c12gen. fam_cases Hf; apply single_take_words; lia.
Qed.
Print Assumptions C12_suffices_vmp_prepare.

Theorem C12_suffices_vmp_apply_dft_to_dft : forall fam n : Z, is_fam fam -> 0 <= n ->
  forall res_size a_size rows cols_in cols_out size : Z, 0 <= a_size -> 0 <= rows -> 0 <= cols_in ->
  run_takes (t_vmp_apply_dft_to_dft fam a_size rows cols_in)
            (0, hal_vmp_apply_dft_to_dft_tmp_bytes fam n res_size a_size rows cols_in cols_out size) <> None.
Proof.
  intros fam n Hf Hn res_size a_size rows cols_in cols_out size.
  intros Ha Hr Hc. unfold t_vmp_apply_dft_to_dft. autounfold with c12gen.
  assert (0 <= Z.min a_size rows * cols_in) by nn. fam_cases Hf; apply single_take_words; lia.
Qed.
Print Assumptions C12_suffices_vmp_apply_dft_to_dft.

Theorem C12_suffices_cnv_prepare_left : forall fam n : Z, is_fam fam -> 0 <= n -> forall rs a : Z, 0 <= rs -> 0 <= a ->
  run_takes (t_cnv_prepare_left fam n rs a) (0, api_cnv_prepare_left_tmp_bytes fam n rs a) <> None.
Proof.
  intros fam n Hf Hn rs a.
  intros. unfold t_cnv_prepare_left. autounfold with c12gen. assert (0 <= n * 1 * Z.min rs a) by nn.
  fam_cases Hf; apply single_take; lia.
Qed.
Print Assumptions C12_suffices_cnv_prepare_left.

Theorem C12_suffices_cnv_prepare_right : forall fam n : Z, is_fam fam -> 0 <= n -> forall rs a : Z, 0 <= rs -> 0 <= a ->
  run_takes (t_cnv_prepare_right fam n rs a) (0, api_cnv_prepare_right_tmp_bytes fam n rs a) <> None.
Proof.
  intros fam n Hf Hn rs a.
  intros. unfold t_cnv_prepare_right. autounfold with c12gen. assert (0 <= n * 1 * Z.min rs a) by nn.
  fam_cases Hf; [apply single_take; lia | apply single_take_words; lia].
Qed.
Print Assumptions C12_suffices_cnv_prepare_right.

Theorem C12_suffices_cnv_prepare_self : forall fam n : Z, is_fam fam -> 0 <= n -> forall rs a : Z, 0 <= rs -> 0 <= a ->
  run_takes (t_cnv_prepare_self fam n rs a) (0, api_cnv_prepare_self_tmp_bytes fam n rs a) <> None.
Proof.
  intros fam n Hf Hn rs a.
  intros. unfold t_cnv_prepare_self. autounfold with c12gen. assert (0 <= n * 1 * Z.min rs a) by nn.
  fam_cases Hf; apply single_take; lia.
Qed.
Print Assumptions C12_suffices_cnv_prepare_self.

Theorem C12_suffices_cnv_apply_dft : forall fam n : Z, is_fam fam -> 0 <= n -> forall cnv_offset rs a b : Z, 0 <= rs -> 1 <= a -> 1 <= b ->
  run_takes (t_cnv_apply_dft fam rs a b) (0, api_cnv_apply_dft_tmp_bytes fam n cnv_offset rs a b) <> None.
Proof.
  intros fam n Hf Hn cnv_offset rs a b.
  intros. unfold t_cnv_apply_dft. autounfold with c12gen.
  fam_cases Hf; [apply single_take_words; lia | apply single_take; lia].
Qed.
Print Assumptions C12_suffices_cnv_apply_dft.

Theorem C12_suffices_cnv_by_const_apply : forall fam n : Z, is_fam fam -> 0 <= n -> forall cnv_offset rs a b : Z, 0 <= rs -> 1 <= a -> 1 <= b ->
  run_takes (t_cnv_by_const_apply fam rs a b) (0, api_cnv_by_const_apply_tmp_bytes fam n cnv_offset rs a b) <> None.
Proof.
  intros fam n Hf Hn cnv_offset rs a b.
  intros. unfold t_cnv_by_const_apply. autounfold with c12gen.
  fam_cases Hf; [apply single_take_words; lia | apply single_take; lia].
Qed.
Print Assumptions C12_suffices_cnv_by_const_apply.

Theorem C12_suffices_cnv_pairwise_apply_dft : forall fam n cnv_offset rs a b : Z,
  is_fam fam -> 0 <= n -> 0 <= rs -> 1 <= a -> 1 <= b ->
  run_takes (t_cnv_pairwise_apply_dft fam rs a b) (0, api_cnv_pairwise_apply_dft_tmp_bytes fam n rs cnv_offset a b) <> None.
Proof.
  intros fam n cnv_offset rs a b.
  intros Hf Hn Hrs Ha Hb. unfold t_cnv_pairwise_apply_dft. autounfold with c12gen.
  destruct Hf as [-> | ->]; cbn [Z.eqb].
  - apply single_take_words; lia.
  - repeat match goal with |- context [?x =? 0] => destruct (Z.eqb_spec x 0) end; cbn [orb]; apply single_take; lia.
Qed.
Print Assumptions C12_suffices_cnv_pairwise_apply_dft.

(* vmp_apply_dft: two nested takes; n a power of two >= 8 (the FFT64 kernels need n >= 8 anyway) *)
Theorem C12_suffices_vmp_apply_dft : forall fam n rs a rows ci co size : Z,
  is_fam fam -> pow2 n -> 8 <= n -> 0 <= a -> 0 <= rows -> 0 <= ci ->
  run_takes (t_vmp_apply_dft fam n a rows ci) (0, halimpl_vmp_apply_dft_tmp_bytes fam n rs a rows ci co size) <> None.
Proof. intros *. intros Hf Hp H8. apply suffices_vmp_apply_dft; auto using pow2_nonneg, pow2_ge8. Qed.
Print Assumptions C12_suffices_vmp_apply_dft.

(* poulpy-core, every n >= 0 *)
Theorem C12_suffices_glwe_normalize : forall fam n : Z, is_fam fam -> 0 <= n -> forall res : infos,
  run_takes (tree_glwe_normalize fam n res) (0, glwe_normalize_tmp_bytes fam n) <> None.
Proof.
  intros fam n Hf Hn res.
  unfold tree_glwe_normalize, t_glwe_normalize, t_vec_znx_normalize, take_words. apply need_loop_take.
  autounfold with c12gen. lia.
Qed.
Print Assumptions C12_suffices_glwe_normalize.
Theorem C12_suffices_glwe_rsh : forall fam n : Z, is_fam fam -> 0 <= n -> forall res : infos,
  run_takes (tree_glwe_rsh fam n res) (0, glwe_shift_tmp_bytes fam n) <> None.
Proof.
  intros fam n Hf Hn res.
  unfold tree_glwe_rsh, t_vec_znx_rsh, take_words. apply need_loop_take. autounfold with c12gen. lia.
Qed.
Print Assumptions C12_suffices_glwe_rsh.
Theorem C12_suffices_glwe_lsh : forall fam n : Z, is_fam fam -> 0 <= n -> forall res : infos,
  run_takes (tree_glwe_lsh fam n res) (0, glwe_shift_tmp_bytes fam n) <> None.
Proof.
  intros fam n Hf Hn res.
  unfold tree_glwe_lsh, t_vec_znx_lsh, take_words. apply need_loop_take. autounfold with c12gen. lia.
Qed.
Print Assumptions C12_suffices_glwe_lsh.
Theorem C12_suffices_glwe_rotate_assign : forall fam n : Z, is_fam fam -> 0 <= n -> forall res : infos,
  run_takes (tree_glwe_rotate_assign fam n res) (0, glwe_rotate_tmp_bytes fam n) <> None.
Proof.
  intros fam n Hf Hn res.
  unfold tree_glwe_rotate_assign, t_vec_znx_rotate_assign, take_words. apply need_loop_take.
  autounfold with c12gen. lia.
Qed.
Print Assumptions C12_suffices_glwe_rotate_assign.

Theorem C12_suffices_gglwe_prepare : forall fam n : Z, is_fam fam -> 0 <= n -> forall key : infos,
  run_takes (tree_gglwe_prepare fam n key) (0, gglwe_prepare_tmp_bytes fam n key) <> None.
Proof.
  intros fam n Hf Hn key.
  unfold tree_gglwe_prepare, t_vmp_prepare, take_words. autounfold with c12gen. cbv zeta.
  destruct Hf as [-> | ->]; cbn [Z.eqb]; apply need_scoped_take; lia.
Qed.
Print Assumptions C12_suffices_gglwe_prepare.
Theorem C12_suffices_ggsw_prepare : forall fam n : Z, is_fam fam -> 0 <= n -> forall ggsw : infos,
  run_takes (tree_ggsw_prepare fam n ggsw) (0, ggsw_prepare_tmp_bytes fam n ggsw) <> None.
Proof.
  intros fam n Hf Hn g.
  unfold tree_ggsw_prepare, t_vmp_prepare, take_words. autounfold with c12gen. cbv zeta.
  destruct Hf as [-> | ->]; cbn [Z.eqb]; apply need_scoped_take; lia.
Qed.
Print Assumptions C12_suffices_ggsw_prepare.

(* LWE: every limb count (the formula rounds the plaintext level up to the alignment since 936bfd3) *)
Theorem C12_suffices_lwe_encrypt_sk : forall fam n : Z, is_fam fam -> 0 <= n -> forall lwe : infos, 0 <= i_size lwe ->
  run_takes (tree_lwe_encrypt_sk fam n lwe) (0, lwe_encrypt_sk_tmp_bytes fam n lwe) <> None.
Proof.
  intros fam n Hf Hn lwe.
  intros Hs. unfold tree_lwe_encrypt_sk, t_vec_znx_normalize, take_words. autounfold with c12gen. cbv zeta.
  unfold gen_DEFAULTALIGN. replace (1 * 1 * i_size lwe * 8) with (8 * i_size lwe) by lia.
  replace (3 * n * 8) with (24 * n) by lia. apply lwe_tree_ok; auto.
Qed.
Print Assumptions C12_suffices_lwe_encrypt_sk.
Theorem C12_suffices_lwe_decrypt : forall fam n : Z, is_fam fam -> 0 <= n -> forall lwe : infos, 0 <= i_size lwe ->
  run_takes (tree_lwe_decrypt fam n lwe) (0, lwe_decrypt_tmp_bytes fam n lwe) <> None.
Proof.
  intros fam n Hf Hn lwe.
  intros Hs. unfold tree_lwe_decrypt, t_vec_znx_normalize, take_words. autounfold with c12gen. cbv zeta.
  unfold gen_DEFAULTALIGN. replace (1 * 1 * i_size lwe * 8) with (8 * i_size lwe) by lia.
  replace (3 * n * 8) with (24 * n) by lia. apply lwe_tree_ok; auto.
Qed.
Print Assumptions C12_suffices_lwe_decrypt.

(* poulpy-core, nested takes: n a power of two >= 8 *)
Theorem C12_suffices_glwe_encrypt_sk : forall (fam n : Z) (glwe : infos),
  is_fam fam -> pow2 n -> 8 <= n -> 0 <= i_size glwe ->
  run_takes (tree_glwe_encrypt_sk fam n glwe) (0, glwe_encrypt_sk_tmp_bytes fam n glwe) <> None.
Proof. intros *. intros Hf Hp H8. apply suffices_glwe_encrypt_sk; auto using pow2_nonneg, pow2_ge8. Qed.
Print Assumptions C12_suffices_glwe_encrypt_sk.
Theorem C12_suffices_glwe_encrypt_sk_small_n_refuted :
  exists fam n glwe, is_fam fam /\ pow2 n /\ 1 <= i_size glwe /\ 1 <= i_rank glwe /\
    run_takes (tree_glwe_encrypt_sk fam n glwe) (0, glwe_encrypt_sk_tmp_bytes fam n glwe) = None.
Proof.
  (* witness replayed on the implementation by the harness: below 8 the containers themselves are not multiples of 64 bytes *)
  exists 0, 2, (mkInfos 2 17 1 1 1 0 1).
  split; [left; reflexivity|]. split; [exists 1; split; [lia|reflexivity]|]. split; [cbn; lia|]. split; [cbn; lia|].
  vm_compute; reflexivity.
Qed.
Print Assumptions C12_suffices_glwe_encrypt_sk_small_n_refuted.

Theorem C12_suffices_glwe_decrypt : forall (fam n : Z) (glwe : infos),
  is_fam fam -> pow2 n -> 8 <= n -> 0 <= i_size glwe -> 0 <= i_rank glwe ->
  run_takes (tree_glwe_decrypt fam n glwe) (0, glwe_decrypt_tmp_bytes fam n glwe) <> None.
Proof. intros *. intros Hf Hp H8. apply suffices_glwe_decrypt; auto using pow2_nonneg, pow2_ge8. Qed.
Print Assumptions C12_suffices_glwe_decrypt.
Theorem C12_suffices_glwe_encrypt_pk : forall (fam n : Z) (res : infos),
  is_fam fam -> pow2 n -> 8 <= n -> 0 <= i_size res -> 0 <= i_rank res ->
  run_takes (tree_glwe_encrypt_pk fam n res (i_size res)) (0, glwe_encrypt_pk_tmp_bytes fam n res) <> None.
Proof. intros *. intros Hf Hp H8. apply suffices_glwe_encrypt_pk; auto using pow2_nonneg, pow2_ge8. Qed.
Print Assumptions C12_suffices_glwe_encrypt_pk.

(* key-switch family: any rank, any number of limbs, any dnum, dsize = 1 and > 1, same radix and cross-radix input *)
Theorem C12_suffices_glwe_keyswitch : forall (fam n : Z) (res a key : infos),
  is_fam fam -> pow2 n -> 8 <= n -> wf_infos res -> wf_infos a -> wf_infos key -> i_n a = n -> i_rank a = i_rank_in key ->
  run_takes (tree_glwe_keyswitch fam n res a key) (0, glwe_keyswitch_tmp_bytes fam n res a key) <> None.
Proof. intros *. intros Hf Hp H8. apply suffices_glwe_keyswitch; auto using pow2_nonneg, pow2_ge8. Qed.
Print Assumptions C12_suffices_glwe_keyswitch.
Theorem C12_suffices_glwe_external_product : forall (fam n : Z) (res a ggsw : infos),
  is_fam fam -> pow2 n -> 8 <= n -> wf_infos res -> wf_infos a -> wf_infos ggsw -> i_n a = n ->
  run_takes (tree_glwe_external_product fam n res a ggsw) (0, glwe_external_product_tmp_bytes fam n res a ggsw) <> None.
Proof. intros *. intros Hf Hp H8. apply suffices_glwe_external_product; auto using pow2_nonneg, pow2_ge8. Qed.
Print Assumptions C12_suffices_glwe_external_product.
Theorem C12_suffices_glwe_automorphism : forall (fam n : Z) (res a key : infos),
  is_fam fam -> pow2 n -> 8 <= n -> wf_infos res -> wf_infos a -> wf_infos key -> i_n a = n -> i_rank a = i_rank_in key ->
  run_takes (tree_glwe_automorphism fam n res a key) (0, glwe_automorphism_tmp_bytes fam n res a key) <> None.
Proof. intros *. intros Hf Hp H8. apply suffices_glwe_automorphism; auto using pow2_nonneg, pow2_ge8. Qed.
Print Assumptions C12_suffices_glwe_automorphism.

Theorem C12_suffices_gglwe_keyswitch : forall (fam n : Z) (res a key : infos),
  is_fam fam -> pow2 n -> 8 <= n -> wf_infos res -> wf_infos a -> wf_infos key -> i_n a = n -> i_rank a = i_rank_in key ->
  run_takes (tree_gglwe_keyswitch fam n res a key) (0, gglwe_keyswitch_tmp_bytes fam n res a key) <> None.
Proof. intros *. intros Hf Hp H8. apply suffices_gglwe_keyswitch; auto using pow2_nonneg, pow2_ge8. Qed.
Print Assumptions C12_suffices_gglwe_keyswitch.
Theorem C12_suffices_gglwe_external_product : forall (fam n : Z) (res a ggsw : infos),
  is_fam fam -> pow2 n -> 8 <= n -> wf_infos res -> wf_infos a -> wf_infos ggsw -> i_n a = n ->
  run_takes (tree_gglwe_external_product fam n res a ggsw) (0, gglwe_external_product_tmp_bytes fam n res a ggsw) <> None.
Proof. intros *. intros Hf Hp H8. apply suffices_gglwe_external_product; auto using pow2_nonneg, pow2_ge8. Qed.
Print Assumptions C12_suffices_gglwe_external_product.
Theorem C12_suffices_ggsw_external_product : forall (fam n : Z) (res a ggsw : infos),
  is_fam fam -> pow2 n -> 8 <= n -> wf_infos res -> wf_infos a -> wf_infos ggsw -> i_n a = n ->
  run_takes (tree_ggsw_external_product fam n res a ggsw) (0, ggsw_external_product_tmp_bytes fam n res a ggsw) <> None.
Proof. intros *. intros Hf Hp H8. apply suffices_ggsw_external_product; auto using pow2_nonneg, pow2_ge8. Qed.
Print Assumptions C12_suffices_ggsw_external_product.

Theorem C12_suffices_glwe_automorphism_add : forall (fam n : Z) (res a key : infos),
  is_fam fam -> pow2 n -> 8 <= n -> wf_infos res -> wf_infos a -> wf_infos key -> i_n a = n -> i_rank a = i_rank_in key ->
  run_takes (tree_glwe_automorphism_add fam n res a key) (0, glwe_automorphism_tmp_bytes fam n res a key) <> None.
Proof. intros *. intros Hf Hp H8. apply suffices_glwe_automorphism_add; auto using pow2_nonneg, pow2_ge8. Qed.
Print Assumptions C12_suffices_glwe_automorphism_add.
Theorem C12_suffices_glwe_trace : forall (fam n : Z) (res a key : infos) (steps : Z),
  is_fam fam -> pow2 n -> 8 <= n -> wf_infos res -> wf_infos a -> wf_infos key -> i_n res = n -> i_rank res = i_rank_in key ->
  run_takes (tree_glwe_trace fam n res a key steps) (0, glwe_trace_tmp_bytes fam n res a key) <> None.
Proof. intros *. intros Hf Hp H8. apply suffices_glwe_trace; auto using pow2_nonneg, pow2_ge8. Qed.
Print Assumptions C12_suffices_glwe_trace.
Theorem C12_suffices_glwe_trace_assign : forall (fam n : Z) (res key : infos) (steps : Z),
  is_fam fam -> pow2 n -> 8 <= n -> wf_infos res -> wf_infos key -> i_n res = n -> i_rank res = i_rank_in key ->
  run_takes (tree_glwe_trace_assign fam n res key steps) (0, glwe_trace_tmp_bytes fam n res res key) <> None.
Proof. intros *. intros Hf Hp H8. apply suffices_glwe_trace_assign; auto using pow2_nonneg, pow2_ge8. Qed.
Print Assumptions C12_suffices_glwe_trace_assign.
Theorem C12_suffices_glwe_mul_const : forall (fam n : Z) (res a : infos) (b_len cnv_offset : Z),
  is_fam fam -> pow2 n -> 8 <= n -> wf_infos res -> wf_infos a -> 1 <= i_size a -> 1 <= b_len -> 0 <= cnv_offset ->
  (if cnv_offset <? i_base2k a then 0 else Z.max 0 (cnv_offset / i_base2k a - 1)) <= i_size a + b_len ->
  run_takes (tree_glwe_mul_const fam n res a b_len cnv_offset) (0, glwe_mul_const_tmp_bytes fam n res a b_len) <> None.
Proof. intros *. intros Hf Hp H8. apply suffices_glwe_mul_const; auto using pow2_nonneg, pow2_ge8. Qed.
Print Assumptions C12_suffices_glwe_mul_const.

(* LWE <-> GLWE conversions, LWE key-switch, packing *)
Theorem C12_suffices_lwe_from_glwe : forall (fam n : Z) (lwe a key : infos),
  is_fam fam -> pow2 n -> 8 <= n -> wf_infos lwe -> wf_infos a -> wf_infos key -> i_n a = n -> i_rank a = i_rank_in key ->
  run_takes (tree_lwe_from_glwe fam n lwe a key) (0, lwe_from_glwe_tmp_bytes fam n lwe a key) <> None.
Proof. intros *. intros Hf Hp H8. apply suffices_lwe_from_glwe; auto using pow2_nonneg, pow2_ge8. Qed.
Print Assumptions C12_suffices_lwe_from_glwe.
Theorem C12_suffices_lwe_keyswitch : forall (fam n : Z) (res a key : infos),
  is_fam fam -> pow2 n -> 8 <= n -> wf_infos res -> wf_infos a -> wf_infos key -> i_rank_in key = 1 ->
  run_takes (tree_lwe_keyswitch fam n res a key) (0, lwe_keyswitch_tmp_bytes fam n res a key) <> None.
Proof. intros *. intros Hf Hp H8. apply suffices_lwe_keyswitch; auto using pow2_nonneg, pow2_ge8. Qed.
Print Assumptions C12_suffices_lwe_keyswitch.
(* glwe_from_lwe: every precision of the LWE (since 584fd63 the inner key-switch is sized on the temporary it acts on) *)
Theorem C12_suffices_glwe_from_lwe : forall (fam n : Z) (res lwe key : infos),
  is_fam fam -> pow2 n -> 8 <= n -> wf_infos res -> wf_infos lwe -> wf_infos key -> i_rank_in key = 1 ->
  run_takes (tree_glwe_from_lwe fam n res lwe key) (0, glwe_from_lwe_tmp_bytes fam n res lwe key) <> None.
Proof. intros *. intros Hf Hp H8. apply suffices_glwe_from_lwe; auto using pow2_nonneg, pow2_ge8. Qed.
Print Assumptions C12_suffices_glwe_from_lwe.
(* glwe_pack: glwe_pack_tmp_bytes(res, key) serves inputs that have the layout of the result; for inputs of another layout
   the maximum of the public query over the two layouts serves (the call asserts the per-input requirement on entry);
   glwe_pack_tmp_bytes(res, key) alone does not: C12_suffices_glwe_pack_refuted *)
Theorem C12_suffices_glwe_pack : forall (fam n : Z) (res key : infos) (iters steps : Z),
  is_fam fam -> pow2 n -> 8 <= n -> wf_infos res -> wf_infos key -> i_n res = n -> i_rank res = i_rank_in key ->
  run_takes (tree_glwe_pack fam n res res key iters steps) (0, glwe_pack_tmp_bytes fam n res key) <> None.
Proof. intros *. intros Hf Hp H8. apply suffices_glwe_pack; auto using pow2_nonneg, pow2_ge8. Qed.
Print Assumptions C12_suffices_glwe_pack.
Theorem C12_suffices_glwe_pack_inputs : forall (fam n : Z) (res a key : infos) (iters steps : Z),
  is_fam fam -> pow2 n -> 8 <= n -> wf_infos res -> wf_infos a -> wf_infos key -> i_n res = n -> i_n a = n ->
  i_rank res = i_rank_in key -> i_rank a = i_rank_in key ->
  run_takes (tree_glwe_pack fam n res a key iters steps)
            (0, Z.max (glwe_pack_tmp_bytes fam n res key) (glwe_pack_tmp_bytes fam n a key)) <> None.
Proof. intros *. intros Hf Hp H8. apply suffices_glwe_pack_inputs; auto using pow2_nonneg, pow2_ge8. Qed.
Print Assumptions C12_suffices_glwe_pack_inputs.
Theorem C12_suffices_glwe_pack_refuted :
  exists fam n res a key iters steps, is_fam fam /\ pow2 n /\ 8 <= n /\ wf_infos res /\ wf_infos a /\ wf_infos key /\
    i_n res = n /\ i_n a = n /\ i_rank res = i_rank_in key /\ i_rank a = i_rank res /\ i_base2k a = i_base2k res /\ 1 <= iters /\
    run_takes (tree_glwe_pack fam n res a key iters steps) (0, glwe_pack_tmp_bytes fam n res key) = None.
Proof.
  (* witness replayed on the implementation by the harness: with inputs of more limbs than the result the call is rejected
     by the per-input entry assertion *)
  exists 0, 8, (mkInfos 8 17 2 1 1 0 1), (mkInfos 8 17 3 1 1 0 1), (mkInfos 8 17 3 1 1 2 1), 3, 0.
  split; [left; reflexivity|]. split; [exists 3; split; [lia|reflexivity]|].
  repeat (split; [unfold wf_infos; cbn; lia|]). vm_compute; reflexivity.
Qed.
Print Assumptions C12_suffices_glwe_pack_refuted.

(* GGSW row expansion and the operations built on it *)
Theorem C12_suffices_ggsw_from_gglwe : forall (fam n : Z) (res tsk : infos),
  is_fam fam -> pow2 n -> 8 <= n -> wf_infos res -> wf_infos tsk -> i_rank res = i_rank_in tsk ->
  run_takes (tree_ggsw_from_gglwe fam n res tsk) (0, ggsw_from_gglwe_tmp_bytes fam n res tsk) <> None.
Proof. intros *. intros Hf Hp H8. apply suffices_ggsw_from_gglwe; auto using pow2_nonneg, pow2_ge8. Qed.
Print Assumptions C12_suffices_ggsw_from_gglwe.
Theorem C12_suffices_ggsw_keyswitch : forall (fam n : Z) (res a key tsk : infos),
  is_fam fam -> pow2 n -> 8 <= n -> wf_infos res -> wf_infos a -> wf_infos key -> wf_infos tsk -> i_n a = n -> i_rank a = i_rank_in key -> i_rank res = i_rank_in tsk ->
  run_takes (tree_ggsw_keyswitch fam n res a key tsk) (0, ggsw_keyswitch_tmp_bytes fam n res a key tsk) <> None.
Proof. intros *. intros Hf Hp H8. apply suffices_ggsw_keyswitch; auto using pow2_nonneg, pow2_ge8. Qed.
Print Assumptions C12_suffices_ggsw_keyswitch.
Theorem C12_suffices_ggsw_automorphism : forall (fam n : Z) (res a key tsk : infos),
  is_fam fam -> pow2 n -> 8 <= n -> wf_infos res -> wf_infos a -> wf_infos key -> wf_infos tsk -> i_n a = n -> i_rank a = i_rank_in key -> i_rank res = i_rank_in tsk ->
  run_takes (tree_ggsw_automorphism fam n res a key tsk) (0, ggsw_automorphism_tmp_bytes fam n res a key tsk) <> None.
Proof. intros *. intros Hf Hp H8. apply suffices_ggsw_automorphism; auto using pow2_nonneg, pow2_ge8. Qed.
Print Assumptions C12_suffices_ggsw_automorphism.

(* tensor product: relinearisation (the caller chooses tsk_size <= tsk.size()) and squaring (any cnv_offset whose limb part does not exceed 2 a.size()) *)
Theorem C12_suffices_glwe_tensor_relinearize : forall (fam n : Z) (res a tsk : infos) (tsk_size : Z),
  is_fam fam -> pow2 n -> 8 <= n -> wf_infos res -> wf_infos a -> wf_infos tsk -> 0 <= tsk_size <= i_size tsk ->
  run_takes (tree_glwe_tensor_relinearize fam n res a tsk tsk_size) (0, glwe_tensor_relinearize_tmp_bytes fam n res a tsk) <> None.
Proof. intros *. intros Hf Hp H8. apply suffices_glwe_tensor_relinearize; auto using pow2_nonneg, pow2_ge8. Qed.
Print Assumptions C12_suffices_glwe_tensor_relinearize.
Theorem C12_suffices_glwe_tensor_square_apply : forall (fam n : Z) (res a : infos) (cnv_offset : Z),
  is_fam fam -> pow2 n -> 8 <= n -> wf_infos res -> wf_infos a -> 1 <= i_size a -> 0 <= cnv_offset -> cnv_offset_hi cnv_offset (i_base2k a) <= 2 * i_size a ->
  run_takes (tree_glwe_tensor_square_apply fam n res a cnv_offset) (0, glwe_tensor_square_apply_tmp_bytes fam n res a) <> None.
Proof. intros *. intros Hf Hp H8. apply suffices_glwe_tensor_square_apply; auto using pow2_nonneg, pow2_ge8. Qed.
Print Assumptions C12_suffices_glwe_tensor_square_apply.

(* encryption of gadget ciphertexts and of evaluation keys *)
Theorem C12_suffices_gglwe_encrypt_sk : forall (fam n : Z) (res : infos),
  is_fam fam -> pow2 n -> 8 <= n -> wf_infos res -> i_n res = n ->
  run_takes (tree_gglwe_encrypt_sk fam n res) (0, gglwe_encrypt_sk_tmp_bytes fam n res) <> None.
Proof. intros *. intros Hf Hp H8. apply suffices_gglwe_encrypt_sk; auto using pow2_nonneg, pow2_ge8. Qed.
Print Assumptions C12_suffices_gglwe_encrypt_sk.
Theorem C12_suffices_ggsw_encrypt_sk : forall (fam n : Z) (res : infos),
  is_fam fam -> pow2 n -> 8 <= n -> wf_infos res -> i_n res = n ->
  run_takes (tree_ggsw_encrypt_sk fam n res) (0, ggsw_encrypt_sk_tmp_bytes fam n res) <> None.
Proof. intros *. intros Hf Hp H8. apply suffices_ggsw_encrypt_sk; auto using pow2_nonneg, pow2_ge8. Qed.
Print Assumptions C12_suffices_ggsw_encrypt_sk.
Theorem C12_suffices_glwe_switching_key_encrypt_sk : forall (fam n : Z) (res : infos),
  is_fam fam -> pow2 n -> 8 <= n -> wf_infos res -> i_n res = n ->
  run_takes (tree_glwe_switching_key_encrypt_sk fam n res) (0, glwe_switching_key_encrypt_sk_tmp_bytes fam n res) <> None.
Proof. intros *. intros Hf Hp H8. apply suffices_glwe_switching_key_encrypt_sk; auto using pow2_nonneg, pow2_ge8. Qed.
Print Assumptions C12_suffices_glwe_switching_key_encrypt_sk.
Theorem C12_suffices_glwe_automorphism_key_encrypt_sk : forall (fam n : Z) (res : infos),
  is_fam fam -> pow2 n -> 8 <= n -> wf_infos res -> i_n res = n ->
  run_takes (tree_glwe_automorphism_key_encrypt_sk fam n res) (0, glwe_automorphism_key_encrypt_sk_tmp_bytes fam n res) <> None.
Proof. intros *. intros Hf Hp H8. apply suffices_glwe_automorphism_key_encrypt_sk; auto using pow2_nonneg, pow2_ge8. Qed.
Print Assumptions C12_suffices_glwe_automorphism_key_encrypt_sk.
Theorem C12_suffices_lwe_switching_key_encrypt_sk : forall (fam n : Z) (res : infos),
  is_fam fam -> pow2 n -> 8 <= n -> wf_infos res -> i_n res = n ->
  run_takes (tree_lwe_switching_key_encrypt_sk fam n res) (0, lwe_switching_key_encrypt_sk_tmp_bytes fam n res) <> None.
Proof. intros *. intros Hf Hp H8. apply suffices_lwe_switching_key_encrypt_sk; auto using pow2_nonneg, pow2_ge8. Qed.
Print Assumptions C12_suffices_lwe_switching_key_encrypt_sk.
Theorem C12_suffices_glwe_to_lwe_key_encrypt_sk : forall (fam n : Z) (res : infos),
  is_fam fam -> pow2 n -> 8 <= n -> wf_infos res -> i_n res = n -> 1 <= i_rank_in res ->
  run_takes (tree_glwe_to_lwe_key_encrypt_sk fam n res) (0, glwe_to_lwe_key_encrypt_sk_tmp_bytes fam n res) <> None.
Proof. intros *. intros Hf Hp H8. apply suffices_glwe_to_lwe_key_encrypt_sk; auto using pow2_nonneg, pow2_ge8. Qed.
Print Assumptions C12_suffices_glwe_to_lwe_key_encrypt_sk.
Theorem C12_suffices_lwe_to_glwe_key_encrypt_sk : forall (fam n : Z) (res : infos),
  is_fam fam -> pow2 n -> 8 <= n -> wf_infos res -> i_n res = n -> 1 <= i_rank_in res ->
  run_takes (tree_lwe_to_glwe_key_encrypt_sk fam n res) (0, lwe_to_glwe_key_encrypt_sk_tmp_bytes fam n res) <> None.
Proof. intros *. intros Hf Hp H8. apply suffices_lwe_to_glwe_key_encrypt_sk; auto using pow2_nonneg, pow2_ge8. Qed.
Print Assumptions C12_suffices_lwe_to_glwe_key_encrypt_sk.
Theorem C12_suffices_glwe_tensor_key_encrypt_sk : forall (fam n : Z) (res : infos),
  is_fam fam -> pow2 n -> 8 <= n -> wf_infos res -> i_n res = n ->
  run_takes (tree_glwe_tensor_key_encrypt_sk fam n res) (0, glwe_tensor_key_encrypt_sk_tmp_bytes fam n res) <> None.
Proof. intros *. intros Hf Hp H8. apply suffices_glwe_tensor_key_encrypt_sk; auto using pow2_nonneg, pow2_ge8. Qed.
Print Assumptions C12_suffices_glwe_tensor_key_encrypt_sk.
Theorem C12_suffices_gglwe_to_ggsw_key_encrypt_sk : forall (fam n : Z) (res : infos),
  is_fam fam -> pow2 n -> 8 <= n -> wf_infos res -> i_n res = n ->
  run_takes (tree_gglwe_to_ggsw_key_encrypt_sk fam n res) (0, gglwe_to_ggsw_key_encrypt_sk_tmp_bytes fam n res) <> None.
Proof. intros *. intros Hf Hp H8. apply suffices_gglwe_to_ggsw_key_encrypt_sk; auto using pow2_nonneg, pow2_ge8. Qed.
Print Assumptions C12_suffices_gglwe_to_ggsw_key_encrypt_sk.

(* the seeded ("compressed") encryptions *)
Theorem C12_suffices_glwe_compressed_encrypt_sk : forall (fam n : Z) (res : infos),
  is_fam fam -> pow2 n -> 8 <= n -> 0 <= i_size res ->
  run_takes (tree_glwe_compressed_encrypt_sk fam n res) (0, glwe_compressed_encrypt_sk_tmp_bytes fam n res) <> None.
Proof. intros *. intros Hf Hp H8. apply suffices_glwe_compressed_encrypt_sk; auto using pow2_nonneg, pow2_ge8. Qed.
Print Assumptions C12_suffices_glwe_compressed_encrypt_sk.
Theorem C12_suffices_gglwe_compressed_encrypt_sk : forall (fam n : Z) (res : infos),
  is_fam fam -> pow2 n -> 8 <= n -> wf_infos res -> i_n res = n ->
  run_takes (tree_gglwe_compressed_encrypt_sk fam n res) (0, gglwe_compressed_encrypt_sk_tmp_bytes fam n res) <> None.
Proof. intros *. intros Hf Hp H8. apply suffices_gglwe_compressed_encrypt_sk; auto using pow2_nonneg, pow2_ge8. Qed.
Print Assumptions C12_suffices_gglwe_compressed_encrypt_sk.
Theorem C12_suffices_ggsw_compressed_encrypt_sk : forall (fam n : Z) (res : infos),
  is_fam fam -> pow2 n -> 8 <= n -> wf_infos res -> i_n res = n ->
  run_takes (tree_ggsw_compressed_encrypt_sk fam n res) (0, ggsw_compressed_encrypt_sk_tmp_bytes fam n res) <> None.
Proof. intros *. intros Hf Hp H8. apply suffices_ggsw_compressed_encrypt_sk; auto using pow2_nonneg, pow2_ge8. Qed.
Print Assumptions C12_suffices_ggsw_compressed_encrypt_sk.
Theorem C12_suffices_glwe_switching_key_compressed_encrypt_sk : forall (fam n : Z) (res : infos),
  is_fam fam -> pow2 n -> 8 <= n -> wf_infos res -> i_n res = n ->
  run_takes (tree_glwe_switching_key_compressed_encrypt_sk fam n res) (0, glwe_switching_key_compressed_encrypt_sk_tmp_bytes fam n res) <> None.
Proof. intros *. intros Hf Hp H8. apply suffices_glwe_switching_key_compressed_encrypt_sk; auto using pow2_nonneg, pow2_ge8. Qed.
Print Assumptions C12_suffices_glwe_switching_key_compressed_encrypt_sk.
Theorem C12_suffices_glwe_automorphism_key_compressed_encrypt_sk : forall (fam n : Z) (res : infos),
  is_fam fam -> pow2 n -> 8 <= n -> wf_infos res -> i_n res = n ->
  run_takes (tree_glwe_automorphism_key_compressed_encrypt_sk fam n res) (0, glwe_automorphism_key_compressed_encrypt_sk_tmp_bytes fam n res) <> None.
Proof. intros *. intros Hf Hp H8. apply suffices_glwe_automorphism_key_compressed_encrypt_sk; auto using pow2_nonneg, pow2_ge8. Qed.
Print Assumptions C12_suffices_glwe_automorphism_key_compressed_encrypt_sk.
Theorem C12_suffices_glwe_tensor_key_compressed_encrypt_sk : forall (fam n : Z) (res : infos),
  is_fam fam -> pow2 n -> 8 <= n -> wf_infos res -> i_n res = n ->
  run_takes (tree_glwe_tensor_key_compressed_encrypt_sk fam n res) (0, glwe_tensor_key_compressed_encrypt_sk_tmp_bytes fam n res) <> None.
Proof. intros *. intros Hf Hp H8. apply suffices_glwe_tensor_key_compressed_encrypt_sk; auto using pow2_nonneg, pow2_ge8. Qed.
Print Assumptions C12_suffices_glwe_tensor_key_compressed_encrypt_sk.
Theorem C12_suffices_gglwe_to_ggsw_key_compressed_encrypt_sk : forall (fam n : Z) (res : infos),
  is_fam fam -> pow2 n -> 8 <= n -> wf_infos res -> i_n res = n ->
  run_takes (tree_gglwe_to_ggsw_key_compressed_encrypt_sk fam n res) (0, gglwe_to_ggsw_key_compressed_encrypt_sk_tmp_bytes fam n res) <> None.
Proof. intros *. intros Hf Hp H8. apply suffices_gglwe_to_ggsw_key_compressed_encrypt_sk; auto using pow2_nonneg, pow2_ge8. Qed.
Print Assumptions C12_suffices_gglwe_to_ggsw_key_compressed_encrypt_sk.

(* poulpy-bin-fhe cmux family (size query repaired by 3f00261): cmux / cmux_assign run the product on res, cmux_assign_neg on a
   temporary taken from the scratch *)
Theorem C12_suffices_cmux : forall (fam n : Z) (res a s : infos),
  is_fam fam -> pow2 n -> 8 <= n -> wf_infos res -> wf_infos a -> wf_infos s -> i_n res = n -> i_base2k res = i_base2k s -> i_rank res = i_rank s ->
  run_takes (tree_cmux fam n res s) (0, cmux_tmp_bytes fam n res a s) <> None.
Proof. intros *. intros Hf Hp H8. apply suffices_cmux; auto using pow2_nonneg, pow2_ge8. Qed.
Print Assumptions C12_suffices_cmux.
Theorem C12_suffices_cmux_assign_neg : forall (fam n : Z) (res a s : infos),
  is_fam fam -> pow2 n -> 8 <= n -> wf_infos res -> wf_infos a -> wf_infos s -> i_n res = n -> i_base2k res = i_base2k s -> i_rank res = i_rank s ->
  run_takes (tree_cmux_assign_neg fam n res a s) (0, cmux_tmp_bytes fam n res a s) <> None.
Proof. intros *. intros Hf Hp H8. apply suffices_cmux_assign_neg; auto using pow2_nonneg, pow2_ge8. Qed.
Print Assumptions C12_suffices_cmux_assign_neg.

(* poulpy-bin-fhe two-word BDD operations (FheUint add / sub / shifts / comparisons / and / or / xor) through the multi-thread entry
   point, EVERY thread count: the query reserves threads x per-thread arenas, which is what the executor asserts and carves with
   Scratch::split_mut (the per-thread size is a multiple of the alignment); the regions start at aligned addresses and have exactly
   the per-thread size (C12_split_windows), and each worker's level evaluation fits into such a region (C12_suffices_bdd_eval_level) *)
Theorem C12_suffices_bdd_2w_to_1w_multi_thread : forall (fam n : Z) (res s key : infos) (bits threads state_size : Z),
  is_fam fam -> pow2 n -> 8 <= n -> wf_infos res -> wf_infos s -> wf_infos key -> i_n res = n -> i_base2k res = i_base2k s -> i_rank res = i_rank s ->
  i_rank res = i_rank_in key -> 0 <= bits -> 0 <= threads -> 0 <= state_size ->
  run_takes (tree_bdd_2w_to_1w_multi_thread fam n bits threads state_size res s key)
            (0, execute_bdd_circuit_2w_to_1w_multi_thread_tmp_bytes fam n bits threads state_size res s key) <> None.
Proof. intros *. intros Hf Hp H8. apply suffices_bdd_2w_to_1w_multi_thread; auto using pow2_nonneg, pow2_ge8. Qed.
Print Assumptions C12_suffices_bdd_2w_to_1w_multi_thread.
Theorem C12_suffices_bdd_eval_level : forall (fam n : Z) (res s : infos) (state_size nodes off : Z),
  is_fam fam -> pow2 n -> 8 <= n -> wf_infos res -> wf_infos s -> i_n res = n -> i_base2k res = i_base2k s -> i_rank res = i_rank s -> 0 <= state_size ->
  off mod 64 = 0 ->
  run_tree (tree_bdd_eval_level fam n state_size nodes res s) (off, execute_bdd_circuit_tmp_bytes fam n res state_size s) <> None.
Proof. intros *. intros Hf Hp H8. apply suffices_bdd_eval_level; auto using pow2_nonneg, pow2_ge8. Qed.
Print Assumptions C12_suffices_bdd_eval_level.
Theorem C12_split_windows : forall (len : Z) (k : nat), 0 <= len -> len mod 64 = 0 -> forall off L ws r,
  off mod 64 = 0 -> 0 <= L -> run_tree (rep k (Take len)) (off, L) = Some (ws, r) ->
  Forall (fun w : window => fst w mod 64 = 0 /\ snd w = len) ws.
Proof. exact rep_take_windows. Qed.
Print Assumptions C12_split_windows.

(* one buffer for several operations: the ONE buffer the crate's own
   test helpers allocate for several operations (sizes combined with `|`, which dominates the maximum, or with .max) serves
   each of them *)
(* test_suite/keyswitch/glwe_ct.rs: switching-key encryption | ciphertext encryption | key-switch *)
Theorem C12_max_serves_keyswitch_glwe : forall (fam n : Z) (ksk gin gout : infos),
  is_fam fam -> pow2 n -> 8 <= n -> wf_infos ksk -> wf_infos gin -> wf_infos gout -> i_n ksk = n -> i_n gin = n -> i_rank gin = i_rank_in ksk ->
  let B := Z.lor (Z.lor (glwe_switching_key_encrypt_sk_tmp_bytes fam n ksk) (glwe_encrypt_sk_tmp_bytes fam n gin)) (glwe_keyswitch_tmp_bytes fam n gout gin ksk) in
  run_takes (tree_glwe_switching_key_encrypt_sk fam n ksk) (0, B) <> None /\
  run_takes (tree_glwe_encrypt_sk fam n gin) (0, B) <> None /\
  run_takes (tree_glwe_keyswitch fam n gout gin ksk) (0, B) <> None.
Proof. intros *. intros Hf Hp H8. apply helper_keyswitch_glwe; auto using pow2_nonneg, pow2_ge8. Qed.
Print Assumptions C12_max_serves_keyswitch_glwe.
(* test_suite/external_product/glwe_ct.rs: GGSW encryption | ciphertext encryption | external product *)
Theorem C12_max_serves_external_product_glwe : forall (fam n : Z) (ggsw gin gout : infos),
  is_fam fam -> pow2 n -> 8 <= n -> wf_infos ggsw -> wf_infos gin -> wf_infos gout -> i_n ggsw = n -> i_n gin = n ->
  let B := Z.lor (Z.lor (ggsw_encrypt_sk_tmp_bytes fam n ggsw) (glwe_encrypt_sk_tmp_bytes fam n gin)) (glwe_external_product_tmp_bytes fam n gout gin ggsw) in
  run_takes (tree_ggsw_encrypt_sk fam n ggsw) (0, B) <> None /\
  run_takes (tree_glwe_encrypt_sk fam n gin) (0, B) <> None /\
  run_takes (tree_glwe_external_product fam n gout gin ggsw) (0, B) <> None.
Proof. intros *. intros Hf Hp H8. apply helper_external_product_glwe; auto using pow2_nonneg, pow2_ge8. Qed.
Print Assumptions C12_max_serves_external_product_glwe.
(* test_suite/automorphism/ggsw_ct.rs: GGSW encryption | automorphism-key encryption | tensor-switching-key encryption | GGSW automorphism *)
Theorem C12_max_serves_automorphism_ggsw : forall (fam n : Z) (cin cout key tsk : infos),
  is_fam fam -> pow2 n -> 8 <= n -> wf_infos cin -> wf_infos cout -> wf_infos key -> wf_infos tsk -> i_n cin = n -> i_n key = n -> i_n tsk = n ->
  i_rank cin = i_rank_in key -> i_rank cout = i_rank_in tsk ->
  let B := Z.lor (Z.lor (Z.lor (ggsw_encrypt_sk_tmp_bytes fam n cin) (glwe_automorphism_key_encrypt_sk_tmp_bytes fam n key))
                        (gglwe_to_ggsw_key_encrypt_sk_tmp_bytes fam n tsk))
                 (ggsw_automorphism_tmp_bytes fam n cout cin key tsk) in
  run_takes (tree_ggsw_encrypt_sk fam n cin) (0, B) <> None /\
  run_takes (tree_glwe_automorphism_key_encrypt_sk fam n key) (0, B) <> None /\
  run_takes (tree_gglwe_to_ggsw_key_encrypt_sk fam n tsk) (0, B) <> None /\
  run_takes (tree_ggsw_automorphism fam n cout cin key tsk) (0, B) <> None.
Proof. intros *. intros Hf Hp H8. apply helper_automorphism_ggsw; auto using pow2_nonneg, pow2_ge8. Qed.
Print Assumptions C12_max_serves_automorphism_ggsw.
(* test_suite/trace.rs: encryption | decryption | automorphism-key encryption | trace *)
Theorem C12_max_serves_trace : forall (fam n : Z) (g key : infos) (steps : Z),
  is_fam fam -> pow2 n -> 8 <= n -> wf_infos g -> wf_infos key -> i_n g = n -> i_n key = n -> i_rank g = i_rank_in key ->
  let B := Z.lor (Z.lor (Z.lor (glwe_encrypt_sk_tmp_bytes fam n g) (glwe_decrypt_tmp_bytes fam n g))
                        (glwe_automorphism_key_encrypt_sk_tmp_bytes fam n key))
                 (glwe_trace_tmp_bytes fam n g g key) in
  run_takes (tree_glwe_encrypt_sk fam n g) (0, B) <> None /\
  run_takes (tree_glwe_decrypt fam n g) (0, B) <> None /\
  run_takes (tree_glwe_automorphism_key_encrypt_sk fam n key) (0, B) <> None /\
  run_takes (tree_glwe_trace fam n g g key steps) (0, B) <> None.
Proof. intros *. intros Hf Hp H8. apply helper_trace; auto using pow2_nonneg, pow2_ge8. Qed.
Print Assumptions C12_max_serves_trace.
(* test_suite/glwe_packing.rs: encryption .max automorphism-key encryption .max packing *)
Theorem C12_max_serves_packing : forall (fam n : Z) (g key : infos) (iters steps : Z),
  is_fam fam -> pow2 n -> 8 <= n -> wf_infos g -> wf_infos key -> i_n g = n -> i_n key = n -> i_rank g = i_rank_in key ->
  let B := Z.max (Z.max (glwe_encrypt_sk_tmp_bytes fam n g) (glwe_automorphism_key_encrypt_sk_tmp_bytes fam n key)) (glwe_pack_tmp_bytes fam n g key) in
  run_takes (tree_glwe_encrypt_sk fam n g) (0, B) <> None /\
  run_takes (tree_glwe_automorphism_key_encrypt_sk fam n key) (0, B) <> None /\
  run_takes (tree_glwe_pack fam n g g key iters steps) (0, B) <> None.
Proof. intros *. intros Hf Hp H8. apply helper_packing; auto using pow2_nonneg, pow2_ge8. Qed.
Print Assumptions C12_max_serves_packing.
(* test_suite/keyswitch/lwe_ct.rs: LWE switching-key encryption | LWE key-switch *)
Theorem C12_max_serves_keyswitch_lwe : forall (fam n : Z) (key lin lout : infos),
  is_fam fam -> pow2 n -> 8 <= n -> wf_infos key -> wf_infos lin -> wf_infos lout -> i_n key = n -> i_rank_in key = 1 ->
  let B := Z.lor (lwe_switching_key_encrypt_sk_tmp_bytes fam n key) (lwe_keyswitch_tmp_bytes fam n lout lin key) in
  run_takes (tree_lwe_switching_key_encrypt_sk fam n key) (0, B) <> None /\
  run_takes (tree_lwe_keyswitch fam n lout lin key) (0, B) <> None.
Proof. intros *. intros Hf Hp H8. apply helper_keyswitch_lwe; auto using pow2_nonneg, pow2_ge8. Qed.
Print Assumptions C12_max_serves_keyswitch_lwe.

(* the hypotheses are satisfiable *)
Example C12_ex_pow2 : pow2 1024 /\ 8 <= 1024.
Proof. split; [exists 10; split; [lia|reflexivity] | lia]. Qed.
Example C12_ex_wf : wf_infos (mkInfos 1024 17 4 2 2 3 2).
Proof. unfold wf_infos; cbn; lia. Qed.
(* a cross-radix, dsize = 2, rank 2 key-switch at n = 1024: trace and peak of the run on the exact window *)
Example C12_ex_keyswitch :
  let res := mkInfos 1024 16 3 2 2 0 1 in let a := mkInfos 1024 15 4 2 2 0 1 in let key := mkInfos 1024 17 5 2 2 2 2 in
  exists ws peak, run_takes (tree_glwe_keyswitch 0 1024 res a key) (0, glwe_keyswitch_tmp_bytes 0 1024 res a key) = Some (ws, peak)
                  /\ peak <= glwe_keyswitch_tmp_bytes 0 1024 res a key /\ length ws = 13%nat.
Proof. eexists; eexists. split; [vm_compute; reflexivity | split; [vm_compute; discriminate | reflexivity]]. Qed.

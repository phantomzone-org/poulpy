(* C09, big-accumulator family: the statements, each proved by `exact` or by a short derivation from the lemmas of
   Proofs/C09Big.v.
   Model = Model/C09Big.v: for the FFT64 family (w = 64) Ring.v's vector level, for the NTT120 family (w = 128) the limb
   loops of ntt120/vec_znx_big.rs written loop by loop (`wr lo hi f`).  Spec = `lin_spec` (word by word:
   wrap_w (ca * x[j][i] + cb * y[j][i]), a missing operand limb contributes 0) and `sigma` (Poly.v). *)
From PV Require Import Base.MachineInt Model.Znx Model.Limbs Model.Flat Model.Ring Model.Poly Model.C09Big
  Proofs.C09Size Proofs.C09Big.
Open Scope Z_scope.

(* 1. the NTT120 loops are the common size-rule semantics at w = 128 *)
Theorem C09B_ntt120_from_small : forall n a r0, n_from_small n a r0 = vec_unary n (fun l => l) a r0.
Proof. exact n_from_small_eq. Qed.
Print Assumptions C09B_ntt120_from_small.

Theorem C09B_ntt120_add_into : forall n a b r0, n_add_into n a b r0 = vec_add 128 n a b r0.
Proof. exact n_add_into_eq. Qed.
Print Assumptions C09B_ntt120_add_into.

Theorem C09B_ntt120_add_assign : forall a r0, n_add_assign a r0 = vec_add_assign 128 a r0.
Proof. exact n_add_assign_eq. Qed.
Print Assumptions C09B_ntt120_add_assign.

Theorem C09B_ntt120_add_small_into : forall n a b r0, n_add_small_into n a b r0 = vec_add 128 n a b r0.
Proof. exact n_add_small_into_eq. Qed.
Print Assumptions C09B_ntt120_add_small_into.

Theorem C09B_ntt120_sub : forall n a b r0, n_sub n a b r0 = vec_sub 128 n a b r0.
Proof. exact n_sub_eq. Qed.
Print Assumptions C09B_ntt120_sub.

Theorem C09B_ntt120_sub_assign : forall a r0, n_sub_assign a r0 = vec_sub_assign 128 a r0.
Proof. exact n_sub_assign_eq. Qed.
Print Assumptions C09B_ntt120_sub_assign.

Theorem C09B_ntt120_sub_negate_assign : forall a r0, n_sub_negate_assign a r0 = vec_sub_negate_assign 128 a r0.
Proof. exact n_sub_negate_assign_eq. Qed.
Print Assumptions C09B_ntt120_sub_negate_assign.

Theorem C09B_ntt120_sub_small_a : forall n a b r0, n_sub_small_a n a b r0 = vec_sub 128 n a b r0.
Proof. exact n_sub_small_a_eq. Qed.
Print Assumptions C09B_ntt120_sub_small_a.

Theorem C09B_ntt120_sub_small_b : forall n a b r0, n_sub_small_b n a b r0 = vec_sub 128 n a b r0.
Proof. exact n_sub_small_b_eq. Qed.
Print Assumptions C09B_ntt120_sub_small_b.

Theorem C09B_ntt120_negate : forall n a r0, n_negate n a r0 = vec_unary n (vneg 128) a r0.
Proof. exact n_negate_eq. Qed.
Print Assumptions C09B_ntt120_negate.

Theorem C09B_ntt120_negate_assign : forall r0, n_negate_assign r0 = vec_unary_assign (vneg 128) r0.
Proof. exact n_negate_assign_eq. Qed.
Print Assumptions C09B_ntt120_negate_assign.

Theorem C09B_ntt120_automorphism : forall n p a r0, n_automorphism n p a r0 = vec_automorphism 128 n p a r0.
Proof. exact n_automorphism_eq. Qed.
Print Assumptions C09B_ntt120_automorphism.

Theorem C09B_ntt120_automorphism_assign : forall (n : nat) (m p : Z) r0,
  0 <= m -> Z.of_nat n = 2 ^ m -> Z.odd p = true -> limbs_len n r0 ->
  n_automorphism_assign p r0 = map (sigma 128 p) r0.
Proof. exact n_automorphism_assign_sigma. Qed.
Print Assumptions C09B_ntt120_automorphism_assign.

(* 2. exact wrapped ring map with the size rule, any width w >= 1 *)
Theorem C09B_add_exact : forall w n, 1 <= w -> forall a b r0, limbs_wf w n a -> limbs_wf w n b ->
  vec_add w n a b r0 = lin_spec w n (length r0) 1 1 a b.
Proof. exact vec_add_lin. Qed.
Print Assumptions C09B_add_exact.

Theorem C09B_sub_exact : forall w n, 1 <= w -> forall a b r0, limbs_wf w n a -> limbs_wf w n b ->
  vec_sub w n a b r0 = lin_spec w n (length r0) 1 (-1) a b.
Proof. exact vec_sub_lin. Qed.
Print Assumptions C09B_sub_exact.

Theorem C09B_add_assign_exact : forall w n, 1 <= w -> forall a r0, limbs_wf w n a -> limbs_wf w n r0 ->
  vec_add_assign w a r0 = lin_spec w n (length r0) 1 1 r0 a.
Proof. exact vec_add_assign_lin. Qed.
Print Assumptions C09B_add_assign_exact.

Theorem C09B_sub_assign_exact : forall w n, 1 <= w -> forall a r0, limbs_wf w n a -> limbs_wf w n r0 ->
  vec_sub_assign w a r0 = lin_spec w n (length r0) 1 (-1) r0 a.
Proof. exact vec_sub_assign_lin. Qed.
Print Assumptions C09B_sub_assign_exact.

Theorem C09B_sub_negate_assign_exact : forall w n a r0, limbs_wf w n a -> limbs_wf w n r0 ->
  vec_sub_negate_assign w a r0 = lin_spec w n (length r0) 1 (-1) a r0.
Proof. exact vec_sub_negate_assign_lin. Qed.
Print Assumptions C09B_sub_negate_assign_exact.

Theorem C09B_negate_exact : forall w n, 1 <= w -> forall a r0, limbs_wf w n a ->
  vec_unary n (vneg w) a r0 = lin_spec w n (length r0) (-1) 0 a [].
Proof. exact vec_negate_lin. Qed.
Print Assumptions C09B_negate_exact.

Theorem C09B_negate_assign_exact : forall w n r0, limbs_wf w n r0 ->
  vec_unary_assign (vneg w) r0 = lin_spec w n (length r0) (-1) 0 r0 [].
Proof. exact vec_negate_assign_lin. Qed.
Print Assumptions C09B_negate_assign_exact.

Theorem C09B_from_small_exact : forall w n, 1 <= w -> forall a r0, limbs_wf w n a ->
  vec_unary n (fun l => l) a r0 = lin_spec w n (length r0) 1 0 a [].
Proof. exact vec_copy_lin. Qed.
Print Assumptions C09B_from_small_exact.

(* every opcode, both families: the column function of the model IS the specification *)
Theorem C09B_big_col_exact : forall (w code : Z) (n : nat) (p fill : Z) (al bl r0 : limbs),
  In code big_codes -> w = 64 \/ w = 128 ->
  ((1 <= big_arity code)%nat -> limbs_wf w n al) -> (big_arity code = 2%nat -> limbs_wf w n bl) ->
  limbs_wf w n r0 -> auto_ok code n p ->
  big_col w code n p fill al bl r0 = big_expect w code n p al bl r0.
Proof. exact big_col_exact. Qed.
Print Assumptions C09B_big_col_exact.

(* on the flat buffers: exact map in the selected column (read back), everything else unchanged *)
Theorem C09B_run_exact : forall (code : Z) (ps : list Z) (vs outs : list (list Z)),
  let w := big_w (bp ps 0) in
  let rs := bshp ps 0 in let sa := bshp ps 1 in let sb := bshp ps 2 in
  let res := bv vs 0 in let al := bget sa (bv vs 1) in let bl := bget sb (bv vs 2) in
  In code big_codes -> (0 < s_n rs)%nat ->
  ((1 <= big_arity code)%nat -> limbs_wf w (s_n rs) al) -> (big_arity code = 2%nat -> limbs_wf w (s_n rs) bl) ->
  limbs_wf w (s_n rs) (bget rs res) -> auto_ok code (s_n rs) (bex ps 1) ->
  run_c09_big code ps vs = Some outs ->
  exists l res',
    outs = [res'] /\
    big_expect w code (s_n rs) (bex ps 1) al bl (bget rs res) = Some l /\ bget rs res' = l /\
    length res' = length res /\
    forall idx d, big_in_col rs idx = false -> nth idx res' d = nth idx res d.
Proof. exact run_c09_big_exact. Qed.
Print Assumptions C09B_run_exact.

Theorem C09B_oracle_accepts_model : forall (code : Z) (ps : list Z) (vs outs : list (list Z)),
  let w := big_w (bp ps 0) in
  let rs := bshp ps 0 in let sa := bshp ps 1 in let sb := bshp ps 2 in
  let res := bv vs 0 in let al := bget sa (bv vs 1) in let bl := bget sb (bv vs 2) in
  In code big_codes -> (0 < s_n rs)%nat ->
  ((1 <= big_arity code)%nat -> limbs_wf w (s_n rs) al) -> (big_arity code = 2%nat -> limbs_wf w (s_n rs) bl) ->
  limbs_wf w (s_n rs) (bget rs res) -> auto_ok code (s_n rs) (bex ps 1) ->
  run_c09_big code ps vs = Some outs ->
  oracle_c09_big code ps vs outs = 1.
Proof.
  intros code ps vs outs w rs sa sb res al bl Hin Hn Ha Hb Hr Hauto H.
  destruct (run_c09_big_exact code ps vs outs Hin Hn Ha Hb Hr Hauto H) as (l & res' & -> & El & Eg & Hlen & Hfr).
  unfold oracle_c09_big. cbv zeta. change (bv [res'] 0) with res'.
  unfold w, rs, sa, sb, res, al, bl in El, Eg. rewrite El, Eg.
  rewrite forallb_combine_refl.
  assert (Hl : length l = s_size (bshp ps 0)) by (rewrite <- Eg; apply bget_length).
  rewrite Hl, Nat.eqb_refl.
  rewrite frame_ok_intro; [reflexivity|symmetry; exact Hlen|].
  intros i d Hi Hc. symmetry. apply Hfr. exact Hc.
Qed.
Print Assumptions C09B_oracle_accepts_model.

(* 3. ring laws on big vectors *)
Theorem C09B_sub_is_add_negate : forall w, 1 <= w -> forall n a b rb r0, length rb = length b ->
  vec_sub w n a b r0 = vec_add w n a (vec_unary n (vneg w) b rb) r0.
Proof. exact vec_sub_as_add_negate. Qed.
Print Assumptions C09B_sub_is_add_negate.

Theorem C09B_sub_antisym : forall w, 1 <= w -> forall n a b r0, limbs_wf w n a ->
  vec_sub w n a b r0 = map (vneg w) (vec_sub w n b a r0).
Proof. exact vec_sub_antisym. Qed.
Print Assumptions C09B_sub_antisym.

Theorem C09B_sub_negate_assign_is_negate_sub_assign : forall w, 1 <= w -> forall a r0,
  vec_sub_negate_assign w a r0 = vec_unary_assign (vneg w) (vec_sub_assign w a r0).
Proof. exact vec_sub_negate_assign_as_negate. Qed.
Print Assumptions C09B_sub_negate_assign_is_negate_sub_assign.

Theorem C09B_negate_twice : forall w, 1 <= w -> forall n r0, limbs_wf w n r0 ->
  vec_unary_assign (vneg w) (vec_unary_assign (vneg w) r0) = r0.
Proof. exact vec_negate_assign_involutive. Qed.
Print Assumptions C09B_negate_twice.

Theorem C09B_add_comm : forall w n a b r0, vec_add w n a b r0 = vec_add w n b a r0.
Proof. exact vec_add_comm. Qed.
Print Assumptions C09B_add_comm.

Theorem C09B_add_then_sub_assign : forall w, 1 <= w -> forall n a r0, limbs_len n a -> limbs_wf w n r0 ->
  vec_sub_assign w a (vec_add_assign w a r0) = r0.
Proof. exact vec_add_sub_assign_cancel. Qed.
Print Assumptions C09B_add_then_sub_assign.

(* the same laws, stated on the NTT120 loops *)
Theorem C09B_ntt120_sub_is_add_negate : forall n a b rb r0, length rb = length b ->
  n_sub n a b r0 = n_add_into n a (n_negate n b rb) r0.
Proof. intros. autorewrite with ntt120. apply vec_sub_as_add_negate; [lia|assumption]. Qed.
Print Assumptions C09B_ntt120_sub_is_add_negate.

Theorem C09B_ntt120_sub_small_b_is_negate_sub_small_a : forall n a b r0, limbs_wf 128 n a ->
  n_sub_small_b n a b r0 = n_negate_assign (n_sub_small_a n b a r0).
Proof. intros. autorewrite with ntt120. apply vec_sub_antisym; [lia|assumption]. Qed.
Print Assumptions C09B_ntt120_sub_small_b_is_negate_sub_small_a.

Theorem C09B_ntt120_sub_antisym : forall n a b r0, limbs_wf 128 n a ->
  n_sub n a b r0 = n_negate_assign (n_sub n b a r0).
Proof. intros. autorewrite with ntt120. apply vec_sub_antisym; [lia|assumption]. Qed.
Print Assumptions C09B_ntt120_sub_antisym.

Theorem C09B_ntt120_sub_negate_assign_is_negate_sub_assign : forall a r0,
  n_sub_negate_assign a r0 = n_negate_assign (n_sub_assign a r0).
Proof. intros. autorewrite with ntt120. apply vec_sub_negate_assign_as_negate. lia. Qed.
Print Assumptions C09B_ntt120_sub_negate_assign_is_negate_sub_assign.

Theorem C09B_ntt120_negate_twice : forall n r0, limbs_wf 128 n r0 -> n_negate_assign (n_negate_assign r0) = r0.
Proof. intros. autorewrite with ntt120. apply (vec_negate_assign_involutive 128 ltac:(lia) n). assumption. Qed.
Print Assumptions C09B_ntt120_negate_twice.

Theorem C09B_ntt120_add_comm : forall n a b r0, n_add_into n a b r0 = n_add_into n b a r0.
Proof. intros. autorewrite with ntt120. apply vec_add_comm. Qed.
Print Assumptions C09B_ntt120_add_comm.

Theorem C09B_ntt120_add_then_sub_assign : forall n a r0, limbs_len n a -> limbs_wf 128 n r0 ->
  n_sub_assign a (n_add_assign a r0) = r0.
Proof. intros. autorewrite with ntt120. apply (vec_add_sub_assign_cancel 128 ltac:(lia) n); assumption. Qed.
Print Assumptions C09B_ntt120_add_then_sub_assign.

(* 4. the two widths *)
Theorem C09B_spec_reduce_mod_2_64 : forall n rsz ca cb x y,
  map (map (wrap 64)) (lin_spec 128 n rsz ca cb x y) = lin_spec 64 n rsz ca cb x y.
Proof.
  intros n rsz ca cb x y.
  unfold lin_spec. rewrite map_map. apply map_ext. intros j. rewrite map_map. apply map_ext. intros i.
  apply wrap64_wrap128.
Qed.
Print Assumptions C09B_spec_reduce_mod_2_64.

(* any 64-bit operands: FFT64 words = NTT120 words reduced modulo 2^64 (linear operations) *)
Theorem C09B_fft64_is_ntt120_reduced : forall code n p fill fill' al bl r0,
  In code big_lin_codes ->
  ((1 <= big_arity code)%nat -> limbs_wf 64 n al) -> (big_arity code = 2%nat -> limbs_wf 64 n bl) -> limbs_wf 64 n r0 ->
  option_map (map (map (wrap 64))) (big_col 128 code n p fill al bl r0) = big_col 64 code n p fill' al bl r0.
Proof.
  intros code n p fill fill' al bl r0 Hin Ha Hb Hr.
  assert (Hin' : In code big_codes) by (change big_codes with (big_lin_codes ++ [9115; 9116]); apply in_or_app; left; exact Hin).
  assert (Hauto : auto_ok code n p).
  { intros [E|E]; subst code; unfold big_lin_codes in Hin; cbn [In] in Hin; exfalso; intuition discriminate. }
  rewrite (big_col_exact 128 code n p fill al bl r0) by
    (auto using wf64_wf128; intros; apply wf64_wf128; auto).
  rewrite (big_col_exact 64 code n p fill' al bl r0) by auto.
  unfold big_lin_codes in Hin.
  code_cases Hin ltac:(cbv beta iota zeta delta [big_expect option_map]; f_equal; apply C09B_spec_reduce_mod_2_64).
Qed.
Print Assumptions C09B_fft64_is_ntt120_reduced.

(* operands that fit (every word in [-2^61, 2^61)): the two families return the same words, automorphisms included *)
Theorem C09B_families_agree : forall code n p fill fill' al bl r0,
  In code big_codes ->
  ((1 <= big_arity code)%nat -> limbs_dom n al) -> (big_arity code = 2%nat -> limbs_dom n bl) -> limbs_dom n r0 ->
  auto_ok code n p ->
  big_col 128 code n p fill al bl r0 = big_col 64 code n p fill' al bl r0.
Proof.
  intros code n p fill fill' al bl r0 Hin Ha Hb Hr Hauto.
  rewrite (big_col_exact 128 code n p fill al bl r0) by
    (auto using limbs_dom_wf128; intros; apply limbs_dom_wf128; auto).
  rewrite (big_col_exact 64 code n p fill' al bl r0) by
    (auto using limbs_dom_wf64; intros; apply limbs_dom_wf64; auto).
  apply big_expect_agree; assumption.
Qed.
Print Assumptions C09B_families_agree.

(* examples: the hypotheses are satisfiable, the boundary digits behave as stated *)
(* sub_small_b with a shorter than b: the tail of b is NEGATED EXACTLY in 128 bits: -(i64::MIN) = 2^63 ... *)
Example C09B_ex_sub_small_b_tail_min :
  n_sub_small_b 2 [[5; 6]] [[1; 1]; [- 2 ^ 63; 2 ^ 63 - 1]; [7; 7]] [[9; 9]; [9; 9]; [9; 9]; [9; 9]]
  = [[4; 5]; [2 ^ 63; - 2 ^ 63 + 1]; [-7; -7]; [0; 0]].
Proof. vm_compute. reflexivity. Qed.
(* ... while the 64-bit family wraps it back to i64::MIN, as documented for wrapping words *)
Example C09B_ex_sub_tail_min_64 :
  vec_sub 64 2 [[5; 6]] [[1; 1]; [- 2 ^ 63; 2 ^ 63 - 1]; [7; 7]] [[9; 9]; [9; 9]; [9; 9]; [9; 9]]
  = [[4; 5]; [- 2 ^ 63; - 2 ^ 63 + 1]; [-7; -7]; [0; 0]].
Proof. vm_compute. reflexivity. Qed.
(* both are the specification at their width, and the 64-bit one is the 128-bit one reduced modulo 2^64 *)
Example C09B_ex_sub_small_b_spec :
  n_sub_small_b 2 [[5; 6]] [[1; 1]; [- 2 ^ 63; 2 ^ 63 - 1]; [7; 7]] [[9; 9]; [9; 9]; [9; 9]; [9; 9]]
  = lin_spec 128 2 4 1 (-1) [[5; 6]] [[1; 1]; [- 2 ^ 63; 2 ^ 63 - 1]; [7; 7]]
  /\ map (map (wrap 64)) (lin_spec 128 2 4 1 (-1) [[5; 6]] [[1; 1]; [- 2 ^ 63; 2 ^ 63 - 1]; [7; 7]])
     = vec_sub 64 2 [[5; 6]] [[1; 1]; [- 2 ^ 63; 2 ^ 63 - 1]; [7; 7]] [[9; 9]; [9; 9]; [9; 9]; [9; 9]].
Proof. vm_compute. split; reflexivity. Qed.

(* i128 extremes wrap: i128::MAX + 1 = i128::MIN, -(i128::MIN) = i128::MIN *)
Example C09B_ex_i128_extremes :
  n_add_into 1 [[2 ^ 127 - 1]] [[1]; [- 2 ^ 127]] [[0]; [0]; [0]] = [[- 2 ^ 127]; [- 2 ^ 127]; [0]]
  /\ n_negate 1 [[- 2 ^ 127]; [2 ^ 127 - 1]] [[0]; [0]; [0]] = [[- 2 ^ 127]; [- 2 ^ 127 + 1]; [0]].
Proof. vm_compute. split; reflexivity. Qed.

(* a whole record: be = 3 (NTT120Ref), N = 2, destination 2 columns x 2 limbs (capacity 3), column 1;
   a: 1 column, 1 limb; b (small): 1 column, 2 limbs; sub_small_b = 9111 *)
Definition ex_ps : list Z := [3; 2; 2; 2; 3; 1; 2; 1; 1; 1; 0; 2; 1; 2; 2; 0; 1; 1; 0].
Definition ex_vs : list (list Z) :=
  [[91; 92; 93; 94; 95; 96; 97; 98; 99; 100; 101; 102]; [5; 6]; [1; 1; - 2 ^ 63; 2 ^ 63 - 1]].
Example C09B_ex_run :
  run_c09_big 9111 ex_ps ex_vs = Some [[91; 92; 4; 5; 95; 96; 2 ^ 63; - 2 ^ 63 + 1; 99; 100; 101; 102]]
  /\ oracle_c09_big 9111 ex_ps ex_vs [[91; 92; 4; 5; 95; 96; 2 ^ 63; - 2 ^ 63 + 1; 99; 100; 101; 102]] = 1
  (* the result of the faulty widening `x.wrapping_neg() as i128` is rejected *)
  /\ oracle_c09_big 9111 ex_ps ex_vs [[91; 92; 4; 5; 95; 96; - 2 ^ 63; - 2 ^ 63 + 1; 99; 100; 101; 102]] = 0
  (* a stray write outside the selected column is rejected *)
  /\ oracle_c09_big 9111 ex_ps ex_vs [[91; 92; 4; 5; 95; 96; 2 ^ 63; - 2 ^ 63 + 1; 99; 100; 0; 102]] = 0.
Proof. vm_compute. repeat split; reflexivity. Qed.

Definition ex_out : list (list Z) := [[91; 92; 4; 5; 95; 96; 2 ^ 63; - 2 ^ 63 + 1; 99; 100; 101; 102]].
Example C09B_ex_run_hypotheses : oracle_c09_big 9111 ex_ps ex_vs ex_out = 1.
Proof.
  refine (C09B_oracle_accepts_model 9111 ex_ps ex_vs ex_out _ _ _ _ _ _ _).
  - cbn [In big_codes]. tauto.
  - vm_compute. lia.
  - intros _. apply limbs_wfb_sound. vm_compute. reflexivity.
  - intros _. apply limbs_wfb_sound. vm_compute. reflexivity.
  - apply limbs_wfb_sound. vm_compute. reflexivity.
  - intros [E|E]; discriminate E.
  - exact (proj1 C09B_ex_run).
Qed.

(* the two families on a common-domain record: same words *)
Example C09B_ex_families :
  big_col 128 9108 2 0 0 [[1; - 2 ^ 60]; [3; 4]] [] [[2 ^ 60; 5]; [6; 7]; [8; - 9]]
  = big_col 64 9108 2 0 0 [[1; - 2 ^ 60]; [3; 4]] [] [[2 ^ 60; 5]; [6; 7]; [8; - 9]].
Proof.
  refine (C09B_families_agree 9108 2 0 0 0 [[1; - 2 ^ 60]; [3; 4]] [] [[2 ^ 60; 5]; [6; 7]; [8; - 9]] _ _ _ _ _).
  - cbn [In big_codes]. tauto.
  - intros _. apply limbs_wfb_sound. vm_compute. reflexivity.
  - intros E. vm_compute in E. discriminate E.
  - apply limbs_wfb_sound. vm_compute. reflexivity.
  - intros [E|E]; discriminate E.
Qed.

(* C05 — ciphertext multiplication (tensor, relinearise, plain, constant) scales right; HAL bivariate convolution.
   Pinned statements, each proved by `exact` or by a short derivation from the lemmas of Proofs/, Print Assumptions, and Examples
   showing that hypotheses are satisfiable. *)
From PV Require Import Base.MachineInt Model.Znx Model.Limbs Model.LimbsBig Model.Flat Model.Ring Model.DftAbs
  Model.C05Cnv Model.C05Spec Model.C05Core.
From PV Require Import Proofs.C07Dft Proofs.C07Ring Proofs.C05Cnv Proofs.C05Core Proofs.C05Norm Proofs.C05NormNtt Proofs.C05Trunc.
From PV Require Model.Gadget Model.GadgetSpec Model.C05Relin Proofs.GadgetNorm Proofs.C03Phase Proofs.C05Relin Proofs.C05RelinPhase.
From PV Require Proofs.C08Normalize Proofs.C08WNormalize.
From PV Require Import Proofs.PolyFacts.
Open Scope Z_scope.

(* what cnv_prepare_left / right / self do: the mask lands on the last ACTIVE limb min(psz, a.size) - 1 *)
Theorem C05_cnv_prepare_spec : forall n psz mask a j, (j < psz)%nat ->
  lim (cnv_prepare n psz mask a) j =
  let min_size := Nat.min psz (length a) in
  if Nat.ltb (S j) min_size then lim a j
  else if Nat.ltb j min_size then mask_limb mask (lim a j) else pzero n.
Proof. exact cnv_prepare_spec. Qed.
Print Assumptions C05_cnv_prepare_spec.

(* msb_mask_bottom_limb(base2k, k): keeps the top k mod base2k bits of the limb (floor to a multiple of 2^(base2k - k mod base2k)) *)
Theorem C05_msb_mask_spec : forall b k x, 1 <= b <= 63 -> 0 <= k ->
  Z.land x (msb_mask b k) = if k mod b =? 0 then x else x - x mod 2 ^ (b - k mod b).
Proof.
  intros b k x Hb Hk. unfold msb_mask.
  pose proof (Z.mod_pos_bound k b ltac:(lia)) as Hr.
  destruct (Z.eqb_spec (k mod b) 0) as [E|E]; [apply Z.land_m1_r|].
  unfold shl. rewrite wrap_id; [|lia|].
  - replace (-1 * 2 ^ (b - k mod b)) with (- 2 ^ (b - k mod b)) by lia. apply land_neg_pow2. lia.
  - unfold in_range. 
    assert (2 ^ (b - k mod b) <= 2 ^ 62) by (apply Z.pow_le_mono_r; lia).
    pose proof (pow2_pos (b - k mod b) ltac:(lia)). change (2 ^ (64 - 1)) with (2 * 2 ^ 62). lia.
Qed.
Print Assumptions C05_msb_mask_spec.
Example C05_msb_mask_ex : msb_mask 12 29 = - 2 ^ 7 /\ Z.land (-1000) (msb_mask 12 29) = -1024 /\ msb_mask 12 24 = -1.
Proof. repeat split; reflexivity. Qed.

(* cnv_apply_dft(cnv_offset) for all sizes, all offsets (also past the end), both backend families, any masks:
   output limb k is the coefficient of Y^(k + cnv_offset) of (sum_i a_i Y^i)(sum_j b_j Y^j), an explicit sum over index pairs,
   truncated to res_size limbs *)
Theorem C05_cnv_is_truncated_bivariate_product :
  forall (fft : bool) (n rsz cnv_offset pasz pbsz : nat) (mask_a mask_b : Z) (a b : plimbs) (k : nat),
  wfl n a -> wfl n b -> (1 <= pasz)%nat -> (1 <= pbsz)%nat -> (k < rsz)%nat ->
  let A := cnv_prepare n pasz mask_a a in let B := cnv_prepare n pbsz mask_b b in
  lim (cnv_apply fft n rsz cnv_offset A B) k =
  psumf n (fun i => psumf n (fun j =>
     if Nat.eqb (i + j) (k + cnv_offset) then pmul (lim A i) (lim B j) else pzero n) pbsz) pasz.
Proof. exact cnv_is_truncated_bivariate_product. Qed.
Print Assumptions C05_cnv_is_truncated_bivariate_product.

(* the same for arbitrary (already prepared) operands *)
Theorem C05_cnv_apply_spec : forall fft n rsz off a b k, wfl n a -> wfl n b -> (1 <= length a)%nat -> (1 <= length b)%nat ->
  (k < rsz)%nat -> lim (cnv_apply fft n rsz off a b) k = bivariate_coeff n a b (k + off).
Proof. exact cnv_apply_spec. Qed.
Print Assumptions C05_cnv_apply_spec.
Example C05_cnv_apply_ex :
  wfl 2 [[1; 2]; [3; 4]] /\ wfl 2 [[5; 6]] /\
  cnv_apply true 2 3 1 [[1; 2]; [3; 4]] [[5; 6]] = [[-9; 38]; [0; 0]; [0; 0]] /\
  cnv_apply false 2 3 0 [[1; 2]; [3; 4]] [[5; 6]] = [[-7; 16]; [-9; 38]; [0; 0]] /\
  bivariate_coeff 2 [[1; 2]; [3; 4]] [[5; 6]] 1 = [-9; 38].
Proof.
  repeat split; try reflexivity; intros [|[|j]] H; cbn in *; try reflexivity; lia.
Qed.

Theorem C05_cnv_offset_past_end : forall fft n rsz off a b k, wfl n a -> wfl n b -> (1 <= length a)%nat -> (1 <= length b)%nat ->
  (k < rsz)%nat -> (length a + length b - 1 <= k + off)%nat -> lim (cnv_apply fft n rsz off a b) k = pzero n.
Proof.
  intros. rewrite cnv_apply_spec by assumption. apply bivariate_zero; assumption.
Qed.
Print Assumptions C05_cnv_offset_past_end.

(* FFT64 (min_size = min(res, a+b-1)) and NTT120 (min_size = min(res, a+b-offset)) compute the same limbs *)
Theorem C05_cnv_family_independent : forall n rsz off a b, wfl n a -> wfl n b -> (1 <= length a)%nat -> (1 <= length b)%nat ->
  cnv_apply true n rsz off a b = cnv_apply false n rsz off a b.
Proof.
  intros n rsz off a b wa wb Ha Hb. unfold cnv_apply at 1 2. unfold mk. apply map_ext_in. intros k Hk. apply in_seq in Hk.
  pose proof (cnv_apply_spec true n rsz off a b k wa wb Ha Hb ltac:(lia)) as H1.
  pose proof (cnv_apply_spec false n rsz off a b k wa wb Ha Hb ltac:(lia)) as H2.
  unfold cnv_apply in H1, H2. rewrite lim_mk' in H1, H2 by lia. rewrite H1, H2. reflexivity.
Qed.
Print Assumptions C05_cnv_family_independent.

(* the executable oracle's sum (skipping the pairs that cannot contribute) is the full sum *)
Theorem C05_bivariate_fast_eq : forall n a b K, wfl n a -> wfl n b -> bivariate_coeff_fast n a b K = bivariate_coeff n a b K.
Proof.
  intros n a b K wa wb. unfold bivariate_coeff_fast, bivariate_coeff. apply psumf_ext. intros i Hi.
  assert (Hl : length (pmul (lim a i) (lim b (K - i))) = n) by (rewrite pmul_length; apply wa; exact Hi).
  apply list_eq_nth.
  { rewrite psumf_length by (intros j _; apply term_length; [exact wa|exact Hi]).
    destruct (Nat.leb i K && Nat.ltb (K - i) (length b)); [exact Hl|apply pzero_length]. }
  intros c _.
  rewrite psumf_coeff by (intros j _; apply term_length; [exact wa|exact Hi]).
  rewrite (zsum_ext _ (fun j => if Nat.eqb (j + i) K then nth c (pmul (lim a i) (lim b j)) 0 else 0))
    by (intros j _; rewrite (Nat.add_comm j i); destruct (Nat.eqb (i + j) K); [reflexivity|apply nth_pzero]).
  rewrite zsum_diag. destruct (Nat.leb i K && Nat.ltb (K - i) (length b)); [reflexivity|apply nth_pzero].
Qed.
Print Assumptions C05_bivariate_fast_eq.

(* cnv_pairwise_apply_dft(i, j) and the trick (a_i + a_j)(b_i + b_j) - a_i b_i - a_j b_j = a_i b_j + a_j b_i, limb by limb *)
Theorem C05_cnv_pairwise_spec : forall fft n rsz off ai aj bi bj same k,
  wfl n ai -> wfl n aj -> wfl n bi -> wfl n bj -> length aj = length ai -> length bj = length bi ->
  (1 <= length ai)%nat -> (1 <= length bi)%nat -> (k < rsz)%nat ->
  lim (cnv_pairwise fft n rsz off ai aj bi bj same) k =
  if same then bivariate_coeff n ai bi (k + off)
  else bivariate_coeff n (plimbs_add ai aj) (plimbs_add bi bj) (k + off).
Proof. exact cnv_pairwise_spec. Qed.
Print Assumptions C05_cnv_pairwise_spec.

Theorem C05_pairwise_identity : forall fft n rsz off ai aj bi bj k,
  wfl n ai -> wfl n aj -> wfl n bi -> wfl n bj -> length aj = length ai -> length bj = length bi ->
  (1 <= length ai)%nat -> (1 <= length bi)%nat -> (k < rsz)%nat ->
  psub (psub (lim (cnv_pairwise fft n rsz off ai aj bi bj false) k) (lim (cnv_apply fft n rsz off ai bi) k))
       (lim (cnv_apply fft n rsz off aj bj) k)
  = padd (lim (cnv_apply fft n rsz off ai bj) k) (lim (cnv_apply fft n rsz off aj bi) k).
Proof.
  intros fft n rsz off ai aj bi bj k wai waj wbi wbj Ha Hb H1 H2 Hk.
  rewrite cnv_pairwise_spec by assumption.
  rewrite !cnv_apply_spec by (try assumption; lia).
  apply pairwise_bivariate; assumption.
Qed.
Print Assumptions C05_pairwise_identity.
Example C05_pairwise_identity_ex :
  let ai := [[1; 2]] in let aj := [[3; -1]] in let bi := [[2; 0]] in let bj := [[-1; 4]] in
  psub (psub (lim (cnv_pairwise true 2 2 0 ai aj bi bj false) 0) (lim (cnv_apply true 2 2 0 ai bi) 0)) (lim (cnv_apply true 2 2 0 aj bj) 0)
  = [-3; 0].
Proof. reflexivity. Qed.

(* cnv_by_const_apply: limb k = sum_{u+v = k + off} b_v . a_u in the accumulator's width; a * (constant c) = c . a *)
Theorem C05_cnv_by_const_spec : forall fft n dsz off a b k, wfl n a -> (1 <= length a)%nat -> (1 <= length b)%nat -> (k < dsz)%nat ->
  lim (cnv_by_const fft n dsz off a b) k = map (wrap (if fft then 64 else 128)) (bivariate_coeff n a (map (pconst n) b) (k + off)).
Proof.
  intros fft n dsz off a b k wa Ha Hb Hk. unfold cnv_by_const, lim.
  rewrite (nth_indep _ [] (map (wrap (if fft then 64 else 128)) [])) by (rewrite map_length, cnv_apply_length; exact Hk).
  rewrite map_nth. f_equal. apply cnv_apply_spec; try assumption; [apply pconst_wfl|rewrite map_length; exact Hb].
Qed.
Print Assumptions C05_cnv_by_const_spec.
Theorem C05_pmul_pconst : forall x c, (1 <= length x)%nat -> pmul x (pconst (length x) c) = pscale c x.
Proof.
  intros x c Hn. rewrite pmul_comm by apply pconst_length.
  apply list_eq_nth; [rewrite pmul_length, pconst_length, pscale_length; reflexivity|].
  rewrite pmul_length, pconst_length. intros k Hk.
  rewrite pmul_spec by (rewrite ?pconst_length; auto).
  rewrite pconst_length.
  rewrite (zsum_ext _ (fun i => if Nat.eqb i 0 then c * nth k x 0 else 0)).
  2:{ intros i _. rewrite nth_pconst. destruct (Nat.eqb_spec i 0) as [->|]; [|ring].
      destruct (Nat.eqb_spec (length x) 0); [lia|].
      replace (Z.of_nat k - Z.of_nat 0) with (Z.of_nat k - Z.of_nat 0%nat) by reflexivity.
      rewrite ext'_lo by lia. rewrite Nat.sub_0_r. reflexivity. }
  rewrite (zsum_single (fun _ => c * nth k x 0) 0%nat) by lia.
  rewrite nth_pscale. reflexivity.
Qed.
Print Assumptions C05_pmul_pconst.

(* placement in a destination with several columns (both families since the repair 2ac1856 of the FFT64 kernels):
   column rcol receives the computed limbs, is zero from min_size on, and no other word of the destination changes *)
Theorem C05_cnv_store_is_spec : forall n rcols rsz rcol ms f r0,
  cnv_store n rcols rsz rcol ms f r0 =
  cnv_store_spec n rcols rsz rcol (fun j => if Nat.ltb j ms then f j else pzero n) r0.
Proof.
  intros n rcols rsz rcol ms f r0. unfold cnv_store, cnv_store_spec. f_equal. apply map_ext. intros q.
  destruct (Nat.eqb_spec (q mod rcols) rcol) as [E|E]; cbn [andb].
  - destruct (Nat.leb_spec ms (q / rcols)); destruct (Nat.ltb_spec (q / rcols) ms); try lia; reflexivity.
  - reflexivity.
Qed.
Print Assumptions C05_cnv_store_is_spec.
Example C05_cnv_store_ex : cnv_store 1 2 2 0 2 (fun j => [Z.of_nat j + 5]) [1; 2; 3; 4] = [5; 2; 6; 4].
Proof. reflexivity. Qed.

(* the (cnv_offset_hi, cnv_offset_lo) split, as the Rust computes it, in both branches *)
Theorem C05_cnv_offset_split_correct : forall b cnv, 1 <= b -> 0 <= cnv ->
  let '(hi, lo) := offset_split b cnv in
  hi * b + lo = cnv - b /\ 0 <= hi /\ - b <= lo < b /\
  (cnv < b -> hi = 0 /\ lo = cnv - b) /\ (b <= cnv -> hi = cnv / b - 1 /\ lo = cnv mod b).
Proof.
  intros b cnv Hb Hc. unfold offset_split.
  destruct (Z.ltb_spec cnv b) as [H|H].
  - rewrite Z.mod_small by lia. repeat split; lia.
  - assert (1 <= cnv / b) by (apply Z.div_le_lower_bound; lia).
    rewrite Z.max_l by lia.
    pose proof (Z.div_mod cnv b ltac:(lia)). pose proof (Z.mod_pos_bound cnv b ltac:(lia)).
    repeat split; try lia.
Qed.
Print Assumptions C05_cnv_offset_split_correct.
Example C05_cnv_offset_split_ex : offset_split 17 5 = (0, -12) /\ offset_split 17 17 = (0, 0) /\ offset_split 17 40 = (1, 6).
Proof. repeat split; reflexivity. Qed.

(* torus position: the convolution output read at scale P + lo in radix 2^ab is the window hi <= u+v < hi+dsz of the exact
   product of the two operand values, scaled by 2^(P + cnv_offset): the offset is a number of bits *)
Theorem C05_product_position : forall fft n dsz hi P ab lo cnv a b, wfl n a -> wfl n b -> (1 <= length a)%nat -> (1 <= length b)%nat ->
  zn hi * ab + lo = cnv - ab ->
  pval n (P + lo) ab (cnv_apply fft n dsz hi a b) =
  psumf n (fun u => psumf n (fun v =>
     if Nat.leb hi (u + v) && Nat.ltb (u + v) (hi + dsz)
     then pscale (2 ^ (P + cnv - (zn u + zn v + 2) * ab)) (pmul (lim a u) (lim b v)) else pzero n) (length b)) (length a).
Proof.
  intros fft n dsz hi P ab lo cnv a b wa wb Ha Hb Hs. exact (product_position n P cnv ab a b wa wb fft dsz hi lo Ha Hb Hs).
Qed.
Print Assumptions C05_product_position.

(* value of every tensor column (cell (i, j) holds c_i d_j + [i <> j] c_j d_i): Section hypotheses
   nrm_shape, nrm_no_overflow, normalize_value_ok (C08) *)
Theorem C05_tensor_cell_value :
  forall (fft : bool) (n rsz dsz hi cols asz bsz : nat) (P rb ab lo : Z) (nrm : plimbs -> limbs)
         (eps kap : plimbs -> list Z) (dom : plimbs -> Prop) (A B : list plimbs) (sigma : nat * nat -> list Z),
  (forall D, shaped n rsz (nrm D)) ->
  (forall D, wfl n D -> length D = dsz -> dom D -> forall u c, Z.abs (nth c (lim (nrm D) u) 0) <= 2 ^ 61) ->
  (forall D, wfl n D -> length D = dsz -> dom D ->
     length (eps D) = n /\ length (kap D) = n /\
     Vr n P rb (nrm D) = padd (padd (Vd n P ab lo D) (eps D)) (pscale (2 ^ P) (kap D)) /\
     (forall c, Z.abs (nth c (eps D) 0) <= Uu rsz P rb)) ->
  (forall i, (i < cols)%nat -> wfl n (colsel A i) /\ length (colsel A i) = asz) ->
  (forall i, (i < cols)%nat -> wfl n (colsel B i) /\ length (colsel B i) = bsz) ->
  (1 <= asz)%nat -> (1 <= bsz)%nat ->
  (forall i, (i < cols)%nat -> dom (Cn fft n dsz hi A B i i)) ->
  (forall i j, (i < cols)%nat -> (j < cols)%nat -> i <> j -> dom (Pw fft n dsz hi A B i j)) ->
  (forall ij, length (sigma ij) = n) ->
  forall (i j : nat) (r0 : list (list Z)), (i < cols)%nat -> (j < cols)%nat -> length r0 = rsz ->
  Vr n P rb (cell_apply fft n nrm dsz hi A B i j r0) =
  padd (padd (Gm fft n dsz hi P ab lo A B (i, j)) (Em fft n dsz hi eps A B (i, j))) (pscale (2 ^ P) (Km fft n dsz hi kap A B (i, j))).
Proof. exact cell_value. Qed.
Print Assumptions C05_tensor_cell_value.

(* decrypting the model's tensor with keys sigma(i, j) (= s_i s_j, s_0 = 1, for the real tensor secret): the phase of the
   tensor product of the two ciphertext vectors over exact products at scale P + lo (see C05_product_position for the
   position), plus the normalisation error (C05_tensor_error_bound), plus a multiple of 2^P (i.e. equal on the torus) *)
Theorem C05_tensor_phase :
  forall (fft : bool) (n rsz dsz hi cols asz bsz : nat) (P rb ab lo : Z) (nrm : plimbs -> limbs)
         (eps kap : plimbs -> list Z) (dom : plimbs -> Prop) (A B : list plimbs) (sigma : nat * nat -> list Z),
  (forall D, shaped n rsz (nrm D)) ->
  (forall D, wfl n D -> length D = dsz -> dom D -> forall u c, Z.abs (nth c (lim (nrm D) u) 0) <= 2 ^ 61) ->
  (forall D, wfl n D -> length D = dsz -> dom D ->
     length (eps D) = n /\ length (kap D) = n /\
     Vr n P rb (nrm D) = padd (padd (Vd n P ab lo D) (eps D)) (pscale (2 ^ P) (kap D)) /\
     (forall c, Z.abs (nth c (eps D) 0) <= Uu rsz P rb)) ->
  (forall i, (i < cols)%nat -> wfl n (colsel A i) /\ length (colsel A i) = asz) ->
  (forall i, (i < cols)%nat -> wfl n (colsel B i) /\ length (colsel B i) = bsz) ->
  (1 <= asz)%nat -> (1 <= bsz)%nat ->
  (forall i, (i < cols)%nat -> dom (Cn fft n dsz hi A B i i)) ->
  (forall i j, (i < cols)%nat -> (j < cols)%nat -> i <> j -> dom (Pw fft n dsz hi A B i j)) ->
  (forall ij, length (sigma ij) = n) ->
  forall res0 : list (list (list Z)), length res0 = length (tpairs cols) -> (forall r, In r res0 -> length r = rsz) ->
  phase n P rb (tensor_gen (cell_apply fft n nrm dsz hi A B) cols res0) (map sigma (tpairs cols)) =
  padd (padd (plsum n (map (fun ij => pmul (Gm fft n dsz hi P ab lo A B ij) (sigma ij)) (tpairs cols)))
             (plsum n (map (fun ij => pmul (Em fft n dsz hi eps A B ij) (sigma ij)) (tpairs cols))))
       (pscale (2 ^ P) (plsum n (map (fun ij => pmul (Km fft n dsz hi kap A B ij) (sigma ij)) (tpairs cols)))).
Proof. exact tensor_phase. Qed.
Print Assumptions C05_tensor_phase.

Theorem C05_tensor_error_bound :
  forall (fft : bool) (n rsz dsz hi cols asz bsz : nat) (P rb ab lo : Z) (nrm : plimbs -> limbs)
         (eps kap : plimbs -> list Z) (dom : plimbs -> Prop) (A B : list plimbs) (sigma : nat * nat -> list Z),
  (forall D, wfl n D -> length D = dsz -> dom D ->
     length (eps D) = n /\ length (kap D) = n /\
     Vr n P rb (nrm D) = padd (padd (Vd n P ab lo D) (eps D)) (pscale (2 ^ P) (kap D)) /\
     (forall c, Z.abs (nth c (eps D) 0) <= Uu rsz P rb)) ->
  (forall i, (i < cols)%nat -> wfl n (colsel A i) /\ length (colsel A i) = asz) ->
  (forall i, (i < cols)%nat -> wfl n (colsel B i) /\ length (colsel B i) = bsz) ->
  (1 <= asz)%nat -> (1 <= bsz)%nat ->
  (forall i, (i < cols)%nat -> dom (Cn fft n dsz hi A B i i)) ->
  (forall i j, (i < cols)%nat -> (j < cols)%nat -> i <> j -> dom (Pw fft n dsz hi A B i j)) ->
  (forall ij, length (sigma ij) = n) ->
  forall (ij : nat * nat) (c : nat), (fst ij < cols)%nat -> (snd ij < cols)%nat ->
  Z.abs (nth c (Em fft n dsz hi eps A B ij) 0) <= (if Nat.eqb (fst ij) (snd ij) then 1 else 3) * Uu rsz P rb.
Proof. exact Em_bound. Qed.
Print Assumptions C05_tensor_error_bound.

(* the hypotheses are satisfiable: the normaliser of already-normalised accumulators (equal radices, no shift), rank 1, n = 2 *)
Example C05_tensor_phase_ex :
  let nrm := reshape 2 2 in let zero := fun _ : plimbs => pzero 2 in
  forall res0 : list (list (list Z)), length res0 = 3%nat -> (forall r, In r res0 -> length r = 2%nat) ->
  phase 2 40 8 (tensor_gen (cell_apply true 2 nrm 2 0 exA exB) 2 res0) (map exsig (tpairs 2)) =
  padd (padd (plsum 2 (map (fun ij => pmul (Gm true 2 2 0 40 8 0 exA exB ij) (exsig ij)) (tpairs 2)))
             (plsum 2 (map (fun ij => pmul (Em true 2 2 0 zero exA exB ij) (exsig ij)) (tpairs 2))))
       (pscale (2 ^ 40) (plsum 2 (map (fun ij => pmul (Km true 2 2 0 zero exA exB ij) (exsig ij)) (tpairs 2)))).
Proof.
  intros nrm zero res0 HL Hr.
  apply (C05_tensor_phase true 2 2 2 0 2 1 1 40 8 8 0 nrm zero zero (small_dom 2 2) exA exB exsig).
  - intros D. apply reshape_shape.
  - intros D _ _ _ u c. apply reshape_no_overflow.
  - intros D w L d. apply (reshape_value_ok 2 2 40 8 D w L d).
  - intros [|[|i]] Hi; try lia; (split; [intros [|j] Hj; cbn in *; [reflexivity|lia]|reflexivity]).
  - intros [|[|i]] Hi; try lia; (split; [intros [|j] Hj; cbn in *; [reflexivity|lia]|reflexivity]).
  - lia.
  - lia.
  - intros [|[|i]] Hi; try lia; apply small_dom_check; vm_compute; split; reflexivity.
  - intros [|[|i]] [|[|j]] Hi Hj Hij; try lia; apply small_dom_check; vm_compute; split; reflexivity.
  - intros ij. reflexivity.
  - exact HL.
  - exact Hr.
Qed.

(* squaring gives bit for bit what multiplying the ciphertext by itself gives (for any shape-preserving per-column normaliser) *)
Theorem C05_square_eq_self_mul : forall (fft : bool) (n rsz : nat) (nrm : plimbs -> limbs),
  (forall D, shaped n rsz (nrm D)) ->
  forall (dsz hi : nat) (A B : list plimbs) (cols : nat) (res0 : list (list (list Z))),
  (forall r, In r res0 -> length r = rsz) ->
  tensor_gen (cell_square fft n nrm dsz hi A B) cols res0 = tensor_gen (cell_apply fft n nrm dsz hi A B) cols res0.
Proof.
  intros fft n rsz nrm Hs dsz hi A B cols res0 H. apply tensor_gen_ext. intros i j r Hr.
  apply (cell_square_eq_apply fft n rsz nrm Hs). apply H; exact Hr.
Qed.
Print Assumptions C05_square_eq_self_mul.

(* ... and for the model's entry points (equal radices: the concrete normaliser is total without any fuel argument) *)
Theorem C05_square_eq_self_mul_model : forall fft n cnv rank b a_k a res0,
  (forall r, In r res0 -> length r = length (colsel res0 0)) ->
  glwe_tensor fft n 2 cnv rank b b a_k a_k a a res0 = glwe_tensor fft n 0 cnv rank b b a_k a_k a a res0.
Proof.
  intros fft n cnv rank b a_k a res0 Hres. unfold glwe_tensor.
  destruct (negb _); [reflexivity|]. destruct (offset_split b cnv) as [hi lo].
  destruct (fft && _); [reflexivity|]. cbn [Z.eqb]. f_equal.
  apply (C05_square_eq_self_mul fft n (length (colsel res0 0))).
  - intros D. apply big_nrm_shape_same_radix.
  - exact Hres.
Qed.
Print Assumptions C05_square_eq_self_mul_model.

(* the accumulate variant adds exactly the product: limb-wise vec_znx_add_assign of what glwe_tensor_apply produces *)
Theorem C05_tensor_add_assign_adds : forall (fft : bool) (n rsz : nat) (nrm : plimbs -> limbs),
  (forall D, shaped n rsz (nrm D)) ->
  forall (dsz hi : nat) (A B : list plimbs) (cols : nat) (res0 : list limbs),
  (forall r, In r res0 -> shaped n rsz r) ->
  tensor_gen (cell_add_assign fft n nrm dsz hi A B) cols res0 =
  map2 (fun r t => vec_add_assign W t r) res0 (tensor_gen (cell_apply fft n nrm dsz hi A B) cols res0).
Proof. exact tensor_add_assign_adds. Qed.
Print Assumptions C05_tensor_add_assign_adds.

Theorem C05_tensor_add_assign_adds_model : forall fft n cnv rank b a_k b_k a b' res0,
  (forall r, In r res0 -> shaped n (length (colsel res0 0)) r) ->
  glwe_tensor fft n 1 cnv rank b b a_k b_k a b' res0 =
  match glwe_tensor fft n 0 cnv rank b b a_k b_k a b' res0 with
  | Some t => Some (map2 (fun r x => vec_add_assign W x r) res0 t)
  | None => None
  end.
Proof.
  intros fft n cnv rank b a_k b_k a b' res0 Hres. unfold glwe_tensor.
  destruct (negb _); [reflexivity|]. destruct (offset_split b cnv) as [hi lo].
  destruct (fft && _); [reflexivity|]. cbn [Z.eqb]. f_equal.
  apply (tensor_add_assign_adds fft n (length (colsel res0 0))).
  - intros D. apply big_nrm_shape_same_radix.
  - exact Hres.
Qed.
Print Assumptions C05_tensor_add_assign_adds_model.
Example C05_tensor_add_assign_ex :
  let a := [[[1; -2]]; [[3; 1]]] in let b := [[[2; 1]]; [[-1; 1]]] in
  let r0 := [[[5; 5]]; [[6; 6]]; [[7; 7]]] in
  glwe_tensor true 2 0 8 1 8 8 8 8 a b r0 = Some [[[4; -3]]; [[6; 8]]; [[-4; 2]]] /\
  glwe_tensor true 2 1 8 1 8 8 8 8 a b r0 = Some [[[9; 2]]; [[12; 14]]; [[3; 9]]] /\
  glwe_tensor true 2 2 8 1 8 8 8 8 a a r0 = glwe_tensor true 2 0 8 1 8 8 8 8 a a r0.
Proof.
  intros a b r0.
  assert (E0 : glwe_tensor true 2 0 8 1 8 8 8 8 a b r0 = Some [[[4; -3]]; [[6; 8]]; [[-4; 2]]]) by reflexivity.
  split; [exact E0|]. split.
  - rewrite C05_tensor_add_assign_adds_model, E0; [reflexivity|].
    intros r [<-|[<-|[<-|[]]]]; (split; [reflexivity|]); intros [|j] Hj; cbn in Hj; try lia; reflexivity.
  - apply C05_square_eq_self_mul_model. intros r [<-|[<-|[<-|[]]]]; reflexivity.
Qed.

(* glwe_mul_plain / glwe_mul_const: every result column is the normalised accumulator Cf(column);
   phase under any key = sum_c val(Cf(col_c)) key_c over exact products + one unit per column + multiple of 2^P *)
Theorem C05_column_phase :
  forall (n rsz dsz : nat) (P rb ab lo : Z) (nrm : plimbs -> limbs) (eps kap : plimbs -> list Z) (dom : plimbs -> Prop)
         (Cf : plimbs -> plimbs),
  (forall D, shaped n rsz (nrm D)) ->
  (forall D, wfl n D -> length D = dsz -> dom D ->
     length (eps D) = n /\ length (kap D) = n /\
     pval n P rb (nrm D) = padd (padd (pval n (P + lo) ab D) (eps D)) (pscale (2 ^ P) (kap D)) /\
     (forall c, Z.abs (nth c (eps D) 0) <= 2 ^ (P - zn rsz * rb))) ->
  forall (A : list plimbs) (key : list (list Z)),
  (forall a, In a A -> wfl n (Cf a) /\ length (Cf a) = dsz /\ dom (Cf a)) -> (forall k, In k key -> length k = n) ->
  phase n P rb (map (fun a => nrm (Cf a)) A) key =
  padd (padd (plsum n (map (fun q => pmul (pval n (P + lo) ab (Cf (fst q))) (snd q)) (combine A key)))
             (plsum n (map (fun q => pmul (eps (Cf (fst q))) (snd q)) (combine A key))))
       (pscale (2 ^ P) (plsum n (map (fun q => pmul (kap (Cf (fst q))) (snd q)) (combine A key)))).
Proof. exact column_phase. Qed.
Print Assumptions C05_column_phase.

Theorem C05_mul_plain_phase :
  forall (fft : bool) (n rsz dsz hi : nat) (P rb ab lo : Z) (nrm : plimbs -> limbs) (eps kap : plimbs -> list Z) (dom : plimbs -> Prop)
         (B : plimbs),
  (forall D, shaped n rsz (nrm D)) ->
  (forall D, wfl n D -> length D = dsz -> dom D ->
     length (eps D) = n /\ length (kap D) = n /\
     pval n P rb (nrm D) = padd (padd (pval n (P + lo) ab D) (eps D)) (pscale (2 ^ P) (kap D)) /\
     (forall c, Z.abs (nth c (eps D) 0) <= 2 ^ (P - zn rsz * rb))) ->
  wfl n B -> (1 <= length B)%nat ->
  forall (A : list plimbs) (key : list (list Z)),
  (forall a, In a A -> wfl n a /\ (1 <= length a)%nat /\ dom (cnv_apply fft n dsz hi a B)) -> (forall k, In k key -> length k = n) ->
  let Cf := fun a => cnv_apply fft n dsz hi a B in
  phase n P rb (map (fun a => nrm (Cf a)) A) key =
  padd (padd (plsum n (map (fun q => pmul (pval n (P + lo) ab (Cf (fst q))) (snd q)) (combine A key)))
             (plsum n (map (fun q => pmul (eps (Cf (fst q))) (snd q)) (combine A key))))
       (pscale (2 ^ P) (plsum n (map (fun q => pmul (kap (Cf (fst q))) (snd q)) (combine A key)))).
Proof. exact mul_plain_phase. Qed.
Print Assumptions C05_mul_plain_phase.

Theorem C05_mul_const_phase :
  forall (fft : bool) (n rsz dsz hi : nat) (P rb ab lo : Z) (nrm : plimbs -> limbs) (eps kap : plimbs -> list Z) (dom : plimbs -> Prop)
         (b : list Z),
  (forall D, shaped n rsz (nrm D)) ->
  (forall D, wfl n D -> length D = dsz -> dom D ->
     length (eps D) = n /\ length (kap D) = n /\
     pval n P rb (nrm D) = padd (padd (pval n (P + lo) ab D) (eps D)) (pscale (2 ^ P) (kap D)) /\
     (forall c, Z.abs (nth c (eps D) 0) <= 2 ^ (P - zn rsz * rb))) ->
  (1 <= length b)%nat ->
  forall (A : list plimbs) (key : list (list Z)),
  (forall a, In a A -> wfl n a /\ (1 <= length a)%nat /\ dom (cnv_by_const fft n dsz hi a b)) -> (forall k, In k key -> length k = n) ->
  let Cf := fun a => cnv_by_const fft n dsz hi a b in
  phase n P rb (map (fun a => nrm (Cf a)) A) key =
  padd (padd (plsum n (map (fun q => pmul (pval n (P + lo) ab (Cf (fst q))) (snd q)) (combine A key)))
             (plsum n (map (fun q => pmul (eps (Cf (fst q))) (snd q)) (combine A key))))
       (pscale (2 ^ P) (plsum n (map (fun q => pmul (kap (Cf (fst q))) (snd q)) (combine A key)))).
Proof. exact mul_const_phase. Qed.
Print Assumptions C05_mul_const_phase.

(* the model's glwe_mul_plain is that column loop *)
Theorem C05_mul_plain_columns : forall fft n cnv ab rb a_k b_k a b res0 cols,
  glwe_mul_plain fft n cnv ab rb a_k b_k a b res0 = Some cols -> length res0 = length a ->
  exists hi lo dsz, offset_split ab cnv = (hi, lo) /\ dsz = (length (colsel a 0) + length b - Z.to_nat hi)%nat /\
  cols = map (fun x => big_nrm fft n (length (colsel res0 0)) rb ab lo
                         (cnv_apply fft n dsz (Z.to_nat hi) x (cnv_prepare n (length b) (msb_mask ab b_k) b)))
             (prep_cols n (length (colsel a 0)) (msb_mask ab a_k) a).
Proof.
  intros fft n cnv ab rb a_k b_k a b res0 cols. unfold glwe_mul_plain. destruct (negb _); [discriminate|]. destruct (offset_split ab cnv) as [hi lo].
  destruct (Nat.ltb _ _); [discriminate|]. destruct (fft && _); [discriminate|].
  intros H HL. injection H as <-. exists hi, lo, (length (colsel a 0) + length b - Z.to_nat hi)%nat.
  repeat split.
  rewrite <- (map_map fst (fun x => big_nrm fft n (length (colsel res0 0)) rb ab lo
     (cnv_apply fft n (length (colsel a 0) + length b - Z.to_nat hi) (Z.to_nat hi) x (cnv_prepare n (length b) (msb_mask ab b_k) b)))).
  rewrite map_fst_combine; [reflexivity|]. unfold prep_cols. rewrite map_length. exact HL.
Qed.
Print Assumptions C05_mul_plain_columns.

(* the concrete per-column normaliser keeps the shape when the radices are equal *)
Theorem C05_big_nrm_shape : forall fft n rsz b lo D, shaped n rsz (big_nrm fft n rsz b b lo D).
Proof. exact big_nrm_shape_same_radix. Qed.
Print Assumptions C05_big_nrm_shape.

(* the triangular sum over the tensor's columns is the full double sum: with G_ii = g_ii, G_ij = g_ij + g_ji and sigma(i,j) = s_i s_j,
   sum_{i <= j} G_ij s_i s_j = sum_{i, j} g_ij s_i s_j   (= (sum_i c_i s_i)(sum_j d_j s_j) when g_ij = c_i d_j) *)
Theorem C05_tensor_resummation : forall (n cols : nat) (g : nat -> nat -> list Z) (s : nat -> list Z),
  (forall i j, length (g i j) = n) -> (forall i, length (s i) = n) ->
  plsum n (map (fun ij => pmul (if Nat.eqb (fst ij) (snd ij) then g (fst ij) (fst ij) else padd (g (fst ij) (snd ij)) (g (snd ij) (fst ij)))
                               (pmul (s (fst ij)) (s (snd ij)))) (tpairs cols))
  = psumf n (fun i => psumf n (fun j => pmul (g i j) (pmul (s i) (s j))) cols) cols.
Proof.
  intros n cols g s Hg Hs.
  assert (L1 : forall ij, In ij (tpairs cols) ->
            length (pmul (if Nat.eqb (fst ij) (snd ij) then g (fst ij) (fst ij) else padd (g (fst ij) (snd ij)) (g (snd ij) (fst ij)))
                         (pmul (s (fst ij)) (s (snd ij)))) = n) by plen.
  assert (L2 : forall i j, length (pmul (g i j) (pmul (s i) (s j))) = n) by plen.
  apply (poly_ext n); [apply plsum_map_length; exact L1|plen|intros c].
  rewrite nth_plsum_map by exact L1.
  rewrite psumf_coeff by plen.
  rewrite (zsum_ext _ (fun i => zsum (fun j => nth c (pmul (g i j) (pmul (s i) (s j))) 0) cols))
    by (intros i _; apply psumf_coeff; plen).
  rewrite lsum_tpairs. cbn [fst snd].
  rewrite <- (zsum_split3 (fun i j => nth c (pmul (g i j) (pmul (s i) (s j))) 0)).
  apply zsum_ext; intros i _. apply zsum_ext; intros j _.
  destruct (Nat.leb i j && Nat.ltb j cols); [|reflexivity].
  destruct (Nat.eqb_spec i j) as [->|]; [reflexivity|].
  rewrite nth_pmul_padd by (rewrite ?pmul_length, ?Hg, ?Hs; reflexivity).
  rewrite (pmul_comm (s i) (s j)) by (rewrite !Hs; reflexivity). reflexivity.
Qed.
Print Assumptions C05_tensor_resummation.
Example C05_tensor_resummation_ex :
  let g := fun i j : nat => [Z.of_nat i + 1; Z.of_nat j] in let s := fun i : nat => [1; Z.of_nat i] in
  psumf 2 (fun i => psumf 2 (fun j => pmul (g i j) (pmul (s i) (s j))) 2) 2 = [1; 8].
Proof. reflexivity. Qed.

(* |x * t|_inf <= |x|_inf |t|_1 and the resulting bound of an error phase: this is the E_norm term of the oracle's envelope *)
Theorem C05_pmul_norm_bound : forall x t c Bd, length t = length x -> 0 <= Bd -> (forall i, Z.abs (nth i x 0) <= Bd) ->
  Z.abs (nth c (pmul x t) 0) <= Bd * norm1 t.
Proof. exact pmul_norm_bound. Qed.
Print Assumptions C05_pmul_norm_bound.
Theorem C05_error_phase_bound : forall (X : Type) (n : nat) (E sig : X -> list Z) (w : X -> Z) (l : list X) (c : nat),
  (forall x, In x l -> length (E x) = n /\ length (sig x) = n /\ 0 <= w x /\ forall k, Z.abs (nth k (E x) 0) <= w x) ->
  Z.abs (nth c (plsum n (map (fun x => pmul (E x) (sig x)) l)) 0) <= lsum (map (fun x => w x * norm1 (sig x)) l).
Proof.
  intros X n E sig w l c H. rewrite nth_plsum_map by (intros x Hx; rewrite pmul_length; apply (H x Hx)).
  apply lsum_abs_le. intros x Hx. destruct (H x Hx) as (L1 & L2 & Hw & Hb).
  apply pmul_norm_bound; [lia|exact Hw|exact Hb].
Qed.
Print Assumptions C05_error_phase_bound.

(* the normalisation hypotheses discharged from C08 (FFT64 family, equal radices b <= 62, accumulators within 2^62) *)
Theorem C05_normalize_value_ok_fft64 : forall (n rsz dsz : nat) (P b lo : Z),
  1 <= b <= 62 -> zn rsz * b + zn dsz * b + Z.abs lo <= P ->
  forall D, wfl n D -> length D = dsz -> dom62 D ->
  length (eps64 n rsz P b lo D) = n /\ length (kap64 n rsz P b lo D) = n /\
  pval n P b (big_nrm true n rsz b b lo D) =
    padd (padd (pval n (P + lo) b D) (eps64 n rsz P b lo D)) (pscale (2 ^ P) (kap64 n rsz P b lo D)) /\
  forall c, Z.abs (nth c (eps64 n rsz P b lo D) 0) <= 2 ^ (P - zn rsz * b).
Proof.
  intros n rsz dsz P b lo Hb. exact (big_nrm_value_ok true (2 ^ 62) b lo _ Hb (normalize_same_radix b lo) (Proofs.C08Normalize.normalize_inter_value b Hb lo) n rsz dsz P).
Qed.
Print Assumptions C05_normalize_value_ok_fft64.

Theorem C05_nrm_no_overflow_fft64 : forall (n rsz dsz : nat) (P b lo : Z),
  1 <= b <= 62 -> zn rsz * b + zn dsz * b + Z.abs lo <= P ->
  forall D, wfl n D -> length D = dsz -> dom62 D -> forall u c, Z.abs (nth c (lim (big_nrm true n rsz b b lo D) u) 0) <= 2 ^ 61.
Proof.
  intros n rsz dsz P b lo Hb. exact (big_nrm_no_overflow true (2 ^ 62) b lo _ Hb (normalize_same_radix b lo) (Proofs.C08Normalize.normalize_inter_value b Hb lo) n rsz dsz P).
Qed.
Print Assumptions C05_nrm_no_overflow_fft64.

(* C05_tensor_phase and C05_tensor_error_bound with no hypothesis on the normaliser left: the model's own big_nrm *)
Theorem C05_tensor_phase_fft64 :
  forall (n rsz dsz hi cols asz bsz : nat) (P b lo : Z) (A B : list plimbs) (sigma : nat * nat -> list Z),
  1 <= b <= 62 -> zn rsz * b + zn dsz * b + Z.abs lo <= P ->
  (forall i, (i < cols)%nat -> wfl n (colsel A i) /\ length (colsel A i) = asz) ->
  (forall i, (i < cols)%nat -> wfl n (colsel B i) /\ length (colsel B i) = bsz) ->
  (1 <= asz)%nat -> (1 <= bsz)%nat ->
  (forall i, (i < cols)%nat -> dom62 (Cn true n dsz hi A B i i)) ->
  (forall i j, (i < cols)%nat -> (j < cols)%nat -> i <> j -> dom62 (Pw true n dsz hi A B i j)) ->
  (forall ij, length (sigma ij) = n) ->
  forall res0 : list (list (list Z)), length res0 = length (tpairs cols) -> (forall r, In r res0 -> length r = rsz) ->
  phase n P b (tensor_gen (cell_apply true n (big_nrm true n rsz b b lo) dsz hi A B) cols res0) (map sigma (tpairs cols)) =
  padd (padd (plsum n (map (fun ij => pmul (Gm true n dsz hi P b lo A B ij) (sigma ij)) (tpairs cols)))
             (plsum n (map (fun ij => pmul (Em true n dsz hi (eps64 n rsz P b lo) A B ij) (sigma ij)) (tpairs cols))))
       (pscale (2 ^ P) (plsum n (map (fun ij => pmul (Km true n dsz hi (kap64 n rsz P b lo) A B ij) (sigma ij)) (tpairs cols))))
  /\ forall ij c, (fst ij < cols)%nat -> (snd ij < cols)%nat ->
     Z.abs (nth c (Em true n dsz hi (eps64 n rsz P b lo) A B ij) 0) <= (if Nat.eqb (fst ij) (snd ij) then 1 else 3) * 2 ^ (P - zn rsz * b).
Proof.
  intros n rsz dsz hi cols asz bsz P b lo A B sigma Hb HP.
  exact (tensor_phase_big_nrm true (2 ^ 62) b lo _ Hb (normalize_same_radix b lo) (Proofs.C08Normalize.normalize_inter_value b Hb lo) n rsz dsz P HP hi cols asz bsz A B sigma).
Qed.
Print Assumptions C05_tensor_phase_fft64.

Theorem C05_mul_plain_phase_fft64 :
  forall (n rsz dsz hi : nat) (P b lo : Z) (B : plimbs) (A : list plimbs) (key : list (list Z)),
  1 <= b <= 62 -> zn rsz * b + zn dsz * b + Z.abs lo <= P ->
  wfl n B -> (1 <= length B)%nat ->
  (forall a, In a A -> wfl n a /\ (1 <= length a)%nat /\ dom62 (cnv_apply true n dsz hi a B)) -> (forall k, In k key -> length k = n) ->
  let Cf := fun a => cnv_apply true n dsz hi a B in
  phase n P b (map (fun a => big_nrm true n rsz b b lo (Cf a)) A) key =
  padd (padd (plsum n (map (fun q => pmul (pval n (P + lo) b (Cf (fst q))) (snd q)) (combine A key)))
             (plsum n (map (fun q => pmul (eps64 n rsz P b lo (Cf (fst q))) (snd q)) (combine A key))))
       (pscale (2 ^ P) (plsum n (map (fun q => pmul (kap64 n rsz P b lo (Cf (fst q))) (snd q)) (combine A key))))
  /\ forall a c, In a A -> Z.abs (nth c (eps64 n rsz P b lo (Cf a)) 0) <= 2 ^ (P - zn rsz * b).
Proof.
  intros n rsz dsz hi P b lo B A key Hb HP.
  exact (mul_plain_phase_big_nrm true (2 ^ 62) b lo _ Hb (normalize_same_radix b lo) (Proofs.C08Normalize.normalize_inter_value b Hb lo) n rsz dsz P HP hi B A key).
Qed.
Print Assumptions C05_mul_plain_phase_fft64.

(* what relinearisation rests on: phases add over a split of the columns, so the phase of the tensor under (1, s, s (x) s) is the phase of its first rank+1 columns under (1, s)
   plus the phase of the s_i s_j columns under s (x) s; relinearisation keeps the former and key-switches the latter *)
Theorem C05_relinearize_phase_partial : forall n P b (T1 T2 : list plimbs) (k1 k2 : list (list Z)),
  length T1 = length k1 -> (forall t, In t (T1 ++ T2) -> wfl n t) ->
  phase n P b (T1 ++ T2) (k1 ++ k2) = padd (phase n P b T1 k1) (phase n P b T2 k2).
Proof.
  intros n P b T1 T2 k1 k2 HL HT. unfold phase. rewrite combine_app_eq by exact HL. rewrite map_app.
  apply plsum_app; apply map_lengths; intros [t k] Hin; rewrite pmul_length; apply pval_length, HT, in_or_app; [left|right];
    eapply in_combine_l; exact Hin.
Qed.
Print Assumptions C05_relinearize_phase_partial.

(* the same discharge for the NTT120 family (i128 accumulator), from C08's width-128 theorems (Props/C08Wide.v) *)
Theorem C05_normalize_value_ok_ntt120 : forall (n rsz dsz : nat) (P b lo : Z),
  1 <= b <= 62 -> zn rsz * b + zn dsz * b + Z.abs lo <= P ->
  forall D, wfl n D -> length D = dsz -> dom126 D ->
  length (eps128 n rsz P b lo D) = n /\ length (kap128 n rsz P b lo D) = n /\
  pval n P b (big_nrm false n rsz b b lo D) =
    padd (padd (pval n (P + lo) b D) (eps128 n rsz P b lo D)) (pscale (2 ^ P) (kap128 n rsz P b lo D)) /\
  forall c, Z.abs (nth c (eps128 n rsz P b lo D) 0) <= 2 ^ (P - zn rsz * b).
Proof.
  intros n rsz dsz P b lo Hb.
  exact (big_nrm_value_ok false (2 ^ 126) b lo _ Hb (normalize_big_same_radix b lo)
           (fun a r0 => Proofs.C08WNormalize.normalize_inter_value_128 b lo a r0 ltac:(lia)) n rsz dsz P).
Qed.
Print Assumptions C05_normalize_value_ok_ntt120.

Theorem C05_tensor_phase_ntt120 :
  forall (n rsz dsz hi cols asz bsz : nat) (P b lo : Z) (A B : list plimbs) (sigma : nat * nat -> list Z),
  1 <= b <= 62 -> zn rsz * b + zn dsz * b + Z.abs lo <= P ->
  (forall i, (i < cols)%nat -> wfl n (colsel A i) /\ length (colsel A i) = asz) ->
  (forall i, (i < cols)%nat -> wfl n (colsel B i) /\ length (colsel B i) = bsz) ->
  (1 <= asz)%nat -> (1 <= bsz)%nat ->
  (forall i, (i < cols)%nat -> dom126 (Cn false n dsz hi A B i i)) ->
  (forall i j, (i < cols)%nat -> (j < cols)%nat -> i <> j -> dom126 (Pw false n dsz hi A B i j)) ->
  (forall ij, length (sigma ij) = n) ->
  forall res0 : list (list (list Z)), length res0 = length (tpairs cols) -> (forall r, In r res0 -> length r = rsz) ->
  phase n P b (tensor_gen (cell_apply false n (big_nrm false n rsz b b lo) dsz hi A B) cols res0) (map sigma (tpairs cols)) =
  padd (padd (plsum n (map (fun ij => pmul (Gm false n dsz hi P b lo A B ij) (sigma ij)) (tpairs cols)))
             (plsum n (map (fun ij => pmul (Em false n dsz hi (eps128 n rsz P b lo) A B ij) (sigma ij)) (tpairs cols))))
       (pscale (2 ^ P) (plsum n (map (fun ij => pmul (Km false n dsz hi (kap128 n rsz P b lo) A B ij) (sigma ij)) (tpairs cols))))
  /\ forall ij c, (fst ij < cols)%nat -> (snd ij < cols)%nat ->
     Z.abs (nth c (Em false n dsz hi (eps128 n rsz P b lo) A B ij) 0) <= (if Nat.eqb (fst ij) (snd ij) then 1 else 3) * 2 ^ (P - zn rsz * b).
Proof.
  intros n rsz dsz hi cols asz bsz P b lo A B sigma Hb HP.
  exact (tensor_phase_big_nrm false (2 ^ 126) b lo _ Hb (normalize_big_same_radix b lo)
           (fun a r0 => Proofs.C08WNormalize.normalize_inter_value_128 b lo a r0 ltac:(lia))
           n rsz dsz P HP hi cols asz bsz A B sigma).
Qed.
Print Assumptions C05_tensor_phase_ntt120.

Theorem C05_mul_plain_phase_ntt120 :
  forall (n rsz dsz hi : nat) (P b lo : Z) (B : plimbs) (A : list plimbs) (key : list (list Z)),
  1 <= b <= 62 -> zn rsz * b + zn dsz * b + Z.abs lo <= P ->
  wfl n B -> (1 <= length B)%nat ->
  (forall a, In a A -> wfl n a /\ (1 <= length a)%nat /\ dom126 (cnv_apply false n dsz hi a B)) -> (forall k, In k key -> length k = n) ->
  let Cf := fun a => cnv_apply false n dsz hi a B in
  phase n P b (map (fun a => big_nrm false n rsz b b lo (Cf a)) A) key =
  padd (padd (plsum n (map (fun q => pmul (pval n (P + lo) b (Cf (fst q))) (snd q)) (combine A key)))
             (plsum n (map (fun q => pmul (eps128 n rsz P b lo (Cf (fst q))) (snd q)) (combine A key))))
       (pscale (2 ^ P) (plsum n (map (fun q => pmul (kap128 n rsz P b lo (Cf (fst q))) (snd q)) (combine A key))))
  /\ forall a c, In a A -> Z.abs (nth c (eps128 n rsz P b lo (Cf a)) 0) <= 2 ^ (P - zn rsz * b).
Proof.
  intros n rsz dsz hi P b lo B A key Hb HP.
  exact (mul_plain_phase_big_nrm false (2 ^ 126) b lo _ Hb (normalize_big_same_radix b lo)
           (fun a r0 => Proofs.C08WNormalize.normalize_inter_value_128 b lo a r0 ltac:(lia))
           n rsz dsz P HP hi B A key).
Qed.
Print Assumptions C05_mul_plain_phase_ntt120.

(* E_trunc: the limbs of the product that the convolution does not return *)
(* full product of the operand values = pairs below the window (a multiple of 2^P) + what cnv_apply_dft returns + the dropped pairs *)
Theorem C05_prod_split : forall n P cnv ab (a b : plimbs), wfl n a -> forall hi dsz,
  prod_full n P cnv ab a b = padd (padd (prod_low n P cnv ab hi a b) (prod_win n P cnv ab hi dsz a b)) (prod_high n P cnv ab hi dsz a b).
Proof.
  intros n P cnv ab a b wa hi dsz.
  apply list_eq_nth; [unfold prod_full, prod_low, prod_win, prod_high; rewrite !padd_length, !psel_length by assumption; lia|].
  unfold prod_full at 1. rewrite psel_length by assumption. intros k Hk.
  unfold prod_full, prod_low, prod_win, prod_high.
  rewrite !nth_padd by (rewrite ?padd_length, !psel_length by assumption; lia). rewrite !psel_nth by assumption.
  rewrite <- !zsum_add. apply zsum_ext; intros u _. rewrite <- !zsum_add. apply zsum_ext; intros v _.
  destruct (Nat.ltb_spec (u + v) hi); destruct (Nat.leb_spec hi (u + v)); destruct (Nat.ltb_spec (u + v) (hi + dsz));
    destruct (Nat.leb_spec (hi + dsz) (u + v)); cbn [andb]; lia.
Qed.
Print Assumptions C05_prod_split.

Theorem C05_prod_full_is_product : forall n P cnv ab Qa Qb (a b : plimbs), wfl n a -> wfl n b -> 0 <= ab ->
  zn (length a) * ab <= Qa -> zn (length b) * ab <= Qb -> Qa + Qb <= P + cnv ->
  prod_full n P cnv ab a b = pscale (2 ^ (P + cnv - Qa - Qb)) (pmul (pval n Qa ab a) (pval n Qb ab b)).
Proof.
  intros n P cnv ab Qa Qb a b wa wb Hab HQa HQb HP. unfold prod_full, psel, pval.
  change (psumf n) with (GadgetSpec.psumf n). change pscale with Gadget.pscale.
  assert (La : forall u, (u < length a)%nat -> length (Gadget.pscale (2 ^ (Qa - (zn u + 1) * ab)) (lim a u)) = n)
    by (intros u Hu; rewrite GadgetDecomp.pscale_length; apply wa; exact Hu).
  assert (Lb : forall v, (v < length b)%nat -> length (Gadget.pscale (2 ^ (Qb - (zn v + 1) * ab)) (lim b v)) = n)
    by (intros v Hv; rewrite GadgetDecomp.pscale_length; apply wb; exact Hv).
  rewrite GadgetDecomp.pmul_psumf_r by (try exact La; apply GadgetDecomp.psumf_length; exact Lb).
  rewrite GadgetDecomp.pscale_psumf. apply GadgetDecomp.psumf_ext; intros u Hu.
  rewrite GadgetDecomp.pmul_psumf_l by (try exact Lb; apply La; exact Hu).
  rewrite GadgetDecomp.pscale_psumf. apply GadgetDecomp.psumf_ext; intros v Hv.
  unfold wterm. change pscale with Gadget.pscale.
  rewrite GadgetDecomp.pscale_pmul_l, GadgetDecomp.pscale_pmul_r, !GadgetDecomp.pscale_pscale. f_equal.
  assert (zn u + 1 <= zn (length a)) by (unfold zn; lia). assert (zn v + 1 <= zn (length b)) by (unfold zn; lia).
  rewrite <- !Z.pow_add_r by nia. f_equal. lia.
Qed.
Print Assumptions C05_prod_full_is_product.

Theorem C05_convolution_truncation : forall fft n dsz hi P ab lo cnv Qa Qb (a b : plimbs) Da Db,
  wfl n a -> wfl n b -> (1 <= length a)%nat -> (1 <= length b)%nat ->
  zn hi * ab + lo = cnv - ab -> 0 <= lo -> 0 <= ab -> 0 <= P ->
  zn (length a) * ab <= Qa -> zn (length b) * ab <= Qb -> Qa + Qb <= P + cnv ->
  0 <= Da -> 0 <= Db ->
  (forall u i, Z.abs (nth i (lim a u) 0) <= Da) -> (forall v i, Z.abs (nth i (lim b v) 0) <= Db) ->
  exists L E, length L = n /\ length E = n /\
    pscale (2 ^ (P + cnv - Qa - Qb)) (pmul (pval n Qa ab a) (pval n Qb ab b))
    = padd (padd (pscale (2 ^ P) L) (pval n (P + lo) ab (cnv_apply fft n dsz hi a b))) E /\
    forall k, Z.abs (nth k E 0) <= zn n * Da * Db * dropped_w P cnv ab (length a) (length b) (hi + dsz).
Proof.
  intros fft n dsz hi P ab lo cnv Qa Qb a b Da Db wa wb Ha Hb Hs Hlo Hab HP HQa HQb HPQ HDa HDb Ba Bb.
  exists (psel n a b (fun u v => Nat.ltb (u + v) hi) (fun u v => pscale (2 ^ (cnv - (zn u + zn v + 2) * ab)) (pmul (lim a u) (lim b v)))),
         (prod_high n P cnv ab hi dsz a b).
  split.
  { unfold psel. apply psumf_length. intros u Hu. apply psumf_length. intros v _.
    destruct (Nat.ltb (u + v) hi); [rewrite pscale_length, pmul_length; apply wa; exact Hu|apply pzero_length]. }
  split; [apply psel_length; assumption|]. split.
  - rewrite <- (C05_prod_full_is_product n P cnv ab Qa Qb a b wa wb Hab HQa HQb HPQ).
    rewrite (C05_prod_split n P cnv ab a b wa hi dsz).
    rewrite (prod_low_integer n P cnv ab a b hi lo Hs Hlo Hab HP).
    rewrite (product_position n P cnv ab a b wa wb fft dsz hi lo Ha Hb Hs). reflexivity.
  - intros k. apply prod_high_bound; try assumption. unfold zn in *. nia.
Qed.
Print Assumptions C05_convolution_truncation.
Example C05_convolution_truncation_ex :
  dropped_w 40 8 8 2 2 2 = 2 ^ 16 /\ dropped_w 40 8 8 2 2 3 = 0 /\
  prod_full 2 40 8 8 [[1; 2]; [3; 4]] [[5; 6]; [-1; 2]] =
  padd (padd (prod_low 2 40 8 8 0 [[1; 2]; [3; 4]] [[5; 6]; [-1; 2]]) (prod_win 2 40 8 8 0 2 [[1; 2]; [3; 4]] [[5; 6]; [-1; 2]]))
       (prod_high 2 40 8 8 0 2 [[1; 2]; [3; 4]] [[5; 6]; [-1; 2]]).
Proof. repeat split; reflexivity. Qed.

(* relinearisation: the model of glwe_tensor_relinearize (Model/C05Relin.v, on Gadget.gadget_product) and its phase *)
Section RelinProps.
Import PV.Model.Gadget PV.Model.GadgetSpec PV.Model.C05Relin.
(* the accumulator before the final normalisation: a key switch whose body is the whole (1, s) part of the tensor;
   `key_rows_ok` is the hypothesis of C03_keyswitch_phase_lemma on the key rows *)
Theorem C05_relinearize_internal_phase :
  forall (P b : Z) (n pairs cols msize a_size dsize dnum : nat) (T : cols_t) (K : pmat) (Sk s_in : nat -> list Z) (e I : nat -> nat -> list Z),
  wf_cols n (cols + pairs) a_size T -> wf_pmat_in n (dnum * pairs) (msize * cols) K ->
  (1 <= dsize)%nat -> (dsize - 2 <= msize)%nat ->
  (forall co, length (Sk co) = n) -> (forall ci, length (s_in ci) = n) ->
  (forall row ci, length (e row ci) = n) -> (forall row ci, length (I row ci) = n) ->
  0 <= b -> Z.of_nat msize * b <= P -> Z.of_nat dnum * Z.of_nat dsize * b <= P ->
  key_rows_ok P b n pairs cols msize dsize dnum K Sk s_in e I ->
  exists big, relinearize_internal n cols T a_size dsize dnum msize K = Some big /\
    wf_cols n cols msize big /\
    phase_f P b n cols msize (limbs_of big) Sk
    = padd (padd (padd (GadgetSpec.psumf n (fun co => pmul (GadgetSpec.pval P b n (acol n T co) (Nat.min msize a_size)) (Sk co)) cols)
                       (GadgetSpec.psumf n (fun ci => pmul (pval_used P b n a_size dsize dnum (acol n (skipn cols T)) ci) (s_in ci)) pairs))
                 (gadget_err P b n pairs cols msize dsize dnum (acol n (skipn cols T)) K Sk e))
           (Gadget.pscale (2 ^ P) (gadget_int b n pairs cols msize dsize dnum (acol n (skipn cols T)) K Sk I)).
Proof. exact Proofs.C05Relin.relinearize_internal_phase. Qed.
Print Assumptions C05_relinearize_internal_phase.

(* glwe_tensor_relinearize (tensor radix = key radix b, result radix rb): phase under s of the result; the per-column
   normalisation fact is a hypothesis here and discharged for FFT64 below *)
Theorem C05_relinearize_phase :
  forall (be P b rb : Z) (n pairs msize a_size res_size dsize dnum : nat) (T : cols_t) (K : pmat) (sk : list (list Z))
         (s_in : nat -> list Z) (e I : nat -> nat -> list Z) (Sb : Z),
  wf_cols n (S (length sk) + pairs) a_size T -> wf_pmat_in n (dnum * pairs) (msize * S (length sk)) K ->
  (1 <= n)%nat -> (1 <= dsize)%nat -> (dsize - 2 <= msize)%nat ->
  (forall s, In s sk -> length s = n) -> (forall s, In s sk -> pnorm s <= Sb) ->
  (forall ci, length (s_in ci) = n) -> (forall row ci, length (e row ci) = n) -> (forall row ci, length (I row ci) = n) ->
  0 <= b -> Z.of_nat msize * b <= P -> Z.of_nat dnum * Z.of_nat dsize * b <= P ->
  key_rows_ok P b n pairs (S (length sk)) msize dsize dnum K (sk_ext n sk) s_in e I ->
  (forall big, relinearize_internal n (S (length sk)) T a_size dsize dnum msize K = Some big ->
     forall co, (co < S (length sk))%nat -> Proofs.GadgetNorm.normalize_value_ok (wbig be) P n rb b res_size (col big co)) ->
  exists res R Itot,
    glwe_relinearize be n b b rb (length sk) a_size res_size dsize dnum msize T K = Some res /\
    wf_cols n (S (length sk)) res_size res /\ length R = n /\ length Itot = n /\
    phase_val P rb n sk res
    = padd (padd (padd (padd (GadgetSpec.psumf n (fun co => pmul (GadgetSpec.pval P b n (acol n T co) (Nat.min msize a_size)) (sk_ext n sk co)) (S (length sk)))
                             (GadgetSpec.psumf n (fun ci => pmul (pval_used P b n a_size dsize dnum (acol n (skipn (S (length sk)) T)) ci) (s_in ci)) pairs))
                       (gadget_err P b n pairs (S (length sk)) msize dsize dnum (acol n (skipn (S (length sk)) T)) K (sk_ext n sk) e))
                 R)
           (Gadget.pscale (2 ^ P) Itot) /\
    pnorm R <= (1 + Z.of_nat (length sk) * Z.of_nat n * Sb) * 2 ^ (P - Z.of_nat res_size * rb).
Proof.
  intros be P b rb n pairs msize a_size res_size dsize dnum T K sk s_in e I Sb HT HK Hn Hd Hdrop Hsk HSb Hsin He HI Hb HP HP2 Hkey Hnorm.
  pose proof (Proofs.C03Phase.sk_ext_length n sk Hn Hsk) as HS.
  destruct (C05_relinearize_internal_phase P b n pairs (S (length sk)) msize a_size dsize dnum T K (sk_ext n sk) s_in e I
              HT HK Hd Hdrop HS Hsin He HI Hb HP HP2 Hkey) as [big [E1 [E2 E3]]].
  destruct (Proofs.C05Relin.relinearize_terms_length P b n pairs (S (length sk)) msize a_size dsize dnum T K (sk_ext n sk) s_in e I HT)
    as [LX LI].
  rewrite <- (Proofs.C03Phase.phase_val_phase_f P b n sk big msize Hn E2) in E3 by (intros; apply Hsk, nth_In; assumption).
  unfold glwe_relinearize, pre_normalize. rewrite Z.eqb_refl, E1.
  exact (Proofs.GadgetNorm.normalize_cols_after (wbig be) P n rb b res_size msize sk Sb big Hn E2 Hsk HSb (Hnorm big E1) _ _ E3 LX LI).
Qed.
Print Assumptions C05_relinearize_phase.

(* explicit envelope of the key-switch error of the relinearisation for dsize <= 2 (C03's gadget bound) *)
Theorem C05_relinearize_noise_bound :
  forall (P b : Z) (n pairs cols msize a_size dsize dnum : nat) (T : cols_t) (K : pmat) (Sk : nat -> list Z) (e : nat -> nat -> list Z) (D B : Z),
  wf_cols n (cols + pairs) a_size T -> (forall co, length (Sk co) = n) -> (forall row ci, length (e row ci) = n) ->
  (dsize <= 2)%nat -> 0 <= B ->
  (forall ci l, pnorm (acol n (skipn cols T) ci l) <= D) -> (forall row ci, pnorm (e row ci) <= B) ->
  pnorm (gadget_err P b n pairs cols msize dsize dnum (acol n (skipn cols T)) K Sk e)
  <= Z.of_nat dnum * Z.of_nat pairs * Z.of_nat n * (D * zsum (fun t => 2 ^ (Z.of_nat t * b)) dsize) * B.
Proof.
  intros P b n pairs cols msize a_size dsize dnum T K Sk e D B HT HS He Hds HB HD HE.
  pose proof (Proofs.GadgetPhase.acol_length n pairs a_size (skipn cols T) (Proofs.C05Relin.wf_skipn n cols pairs a_size T HT)) as LA.
  rewrite Proofs.C03Phase.gadget_err_small by assumption. unfold gadget_noise.
  apply Proofs.GadgetBound.C03_keyswitch_bound; assumption.
Qed.
Print Assumptions C05_relinearize_noise_bound.

(* when the key has at least as many limbs / digits as the tensor, the two sums are the phase of the whole tensor under (1, s, s (x) s) *)
Theorem C05_relin_sums_are_tensor_phase :
  forall n P b cols pairs msize a_size dsize dnum (T : cols_t) (Sk s_in : nat -> list Z),
  wf_cols n (cols + pairs) a_size T -> (a_size <= msize)%nat -> (a_size <= dnum * dsize)%nat ->
  (forall co, length (Sk co) = n) -> (forall ci, length (s_in ci) = n) ->
  padd (GadgetSpec.psumf n (fun co => pmul (GadgetSpec.pval P b n (acol n T co) (Nat.min msize a_size)) (Sk co)) cols)
       (GadgetSpec.psumf n (fun ci => pmul (pval_used P b n a_size dsize dnum (acol n (skipn cols T)) ci) (s_in ci)) pairs)
  = C05Spec.phase n P b T (map Sk (seq 0 cols) ++ map s_in (seq 0 pairs)).
Proof.
  intros n P b cols pairs msize a_size dsize dnum T Sk s_in HT H1 H2 _ _.
  rewrite (Proofs.C05RelinPhase.phase_cols_split n P b cols pairs a_size T Sk s_in HT).
  unfold pval_used. rewrite Nat.min_r by exact H1. rewrite Nat.min_l by exact H2. reflexivity.
Qed.
Print Assumptions C05_relin_sums_are_tensor_phase.

(* C05_relinearize_phase_full: decrypt(relinearize(tensor(a, b))), FFT64 family, one radix b everywhere, no hypothesis on any normaliser left:
     = tensor product of the two ciphertext vectors under sigma over exact products (Gm; C05_product_position, C05_convolution_truncation,
       C05_tensor_resummation say what it is in terms of phase(a) phase(b))
     + normalisation error of the tensor (Em: 1 resp. 3 units per column) + 2^P (integer)
     + gadget error of the key switch (C03; C05_relinearize_noise_bound) + rounding R of the final normalisation + 2^P (integer) *)
Theorem C05_relinearize_phase_full :
  forall (be : Z) (n rsz dsz hi asz bsz pairs msize res_size dsize dnum : nat) (P b lo : Z) (A B : list plimbs)
         (sigma : nat * nat -> list Z) (sk : list (list Z)) (s_in : nat -> list Z) (e I : nat -> nat -> list Z) (Sb : Z) (K : pmat)
         (res0 : list (list (list Z))),
  let cols := S (length sk) in
  let T := tensor_gen (cell_apply true n (big_nrm true n rsz b b lo) dsz hi A B) cols res0 in
  be <= 2 -> 1 <= b <= 62 -> (1 <= n)%nat ->
  zn rsz * b + zn dsz * b + Z.abs lo <= P -> (Z.of_nat res_size + Z.of_nat msize) * b <= P -> Z.of_nat dnum * Z.of_nat dsize * b <= P ->
  (forall i, (i < cols)%nat -> wfl n (colsel A i) /\ length (colsel A i) = asz) ->
  (forall i, (i < cols)%nat -> wfl n (colsel B i) /\ length (colsel B i) = bsz) ->
  (1 <= asz)%nat -> (1 <= bsz)%nat ->
  (forall i, (i < cols)%nat -> dom62 (Cn true n dsz hi A B i i)) ->
  (forall i j, (i < cols)%nat -> (j < cols)%nat -> i <> j -> dom62 (Pw true n dsz hi A B i j)) ->
  (forall ij, length (sigma ij) = n) ->
  length (tpairs cols) = (cols + pairs)%nat -> length res0 = length (tpairs cols) -> (forall r, In r res0 -> length r = rsz) ->
  map sigma (tpairs cols) = map (sk_ext n sk) (seq 0 cols) ++ map s_in (seq 0 pairs) ->
  wf_pmat_in n (dnum * pairs) (msize * cols) K -> (1 <= dsize)%nat -> (dsize - 2 <= msize)%nat ->
  (rsz <= msize)%nat -> (rsz <= dnum * dsize)%nat ->
  (forall s, In s sk -> length s = n) -> (forall s, In s sk -> pnorm s <= Sb) ->
  (forall ci, length (s_in ci) = n) -> (forall row ci, length (e row ci) = n) -> (forall row ci, length (I row ci) = n) ->
  key_rows_ok P b n pairs cols msize dsize dnum K (sk_ext n sk) s_in e I ->
  (forall big, relinearize_internal n cols T rsz dsize dnum msize K = Some big ->
     forall co j k, Z.abs (nth k (lim (col big co) j) 0) <= 2 ^ 62) ->
  exists res R Itot,
    glwe_relinearize be n b b b (length sk) rsz res_size dsize dnum msize T K = Some res /\
    length R = n /\ length Itot = n /\
    phase_val P b n sk res =
    padd (padd (padd (padd (padd
      (plsum n (map (fun ij => pmul (Gm true n dsz hi P b lo A B ij) (sigma ij)) (tpairs cols)))
      (plsum n (map (fun ij => pmul (Em true n dsz hi (eps64 n rsz P b lo) A B ij) (sigma ij)) (tpairs cols))))
      (C05Spec.pscale (2 ^ P) (plsum n (map (fun ij => pmul (Km true n dsz hi (kap64 n rsz P b lo) A B ij) (sigma ij)) (tpairs cols)))))
      (gadget_err P b n pairs cols msize dsize dnum (acol n (skipn cols T)) K (sk_ext n sk) e))
      R) (Gadget.pscale (2 ^ P) Itot) /\
    pnorm R <= (1 + Z.of_nat (length sk) * Z.of_nat n * Sb) * 2 ^ (P - Z.of_nat res_size * b) /\
    (forall ij c, (fst ij < cols)%nat -> (snd ij < cols)%nat ->
       Z.abs (nth c (Em true n dsz hi (eps64 n rsz P b lo) A B ij) 0) <= (if Nat.eqb (fst ij) (snd ij) then 1 else 3) * 2 ^ (P - zn rsz * b)).
Proof.
  intros be n rsz dsz hi asz bsz pairs msize res_size dsize dnum P b lo A B sigma sk s_in e I Sb K res0 cols T
         Hbe Hb Hn HP1 HP2 HP3 HA HB Ha Hbz Hd1 Hd2 Hsig Hpairs HL Hr Hkeys HK Hds Hdrop Hm1 Hm2 Hsk HSb Hsin He HI Hkey Hdom.
  destruct (C05_tensor_phase_fft64 n rsz dsz hi cols asz bsz P b lo A B sigma Hb HP1 HA HB Ha Hbz Hd1 Hd2 Hsig res0 HL Hr) as [TP EB].
  fold T in TP.
  pose proof (Proofs.C05RelinPhase.tensor_gen_wf_cols true n rsz b lo dsz hi A B cols pairs res0 Hpairs HL Hr) as WT. fold T in WT.
  assert (HPm : Z.of_nat msize * b <= P) by nia.
  pose proof (Proofs.C03Phase.sk_ext_length n sk Hn Hsk) as HS.
  destruct (C05_relinearize_phase be P b b n pairs msize rsz res_size dsize dnum T K sk s_in e I Sb
              WT HK Hn Hds Hdrop Hsk HSb Hsin He HI ltac:(lia) HPm HP3 Hkey) as (res & R & Itot & F1 & F2 & F3 & F4 & F5 & F6).
  { intros big Ebig. apply (Proofs.C05Relin.relinearize_cols_value_fft64 P b n pairs cols msize rsz dsize dnum T K (sk_ext n sk) s_in e I
                              WT HK Hds Hdrop HS Hsin He HI ltac:(lia) HPm HP3 Hkey be res_size big Hbe Hb HP2 Ebig (Hdom big Ebig)). }
  exists res, R, Itot. split; [exact F1|]. split; [exact F3|]. split; [exact F4|]. split; [|split; [exact F6|exact EB]].
  change (S (length sk)) with cols in F5. rewrite F5.
  rewrite (C05_relin_sums_are_tensor_phase n P b cols pairs msize rsz dsize dnum T (sk_ext n sk) s_in WT Hm1 Hm2 HS Hsin).
  rewrite <- Hkeys, TP. reflexivity.
Qed.
Print Assumptions C05_relinearize_phase_full.

(* the hypotheses of the relinearisation theorems are satisfiable (C03's example key: rank 1, one pair, n = 2), and the model runs *)
Example C05_relinearize_ex :
  let T : cols_t := [[1; 2]; [3; 4]] :: Proofs.C03Phase.ex3_ct in
  (exists big, relinearize_internal 2 2 T 2 2 1 2 Proofs.C03Phase.ex3_K = Some big /\ wf_cols 2 2 2 big) /\
  glwe_relinearize 1 2 4 4 4 1 2 2 2 1 2 T Proofs.C03Phase.ex3_K = Some [[[-5; -8]; [-5; -5]]; [[1; 2]; [3; 4]]].
Proof.
  intros T. split; [|reflexivity].
  destruct Proofs.C03Phase.C03_hypotheses_satisfiable_lemma as (_ & HK & _ & _ & Hd & Hdr & HS & _ & Hsin & Hz & Hb & HP & HP2 & Hkey).
  destruct (C05_relinearize_internal_phase 8 4 2 1 2 2 2 2 1 T Proofs.C03Phase.ex3_K (sk_ext 2 Proofs.C03Phase.ex3_sk)
              Proofs.C03Phase.ex3_sin Proofs.C03Phase.ex3_zero Proofs.C03Phase.ex3_zero) as (big & E1 & E2 & _); try assumption.
  - split; [reflexivity|]. intros [|[|[|ci]]] Hci; try lia; (split; [reflexivity|]); intros [|[|l]] Hl; try lia; reflexivity.
  - exists big. split; assumption.
Qed.
End RelinProps.


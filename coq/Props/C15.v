(* C15 — encrypted integers: bootstrap, word operations and bit surgery match u32.
   This file holds the statements of the property, each proved by `exact` or by a short derivation from the lemmas of
   Proofs/C15*.v, their Print Assumptions, and Examples.

   Reading guide
   * A ciphertext is represented by its *ideal plaintext*: the polynomial of Z[X]/(X^n+1), n = 2^logn, it decrypts to
     when every error term is below the decoding threshold ([poly] = coefficient index -> coefficient, meaningful on
     [0, n)); a prepared GGSW by the bit it encrypts.  Model/C15Uint.v transcribes FheUint's operations on these
     (p_rot = glwe_rotate, p_trace = glwe_trace, pack = glwe_pack, ...).
   * [std_wty lb] is the word type with LOG_BYTES = lb (u8, u16, u32, u64, u128 for lb = 0..4): BITS = 8 * 2^lb,
     LOG_BITS = lb + 3 and the trait's bit_index; [wtypes] are the word types *generated* from
     bdd_arithmetic/mod.rs on this run (Gen/C15_gen.v) and [C15_wtypes_are_std] says they are exactly those.
   * [cidx T logn i] = T::bit_index(i) << log_gap is the coefficient that holds bit i.
   * Noise is an explicit side condition: the predicates [quiet*] ("the accumulated error of this object is below its
     decoding threshold") are premises, never conclusions; the harness measures the margin at the test parameter set. *)
From Coq Require Import ZArith List Bool Lia.
From PV Require Import Model.Znx Model.Flat Model.DftAbs Model.Gadget Model.GadgetSpec Proofs.C07Ring.
From PV Require Import Gen.C15_gen Model.C13Bdd Model.C15Uint Model.C15Cbt Model.C15Word
  Proofs.C13Circuits Proofs.C15Layout Proofs.C15Surgery Proofs.C15WordProof Proofs.C15CbtProof Proofs.C15Blind
  Proofs.C15Examples Proofs.C15CbtGeneral Proofs.C15Retriever Proofs.C15Discharge.
Import ListNotations.
Open Scope Z_scope.

(** * Bit layout *)

Theorem C15_wtypes_are_std : wtypes = map std_wty [0; 1; 2; 3; 4].
Proof. exact wtypes_std. Qed.
Print Assumptions C15_wtypes_are_std.

(* for every generated word type, bit_index is a bijection on [0, BITS) *)
Theorem C15_bit_index_bijective : Forall (fun T =>
    (forall i, 0 <= i < w_bits T -> 0 <= w_bidx T i < w_bits T) /\
    (forall i j, 0 <= i < w_bits T -> 0 <= j < w_bits T -> w_bidx T i = w_bidx T j -> i = j) /\
    (forall c, 0 <= c < w_bits T -> exists i, 0 <= i < w_bits T /\ w_bidx T i = c)) wtypes.
Proof.
  rewrite wtypes_std, Forall_map. apply Forall_forall. intros lb Hlb. apply bit_index_bijective_std.
  cbn [In] in Hlb. lia.
Qed.
Print Assumptions C15_bit_index_bijective.

(* the trait's formula for every LOG_BYTES: a bijection of [0, 8 * 2^lb) with an explicit inverse *)
Theorem C15_bit_index_formula : forall lb i, 0 <= lb -> 0 <= i < 8 * 2 ^ lb ->
  bit_index lb i = (i mod 8) * 2 ^ lb + i / 8 /\ 0 <= bit_index lb i < 8 * 2 ^ lb /\ bit_index_inv lb (bit_index lb i) = i.
Proof.
  intros lb i Hlb Hi. split; [exact (bit_index_arith_eq lb i Hlb Hi)|].
  split; [exact (bit_index_range lb i Hlb Hi) | exact (bit_index_inv_left lb i Hlb Hi)].
Qed.
Print Assumptions C15_bit_index_formula.

(* encrypt then decrypt; which coefficient holds which bit; nothing anywhere else *)
Theorem C15_pack_get_bit_roundtrip : forall lb logn, 0 <= lb -> lb + 3 <= logn ->
  let T := std_wty lb in
  (forall w, 0 <= w < 2 ^ (8 * 2 ^ lb) -> p_dec T logn (p_enc T logn w) = w) /\
  (forall w i, 0 <= i < 8 * 2 ^ lb -> p_enc T logn w (cidx T logn i) = bitz w i) /\
  (forall w j, (forall i, 0 <= i < 8 * 2 ^ lb -> cidx T logn i <> j) -> p_enc T logn w j = 0) /\
  (forall w bit j, 0 <= bit < 8 * 2 ^ lb -> 0 <= j < 2 ^ logn ->
     get_bit_glwe T logn bit (p_enc T logn w) j = if j =? 0 then bitz w bit else 0) /\
  (forall w bit, 0 <= bit < 8 * 2 ^ lb -> get_bit_lwe T logn bit (p_enc T logn w) = bitz w bit) /\
  (forall w y j, 0 <= y < 2 ^ lb -> 0 <= j < 2 ^ logn ->
     get_byte T logn y (p_enc T logn w) j =
       if j mod (2 ^ lb * 2 ^ (logn - (lb + 3))) =? 0 then bitz w (8 * y + j / (2 ^ lb * 2 ^ (logn - (lb + 3)))) else 0) /\
  (forall bs : list bool, length bs = nbits T ->
     exists q, pack T logn (map (fun b : bool => p_const (if b then 1 else 0)) bs) = Some q /\
       p_dec T logn q = word_of_bits (nbits T) (fun i => nth (Z.to_nat i) bs false) /\
       forall k j, (k < nbits T)%nat -> 0 <= j < 2 ^ logn ->
         get_bit_glwe T logn (Z.of_nat k) q j = if j =? 0 then Z.b2z (nth k bs false) else 0).
Proof.
  intros lb logn Hlb Hlogn T.
  split; [exact (dec_enc_std lb logn Hlb Hlogn)|].
  split; [exact (enc_at_std lb logn Hlb Hlogn)|].
  split; [exact (enc_off T logn (bits_nonneg lb logn Hlb Hlogn))|].
  split; [exact (get_bit_glwe_enc lb logn Hlb Hlogn)|].
  split; [exact (get_bit_lwe_enc lb logn Hlb Hlogn)|].
  split; [exact (get_byte_enc lb logn Hlb Hlogn) | exact (pack_bits lb logn Hlb Hlogn)].
Qed.
Print Assumptions C15_pack_get_bit_roundtrip.

(** * Bit surgery *)

(* zero_byte and splice_u8 coefficient by coefficient, for arbitrary ciphertexts a, b *)
Theorem C15_splice_u8_coefficients : forall lb logn, 0 <= lb -> lb + 3 <= logn ->
  forall dst src (a b : poly), 0 <= dst < 2 ^ lb -> 0 <= src < 2 ^ lb ->
  let gap := 2 ^ (logn - (lb + 3)) in
  (forall j, 0 <= j < 2 ^ logn ->
     zero_byte (std_wty lb) logn dst a j = if (j - dst * gap) mod (2 ^ lb * gap) =? 0 then 0 else a j) /\
  exists r, splice_u8 (std_wty lb) logn dst src a b = Some r /\
    forall j, 0 <= j < 2 ^ logn ->
      r j = if (j - dst * gap) mod (2 ^ lb * gap) =? 0 then b (j - dst * gap + src * gap) else a j.
Proof.
  intros lb logn Hlb Hlogn dst src a b Hd Hs gap.
  split; [intros j; exact (zero_byte_closed lb logn Hlb Hlogn dst a j Hd) | exact (splice_u8_closed lb logn Hlb Hlogn dst src a b Hd Hs)].
Qed.
Print Assumptions C15_splice_u8_coefficients.

(* byte dst of the result is byte src of b, every other byte is a's; halfword likewise *)
Theorem C15_splice_positions : forall lb logn, 0 <= lb -> lb + 3 <= logn -> forall wa wb,
  let T := std_wty lb in
  (forall dst src, 0 <= dst < 2 ^ lb -> 0 <= src < 2 ^ lb ->
     exists r, splice_u8 T logn dst src (p_enc T logn wa) (p_enc T logn wb) = Some r /\
       forall i, 0 <= i < 8 * 2 ^ lb ->
         Z.testbit (p_dec T logn r) i = if i / 8 =? dst then Z.testbit wb (8 * src + i mod 8) else Z.testbit wa i) /\
  (forall dst src, 0 <= dst -> 2 * dst + 1 < 2 ^ lb -> 0 <= src -> 2 * src + 1 < 2 ^ lb ->
     exists r, splice_u16 T logn dst src (p_enc T logn wa) (p_enc T logn wb) = Some r /\
       forall i, 0 <= i < 8 * 2 ^ lb ->
         Z.testbit (p_dec T logn r) i = if i / 16 =? dst then Z.testbit wb (16 * src + i mod 16) else Z.testbit wa i).
Proof.
  intros lb logn Hlb Hlogn wa wb T.
  split; intros dst src.
  - intros Hd Hs. destruct (splice_u8_at lb logn Hlb Hlogn dst src (p_enc T logn wa) (p_enc T logn wb) Hd Hs) as (r & Er & Hr).
    exists r; split; [exact Er|]. intros i Hi. rewrite (dec_bit lb logn Hlb Hlogn), Hr by exact Hi.
    destruct (i / 8 =? dst); rewrite (enc_at_std lb logn Hlb Hlogn) by dlia; apply bitz_nonzero.
  - intros Hd0 Hd Hs0 Hs.
    destruct (splice_u16_at lb logn Hlb Hlogn dst src (p_enc T logn wa) (p_enc T logn wb) Hd0 Hd Hs0 Hs) as (r & Er & Hr).
    exists r; split; [exact Er|]. intros i Hi. rewrite (dec_bit lb logn Hlb Hlogn), Hr by exact Hi.
    destruct (i / 16 =? dst); rewrite (enc_at_std lb logn Hlb Hlogn) by dlia; apply bitz_nonzero.
Qed.
Print Assumptions C15_splice_positions.

(* sext(byte y): the bytes above y are filled with bit 8y+7 (the sign bit), everything else is unchanged *)
Theorem C15_sext_positions : forall lb logn, 0 <= lb -> lb + 3 <= logn -> forall y w, 0 <= y < 2 ^ lb ->
  exists r, sext (std_wty lb) logn y (p_enc (std_wty lb) logn w) = Some r /\
    forall i, 0 <= i < 8 * 2 ^ lb ->
      Z.testbit (p_dec (std_wty lb) logn r) i = if y <? i / 8 then Z.testbit w (8 * y + 7) else Z.testbit w i.
Proof.
  intros lb logn Hlb Hlogn y w Hy.
  destruct (sext_at lb logn Hlb Hlogn y (p_enc (std_wty lb) logn w) Hy) as (r & Er & Hr).
  exists r; split; [exact Er|]. intros i Hi. rewrite (dec_bit lb logn Hlb Hlogn), Hr by exact Hi.
  destruct (y <? i / 8); rewrite (enc_at_std lb logn Hlb Hlogn) by lia; apply bitz_nonzero.
Qed.
Print Assumptions C15_sext_positions.

(* cswap: (b - a) * bit + a and b - (b - a) * bit exchange the two values exactly when the bit is set *)
Theorem C15_swap_positions : forall (bit : bool) a b, cswap bit (a, b) = if bit then (b, a) else (a, b).
Proof. exact cswap_spec. Qed.
Print Assumptions C15_swap_positions.

(** * Blind selection / retrieval address (k >> bit_rsh) mod 2^bit_mask *)

Theorem C15_selection_index : forall kw rsh mask (m : fmap), 0 <= rsh -> 0 <= mask -> rsh + mask <= 32 ->
  glwe_blind_selection 32 (bits_of 32 kw) rsh mask m = Some (den (m ((kw / 2 ^ rsh) mod 2 ^ mask))).
Proof. exact (selection_index 32). Qed.
Print Assumptions C15_selection_index.

Theorem C15_retrieval_index : forall kw rsh mask (l : list Z), 0 <= rsh -> 0 <= mask -> rsh + mask <= 32 ->
  (kw / 2 ^ rsh) mod 2 ^ mask < Z.of_nat (length l) ->
  exists l', blind_retrieval (bits_of 32 kw) rsh mask l = Some l' /\ length l' = length l /\
             lget l' 0 = lget l ((kw / 2 ^ rsh) mod 2 ^ mask).
Proof. exact (retrieval_index 32). Qed.
Print Assumptions C15_retrieval_index.

(* glwe_blind_rotation multiplies by X^(+-((k >> bit_rsh) mod 2^bit_mask) << bit_lsh) (negacyclic, every coefficient) *)
Theorem C15_blind_rotation_amount : forall n kw (sign : bool) rsh mask lsh (a : poly),
  0 < n -> 0 <= rsh -> 0 <= mask -> 0 <= lsh -> rsh + mask <= 32 ->
  exists r, glwe_blind_rotation n (bits_of 32 kw) sign rsh mask lsh a = Some r /\
            forall j, 0 <= j < n ->
              r j = p_rot n ((if sign then 1 else -1) * (((kw / 2 ^ rsh) mod 2 ^ mask) * 2 ^ lsh)) a j.
Proof. intros n. exact (blind_rotation_amount 32 n). Qed.
Print Assumptions C15_blind_rotation_amount.

(* the streaming GLWEBlindRetriever (binary-counter accumulation, then flush): for every capacity (size 0 and 1 included:
   at least one accumulator since /repo 38e6b0c), every number of
   inputs 1 <= len <= 2^L and every selector, retrieve returns the input at index (k >> offset) mod 2^L *)
Theorem C15_retriever_index_full : forall size kw offset (data : list Z),
  0 <= size <= 2 ^ 31 -> 0 <= offset -> offset + retr_nacc size <= 32 ->
  Z.of_nat (length data) <= 2 ^ retr_nacc size ->
  (kw / 2 ^ offset) mod 2 ^ retr_nacc size < Z.of_nat (length data) ->
  retrieve size (bits_of 32 kw) offset data = Some (lget data ((kw / 2 ^ offset) mod 2 ^ retr_nacc size)).
Proof. exact (retriever_index 32). Qed.
Print Assumptions C15_retriever_index_full.

(* HISTORIES: one GLWEBlindRetriever object (Model/C15Uint.v: r_alloc, r_add, r_flush, r_reset, r_retrieve as the code has
   them — reset clears every num and the counter, the data words stay) through any list of complete rounds, each either
   retrieve(data, k, offset) (kind 0) or add(every input) ; flush (kind 1), with 1 <= len <= 2^L inputs and an index inside
   them: every round returns data[(k >> offset) mod 2^L], and the retriever is clean again after each round
   (counter 0, every num 0, L accumulators) — in particular an earlier round never influences a later one *)
Theorem C15_retriever_history : forall (size : Z) (rounds : list (Z * Z * Z * list Z)),
  Forall (fun r => let '(kind, kw, off, data) := r in
            (kind = 0 \/ kind = 1) /\ 0 <= off /\ off + retr_nacc size <= 32 /\
            Z.of_nat (length data) <= 2 ^ retr_nacc size /\
            (kw / 2 ^ off) mod 2 ^ retr_nacc size < Z.of_nat (length data)) rounds ->
  forall st,
  (r_cnt st = 0 /\ Forall (fun dn : Z * Z => snd dn = 0) (r_acc st) /\ Z.of_nat (length (r_acc st)) = retr_nacc size) ->
  exists st',
    r_history (map (fun r => let '(kind, kw, off, data) := r in (kind, bits_of 32 kw, off, data)) rounds) st =
      Some (map (fun r => let '(kind, kw, off, data) := r in lget data ((kw / 2 ^ off) mod 2 ^ retr_nacc size)) rounds, st') /\
    (r_cnt st' = 0 /\ Forall (fun dn : Z * Z => snd dn = 0) (r_acc st') /\ Z.of_nat (length (r_acc st')) = retr_nacc size).
Proof. exact (retriever_history 32). Qed.
Print Assumptions C15_retriever_history.

(* a freshly allocated retriever is clean *)
Theorem C15_retriever_alloc_clean : forall size,
  r_cnt (r_alloc size) = 0 /\ Forall (fun dn : Z * Z => snd dn = 0) (r_acc (r_alloc size)) /\
  Z.of_nat (length (r_acc (r_alloc size))) = retr_nacc size.
Proof. exact alloc_clean. Qed.
Print Assumptions C15_retriever_alloc_clean.

(* the reverse butterfly glwe_blind_retrieval_statefull_rev is covered by the correspondence check only *)

(** * Word operations *)

(* the homomorphic evaluator of eval.rs refines C13's eval_stale on the bits the selectors encrypt *)
Theorem C15_heval_refines_eval_stale :
  forall (glwe ggsw : Type) (cmux : glwe -> glwe -> ggsw -> glwe) (ct_zero ct_one : glwe)
         (enc_bit : glwe -> bool -> Prop) (enc_sel : ggsw -> bool -> Prop) (quiet : glwe -> Prop),
  enc_bit ct_zero false -> enc_bit ct_one true ->
  (* cmux_selects (C04) *)
  (forall t f s bt bf b, enc_bit t bt -> enc_bit f bf -> enc_sel s b -> quiet (cmux t f s) ->
                         enc_bit (cmux t f s) (if b then bt else bf)) ->
  forall (c : circuit) (s : nat -> ggsw) (e : nat -> bool) (nb : nat),
  exec_safe nb c = true -> (forall v, (v < nb)%nat -> enc_sel (s v) (e v)) ->
  Forall quiet (snd (heval glwe ggsw cmux ct_zero ct_one c s)) ->
  enc_bit (fst (heval glwe ggsw cmux ct_zero ct_one c s)) (eval_stale c e).
Proof. exact heval_correct. Qed.
Print Assumptions C15_heval_refines_eval_stale.

(* the hypothesis cmux_selects DISCHARGED against C04's phase theorem.  Ciphertexts come with their phase (n coefficients
   scaled by 2^P, as Gadget.phase_val), Delta = 2^(P-2) encodes a bit at coefficient 0;
     enc_c c q   := every coefficient of phase c is strictly within Delta/2 of Delta * q       (c decodes to q)
     quiet_c c   := phase c is within Delta/2 - BE of the encoding of some bit                  (noise side condition)
   If cmux satisfies the phase equation that C04_cmux_selects proves (selected input + error polynomial bounded by BE,
   modulo 2^P), the evaluator of eval.rs refines eval_stale.  What remains is noise only: the bound BE on one cmux's error
   polynomial (gadget error + final rounding) and quiet_c of every intermediate ciphertext. *)
Theorem C15_heval_refines_eval_stale_phase :
  forall (glwe ggsw : Type) (phase : glwe -> list Z) (n : nat) (P BE : Z) (cmux : glwe -> glwe -> ggsw -> glwe)
         (enc_sel : ggsw -> bool -> Prop) (ct_zero ct_one : glwe),
  3 <= P -> 0 <= BE -> (1 <= n)%nat ->
  (forall t f s b, enc_sel s b ->
     exists E I : list Z, (forall k, Z.abs (nth k E 0) <= BE) /\
       forall k, (k < n)%nat ->
         nth k (phase (cmux t f s)) 0 = nth k (phase (if b then t else f)) 0 + nth k E 0 + 2 ^ P * nth k I 0) ->
  enc_c glwe phase n P ct_zero (p_const 0) -> enc_c glwe phase n P ct_one (p_const 1) ->
  forall (c : circuit) (s : nat -> ggsw) (e : nat -> bool) (nb : nat),
  exec_safe nb c = true -> (forall v, (v < nb)%nat -> enc_sel (s v) (e v)) ->
  Forall (quiet_c glwe phase n P BE) (snd (heval glwe ggsw cmux ct_zero ct_one c s)) ->
  enc_c glwe phase n P (fst (heval glwe ggsw cmux ct_zero ct_one c s)) (p_const (if eval_stale c e then 1 else 0)).
Proof.
  intros glwe ggsw phase n P BE cmux enc_sel ct_zero ct_one HP HBE Hn Hph H0 H1 c s e nb Hsafe Hsel Hq.
  apply (heval_correct glwe ggsw cmux ct_zero ct_one
           (fun c (b : bool) => enc_c glwe phase n P c (p_const (if b then 1 else 0))) enc_sel (quiet_c glwe phase n P BE)
           H0 H1) with (nb := nb); auto.
  intros t f s0 bt bf b Ht Hf Hs Hqq.
  apply (cmux_selects_of_phase glwe ggsw phase n P BE cmux enc_sel HP HBE Hph Hn); auto.
Qed.
Print Assumptions C15_heval_refines_eval_stale_phase.

(* the phase equation itself, for the model Gadget.cmux of the real code (C04_cmux_selects, coefficient by coefficient,
   before the final normalisation whose rounding term is C03_normalize_cols_phase's R): the selector's GGSW cells
   (C04_ggsw_cells / key_rows_ok) encrypt bit in {0, 1}; E is C04's gadget_err *)
Theorem C15_cmux_phase_from_C04 :
  forall (be P b : Z) (n rank res_size t_size f_size dsize dnum msize : nat) (res0 t f : cols_t) (K : pmat)
         (Sk : nat -> list Z) (bit : Z) (e I : nat -> nat -> list Z),
    (1 <= n)%nat ->
    wf_cols n (S rank) t_size t -> wf_cols n (S rank) f_size f ->
    length res0 = S rank -> (forall co : nat, (co < S rank)%nat -> length (col res0 co) = msize) ->
    wf_pmat_in n (dnum * S rank) (msize * S rank) K ->
    (1 <= dsize)%nat -> (dsize - 2 <= msize)%nat ->
    (forall co : nat, length (Sk co) = n) ->
    (forall row ci : nat, length (e row ci) = n) -> (forall row ci : nat, length (I row ci) = n) ->
    0 <= b -> Z.of_nat msize * b <= P -> Z.of_nat dnum * Z.of_nat dsize * b <= P ->
    key_rows_ok P b n (S rank) (S rank) msize dsize dnum K Sk
      (fun ci : nat => pmul (pscale bit (pone n)) (Sk ci)) e I ->
    bit = 0 \/ bit = 1 ->
    (bit = 1 -> (f_size <= Nat.min res_size (dnum * dsize))%nat /\ (f_size <= msize)%nat) ->
    exists (big : cols_t) (E Iq : list Z),
      cmux be n b rank res_size t_size f_size dsize dnum msize res0 t f K =
        sequence (map (big_normalize (wbig be) n b b res_size) (map2 add_small big f)) /\
      E = gadget_err P b n (S rank) (S rank) msize dsize dnum
            (acol n (map2 (col_sub n res_size) t f)) K Sk e /\
      length E = n /\ length Iq = n /\
      forall k, (k < n)%nat ->
        nth k (phase_f P b n (S rank) msize (limbs_of (map2 add_small big f)) Sk) 0 =
        nth k (if bit =? 1 then phase_f P b n (S rank) (Nat.min res_size (dnum * dsize)) (acol n t) Sk
               else phase_f P b n (S rank) (Nat.min msize f_size) (acol n f) Sk) 0
        + nth k E 0 + 2 ^ P * nth k Iq 0.
Proof. exact cmux_phase_pointwise. Qed.
Print Assumptions C15_cmux_phase_from_C04.

(* packed encryption -> prepare (circuit bootstrapping of every bit) -> one of the ten compiled two-word circuits ->
   repack decrypts to the RISC-V word operation of C13 ((a+b) mod 2^32, a << (b & 31), signed <, ...) *)
Theorem C15_word_op_correct :
  forall (glwe ggsw lwe : Type) (cmux : glwe -> glwe -> ggsw -> glwe) (ct_zero ct_one : glwe)
         (get_lwe : glwe -> Z -> lwe) (cbt : lwe -> ggsw) (gpack : list glwe -> glwe) (decrypt : glwe -> Z) (logn : Z),
  5 <= logn ->
  forall (enc_poly : glwe -> poly -> Prop) (lwe_msg : lwe -> Z -> Prop) (enc_sel : ggsw -> bool -> Prop)
         (quiet : glwe -> Prop) (quiet_lwe : lwe -> Prop) (quiet_ggsw : ggsw -> Prop),
  enc_poly ct_zero (p_const 0) -> enc_poly ct_one (p_const 1) ->
  (* cmux_selects (C04) *)
  (forall t f s (bt bf b : bool),
     enc_poly t (p_const (if bt then 1 else 0)) -> enc_poly f (p_const (if bf then 1 else 0)) -> enc_sel s b ->
     quiet (cmux t f s) -> enc_poly (cmux t f s) (p_const (if (if b then bt else bf) then 1 else 0))) ->
  (* key-switch + sample extraction (C03) *)
  (forall c q i, enc_poly c q -> 0 <= i < 32 -> quiet_lwe (get_lwe c i) -> lwe_msg (get_lwe c i) (get_bit_lwe (std_wty 2) logn i q)) ->
  (* circuit bootstrapping, constant mode (C15_circuit_bootstrap_cells) + ggsw_prepare *)
  (forall l m b, lwe_msg l m -> cb_bit m = Some b -> quiet_ggsw (cbt l) -> enc_sel (cbt l) b) ->
  (* glwe_pack (C03) *)
  (forall cts qs q, Forall2 enc_poly cts qs -> pack (std_wty 2) logn qs = Some q -> quiet (gpack cts) -> enc_poly (gpack cts) q) ->
  (* decryption (C01) *)
  (forall c q, enc_poly c q -> quiet c -> decrypt c = p_dec (std_wty 2) logn q) ->
  forall (o : wop) (a b : Z) (ca cb : glwe),
  0 <= a < 2 ^ 32 -> 0 <= b < 2 ^ 32 ->
  enc_poly ca (p_enc (std_wty 2) logn a) -> enc_poly cb (p_enc (std_wty 2) logn b) ->
  (* every intermediate phase stays below its decoding threshold *)
  operand_quiet glwe ggsw lwe get_lwe cbt quiet_lwe quiet_ggsw ca ->
  operand_quiet glwe ggsw lwe get_lwe cbt quiet_lwe quiet_ggsw cb ->
  let res := hop2 glwe ggsw cmux ct_zero ct_one lwe get_lwe cbt gpack (wop_circ o) ca cb in
  Forall quiet (snd res) -> quiet (fst res) ->
  decrypt (fst res) = wop_fun o a b.
Proof. exact word_op_correct. Qed.
Print Assumptions C15_word_op_correct.

Theorem C15_identity_correct :
  forall (glwe ggsw lwe : Type) (cmux : glwe -> glwe -> ggsw -> glwe) (ct_zero ct_one : glwe)
         (get_lwe : glwe -> Z -> lwe) (cbt : lwe -> ggsw) (gpack : list glwe -> glwe) (decrypt : glwe -> Z) (logn : Z),
  5 <= logn ->
  forall (enc_poly : glwe -> poly -> Prop) (lwe_msg : lwe -> Z -> Prop) (enc_sel : ggsw -> bool -> Prop)
         (quiet : glwe -> Prop) (quiet_lwe : lwe -> Prop) (quiet_ggsw : ggsw -> Prop),
  enc_poly ct_zero (p_const 0) -> enc_poly ct_one (p_const 1) ->
  (forall t f s (bt bf b : bool),
     enc_poly t (p_const (if bt then 1 else 0)) -> enc_poly f (p_const (if bf then 1 else 0)) -> enc_sel s b ->
     quiet (cmux t f s) -> enc_poly (cmux t f s) (p_const (if (if b then bt else bf) then 1 else 0))) ->
  (forall c q i, enc_poly c q -> 0 <= i < 32 -> quiet_lwe (get_lwe c i) -> lwe_msg (get_lwe c i) (get_bit_lwe (std_wty 2) logn i q)) ->
  (forall l m b, lwe_msg l m -> cb_bit m = Some b -> quiet_ggsw (cbt l) -> enc_sel (cbt l) b) ->
  (forall cts qs q, Forall2 enc_poly cts qs -> pack (std_wty 2) logn qs = Some q -> quiet (gpack cts) -> enc_poly (gpack cts) q) ->
  (forall c q, enc_poly c q -> quiet c -> decrypt c = p_dec (std_wty 2) logn q) ->
  forall (a : Z) (ca : glwe),
  0 <= a < 2 ^ 32 -> enc_poly ca (p_enc (std_wty 2) logn a) ->
  operand_quiet glwe ggsw lwe get_lwe cbt quiet_lwe quiet_ggsw ca ->
  let res := hop1 glwe ggsw cmux ct_zero ct_one lwe get_lwe cbt gpack circuit_identity ca in
  Forall quiet (snd res) -> quiet (fst res) ->
  decrypt (fst res) = a.
Proof. exact identity_correct. Qed.
Print Assumptions C15_identity_correct.

(** * Circuit bootstrapping *)

(* blind rotation (C14), rotation (C02), trace / post_process (C03) and GGLWE -> GGSW expansion (C04) compose into:
   every cell (row, col) of the output GGSW encrypts the message of the input LWE — the constant m, or the monomial
   X^(m * 2^log_gap_out) in exponent mode — on every parameter set whose ideal rows decode to that message *)
Theorem C15_circuit_bootstrap_cells :
  forall (lwe glwe ggsw : Type) (blind_rotate : lwe -> glwe) (g_rot g_trace : Z -> glwe -> glwe)
         (g_post : glwe -> glwe) (g_expand : list glwe -> ggsw) (logn base2k dnum rank bb : Z) (expo : bool) (ld lgo : Z),
  0 <= dnum ->
  forall (lwe_msg : lwe -> Z -> Prop) (enc_poly : glwe -> poly -> Prop) (cell_enc : ggsw -> Z -> Z -> poly -> Prop)
         (quiet : glwe -> Prop) (quiet_ggsw : ggsw -> Prop),
  (* blind_rotation_phase, lut_set_then_rotate_selects (C14) *)
  (forall l m, lwe_msg l m -> 0 <= m < 2 ^ ld -> quiet (blind_rotate l) ->
               enc_poly (blind_rotate l) (br_acc logn base2k dnum bb expo ld m)) ->
  (* phase_rotate (C02) *)
  (forall k c q, enc_poly c q -> enc_poly (g_rot k c) (p_rot (2 ^ logn) k q)) ->
  (* trace (C03) *)
  (forall skip c q, enc_poly c q -> quiet (g_trace skip c) -> enc_poly (g_trace skip c) (p_trace (2 ^ logn) skip q)) ->
  (* trace + rotate + pack of post_process (C03) *)
  (forall c q q', enc_poly c q -> post_process logn dnum ld lgo q = Some q' -> quiet (g_post c) -> enc_poly (g_post c) q') ->
  (* GGLWE -> GGSW (C04) *)
  (forall rows (mp : poly), length rows = Z.to_nat dnum ->
     (forall i, 0 <= i < dnum -> exists c q, nth_error rows (Z.to_nat i) = Some c /\ enc_poly c q /\
                                             forall j, 0 <= j < 2 ^ logn -> row_decoded base2k dnum bb i q j = mp j) ->
     quiet_ggsw (g_expand rows) ->
     forall row col, 0 <= row < dnum -> 0 <= col <= rank -> cell_enc (g_expand rows) row col mp) ->
  forall l m, lwe_msg l m -> 0 <= m < 2 ^ ld ->
  cbt_rows_ok logn base2k dnum bb expo ld lgo m = true ->
  cbt_quiet lwe glwe ggsw blind_rotate g_rot g_trace g_post g_expand logn dnum expo ld quiet quiet_ggsw l ->
  forall row col, 0 <= row < dnum -> 0 <= col <= rank ->
    cell_enc (cbt_ct lwe glwe ggsw blind_rotate g_rot g_trace g_post g_expand logn dnum expo ld l) row col (cand logn expo lgo m).
Proof. exact circuit_bootstrap_cells. Qed.
Print Assumptions C15_circuit_bootstrap_cells.

(* the premise [cbt_rows_ok] at the crate's test parameter set (N = 256, base2k = 13, dnum = 2, blind-rotation radix 12): constant mode for
   log_domain 1, 2 and every message; exponent mode through both branches of post_process (packing, and trace only
   when log_gap_out = log_gap_in — the branch repaired by /repo commit b689fc8) *)
Theorem C15_cbt_rows_ok_partial :
  forallb (fun ld => forallb (fun m => cbt_rows_ok 8 13 2 12 false ld 0 m) (zseq 0 (Z.to_nat (2 ^ ld)))) [1; 2] = true /\
  (log_gap_in 8 2 1 = 7 /\ log_gap_in 8 2 2 = 6 /\
   forallb (fun lgo => forallb (fun m => cbt_rows_ok 8 13 2 12 true 1 lgo m) [0; 1]) [0; 1; 2; 3; 4; 5; 6; 7] = true /\
   forallb (fun lgo => forallb (fun m => cbt_rows_ok 8 13 2 12 true 2 lgo m) [0; 1; 2; 3]) [0; 1; 2; 3; 4; 5; 6] = true).
Proof.
  split.
  - apply forallb_forall. intros ld Hld. apply forallb_forall. intros m Hm. apply in_zseq in Hm. cbn [In] in Hld.
    apply test_rows; lia.
  - split; [reflexivity|]. split; [reflexivity|].
    split; apply forallb_forall; intros lgo Hl; apply forallb_forall; intros m Hm; cbn [In] in Hl, Hm; apply test_rows; lia.
Qed.
Print Assumptions C15_cbt_rows_ok_partial.

(* constant mode (the mode FheUintPrepared::prepare uses) for ALL parameter sets: every ring degree, gadget (base2k, dnum)
   and log_domain with 2^ld * next_pow2(dnum) < 2^logn (the code's assert gap > 0) and ld < base2k, every message *)
Theorem C15_cbt_rows_ok_constant : forall logn base2k dnum bb ld m,
  1 <= dnum -> 0 <= ld -> ld + 1 <= base2k -> 1 <= bb ->
  (* the overflow assert of circuit_bootstrap_core holds (no lookup-table coefficient leaves i64) *)
  cb_asserts base2k dnum bb false ld = true ->
  2 * (2 ^ ld * next_pow2 dnum) <= 2 ^ logn -> 0 <= logn ->
  0 <= m < 2 ^ ld ->
  cbt_rows_ok logn base2k dnum bb false ld 0 m = true.
Proof. intros. apply cbt_rows_ok_modes; auto. discriminate. Qed.
Print Assumptions C15_cbt_rows_ok_constant.

(* the parameter sets whose lookup-table coefficients would leave i64 (1 << 63; 2^60 * scale 2^4; 8 * 2^60) are rejected by
   that assert since /repo a84e8a5 (before the repair every assert passed and row 0 of the GGSW was wrong); the test
   parameter set and res_base2k = 20, dnum = 3 are accepted *)
Theorem C15_cbt_lut_overflow_rejected :
  cb_asserts 21 4 14 false 1 = false /\ cb_row 8 21 4 14 false 1 0 1 0 = None /\
  cb_asserts 20 4 14 false 1 = false /\ cb_asserts 30 3 15 false 4 = false /\ cb_asserts 21 4 14 true 1 = false /\
  cb_asserts 13 2 12 false 1 = true /\ cb_asserts 13 2 12 true 1 = true /\ cb_asserts 20 3 15 false 1 = true.
Proof. vm_compute. repeat split; reflexivity. Qed.
Print Assumptions C15_cbt_lut_overflow_rejected.

(* the full statement: both modes (constant; exponent through both branches of post_process), ALL parameter sets *)
Theorem C15_cbt_rows_ok_full :
  forall logn base2k dnum bb expo ld lgo m,
    1 <= dnum -> 0 <= ld -> ld + 1 <= base2k -> 2 <= base2k -> 1 <= bb ->
    (* the overflow assert of circuit_bootstrap_core *)
    cb_asserts base2k dnum bb expo ld = true ->
    (* the code's assert gap > 0 *)
    2 * (2 ^ ld * next_pow2 dnum) <= 2 ^ logn -> 0 <= logn ->
    (* glwe_pack's assert on the largest key *)
    0 <= lgo -> (2 ^ ld - 1) * 2 ^ lgo < 2 ^ logn ->
    0 <= m < 2 ^ ld ->
    cbt_rows_ok logn base2k dnum bb expo ld lgo m = true.
Proof. intros. apply cbt_rows_ok_modes; auto. Qed.
Print Assumptions C15_cbt_rows_ok_full.

(** * Examples: the statements are not vacuous *)

Example C15_ex_layout_u32 : map (bit_index 2) [0; 1; 7; 8; 9; 31] = [0; 4; 28; 1; 5; 31].
Proof. reflexivity. Qed.

(* splice_u8(dst = 2, src = 0) of 0xFFFFFFFF and 0xAABBCCDD at N = 256 decrypts to 0xFFDDFFFF *)
Example C15_ex_splice : option_map (p_dec (std_wty 2) 8)
    (splice_u8 (std_wty 2) 8 2 0 (p_enc (std_wty 2) 8 4294967295) (p_enc (std_wty 2) 8 2864434397)) = Some 4292739071.
Proof. vm_compute. reflexivity. Qed.

(* sext from byte 1 of 0x84838281 is 0xFFFF8281, from byte 1 of 0x44434241 is 0x00004241 (the crate's own test values) *)
Example C15_ex_sext :
  option_map (p_dec (std_wty 2) 8) (sext (std_wty 2) 8 1 (p_enc (std_wty 2) 8 2223211137)) = Some 4294935169 /\
  option_map (p_dec (std_wty 2) 8) (sext (std_wty 2) 8 1 (p_enc (std_wty 2) 8 1145258561)) = Some 16961.
Proof. vm_compute. auto. Qed.

Example C15_ex_selection :
  glwe_blind_selection 32 (bits_of 32 (5 * 8)) 3 3 (fm_set (fm_set fm_empty 5 (Some 77)) 2 (Some 11)) = Some 77.
Proof. vm_compute. reflexivity. Qed.

(* the hypotheses of C15_word_op_correct are satisfiable: the noise-free ideal scheme (a ciphertext is its ideal
   plaintext, cmux t f s = if s then t else f, ...) meets all of them (Proofs/C15Examples.v: ideal_word_hyps), and the
   theorem then gives, for all words and all ten operations: *)
Example C15_ex_word_op_hypotheses_satisfiable : forall logn, 5 <= logn -> forall (o : wop) a b,
  0 <= a < 2 ^ 32 -> 0 <= b < 2 ^ 32 ->
  p_dec (std_wty 2) logn
    (fst (hop2 poly bool i_cmux (p_const 0) (p_const 1) Z (i_get_lwe logn) i_cbt (i_pack logn) (wop_circ o)
            (p_enc (std_wty 2) logn a) (p_enc (std_wty 2) logn b))) = wop_fun o a b.
Proof.
  intros logn Hlogn o a b Ha Hb. destruct (ideal_word_hyps logn) as (H1 & H2 & H3 & H4 & H5).
  apply (word_op_correct poly bool Z i_cmux (p_const 0) (p_const 1) (i_get_lwe logn) i_cbt (i_pack logn)
           (p_dec (std_wty 2) logn) logn Hlogn eq eq eq always always always eq_refl eq_refl H1 H2 H3 H4 H5 o a b); auto.
  - intros i Hi; split; exact I.
  - intros i Hi; split; exact I.
  - apply Forall_always.
  - exact I.
Qed.

(* likewise for C15_circuit_bootstrap_cells *)
Example C15_ex_cbt_hypotheses_satisfiable : forall logn base2k dnum rank bb expo ld lgo, 0 <= dnum -> forall m,
  0 <= m < 2 ^ ld -> cbt_rows_ok logn base2k dnum bb expo ld lgo m = true ->
  forall row col, 0 <= row < dnum -> 0 <= col <= rank ->
    j_cell logn base2k dnum bb
      (cbt_ct Z poly (list poly) (j_blind_rotate logn base2k dnum bb expo ld) (p_rot (2 ^ logn)) (p_trace (2 ^ logn))
              (j_post logn dnum ld lgo) j_expand logn dnum expo ld m)
      row col (cand logn expo lgo m).
Proof.
  intros logn base2k dnum rank bb expo ld lgo Hdnum m Hm Hok.
  apply (circuit_bootstrap_cells Z poly (list poly) (j_blind_rotate logn base2k dnum bb expo ld) (p_rot (2 ^ logn))
           (p_trace (2 ^ logn)) (j_post logn dnum ld lgo) j_expand logn base2k dnum rank bb expo ld lgo Hdnum
           eq eq (j_cell logn base2k dnum bb) always always).
  - intros l m' -> _ _. reflexivity.
  - intros k c q ->. reflexivity.
  - intros skip c q -> _. reflexivity.
  - intros c q q' -> Hp _. unfold j_post. now rewrite Hp.
  - intros rows mp _ H _ row col Hrow _. destruct (H row Hrow) as (c & q & E & -> & Hq). exists q; auto.
  - reflexivity.
  - exact Hm.
  - exact Hok.
  - repeat split; try exact I. apply Forall_always.
Qed.

(* a retriever allocated for 8 inputs, used twice on 3 inputs (the case where a stale top accumulator would show) and then
   on 8: every round returns its own data[idx] *)
Example C15_ex_retriever_history :
  option_map fst (r_history [(0, bits_of 32 0, 0, [11; 12; 13]); (0, bits_of 32 1, 0, [21; 22; 23]);
                             (1, bits_of 32 2, 0, [31; 32; 33]); (1, bits_of 32 7, 0, [41; 42; 43; 44; 45; 46; 47; 48])]
                            (r_alloc 8)) = Some [11; 22; 33; 48].
Proof. vm_compute. reflexivity. Qed.

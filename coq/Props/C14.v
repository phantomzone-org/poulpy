(* C14 -- blind rotation evaluates the lookup table at the encrypted index.  The statements of the property, each proved by
   `exact` or by a short derivation from the lemmas of Proofs/, with Print Assumptions.
   Models: Model/C14Lut.v (lookup_table_set / lookup_table_rotate / mod_switch_2n / set_xai_plus_y, transcriptions of
   poulpy-bin-fhe/src/blind_rotation/{lut.rs, algorithms/mod.rs, utils.rs}), Model/C14Blind.v (the CGGI accumulator loops of
   algorithms/cggi/algorithm.rs at the level of phases), spec notions: Model/Poly.v, Model/C14Spec.v. *)
(* C04's notions first, so that the C14 names (padd, pscale, chunks, ...) are the ones in scope below *)
From PV Require Import Model.DftAbs Model.Gadget Model.GadgetSpec Proofs.C04Phase.
From PV Require Import Base.MachineInt Model.Znx Model.Limbs Model.Ring Model.Poly
  Model.C14Lut Model.C14Spec Model.C14Blind Model.C14Run Model.C14Oracle.
From PV Require Import Proofs.C14Rotate Proofs.C14Set Proofs.C14Poly Proofs.C14Approx Proofs.C14Blind Proofs.C14Abstract Proofs.C14ModSwitch.
From PV Require Import Proofs.C14FromC04 Proofs.C14History.
Open Scope Z_scope.

(* interleaving the ext polynomials: a bijection onto coefficient lists of length N*ext *)
Theorem C14_interleave_bijection :
  (forall (n : nat) (parts : list (list Z)),
     (0 < length parts)%nat -> Forall (fun p : list Z => length p = n) parts ->
     deinterleave (length parts) (interleave (n * length parts) parts) = parts) /\
  (forall (n e : nat) (a : list Z),
     (0 < e)%nat -> length a = (n * e)%nat ->
     interleave (n * e) (deinterleave e a) = a /\
     length (deinterleave e a) = e /\ Forall (fun p : list Z => length p = n) (deinterleave e a)).
Proof.
  split; [exact deinterleave_interleave|].
  intros n e a He Hl. split; [exact (interleave_deinterleave n e a He Hl) | exact (deinterleave_shape n e a He Hl)].
Qed.
Print Assumptions C14_interleave_bijection.

(* ... under which lookup_table_rotate k is multiplication by Y^k in Z[Y]/(Y^(N*ext)+1), for EVERY integer k, every limb *)
Theorem C14_lut_rotate_is_big_ring_rotation :
  forall (m x size : nat) (data : lut) (k : Z),
    (m + x + 1 <= 62)%nat -> length data = (2 ^ x)%nat -> lut_wf (2 ^ m) size data ->
    length (lookup_table_rotate (2 ^ m) k data) = length data /\
    lut_wf (2 ^ m) size (lookup_table_rotate (2 ^ m) k data) /\
    forall l, (l < size)%nat ->
      lut_big (2 ^ m) (lookup_table_rotate (2 ^ m) k data) l = monomial_mul 64 k (lut_big (2 ^ m) data l).
Proof. exact lut_rotate_is_big_ring_rotation. Qed.
Print Assumptions C14_lut_rotate_is_big_ring_rotation.

(* the code's `((k + 2N ext) % (2N ext)) as usize`: the canonical residue for -2N ext <= k ... *)
Theorem C14_lut_rotate_index_exact :
  forall (m x : nat) (k : Z), (m + x + 1 <= 62)%nat ->
    let T := 2 * Z.of_nat (2 ^ m) * Z.of_nat (2 ^ x) in
    - T <= k < 2 ^ 62 -> lut_kpos (2 ^ m) (Z.of_nat (2 ^ x)) k = k mod T.
Proof.
  intros m x k Hmx T Hk.
  assert (HT : 0 < T <= 2 ^ 62).
  { unfold T. rewrite pow2_T_val. split; [apply pow2_pos; lia | apply Z.pow_le_mono_r; lia]. }
  apply kpos_small; fold T; lia.
Qed.
Print Assumptions C14_lut_rotate_index_exact.
(* ... and congruent to k for every other k (the complement is NOT a defect: the u64 reinterpretation adds 2^64, a multiple of 2N ext) *)
Theorem C14_lut_rotate_index_congruent :
  forall (m x : nat) (k : Z), (m + x + 1 <= 62)%nat ->
    let T := 2 * Z.of_nat (2 ^ m) * Z.of_nat (2 ^ x) in
    (lut_kpos (2 ^ m) (Z.of_nat (2 ^ x)) k) mod T = k mod T.
Proof.
  intros m x k Hmx T. destruct (pow2_T_gen m x ltac:(lia)) as [c Hc].
  assert (HT : 0 < T) by (unfold T; rewrite pow2_T_val; apply pow2_pos; lia).
  destruct (kpos_shift (2 ^ m) (Z.of_nat (2 ^ x)) k c HT Hc) as [q ->]. apply Z.mod_add. lia.
Qed.
Print Assumptions C14_lut_rotate_index_congruent.
Theorem C14_lut_rotate_index_wraps : lut_kpos 1 1 (-3) = 2 ^ 64 - 1 /\ (-3) mod 2 = 1.
Proof. split; reflexivity. Qed.
Print Assumptions C14_lut_rotate_index_wraps.

(* every limb l, every big-ring coefficient u, every rotation k: after set(f, kmsg) and rotate(k) the table holds the limbs of
   (-1)^(t div domain) * f[(t mod domain) / step] * scale,  t = u + drift - k  (Model/C14Spec.v: selected_limbs) *)
Theorem C14_lut_set_then_rotate_table :
  forall (m x : nat) (b klut kmsg : Z) (f : list Z),
    (m + x + 1 <= 62)%nat -> 1 <= b <= 62 ->
    1 <= Z.of_nat (length f) <= Z.of_nat (2 ^ m) ->
    Z.of_nat (2 ^ m * 2 ^ x) mod Z.of_nat (length f) = 0 ->
    Forall (fun fi : Z => Z.abs (wmul 64 fi (lut_scale b kmsg)) <= 2 ^ 62) f ->
    forall (data : lut) (drift' : Z),
    lookup_table_set (2 ^ m) (2 ^ x) b klut kmsg f = Some (data, drift') ->
    forall (k : Z) (l u : nat),
    (l < Z.to_nat (div_ceil klut b))%nat -> (u < 2 ^ m * 2 ^ x)%nat ->
    nthZ (lut_big (2 ^ m) (lookup_table_rotate (2 ^ m) k data) l) u =
    nthZ (selected_limbs (Z.of_nat (2 ^ m * 2 ^ x)) (Z.of_nat (2 ^ m * 2 ^ x) / Z.of_nat (length f))
            (Z.of_nat (2 ^ m * 2 ^ x) / Z.of_nat (length f) / 2) b (Z.to_nat (div_ceil klut b))
            (Z.to_nat (div_ceil kmsg b)) (lut_scale b kmsg) f k (Z.of_nat u)) l.
Proof. exact set_then_rotate_limb. Qed.
Print Assumptions C14_lut_set_then_rotate_table.

(* coefficient 0, any rotation k (k = -j: Left, k = +j: Right) *)
Theorem C14_lut_set_then_rotate_selects :
  forall (m x : nat) (b klut kmsg : Z) (f : list Z),
    (m + x + 1 <= 62)%nat -> 1 <= b <= 62 ->
    1 <= Z.of_nat (length f) <= Z.of_nat (2 ^ m) ->
    Z.of_nat (2 ^ m * 2 ^ x) mod Z.of_nat (length f) = 0 ->
    Forall (fun fi : Z => Z.abs (wmul 64 fi (lut_scale b kmsg)) <= 2 ^ 62) f ->
    forall (data : lut) (drift' : Z),
    lookup_table_set (2 ^ m) (2 ^ x) b klut kmsg f = Some (data, drift') ->
    forall k : Z,
    coeff0 (lookup_table_rotate (2 ^ m) k data) =
    selected_limbs (Z.of_nat (2 ^ m * 2 ^ x)) (Z.of_nat (2 ^ m * 2 ^ x) / Z.of_nat (length f))
      (Z.of_nat (2 ^ m * 2 ^ x) / Z.of_nat (length f) / 2) b (Z.to_nat (div_ceil klut b)) (Z.to_nat (div_ceil kmsg b))
      (lut_scale b kmsg) f k 0.
Proof. exact set_then_rotate_selects. Qed.
Print Assumptions C14_lut_set_then_rotate_selects.

(* the property text: after rotating by -j the constant coefficient is +-f[floor((j + drift)/step) mod len] * scale (as
   normalised limbs), negated iff floor((j + drift)/domain) is odd -- every j (in particular every j in [0, 2N ext)) *)
Theorem C14_lut_set_then_rotate_selects_left :
  forall (m x : nat) (b klut kmsg : Z) (f : list Z) (data : lut) (drift' j : Z),
    let n := (2 ^ m)%nat in let ext := (2 ^ x)%nat in
    let domain := Z.of_nat (n * ext) in let len := Z.of_nat (length f) in
    let step := domain / len in let drift := step / 2 in
    let size := Z.to_nat (div_ceil klut b) in let nl := Z.to_nat (div_ceil kmsg b) in
    let scale := lut_scale b kmsg in
    (m + x + 1 <= 62)%nat -> 1 <= b <= 62 -> 1 <= len <= Z.of_nat n -> domain mod len = 0 ->
    Forall (fun fi => Z.abs (wmul 64 fi scale) <= 2 ^ 62) f ->
    lookup_table_set n ext b klut kmsg f = Some (data, drift') ->
    coeff0 (lookup_table_rotate n (- j) data) =
      let e := entry_limbs b size nl (wmul 64 (nthZ f (Z.to_nat (((j + drift) / step) mod len))) scale) in
      if Z.even ((j + drift) / domain) then e else map (wneg 64) e.
Proof.
  intros m x b klut kmsg f data drift' j.
  cbv zeta. intros Hmx Hb Hlen Hdiv Hhead Hset.
  rewrite (set_then_rotate_selects m x b klut kmsg f Hmx Hb Hlen Hdiv Hhead data drift' Hset (- j)).
  unfold selected_limbs. cbv zeta.
  set (domain := Z.of_nat (2 ^ m * 2 ^ x)) in *. set (len := Z.of_nat (length f)) in *.
  set (step := domain / len). set (drift := step / 2).
  replace (0 + drift - - j) with (j + drift) by lia.
  assert (Hs : len * step = domain).
  { unfold step. pose proof (Z.div_mod domain len ltac:(lia)) as Hd. rewrite Hdiv in Hd. lia. }
  assert (Hdpos : 0 < domain).
  { unfold domain. pose proof (Nat.pow_nonzero 2 m ltac:(lia)). pose proof (Nat.pow_nonzero 2 x ltac:(lia)). nia. }
  assert (Hs1 : 0 < step) by nia.
  assert (Hdm : ((j + drift) mod domain) / step = ((j + drift) / step) mod len).
  { rewrite <- Hs. apply mod_div_mul; lia. }
  rewrite Hdm. reflexivity.
Qed.
Print Assumptions C14_lut_set_then_rotate_selects_left.

(* Model/C14Lut.v: lstate = {data, drift, rot_dir}; `set` rewrites data and drift and leaves rot_dir alone (as lut.rs does).
   After any history from a fresh table: the direction is the one requested last (default Left) -- independent of the
   interleaved `set` calls -- and table and drift are those of the last `set`. *)
Theorem C14_history_direction_and_table :
  forall (n ext : nat) (b klut : Z) (evs : list levent) (st : lstate),
    run_events n ext b klut evs (lut_alloc n ext b klut) = Some st ->
    st_left st = last_dir evs true /\
    match last_set evs None with
    | Some kf => lookup_table_set n ext b klut (fst kf) (snd kf) = Some (st_data st, st_drift st)
    | None => st_data st = st_data (lut_alloc n ext b klut) /\ st_drift st = 0
    end.
Proof.
  intros n ext b klut evs st H. split; [exact (run_events_dir n ext b klut evs _ _ H)|].
  exact (run_events_table n ext b klut (st_data (lut_alloc n ext b klut)) 0 evs _ _ None (conj eq_refl eq_refl) H).
Qed.
Print Assumptions C14_history_direction_and_table.
Theorem C14_history_direction_ignores_set :
  forall (evs : list levent) (l0 : bool),
    last_dir evs l0 = last_dir (filter (fun ev => match ev with EDir _ => true | ESet _ _ => false end) evs) l0.
Proof.
  intros evs. induction evs as [|ev t IH]; intros l0; [reflexivity|].
  destruct ev as [l|k f]; unfold last_dir in *; cbn [filter fold_left]; apply IH.
Qed.
Print Assumptions C14_history_direction_ignores_set.
Theorem C14_history_last_request_wins :
  forall (evs : list levent) (l l0 : bool) (k : Z) (f : list Z),
    last_dir (evs ++ [EDir l]) l0 = l /\ last_dir (evs ++ [ESet k f]) l0 = last_dir evs l0.
Proof. intros evs l l0 k f. unfold last_dir. rewrite !fold_left_app. split; reflexivity. Qed.
Print Assumptions C14_history_last_request_wins.

(* mod_switch_2n, as repaired by /repo e75ed0e *)
(* BOTH branches, every radix 1 <= b <= 62, 2N ext = 2^t: with size = min(ceil((t+1)/b), #limbs) and tot = size*b, the integer A
   denoted by the first `size` limbs (direction sign on every limb) is rounded to t bits, ties up:
   res = floor((A + 2^(tot-t-1)) / 2^(tot-t))   [a ciphertext with no more than t bits is zero-extended: res = A * 2^(t-tot)],
   hence | res / 2^t - A / 2^tot | <= 2^-(t+1): within half a step of the torus value, and |res| <= 2N ext.
   (radix b > t+1: size = 1, the first branch of the code; otherwise its second branch.) *)
Theorem C14_mod_switch_range_and_rounding :
  forall (t b : Z) (left : bool) (ls : list (list Z)) (w : nat),
    1 <= t <= 61 -> 1 <= b <= 62 -> (0 < length ls)%nat ->
    Forall (fun l : list Z => length l = w) ls ->
    Forall (Forall (in_range b)) ls ->
    Z.min (div_ceil (t + 1) b) (Z.of_nat (length ls)) * b <= 62 ->
    exists res : list Z,
      mod_switch_2n (2 ^ t) b left ls = Some res /\ length res = w /\
      (forall i : nat, (i < w)%nat ->
         let A := limbs_int b
                    (firstn (Z.to_nat (Z.min (div_ceil (t + 1) b) (Z.of_nat (length ls))))
                       (map (fun l : list Z => if left then - nthZ l i else nthZ l i) ls)) in
         nthZ res i =
           (if t <? Z.min (div_ceil (t + 1) b) (Z.of_nat (length ls)) * b
            then (A + 2 ^ (Z.min (div_ceil (t + 1) b) (Z.of_nat (length ls)) * b - t - 1)) /
                 2 ^ (Z.min (div_ceil (t + 1) b) (Z.of_nat (length ls)) * b - t)
            else A * 2 ^ (t - Z.min (div_ceil (t + 1) b) (Z.of_nat (length ls)) * b)) /\
         Z.abs (nthZ res i * 2 ^ (Z.min (div_ceil (t + 1) b) (Z.of_nat (length ls)) * b) - A * 2 ^ t) <=
           2 ^ (Z.min (div_ceil (t + 1) b) (Z.of_nat (length ls)) * b - 1) /\
         Z.abs (nthZ res i) <= 2 ^ t).
Proof. exact mod_switch_rounds. Qed.
Print Assumptions C14_mod_switch_range_and_rounding.

Theorem C14_xai_plus_y_poly :
  forall m ai y : Z, 0 <= m -> 0 <= ai < 2 * 2 ^ m ->
    let r := set_xai_plus_y (2 ^ m) ai y (zeros (Z.to_nat (2 ^ m))) in
    length (fst r) = Z.to_nat (2 ^ m) /\
    snd r = zeros (Z.to_nat (2 ^ m)) /\
    (forall j : nat, (j < Z.to_nat (2 ^ m))%nat ->
       nthZ (fst r) j =
       (if (j =? 0)%nat
        then wadd 64 (nthZ (monomial_mul 64 ai (upd (zeros (Z.to_nat (2 ^ m))) 0 1)) 0) y
        else nthZ (monomial_mul 64 ai (upd (zeros (Z.to_nat (2 ^ m))) 0 1)) j)).
Proof. exact xai_plus_y_poly. Qed.
Print Assumptions C14_xai_plus_y_poly.

(* Over ABSTRACT ciphertexts, with the error term:
   approx L M B x y  :=  x = y + E + M * J for some E, J of length L with |E|_inf <= B   (Proofs/C14Approx.v);
   M = 2^P is the torus modulus at the working precision, B the bound on the error of one external product.
   The external product enters only through the hypothesis marked `external_product_phase` in each theorem, which is the
   shape of C04_external_product_phase; C14_external_product_phase_from_C04 below derives it from C04. *)

(* standard CGGI (execute_standard): with the phase equations of mul_xp_minus_one / add (C02),
   phase(acc_final) = X^(sum a_i s_i) * phase(acc_0) + E + M J,  |E|_inf <= 2 B n_lwe *)
Theorem C14_blind_rotation_phase :
  forall (ct : Type) (phase : ct -> poly) (N : nat) (M B : Z) (extprod : ct -> nat -> ct)
         (mulxp : Z -> ct -> ct) (ctadd : ct -> ct -> ct) (s : nat -> Z),
    (forall c : ct, length (phase c) = N) ->
    (forall i : nat, s i = 0 \/ s i = 1) ->
    (* external_product_phase *)
    (forall (acc : ct) (i : nat), approx N M B (phase (extprod acc i)) (pscale (s i) (phase acc))) ->
    (forall (a : Z) (c : ct), phase (mulxp a c) = xp_minus_one a (phase c)) ->
    (forall c d : ct, phase (ctadd c d) = padd (phase c) (phase d)) ->
    forall (av : list Z) (i : nat) (acc : ct),
    approx N M (2 * B * Z.of_nat (length av)) (phase (std_loop ct extprod mulxp ctadd i av acc))
      (zrot (expo s i av) (phase acc)).
Proof. exact standard_phase. Qed.
Print Assumptions C14_blind_rotation_phase.

(* block-binary (execute_block_binary): per block, the update is linear in the products taken from the accumulator at the start
   of the block (block_update_phase: DFT-domain linear algebra + final normalisation, up to Bn); at most one selected
   coefficient per block (blk_ok);  |E|_inf <= sum over blocks (2 B |block| + Bn) *)
Theorem C14_blind_rotation_phase_block_abstract :
  forall (ct : Type) (phase : ct -> poly) (N : nat) (M B Bn : Z) (extprod : ct -> nat -> ct)
         (blockupd : ct -> nat -> list Z -> ct) (s : nat -> Z),
    (0 < N)%nat -> 0 <= B ->
    (forall c : ct, length (phase c) = N) ->
    (forall i : nat, s i = 0 \/ s i = 1) ->
    (* external_product_phase *)
    (forall (acc : ct) (i : nat), approx N M B (phase (extprod acc i)) (pscale (s i) (phase acc))) ->
    (* block_update_phase *)
    (forall (acc : ct) (i : nat) (blk : list Z),
       approx N M Bn (phase (blockupd acc i blk)) (padd (phase acc) (psum N (blk_terms ct phase N extprod acc i blk)))) ->
    forall (blks : list (list Z)) (i : nat) (acc : ct),
    blk_ok s i blks ->
    approx N M (blk_bound B Bn blks) (phase (blk_loop ct blockupd i blks acc)) (zrot (blk_expo s i blks) (phase acc)).
Proof. exact block_phase. Qed.
Print Assumptions C14_blind_rotation_phase_block_abstract.

(* extended (execute_block_binary_extended): e accumulators; the statement lives in the big ring Z[Y]/(Y^(N e)+1) (zbig) *)
Theorem C14_blind_rotation_phase_extended_abstract :
  forall (ct : Type) (phase : ct -> poly) (N e : nat) (M B Bn : Z) (extprod : ct -> nat -> ct)
         (eblockupd : list ct -> nat -> list Z -> list ct) (s : nat -> Z),
    (0 < N)%nat -> (0 < e)%nat -> 0 <= B ->
    (forall c : ct, length (phase c) = N) ->
    (forall i : nat, s i = 0 \/ s i = 1) ->
    (* external_product_phase *)
    (forall (acc : ct) (i : nat), approx N M B (phase (extprod acc i)) (pscale (s i) (phase acc))) ->
    (* ext_block_update_phase *)
    (forall (accs : list ct) (i : nat) (blk : list Z), length accs = e ->
       approxv e N M Bn (phases ct phase (eblockupd accs i blk)) (ext_target ct phase N extprod accs i blk)) ->
    forall (blks : list (list Z)) (i : nat) (accs : list ct),
    length accs = e -> eblk_ok s i blks ->
    approx (N * e) M (eblk_bound B Bn blks) (zbig N (phases ct phase (eblk_loop ct eblockupd i blks accs)))
      (zrot (eblk_expo s i blks) (zbig N (phases ct phase accs))).
Proof. exact extended_phase. Qed.
Print Assumptions C14_blind_rotation_phase_extended_abstract.

(* the hypotheses of the abstract theorems are satisfiable (noise-free toy ciphertexts: M = 0, B = 0) *)
Theorem C14_abstract_hypotheses_satisfiable :
  forall (N : nat) (s : nat -> Z),
    let phase := toy_phase N in
    let extprod := fun (acc : poly) (i : nat) => pscale (s i) (phase acc) in
    let mulxp := fun (a : Z) (c : poly) => xp_minus_one a (phase c) in
    let ctadd := fun (c d : poly) => padd (phase c) (phase d) in
    (forall c, length (phase c) = N) /\
    (forall acc i, approx N 0 0 (phase (extprod acc i)) (pscale (s i) (phase acc))) /\
    (forall a c, phase (mulxp a c) = xp_minus_one a (phase c)) /\
    (forall c d, phase (ctadd c d) = padd (phase c) (phase d)).
Proof.
  intros N s. cbv zeta. split; [apply toy_phase_length|]. split; [|split].
  - intros acc i. rewrite toy_phase_id by (rewrite pscale_length; apply toy_phase_length).
    apply approx_refl; [rewrite pscale_length; apply toy_phase_length | lia].
  - intros a c. apply toy_phase_id. rewrite xp_minus_one_length. apply toy_phase_length.
  - intros c d. apply toy_phase_id. rewrite len_padd, !toy_phase_length. lia.
Qed.
Print Assumptions C14_abstract_hypotheses_satisfiable.

(* external_product_phase from C04: ciphertexts = column lists, phase = Gadget.phase_val, acc [x] BRK_i = gadget_product with a key
   K that is a GGSW encryption of the bit s.  Premises that remain: (1) C04_ggsw_cells (K encrypts const s with row errors e:
   the key-encryption statement), (2) the bound B on the explicit error polynomial gadget_err of this product (C03/C04 bound
   theorems), (3) the shape premises of C04 (every accumulator limb decomposed: a_size <= dnum * dsize). *)
Theorem C14_external_product_phase_from_C04 :
  forall (P b : Z) (n msize a_size dsize dnum : nat) (clamp : bool) (a res0 : cols_t) (K : pmat) (sk : list (list Z))
         (s B : Z) (e I : nat -> nat -> list Z),
    wf_cols n (S (length sk)) a_size a ->
    acc_shape (S (length sk)) msize clamp res0 ->
    wf_pmat_in n (dnum * S (length sk)) (msize * S (length sk)) K ->
    (1 <= n)%nat -> (1 <= dsize)%nat -> (dsize - 2 <= msize)%nat -> (a_size <= dnum * dsize)%nat ->
    (forall t : list Z, In t sk -> length t = n) ->
    (forall row ci : nat, length (e row ci) = n) -> (forall row ci : nat, length (I row ci) = n) ->
    0 <= b -> Z.of_nat msize * b <= P -> Z.of_nat dnum * Z.of_nat dsize * b <= P ->
    s = 0 \/ s = 1 ->
    C04_ggsw_cells P b n (length sk) msize dsize dnum K sk (const_poly n s) e I ->
    bounded B (gadget_err P b n (S (length sk)) (S (length sk)) msize dsize dnum (acol n a) K (sk_ext n sk) e) ->
    exists res : cols_t,
      gadget_product n (S (length sk)) msize res0 a a_size dsize dnum msize clamp K = Some res /\
      approx n (2 ^ P) B (phase_val P b n sk res) (Model.C14Blind.pscale s (phase_val P b n sk a)).
Proof. exact external_product_phase_from_C04. Qed.
Print Assumptions C14_external_product_phase_from_C04.

(* the executable phase models run by the correspondence check (noise term dropped) *)
Theorem C14_blind_rotation_phase_standard_model :
  forall (b : Z) (av sv : list Z) (lut0 : poly),
    binaryl (combine av sv) -> cggi_standard b av sv lut0 = zrot (b + dotp (combine av sv)) lut0.
Proof.
  intros b av sv lut0. unfold cggi_standard. generalize (combine av sv) as l. intros l.
  replace (b + dotp l) with (dotp l + b) by ring. rewrite <- zrot_compose.
  generalize (zrot b lut0) as acc. induction l as [|q t IH]; intros acc Hb.
  - cbn [fold_left dotp]. rewrite zrot_0. reflexivity.
  - inversion Hb as [|? ? Hq Ht]; subst. cbn [fold_left dotp].
    rewrite IH by exact Ht. rewrite cggi_step_rot by exact Hq.
    rewrite zrot_compose. f_equal. lia.
Qed.
Print Assumptions C14_blind_rotation_phase_standard_model.

(* block-binary: at most one selected coefficient per block *)
Theorem C14_blind_rotation_phase_block :
  forall (n block : nat) (b : Z) (av sv : list Z) (lut0 : poly),
    (0 < n)%nat -> length lut0 = n ->
    Forall at_most_one (chunks block (combine av sv)) ->
    cggi_block n block b av sv lut0 = zrot (b + dotp (concat (chunks block (combine av sv)))) lut0.
Proof.
  intros n block b av sv lut0 Hn Hl. unfold cggi_block. generalize (chunks block (combine av sv)) as cs. intros cs Hall.
  assert (Hgen : forall acc, length acc = n ->
            fold_left (fun acc blk => cggi_block_step n blk acc) cs acc = zrot (dotp (concat cs)) acc).
  { induction cs as [|blk t IH]; intros acc Ha.
    - cbn [fold_left concat dotp]. rewrite zrot_0. reflexivity.
    - inversion Hall as [|? ? Hb Ht]; subst. cbn [fold_left concat].
      rewrite cggi_block_step_rot by auto. rewrite IH by (auto; zlen n).
      rewrite zrot_compose, dotp_app. f_equal. lia. }
  rewrite Hgen by zlen n. rewrite zrot_compose. f_equal. lia.
Qed.
Print Assumptions C14_blind_rotation_phase_block.
(* ... and the chunks are all the coefficients when the block size divides n_lwe (what fill_binary_block asserts);
   otherwise chunks_exact drops the tail (Model/C14Blind.v: chunks) *)
Theorem C14_chunks_cover :
  forall (bs : nat) (l : list (Z * Z)) (k : nat), (0 < bs)%nat -> length l = (k * bs)%nat -> concat (chunks bs l) = l.
Proof. exact (@chunks_concat (Z * Z)). Qed.
Print Assumptions C14_chunks_cover.

(* extended variant (as repaired by /repo acfeda9): one selected coefficient turns the ext components into those of Y^a * acc
   (ext_rot: component i = X^(a_hi+1) acc[ext-a_lo+i] for i < a_lo, X^a_hi acc[i-a_lo] otherwise), for EVERY a *)
Theorem C14_blind_rotation_phase_extended_step :
  forall (n : nat) (a : Z) (acc : list poly),
    (0 < n)%nat -> (0 < length acc)%nat -> shaped n acc ->
    map2 padd acc (ext_contrib n a 1 acc) = ext_rot n a acc.
Proof. exact ext_step_is_rotation. Qed.
Print Assumptions C14_blind_rotation_phase_extended_step.
(* ext_rot is multiplication by Y^a in the big ring Z[Y]/(Y^(N ext)+1) (zbig = interleaving of the components) *)
Theorem C14_ext_rot_is_big_ring_rotation :
  forall (n : nat) (a : Z) (acc : list poly),
    (0 < n)%nat -> (0 < length acc)%nat -> shaped n acc -> zbig n (ext_rot n a acc) = zrot a (zbig n acc).
Proof. exact zbig_ext_rot. Qed.
Print Assumptions C14_ext_rot_is_big_ring_rotation.
(* the whole loop of execute_block_binary_extended (at most one selected coefficient per block): the accumulator is
   Y^(b + sum a_i s_i) * table in the big ring ... *)
Theorem C14_blind_rotation_phase_extended :
  forall (n block : nat) (b : Z) (av sv : list Z) (lutp : list poly),
    (0 < n)%nat -> (0 < length lutp)%nat -> shaped n lutp ->
    Forall at_most_one (chunks block (combine av sv)) ->
    length (cggi_extended n block b av sv lutp) = length lutp /\
    zbig n (cggi_extended n block b av sv lutp) = zrot (b + dotp (concat (chunks block (combine av sv)))) (zbig n lutp).
Proof. exact cggi_extended_rot. Qed.
Print Assumptions C14_blind_rotation_phase_extended.
(* ... and the GLWE it returns (component 0) holds the big-ring coefficients u * ext *)
Theorem C14_blind_rotation_extended_result :
  forall (n block : nat) (b : Z) (av sv : list Z) (lutp : list poly) (u : nat),
    (0 < n)%nat -> (0 < length lutp)%nat -> shaped n lutp ->
    Forall at_most_one (chunks block (combine av sv)) -> (u < n)%nat ->
    nthZ (nth 0 (cggi_extended n block b av sv lutp) []) u =
    nthZ (zrot (b + dotp (concat (chunks block (combine av sv)))) (zbig n lutp)) (u * length lutp).
Proof.
  intros n block b av sv lutp u Hn He Hs Hall Hu.
  destruct (cggi_extended_rot n block b av sv lutp Hn He Hs Hall) as [HL HZ].
  rewrite <- HZ. unfold zbig. unfold poly in *. rewrite HL.
  rewrite interleave_nth by nia. rewrite HL.
  rewrite Nat.mod_mul, Nat.div_mul by lia. reflexivity.
Qed.
Print Assumptions C14_blind_rotation_extended_result.

(* examples: the hypotheses are satisfiable, the statements are not vacuous *)
(* N = 4, ext = 2, radix 4, 8-bit table, 3 message bits (scale 2), f = (1,2,3,-1): step 2, drift 1 *)
Example C14_ex_set :
  exists data, lookup_table_set 4 2 4 8 3 [1; 2; 3; -1] = Some (data, 1) /\
    lut_big 4 data 0 = [2; 4; 4; 6; 6; -2; -2; -2] /\
    coeff0 (lookup_table_rotate 4 (-3) data) = [6; 0] /\          (* j = 3: f[(3+1)/2] = f[2] = 3, times the scale 2 *)
    coeff0 (lookup_table_rotate 4 (-8) data) = [-2; 0].            (* j = 8 = domain: -f[0] *)
Proof. eexists. split; [vm_compute; reflexivity|]. vm_compute. auto. Qed.
Example C14_ex_select_hyps :
  (2 + 1 + 1 <= 62)%nat /\ 1 <= 4 <= 62 /\ 1 <= Z.of_nat (length [1; 2; 3; -1]) <= Z.of_nat (2 ^ 2) /\
  Z.of_nat (2 ^ 2 * 2 ^ 1) mod Z.of_nat (length [1; 2; 3; -1]) = 0 /\
  Forall (fun fi : Z => Z.abs (wmul 64 fi (lut_scale 4 3)) <= 2 ^ 62) [1; 2; 3; -1].
Proof. repeat split; try (cbn; lia). repeat constructor; vm_compute; discriminate. Qed.
Example C14_ex_mod_switch :
  mod_switch_2n 16 6 false [[-32; 31; 2; -2]] = Some [-8; 8; 1; 0] /\ mod_switch_2n 16 6 true [[-32; 31; 2; -2]] = Some [8; -8; 0; 1] /\
  (* second branch, the former witness: radix 5 = log2(16) + 1, torus value -1/4 -> -4 on Z_16, both directions; two limbs of radix 2 *)
  mod_switch_2n 16 5 false [[-8; 0]] = Some [-4; 0] /\ mod_switch_2n 16 5 true [[-8; 0]] = Some [4; 0] /\
  mod_switch_2n 16 2 true [[1; -2]; [-1; 1]; [1; 0]] = Some [-3; 7].
Proof. repeat split; reflexivity. Qed.
Example C14_ex_mod_switch_hyps :
  1 <= 4 <= 61 /\ 1 <= 2 <= 62 /\ Forall (Forall (in_range 2)) [[1; -2]; [-1; 1]; [1; 0]] /\
  Z.min (div_ceil (4 + 1) 2) (Z.of_nat (length [[1; -2]; [-1; 1]; [1; 0]])) * 2 <= 62.
Proof. repeat split; try (cbn; lia); repeat constructor; cbn; lia. Qed.
Example C14_ex_extended :
  cggi_extended 2 1 0 [-1] [1] [[5; 7]; [6; 8]] = [[6; 8]; [7; -5]] /\ zrot (-1) [5; 6; 7; 8] = [6; 7; 8; -5].
Proof. split; reflexivity. Qed.
Example C14_ex_history :
  exists st, run_events 4 2 4 8 [EDir false; ESet 3 [1; 2; 3; -1]; ESet 3 [0; 1; 0; 1]] (lut_alloc 4 2 4 8) = Some st /\
             st_left st = false /\ st_drift st = 1.
Proof. eexists. split; [vm_compute; reflexivity|]. split; reflexivity. Qed.
Example C14_ex_xai : fst (set_xai_plus_y 4 5 7 [0; 0; 0; 0]) = [7; -1; 0; 0] /\ snd (set_xai_plus_y 4 5 7 [0; 0; 0; 0]) = [0; 0; 0; 0].
Proof. split; reflexivity. Qed.
Example C14_ex_blind :
  cggi_standard 1 [2; 3; 5] [1; 0; 1] [1; 2; 3; 4] = zrot 8 [1; 2; 3; 4] /\
  cggi_block 4 2 1 [2; 3; 5; 7] [1; 0; 0; 1] [1; 2; 3; 4] = zrot (1 + 2 + 7) [1; 2; 3; 4] /\
  Forall at_most_one (chunks 2 (combine [2; 3; 5; 7] [1; 0; 0; 1])).
Proof. split; [reflexivity|]. split; [reflexivity|]. repeat constructor. Qed.

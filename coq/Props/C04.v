(* C04 — external products, CMux.  Pinned statements, each proved by `exact` or by a short derivation from the lemmas of
   Proofs/GadgetPhase.v, GadgetNorm.v, C04Phase.v (notions: Model/GadgetSpec.v;
   reading guide in Props/C03.v).  C04_ggsw_cells (Proofs/C04Phase.v) = key_rows_ok with src_ci = m2 (x) Sk ci: cell (row, ci) of the GGSW
   encrypts m2 2^(-(row+1) dsize b) for ci = 0 and s_{ci-1} m2 2^(..) for ci >= 1 (HYPOTHESIS of the phase theorems). *)
From PV Require Import Base.MachineInt Model.Znx Model.Limbs Model.Flat Model.Ring Model.Poly Model.DftAbs Model.Gadget Model.GadgetOracle Model.C04Run.
From PV Require Import Model.GadgetSpec Proofs.C07Dft Proofs.C07Ring Proofs.GadgetDecomp Proofs.GadgetPhase Proofs.GadgetBound Proofs.C03Phase Proofs.C04Phase Model.GadgetEnc Proofs.GadgetEnc Proofs.GadgetNorm Model.GadgetDerived Proofs.GadgetSigma Proofs.GadgetShape Proofs.GadgetDerived.
Open Scope Z_scope.

(* (3c) phase(res) = m2 (x) phase(limbs l < min(a_size, dnum*dsize) of ct) + E + 2^P Iq, on the model, all shapes, both modes, any prior accumulator content of the right shape *)
Theorem C04_external_product_phase :
  forall (P b : Z) (n rank msize a_size dsize dnum : nat) (clamp : bool) (a res0 : cols_t) (K : pmat) (Sk : nat -> list Z)
      (m2 : list Z) (e I : nat -> nat -> list Z),
    wf_cols n (S rank) a_size a ->
    acc_shape (S rank) msize clamp res0 ->
    wf_pmat_in n (dnum * S rank) (msize * S rank) K ->
    (1 <= dsize)%nat ->
    (dsize - 2 <= msize)%nat ->
    (forall co : nat, length (Sk co) = n) ->
    length m2 = n ->
    (forall row ci : nat, length (e row ci) = n) ->
    (forall row ci : nat, length (I row ci) = n) ->
    0 <= b ->
    Z.of_nat msize * b <= P ->
    Z.of_nat dnum * Z.of_nat dsize * b <= P ->
    key_rows_ok P b n (S rank) (S rank) msize dsize dnum K Sk (fun ci : nat => pmul m2 (Sk ci)) e I ->
    exists res : cols_t,
      gadget_product n (S rank) msize res0 a a_size dsize dnum msize clamp K = Some res /\
      wf_cols n (S rank) msize res /\
      phase_f P b n (S rank) msize (limbs_of res) Sk =
      padd
        (padd (pmul m2 (phase_f P b n (S rank) (Nat.min a_size (dnum * dsize)) (acol n a) Sk))
           (gadget_err P b n (S rank) (S rank) msize dsize dnum (acol n a) K Sk e))
        (pscale (2 ^ P) (gadget_int b n (S rank) (S rank) msize dsize dnum (acol n a) K Sk I)).
Proof. exact C04_external_product_phase_lemma. Qed.
Print Assumptions C04_external_product_phase.

(* the product in external-product mode from ANY prior accumulator content of cols_out columns of msize limbs (cmux takes it from scratch) *)
Theorem C04_gadget_product_spec_any_acc :
  forall (n cin cols_out msize a_size dsize dnum : nat) (a : cols_t) (m : pmat) (res0 : cols_t),
    wf_cols n cin a_size a ->
    (1 <= dsize)%nat ->
    (dsize - 2 <= msize)%nat ->
    length res0 = cols_out ->
    (forall co : nat, (co < cols_out)%nat -> length (col res0 co) = msize) ->
    exists res : cols_t,
      gadget_product n cols_out msize res0 a a_size dsize dnum msize false m = Some res /\
      wf_cols n cols_out msize res /\
      (forall co j : nat,
       (co < cols_out)%nat -> (j < msize)%nat -> lim (col res co) j = gp_spec n cin cols_out msize a_size dsize dnum false (acol n a) m co j).
Proof. exact gadget_product_spec_any_acc. Qed.
Print Assumptions C04_gadget_product_spec_any_acc.

(* cmux before its final normalisation: bit (phase(t) - phase(f)) + phase(f) + E + 2^P Iq; only the shape of res0 matters *)
Theorem C04_cmux_phase :
  forall (be P b : Z) (n rank res_size t_size f_size dsize dnum msize : nat) (res0 t f : cols_t) (K : pmat) (Sk : nat -> list Z)
      (bit : Z) (e I : nat -> nat -> list Z),
    (1 <= n)%nat ->
    wf_cols n (S rank) t_size t ->
    wf_cols n (S rank) f_size f ->
    length res0 = S rank ->
    (forall co : nat, (co < S rank)%nat -> length (col res0 co) = msize) ->
    wf_pmat_in n (dnum * S rank) (msize * S rank) K ->
    (1 <= dsize)%nat ->
    (dsize - 2 <= msize)%nat ->
    (forall co : nat, length (Sk co) = n) ->
    (forall row ci : nat, length (e row ci) = n) ->
    (forall row ci : nat, length (I row ci) = n) ->
    0 <= b ->
    Z.of_nat msize * b <= P ->
    Z.of_nat dnum * Z.of_nat dsize * b <= P ->
    key_rows_ok P b n (S rank) (S rank) msize dsize dnum K Sk (fun ci : nat => pmul (pscale bit (pone n)) (Sk ci)) e I ->
    exists big : cols_t,
      gadget_product n (S rank) msize res0 (map2 (col_sub n res_size) t f) res_size dsize dnum msize false K = Some big /\
      cmux be n b rank res_size t_size f_size dsize dnum msize res0 t f K =
      sequence (map (big_normalize (wbig be) n b b res_size) (map2 add_small big f)) /\
      wf_cols n (S rank) msize (map2 add_small big f) /\
      phase_f P b n (S rank) msize (limbs_of (map2 add_small big f)) Sk =
      padd
        (padd
           (padd
              (pscale bit
                 (psub (phase_f P b n (S rank) (Nat.min res_size (dnum * dsize)) (acol n t) Sk)
                    (phase_f P b n (S rank) (Nat.min res_size (dnum * dsize)) (acol n f) Sk)))
              (phase_f P b n (S rank) (Nat.min msize f_size) (acol n f) Sk))
           (gadget_err P b n (S rank) (S rank) msize dsize dnum (acol n (map2 (col_sub n res_size) t f)) K Sk e))
        (pscale (2 ^ P) (gadget_int b n (S rank) (S rank) msize dsize dnum (acol n (map2 (col_sub n res_size) t f)) K Sk I)).
Proof. exact C04_cmux_phase_lemma. Qed.
Print Assumptions C04_cmux_phase.

(* bit = 0 selects f, bit = 1 selects t *)
Theorem C04_cmux_selects :
  forall (be P b : Z) (n rank res_size t_size f_size dsize dnum msize : nat) (res0 t f : cols_t) (K : pmat) (Sk : nat -> list Z)
      (bit : Z) (e I : nat -> nat -> list Z),
    (1 <= n)%nat ->
    wf_cols n (S rank) t_size t ->
    wf_cols n (S rank) f_size f ->
    length res0 = S rank ->
    (forall co : nat, (co < S rank)%nat -> length (col res0 co) = msize) ->
    wf_pmat_in n (dnum * S rank) (msize * S rank) K ->
    (1 <= dsize)%nat ->
    (dsize - 2 <= msize)%nat ->
    (forall co : nat, length (Sk co) = n) ->
    (forall row ci : nat, length (e row ci) = n) ->
    (forall row ci : nat, length (I row ci) = n) ->
    0 <= b ->
    Z.of_nat msize * b <= P ->
    Z.of_nat dnum * Z.of_nat dsize * b <= P ->
    key_rows_ok P b n (S rank) (S rank) msize dsize dnum K Sk (fun ci : nat => pmul (pscale bit (pone n)) (Sk ci)) e I ->
    bit = 0 \/ bit = 1 ->
    (bit = 1 -> (f_size <= Nat.min res_size (dnum * dsize))%nat /\ (f_size <= msize)%nat) ->
    exists big : cols_t,
      gadget_product n (S rank) msize res0 (map2 (col_sub n res_size) t f) res_size dsize dnum msize false K = Some big /\
      cmux be n b rank res_size t_size f_size dsize dnum msize res0 t f K =
      sequence (map (big_normalize (wbig be) n b b res_size) (map2 add_small big f)) /\
      phase_f P b n (S rank) msize (limbs_of (map2 add_small big f)) Sk =
      padd
        (padd
           (if bit =? 1
            then phase_f P b n (S rank) (Nat.min res_size (dnum * dsize)) (acol n t) Sk
            else phase_f P b n (S rank) (Nat.min msize f_size) (acol n f) Sk)
           (gadget_err P b n (S rank) (S rank) msize dsize dnum (acol n (map2 (col_sub n res_size) t f)) K Sk e))
        (pscale (2 ^ P) (gadget_int b n (S rank) (S rank) msize dsize dnum (acol n (map2 (col_sub n res_size) t f)) K Sk I)).
Proof. exact C04_cmux_selects_lemma. Qed.
Print Assumptions C04_cmux_selects.

(* (3c) with Gadget.phase_val when no input limb is lost (a_size <= dnum*dsize): phase(res) = m2 (x) phase(ct) + E + 2^P Iq *)
Theorem C04_external_product_phase_val :
  forall (P b : Z) (n msize a_size dsize dnum : nat) (clamp : bool) (a res0 : cols_t) (K : pmat) (sk : list (list Z))
      (m2 : list Z) (e I : nat -> nat -> list Z),
    wf_cols n (S (length sk)) a_size a ->
    acc_shape (S (length sk)) msize clamp res0 ->
    wf_pmat_in n (dnum * S (length sk)) (msize * S (length sk)) K ->
    (1 <= n)%nat ->
    (1 <= dsize)%nat ->
    (dsize - 2 <= msize)%nat ->
    (a_size <= dnum * dsize)%nat ->
    (forall s : list Z, In s sk -> length s = n) ->
    length m2 = n ->
    (forall row ci : nat, length (e row ci) = n) ->
    (forall row ci : nat, length (I row ci) = n) ->
    0 <= b ->
    Z.of_nat msize * b <= P ->
    Z.of_nat dnum * Z.of_nat dsize * b <= P ->
    C04_ggsw_cells P b n (length sk) msize dsize dnum K sk m2 e I ->
    exists res : cols_t,
      gadget_product n (S (length sk)) msize res0 a a_size dsize dnum msize clamp K = Some res /\
      phase_val P b n sk res =
      padd
        (padd (pmul m2 (phase_val P b n sk a)) (gadget_err P b n (S (length sk)) (S (length sk)) msize dsize dnum (acol n a) K (sk_ext n sk) e))
        (pscale (2 ^ P) (gadget_int b n (S (length sk)) (S (length sk)) msize dsize dnum (acol n a) K (sk_ext n sk) I)).
Proof. exact C04_external_product_phase_val_lemma. Qed.
Print Assumptions C04_external_product_phase_val.

(* (5) GGSW encryption (plaintext subtracted from mask column col, Model/GadgetEnc.v) = GGLWE body equation with src_col = m2 (x) Sk col *)
Theorem C04_enc_body_of_ggsw_body :
  forall (P b : Z) (n rank msize dsize dnum : nat) (K : pmat) (Sk : nat -> list Z) (m2 : list Z) (e J : nat -> nat -> list Z),
    (1 <= n)%nat ->
    wf_pmat_in n (dnum * S rank) (msize * S rank) K ->
    (forall co : nat, length (Sk co) = n) ->
    Sk 0%nat = pone n ->
    length m2 = n ->
    (forall row ci : nat, length (e row ci) = n) ->
    (forall row ci : nat, length (J row ci) = n) ->
    ggsw_body_ok P b n rank msize dsize dnum K Sk m2 e J ->
    enc_body_ok P b n (S rank) rank msize dsize dnum K Sk (fun ci : nat => pmul m2 (Sk ci)) e J.
Proof. exact enc_body_of_ggsw_body. Qed.
Print Assumptions C04_enc_body_of_ggsw_body.

(* (5) hence the GGSW-cell hypothesis *)
Theorem C04_ggsw_cells_of_ggsw_body :
  forall (P b : Z) (n rank msize dsize dnum : nat) (K : pmat) (Sk : nat -> list Z) (m2 : list Z) (e J : nat -> nat -> list Z),
    (1 <= n)%nat ->
    wf_pmat_in n (dnum * S rank) (msize * S rank) K ->
    (forall co : nat, length (Sk co) = n) ->
    Sk 0%nat = pone n ->
    length m2 = n ->
    (forall row ci : nat, length (e row ci) = n) ->
    (forall row ci : nat, length (J row ci) = n) ->
    ggsw_body_ok P b n rank msize dsize dnum K Sk m2 e J ->
    key_rows_ok P b n (S rank) (S rank) msize dsize dnum K Sk (fun ci : nat => pmul m2 (Sk ci)) e J.
Proof. exact ggsw_cells_of_ggsw_body. Qed.
Print Assumptions C04_ggsw_cells_of_ggsw_body.

(* (5) the external-product phase theorems with the body equations of ggsw_encrypt_sk instead of the GGSW-cell hypothesis *)
Theorem C04_external_product_phase_enc :
  forall (P b : Z) (n msize a_size dsize dnum : nat) (clamp : bool) (a res0 : cols_t) (K : pmat) (sk : list (list Z))
      (m2 : list Z) (e J : nat -> nat -> list Z),
    wf_cols n (S (length sk)) a_size a ->
    acc_shape (S (length sk)) msize clamp res0 ->
    wf_pmat_in n (dnum * S (length sk)) (msize * S (length sk)) K ->
    (1 <= n)%nat ->
    (1 <= dsize)%nat ->
    (dsize - 2 <= msize)%nat ->
    (forall s : list Z, In s sk -> length s = n) ->
    length m2 = n ->
    (forall row ci : nat, length (e row ci) = n) ->
    (forall row ci : nat, length (J row ci) = n) ->
    0 <= b ->
    Z.of_nat msize * b <= P ->
    Z.of_nat dnum * Z.of_nat dsize * b <= P ->
    ggsw_body_ok P b n (length sk) msize dsize dnum K (sk_ext n sk) m2 e J ->
    exists res : cols_t,
      gadget_product n (S (length sk)) msize res0 a a_size dsize dnum msize clamp K = Some res /\
      wf_cols n (S (length sk)) msize res /\
      phase_f P b n (S (length sk)) msize (limbs_of res) (sk_ext n sk) =
      padd
        (padd (pmul m2 (phase_f P b n (S (length sk)) (Nat.min a_size (dnum * dsize)) (acol n a) (sk_ext n sk)))
           (gadget_err P b n (S (length sk)) (S (length sk)) msize dsize dnum (acol n a) K (sk_ext n sk) e))
        (pscale (2 ^ P) (gadget_int b n (S (length sk)) (S (length sk)) msize dsize dnum (acol n a) K (sk_ext n sk) J)).
Proof.
  intros. apply C04_external_product_phase; try assumption; [apply sk_ext_length; assumption|].
  apply ggsw_cells_of_ggsw_body; try assumption; [apply sk_ext_length; assumption|reflexivity].
Qed.
Print Assumptions C04_external_product_phase_enc.

Theorem C04_external_product_phase_val_enc :
  forall (P b : Z) (n msize a_size dsize dnum : nat) (clamp : bool) (a res0 : cols_t) (K : pmat) (sk : list (list Z))
      (m2 : list Z) (e J : nat -> nat -> list Z),
    wf_cols n (S (length sk)) a_size a ->
    acc_shape (S (length sk)) msize clamp res0 ->
    wf_pmat_in n (dnum * S (length sk)) (msize * S (length sk)) K ->
    (1 <= n)%nat ->
    (1 <= dsize)%nat ->
    (dsize - 2 <= msize)%nat ->
    (forall s : list Z, In s sk -> length s = n) ->
    length m2 = n ->
    (forall row ci : nat, length (e row ci) = n) ->
    (forall row ci : nat, length (J row ci) = n) ->
    0 <= b ->
    Z.of_nat msize * b <= P ->
    Z.of_nat dnum * Z.of_nat dsize * b <= P ->
    ggsw_body_ok P b n (length sk) msize dsize dnum K (sk_ext n sk) m2 e J ->
    (a_size <= dnum * dsize)%nat ->
    exists res : cols_t,
      gadget_product n (S (length sk)) msize res0 a a_size dsize dnum msize clamp K = Some res /\
      phase_val P b n sk res =
      padd
        (padd (pmul m2 (phase_val P b n sk a)) (gadget_err P b n (S (length sk)) (S (length sk)) msize dsize dnum (acol n a) K (sk_ext n sk) e))
        (pscale (2 ^ P) (gadget_int b n (S (length sk)) (S (length sk)) msize dsize dnum (acol n a) K (sk_ext n sk) J)).
Proof.
  intros. apply C04_external_product_phase_val; try assumption.
  apply ggsw_cells_of_ggsw_body; try assumption; [apply sk_ext_length; assumption|reflexivity].
Qed.
Print Assumptions C04_external_product_phase_val_enc.

(* (7) GGSW row expansion on the model: column j = gadget product of the mask columns with the tensor key + body on column j encrypts s_{j-1} (x) M_r with error s_{j-1} (x) e0 + E *)
Theorem C04_ggsw_expand_row_cells :
  forall (P b : Z) (n rank msize a_size dsize dnum j : nat) (ct0 res0 : cols_t) (K : pmat) (Sk : nat -> list Z) (e I : nat -> nat -> list Z)
      (Mr e0 I0 : list Z) (Sb env : Z),
    wf_cols n (S rank) a_size ct0 ->
    wf_pmat_in n (dnum * rank) (msize * S rank) K ->
    (1 <= n)%nat ->
    (1 <= dsize)%nat ->
    (dsize - 2 <= msize)%nat ->
    (a_size <= dnum * dsize)%nat ->
    (forall co : nat, length (Sk co) = n) ->
    Sk 0%nat = pone n ->
    (forall row ci : nat, length (e row ci) = n) ->
    (forall row ci : nat, length (I row ci) = n) ->
    0 <= b ->
    Z.of_nat msize * b <= P ->
    Z.of_nat dnum * Z.of_nat dsize * b <= P ->
    key_rows_ok P b n rank (S rank) msize dsize dnum K Sk (fun i : nat => pmul (Sk (S i)) (Sk j)) e I ->
    length Mr = n ->
    length e0 = n ->
    length I0 = n ->
    phase_f P b n (S rank) a_size (acol n ct0) Sk = padd (padd Mr e0) (pscale (2 ^ P) I0) ->
    pnorm (Sk j) <= Sb ->
    pnorm (gadget_err P b n rank (S rank) msize dsize dnum (acol n (tl ct0)) K Sk e) <= env ->
    exists res : cols_t,
      gadget_product n (S rank) msize res0 (tl ct0) a_size dsize dnum msize true K = Some res /\
      padd (phase_f P b n (S rank) msize (limbs_of res) Sk) (pmul (pval P b n (acol n ct0 0) a_size) (Sk j)) =
      padd (padd (pmul (Sk j) Mr) (padd (pmul (Sk j) e0) (gadget_err P b n rank (S rank) msize dsize dnum (acol n (tl ct0)) K Sk e)))
        (pscale (2 ^ P) (padd (gadget_int b n rank (S rank) msize dsize dnum (acol n (tl ct0)) K Sk I) (pmul (Sk j) I0))) /\
      pnorm (padd (pmul (Sk j) e0) (gadget_err P b n rank (S rank) msize dsize dnum (acol n (tl ct0)) K Sk e)) <= Z.of_nat n * Sb * pnorm e0 + env.
Proof. exact ggsw_expand_row_cells_lemma. Qed.
Print Assumptions C04_ggsw_expand_row_cells.

(* (7) GGSW key switch = key switch of column 0 then row expansion: every cell keeps m2 (phase level) *)
Theorem C04_ggsw_keyswitch_cells :
  forall (n : nat) (P : Z),
    (0 < n)%nat ->
    forall (sj ph0 ph0' phj Mr e0 I0 Eks Iks KS c0s Ej Iq : list Z) (Sb envj : Z),
    length sj = n ->
    length Mr = n ->
    length e0 = n ->
    length I0 = n ->
    length Eks = n ->
    length Iks = n ->
    length KS = n ->
    length c0s = n ->
    length Ej = n ->
    length Iq = n ->
    ph0 = padd (padd Mr e0) (pscale (2 ^ P) I0) ->
    ph0' = padd (padd ph0 Eks) (pscale (2 ^ P) Iks) ->
    padd KS c0s = pmul sj ph0' ->
    phj = padd (padd (padd KS Ej) (pscale (2 ^ P) Iq)) c0s ->
    pnorm sj <= Sb ->
    pnorm Ej <= envj ->
    phj = padd (padd (pmul sj Mr) (padd (pmul sj (padd e0 Eks)) Ej)) (pscale (2 ^ P) (padd Iq (pmul sj (padd I0 Iks)))) /\
    pnorm (padd (pmul sj (padd e0 Eks)) Ej) <= Z.of_nat n * Sb * (pnorm e0 + pnorm Eks) + envj.
Proof.
  intros n P Hn sj ph0 ph0' phj Mr e0 I0 Eks Iks KS c0s Ej Iq Sb envj L1 L2 L3 L4 L5 L6 L7 L8 L9 L10 H0 H1 H2 H3 HS HE.
  pose proof (cell0_after_keyswitch n P ph0 ph0' Mr e0 I0 Eks Iks L2 L3 L4 L5 L6 H0 H1) as C0. rewrite C0 in H2.
  destruct (expand_regroup n P sj Mr (padd e0 Eks) (padd I0 Iks) Ej Iq KS c0s Sb envj) as [A B]; try assumption; try (apply padd_len; assumption).
  split; [rewrite H3; exact A|].
  eapply Z.le_trans; [exact B|]. pose proof (pnorm_padd e0 Eks). pose proof (pnorm_nonneg sj).
  assert (0 <= Z.of_nat n * Sb) by nia. nia.
Qed.
Print Assumptions C04_ggsw_keyswitch_cells.

(* (7) GGSW automorphism: every cell encrypts sigma_g m2 (phase level) *)
Theorem C04_ggsw_automorphism_cells :
  forall (n : nat) (P : Z),
    (0 < n)%nat ->
    forall g : Z,
    Z.gcd g (2 * Z.of_nat n) = 1 ->
    forall (r : Z) (sj ph0 ph0' phj m2 e0 I0 Eks Iks KS c0s Ej Iq : list Z) (Sb envj : Z),
    length sj = n ->
    length m2 = n ->
    length e0 = n ->
    length I0 = n ->
    length Eks = n ->
    length Iks = n ->
    length KS = n ->
    length c0s = n ->
    length Ej = n ->
    length Iq = n ->
    ph0 = padd (padd (pscale r m2) e0) (pscale (2 ^ P) I0) ->
    ph0' = padd (padd (sigmaE g ph0) Eks) (pscale (2 ^ P) Iks) ->
    padd KS c0s = pmul sj ph0' ->
    phj = padd (padd (padd KS Ej) (pscale (2 ^ P) Iq)) c0s ->
    pnorm sj <= Sb ->
    pnorm Ej <= envj ->
    phj =
    padd (padd (pmul sj (pscale r (sigmaE g m2))) (padd (pmul sj (padd (sigmaE g e0) Eks)) Ej))
      (pscale (2 ^ P) (padd Iq (pmul sj (padd (sigmaE g I0) Iks)))) /\
    pnorm (padd (pmul sj (padd (sigmaE g e0) Eks)) Ej) <= Z.of_nat n * Sb * (pnorm e0 + pnorm Eks) + envj.
Proof.
  intros n P Hn g Hg r sj ph0 ph0' phj m2 e0 I0 Eks Iks KS c0s Ej Iq Sb envj L1 L2 L3 L4 L5 L6 L7 L8 L9 L10 H0 H1 H2 H3 HS HE.
  (* sigma_g of cell (r, 0) is again a cell: message r sigma_g(m2), error sigma_g(e0) of the same norm *)
  rewrite <- (sigmaE_pnorm g e0) by (rewrite L3; apply C09Sigma.gcd2n_gcdn; exact Hg).
  apply (C04_ggsw_keyswitch_cells n P Hn sj (sigmaE g ph0) ph0' phj (pscale r (sigmaE g m2)) (sigmaE g e0) (sigmaE g I0) Eks Iks KS c0s Ej Iq Sb envj);
    try assumption; try solve [plen].
  rewrite H0, !(sigmaE_padd n g Hn Hg), !(sigmaE_pscale n g Hn Hg) by plen. reflexivity.
Qed.
Print Assumptions C04_ggsw_automorphism_cells.

(* (6) Gadget.glwe_external_product (input radix = GGSW radix) with the final normalisation; per-column normalize_value_ok is a hypothesis *)
Theorem C04_glwe_external_product_phase_final :
  forall (be P b rb : Z) (n msize a_size res_size dsize dnum : nat) (a : cols_t) (K : pmat) (sk : list (list Z)) (m2 : list Z)
      (e I : nat -> nat -> list Z) (Sb : Z),
    wf_cols n (S (length sk)) a_size a ->
    wf_pmat_in n (dnum * S (length sk)) (msize * S (length sk)) K ->
    (1 <= n)%nat ->
    (1 <= dsize)%nat ->
    (dsize - 2 <= msize)%nat ->
    (forall s : list Z, In s sk -> length s = n) ->
    (forall s : list Z, In s sk -> pnorm s <= Sb) ->
    length m2 = n ->
    (forall row ci : nat, length (e row ci) = n) ->
    (forall row ci : nat, length (I row ci) = n) ->
    0 <= b ->
    Z.of_nat msize * b <= P ->
    Z.of_nat dnum * Z.of_nat dsize * b <= P ->
    C04_ggsw_cells P b n (length sk) msize dsize dnum K sk m2 e I ->
    (forall big : cols_t,
     gadget_product n (S (length sk)) msize (zcols n (S (length sk)) msize) a a_size dsize dnum msize false K = Some big ->
     forall co : nat, (co < S (length sk))%nat -> normalize_value_ok (wbig be) P n rb b res_size (col big co)) ->
    exists (res : cols_t) (R Itot : list Z),
      glwe_external_product be n b b rb (length sk) a_size res_size dsize dnum msize a K = Some res /\
      wf_cols n (S (length sk)) res_size res /\
      length R = n /\
      length Itot = n /\
      phase_val P rb n sk res =
      padd
        (padd
           (padd (pmul m2 (phase_f P b n (S (length sk)) (Nat.min a_size (dnum * dsize)) (acol n a) (sk_ext n sk)))
              (gadget_err P b n (S (length sk)) (S (length sk)) msize dsize dnum (acol n a) K (sk_ext n sk) e)) R) (pscale (2 ^ P) Itot) /\
      pnorm R <= (1 + Z.of_nat (length sk) * Z.of_nat n * Sb) * 2 ^ (P - Z.of_nat res_size * rb).
Proof.
  intros be P b rb n msize a_size res_size dsize dnum a K sk m2 e I Sb
    Ha HK Hn Hd Hdrop Hsk HSb Hm2 He HI Hb HP HP2 ggsw_cells Hnorm.
  destruct (C04_external_product_phase P b n (length sk) msize a_size dsize dnum false a (zcols n (S (length sk)) msize) K (sk_ext n sk) m2 e I
              Ha (acc_shape_zcols n (S (length sk)) msize false) HK Hd Hdrop (sk_ext_length n sk Hn Hsk) Hm2 He HI Hb HP HP2 ggsw_cells)
    as [big [E1 [E2 E3]]].
  rewrite <- (phase_val_phase_f P b n sk big msize Hn E2) in E3 by (intros; apply Hsk, nth_In; assumption).
  pose proof (acol_length n (S (length sk)) a_size a Ha) as LA.
  destruct (normalize_cols_after (wbig be) P n rb b res_size msize sk Sb big Hn E2 Hsk HSb (Hnorm big E1) _ _ E3)
    as (res & R & Itot & F1 & F).
  - plen.
  - plen.
  - exists res, R, Itot. split; [|exact F].
    unfold glwe_external_product, pre_normalize. rewrite Z.eqb_refl, E1. exact F1.
Qed.
Print Assumptions C04_glwe_external_product_phase_final.

(* C04_ggsw_cells: cell (row, col) of a GGSW of m2 under sk decrypts to m2 2^(P-(row+1) dsize b) (col = 0) resp.
   s_{col-1} (x) m2 2^(..) (col >= 1) plus its error e_{row,col} (phase convention ct[0] + sum ct[i+1] (x) s_i: the sign is +).
   It is the HYPOTHESIS of the phase theorems; the oracle (codes 4020 / 4021..4033) checks it on every GGSW the library produces. *)
Theorem C04_ggsw_cells :
  forall (P b : Z) (n rank msize dsize dnum : nat) (K : pmat) (sk : list (list Z)) (m2 : list Z) (e I : nat -> nat -> list Z),
    C04Phase.C04_ggsw_cells P b n rank msize dsize dnum K sk m2 e I <->
    (forall row ci, (row < dnum)%nat -> (ci < S rank)%nat ->
       kphase P b n (S rank) msize K (sk_ext n sk) (row * S rank + ci)%nat
       = padd (padd (pscale (2 ^ (P - (Z.of_nat row + 1) * Z.of_nat dsize * b)) (pmul m2 (sk_ext n sk ci))) (e row ci))
              (pscale (2 ^ P) (I row ci))).
Proof. unfold C04Phase.C04_ggsw_cells, key_rows_ok. tauto. Qed.
Print Assumptions C04_ggsw_cells.

(* the hypotheses are satisfiable: a concrete small instance (definitions ex*_ in the Proofs file), and the model run on it *)
Example C04_hypotheses_satisfiable :
  wf_cols 2 2 2 ex4_ct /\ wf_pmat_in 2 (2 * 2) (2 * 2) (ex4_K ex4_m2) /\ (1 <= 1)%nat /\ (1 - 2 <= 2)%nat /\
  (forall co, length (sk_ext 2 ex4_sk co) = 2%nat) /\ length ex4_m2 = 2%nat /\
  (forall row ci, length (ex4_zero row ci) = 2%nat) /\ 0 <= 4 /\ Z.of_nat 2 * 4 <= 8 /\ Z.of_nat 2 * Z.of_nat 1 * 4 <= 8 /\
  C04Phase.C04_ggsw_cells 8 4 2 1 2 1 2 (ex4_K ex4_m2) ex4_sk ex4_m2 ex4_zero ex4_zero.
Proof.
  repeat match goal with |- _ /\ _ => split end; try lia; try reflexivity.
  - apply ex4_wf_cols; auto.
  - apply ex4_K_wf; reflexivity.
  - apply ex4_sk_len.
  - unfold C04Phase.C04_ggsw_cells. ex4_cells_tac.
Qed.

Example C04_instance_runs :
  exists res, gadget_product 2 2 2 (zcols 2 2 2) ex4_ct 2 1 2 2 false (ex4_K ex4_m2) = Some res /\
    phase_f 8 4 2 2 2 (limbs_of res) (sk_ext 2 ex4_sk)
    = padd (padd (pmul ex4_m2 (phase_f 8 4 2 2 (Nat.min 2 (2 * 1)) (acol 2 ex4_ct) (sk_ext 2 ex4_sk)))
                 (gadget_err 8 4 2 2 2 2 1 2 (acol 2 ex4_ct) (ex4_K ex4_m2) (sk_ext 2 ex4_sk) ex4_zero))
           (pscale (2 ^ 8) (gadget_int 4 2 2 2 2 1 2 (acol 2 ex4_ct) (ex4_K ex4_m2) (sk_ext 2 ex4_sk) ex4_zero)).
Proof. eexists. split; vm_compute; reflexivity. Qed.

Example C04_cmux_hypotheses_satisfiable :
  (1 <= 2)%nat /\ wf_cols 2 2 2 ex4_ct /\ wf_cols 2 2 2 ex4_f /\ length (zcols 2 2 2) = 2%nat /\ (forall co, (co < 2)%nat -> length (col (zcols 2 2 2) co) = 2%nat) /\
  wf_pmat_in 2 (2 * 2) (2 * 2) (ex4_K (pscale 1 (pone 2))) /\
  key_rows_ok 8 4 2 2 2 2 1 2 (ex4_K (pscale 1 (pone 2))) (sk_ext 2 ex4_sk) (fun ci => pmul (pscale 1 (pone 2)) (sk_ext 2 ex4_sk ci)) ex4_zero ex4_zero /\
  (1 = 0 \/ 1 = 1) /\ (1 = 1 -> (2 <= Nat.min 2 (2 * 1))%nat /\ (2 <= 2)%nat).
Proof.
  repeat match goal with |- _ /\ _ => split end; try lia; try (apply ex4_wf_cols; auto).
  - apply ex4_K_wf; reflexivity.
  - ex4_cells_tac.
Qed.

Example C04_ggsw_body_satisfiable : ggsw_body_ok 8 4 2 1 2 1 2 (ex4_K ex4_m2) (sk_ext 2 ex4_sk) ex4_m2 ex4_zero ex4_zero.
Proof.
  intros row col Hrow Hcol.
  destruct row as [|[|row]]; [| |lia]; (destruct col as [|[|col]]; [| |lia]); vm_compute; reflexivity.
Qed.

Example C04_expand_row_hypotheses_satisfiable :
  wf_cols 2 2 2 ex5_ct0 /\ wf_pmat_in 2 (1 * 1) (2 * 2) ex5_K /\ (2 <= 1 * 2)%nat /\
  sk_ext 2 ex5_sk 0 = pone 2 /\
  key_rows_ok 8 4 2 1 2 2 2 1 ex5_K (sk_ext 2 ex5_sk) (fun i => pmul (sk_ext 2 ex5_sk (S i)) (sk_ext 2 ex5_sk 1)) ex5_zero ex5_zero /\
  phase_f 8 4 2 2 2 (acol 2 ex5_ct0) (sk_ext 2 ex5_sk)
  = padd (padd (phase_f 8 4 2 2 2 (acol 2 ex5_ct0) (sk_ext 2 ex5_sk)) (pzero 2)) (pscale (2 ^ 8) (pzero 2)).
Proof.
  repeat match goal with |- _ /\ _ => split end; try lia; try reflexivity.
  - split; [reflexivity|]. intros ci H. destruct ci as [|[|ci]]; [| |lia]; (split; [reflexivity|]); intros l Hl; destruct l as [|[|l]]; try lia; reflexivity.
  - intros q c Hq Hc. unfold ex5_K. destruct (_ && _); reflexivity.
  - intros row ci Hrow Hci. destruct row as [|row]; [|lia]. destruct ci as [|ci]; [|lia]. vm_compute. reflexivity.
Qed.

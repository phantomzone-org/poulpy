(* C18 — serialisation round-trips; damaged input rejected without corruption.  Statements, each proved by
   `exact` or by a short derivation from the lemmas of Proofs/.

   `reader_*` / `dist_writer` (Model/C18Serial.v) are the model of /repo that run_c18 executes: since /repo 206cd69,
   0b16af7, 6f8da98, 1c0fa22 they are the repaired readers (C18_model_in_force).  The theorems below are stated for
   EVERY receiver and EVERY byte string, in both arithmetic modes (dbg) and for both kinds of reader (partial).
   Still false of the code, with witnesses: an in-place composite reader has replaced keys 0..k-1 when key k fails
   (C18_err_leaves_metadata_composite_refuted), and the Distribution word drops the 8 low mantissa bits of a
   probability (C18_dist_roundtrip_refuted_low8bits).  The model of the code before the repairs (`current_*`) and its
   refutations stay in Proofs/ as lemmas. *)
From PV Require Import Base.MachineInt Model.C18Serial Proofs.C18Bytes Proofs.C18Flat Proofs.C18Wrap Proofs.C18Keys.
Open Scope Z_scope.

(* the model that run_c18 uses for /repo *)
Theorem C18_model_in_force :
  reader_flat = fixed_flat /\ reader_wobj = fixed_wobj /\ reader_kseq = fixed_kseq /\
  reader_cbk = fixed_cbk /\ reader_bdd = fixed_bdd /\ dist_writer = dist_write_fixed.
Proof. repeat split; reflexivity. Qed.
Print Assumptions C18_model_in_force.

(* VecZnx / ScalarZnx / MatZnx: every header word and every active byte; max_size of a VecZnx = min(max_size, what the
   receiver's buffer holds); the bytes of the receiver beyond the payload are untouched *)
Theorem C18_read_write_roundtrip : forall (dbg partial : bool) (r x : flat) (tl : bytes),
  wf_flat x -> fk r = fk x -> payload_len x <= blen (fd r) ->
  (fk x = KVec -> hd_ (fh x) 2 <= hd_ (fh x) 3) ->
  reader_flat dbg partial r (write_flat x ++ tl) = (Ok, loaded (clamp_hdr (fk x) (fh x) (blen (fd r))) r x, tl).
Proof. exact read_flat_fixed_roundtrip. Qed.
Print Assumptions C18_read_write_roundtrip.

Theorem C18_roundtrip_result_is_logically_x : forall (h : list Z) (r x : flat),
  wf_flat x -> payload_len x <= blen (fd r) ->
  firstn (Z.to_nat (payload_len x)) (fd (loaded h r x)) = active x /\ length (fd (loaded h r x)) = length (fd r).
Proof.
  intros h r x Hwf Hcap. pose proof (active_length x Hwf) as Hal.
  destruct (wf_payload x Hwf) as (_ & Hu & _).
  unfold loaded. cbn [fd]. split.
  - rewrite <- Hal, firstn_app, Nat.sub_diag, firstn_all. cbn [firstn]. apply app_nil_r.
  - rewrite app_length, skipn_length, Hal. unfold blen, u64 in *. lia.
Qed.
Print Assumptions C18_roundtrip_result_is_logically_x.

Theorem C18_read_write_roundtrip_vec_znx : forall (dbg partial : bool) (r x : vec_znx) (tl : bytes),
  wf_flat (flat_of_vec x) -> vec_payload x <= blen (vdata r) -> vsize x <= vmax_size x ->
  read_vec_znx_fixed dbg partial r (write_vec_znx x ++ tl) =
    (Ok, {| vn := vn x; vcols := vcols x; vsize := vsize x;
            vmax_size := Z.min (vmax_size x)
                           (if vn x * vcols x * 8 =? 0 then vmax_size x else blen (vdata r) / (vn x * vcols x * 8));
            vdata := firstn (Z.to_nat (vec_payload x)) (vdata x) ++ skipn (Z.to_nat (vec_payload x)) (vdata r) |}, tl).
Proof.
  intros dbg partial r x tl Hwf Hcap Hsz. pose proof (vec_payload_eq x Hwf) as Hp.
  unfold read_vec_znx_fixed, lift_read, write_vec_znx.
  rewrite read_flat_fixed_roundtrip; [|exact Hwf|reflexivity|rewrite Hp; exact Hcap|intros _; exact Hsz].
  unfold loaded, vec_of_flat, active. rewrite Hp. reflexivity.
Qed.
Print Assumptions C18_read_write_roundtrip_vec_znx.

Theorem C18_read_write_roundtrip_scalar_znx : forall (dbg partial : bool) (r x : scalar_znx) (tl : bytes),
  wf_flat (flat_of_scalar x) -> scalar_payload x <= blen (sdata r) ->
  read_scalar_znx_fixed dbg partial r (write_scalar_znx x ++ tl) =
    (Ok, {| sn := sn x; scols := scols x;
            sdata := firstn (Z.to_nat (scalar_payload x)) (sdata x) ++ skipn (Z.to_nat (scalar_payload x)) (sdata r) |}, tl).
Proof.
  intros dbg partial r x tl Hwf Hcap. pose proof (scalar_payload_eq x Hwf) as Hp.
  unfold read_scalar_znx_fixed, lift_read, write_scalar_znx.
  rewrite read_flat_fixed_roundtrip; [|exact Hwf|reflexivity|rewrite Hp; exact Hcap|discriminate].
  unfold loaded, scalar_of_flat, active. rewrite Hp. reflexivity.
Qed.
Print Assumptions C18_read_write_roundtrip_scalar_znx.

Theorem C18_read_write_roundtrip_mat_znx : forall (dbg partial : bool) (r x : mat_znx) (tl : bytes),
  wf_flat (flat_of_mat x) -> mat_payload x <= blen (mdata r) ->
  read_mat_znx_fixed dbg partial r (write_mat_znx x ++ tl) =
    (Ok, {| mn := mn x; msize := msize x; mrows := mrows x; mcols_in := mcols_in x; mcols_out := mcols_out x;
            mdata := firstn (Z.to_nat (mat_payload x)) (mdata x) ++ skipn (Z.to_nat (mat_payload x)) (mdata r) |}, tl).
Proof.
  intros dbg partial r x tl Hwf Hcap. pose proof (mat_payload_eq x Hwf) as Hp.
  unfold read_mat_znx_fixed, lift_read, write_mat_znx.
  rewrite read_flat_fixed_roundtrip; [|exact Hwf|reflexivity|rewrite Hp; exact Hcap|discriminate].
  unfold loaded, mat_of_flat, active. rewrite Hp. reflexivity.
Qed.
Print Assumptions C18_read_write_roundtrip_mat_znx.

(* every poulpy-core wrapper (GLWE, LWE, GGLWE, GGSW, the keys, GLWEPublicKey, all compressed forms) *)
Theorem C18_read_write_roundtrip_wobj : forall (dbg partial : bool) (r x : wobj) (tl : bytes),
  wf_wobj x -> valid_wobj x -> wobj_fits r x ->
  (fk (w_body x) = KVec -> hd_ (fh (w_body x)) 2 <= hd_ (fh (w_body x)) 3) ->
  reader_wobj dbg partial r (write_wobj x ++ tl) =
    (Ok, {| w_fields := w_fields x;
            w_body := loaded (clamp_hdr (fk (w_body x)) (fh (w_body x)) (blen (fd (w_body r)))) (w_body r) (w_body x) |}, tl).
Proof. exact read_wobj_fixed_roundtrip. Qed.
Print Assumptions C18_read_write_roundtrip_wobj.

(* GGLWEToGGSWKey, BlindRotationKey and their compressed forms *)
Theorem C18_read_write_roundtrip_kseq : forall (dbg partial : bool) (r x : kseq) (tl : bytes),
  kseq_fits fits_fix r x ->
  reader_kseq dbg partial r (write_kseq x ++ tl) = (Ok, resk_fix r x, tl).
Proof. exact fixed_kseq_roundtrip. Qed.
Print Assumptions C18_read_write_roundtrip_kseq.

(* CircuitBootstrappingKey *)
Theorem C18_read_write_roundtrip_cbk : forall (dbg partial : bool) (r x : cbk) (tl : bytes),
  cbk_fits fits_fix (kseq_fits fits_fix) r x ->
  reader_cbk dbg partial r (write_cbk x ++ tl) = (Ok, cbk_res res_fix resk_fix r x, tl).
Proof. exact fixed_cbk_roundtrip. Qed.
Print Assumptions C18_read_write_roundtrip_cbk.

(* BDDKey *)
Theorem C18_read_write_roundtrip_bdd : forall (dbg partial : bool) (r x : bdd) (tl : bytes),
  bdd_fits fits_fix (cbk_fits fits_fix (kseq_fits fits_fix)) r x ->
  reader_bdd dbg partial r (write_bdd x ++ tl) = (Ok, bdd_res res_fix (cbk_res res_fix resk_fix) r x, tl).
Proof. exact fixed_bdd_roundtrip. Qed.
Print Assumptions C18_read_write_roundtrip_bdd.

(* Distribution: the values with a 56-bit payload survive; an integer payload that does not fit is refused by the writer *)
Theorem C18_dist_roundtrip : forall t p : Z, dist_canonical t p ->
  u64 (dist_word t p) /\ dist_decode (dist_word t p) = Some (t, p).
Proof. exact dist_word_spec. Qed.
Print Assumptions C18_dist_roundtrip.

Theorem C18_dist_roundtrip_writer : forall t p w : Z,
  dist_is_fixed t = true -> 0 <= p -> dist_writer t p = Some w -> u64 w /\ dist_decode w = Some (t, p).
Proof.
  intros t p w Ht Hp. unfold dist_writer, dist_write_fixed. rewrite Ht. cbn [andb].
  destruct (2 ^ 56 <=? p) eqn:E; [discriminate|]. apply Z.leb_gt in E.
  intros H; inversion H; subst. apply dist_word_spec. right; left. split; [exact Ht|lia].
Qed.
Print Assumptions C18_dist_roundtrip_writer.

(* still FALSE of the code (documented in dist.rs): the 8 low mantissa bits of a probability are dropped *)
Theorem C18_dist_roundtrip_refuted_low8bits :
  dist_decode (dist_word 1 4602678819172646913) = Some (1, 4602678819172646912).
Proof. vm_compute. reflexivity. Qed.
Print Assumptions C18_dist_roundtrip_refuted_low8bits.

(* the writers take the logical object and nothing else: equal header words, scalar fields and active bytes give
   equal byte strings, whatever produced the object and whatever lies in the slack of its buffer *)
Theorem C18_format_backend_independent : forall x y : flat,
  fh x = fh y -> active x = active y -> fk x = fk y -> write_flat x = write_flat y.
Proof. exact write_flat_logical. Qed.
Print Assumptions C18_format_backend_independent.

Theorem C18_format_backend_independent_wobj : forall x y : wobj,
  w_fields x = w_fields y -> fk (w_body x) = fk (w_body y) -> fh (w_body x) = fh (w_body y) ->
  active (w_body x) = active (w_body y) -> write_wobj x = write_wobj y.
Proof.
  intros x y H1 H2 H3 H4. unfold write_wobj. rewrite H1. f_equal. apply write_flat_logical; assumption.
Qed.
Print Assumptions C18_format_backend_independent_wobj.

Theorem C18_format_backend_independent_kseq : forall x y : kseq,
  k_pre x = k_pre y -> map write_wobj (k_keys x) = map write_wobj (k_keys y) -> write_kseq x = write_kseq y.
Proof.
  intros x y H1 H2. unfold write_kseq, write_keys. rewrite H1, H2.
  assert (Hl : length (k_keys x) = length (k_keys y)).
  { rewrite <- (map_length write_wobj (k_keys x)), H2, map_length. reflexivity. }
  rewrite Hl. reflexivity.
Qed.
Print Assumptions C18_format_backend_independent_kseq.

(* never a panic, an arithmetic overflow, a wrapped acceptance, an out-of-bounds slice or an allocation abort *)
Theorem C18_read_total : forall (dbg partial : bool) (r : flat) (s : bytes),
  good (fst (fst (reader_flat dbg partial r s))).
Proof. exact read_flat_fixed_total. Qed.
Print Assumptions C18_read_total.

Theorem C18_read_total_wobj : forall (dbg partial : bool) (r : wobj) (s : bytes),
  good (fst (fst (reader_wobj dbg partial r s))).
Proof. exact fixed_wobj_total. Qed.
Print Assumptions C18_read_total_wobj.

Theorem C18_read_total_kseq : forall (dbg partial : bool) (r : kseq) (s : bytes),
  good (fst (fst (reader_kseq dbg partial r s))).
Proof. exact fixed_kseq_total. Qed.
Print Assumptions C18_read_total_kseq.

Theorem C18_read_total_cbk : forall (dbg partial : bool) (r : cbk) (s : bytes),
  good (fst (fst (reader_cbk dbg partial r s))).
Proof. exact fixed_cbk_total. Qed.
Print Assumptions C18_read_total_cbk.

Theorem C18_read_total_bdd : forall (dbg partial : bool) (r : bdd) (s : bytes),
  good (fst (fst (reader_bdd dbg partial r s))).
Proof. exact fixed_bdd_total. Qed.
Print Assumptions C18_read_total_bdd.

(* after Ok AND after Err: size <= max_size, n*cols*max_size*8 <= |buffer| (MatZnx / ScalarZnx: the product of all
   dimensions), wrappers: moreover base2k and dsize non-zero *)
Theorem C18_read_preserves_inv : forall (dbg partial : bool) (r : flat) (s : bytes) (o : outcome) (r' : flat) (t : bytes),
  reader_flat dbg partial r s = (o, r', t) -> inv_flat r -> inv_flat r'.
Proof. exact read_flat_fixed_preserves_inv. Qed.
Print Assumptions C18_read_preserves_inv.

Theorem C18_read_keeps_buffer_length : forall (dbg partial : bool) (r : flat) (s : bytes),
  length (fd (snd (fst (reader_flat dbg partial r s)))) = length (fd r) /\ fk (snd (fst (reader_flat dbg partial r s))) = fk r.
Proof.
  intros dbg partial r s. unfold reader_flat, fixed_flat.
  destruct (read_flat_fixed dbg partial r s) as [[o r'] t] eqn:E. cbn [fst snd].
  apply read_flat_fixed_cases in E.
  destruct E as [(_ & Hk & _ & Hl)|(h & s1 & len & s2 & a & _ & _ & E2 & _ & _ & Hle & _ & _ & Hla & ->)]; auto.
  cbn [fd fk]. split; [|reflexivity]. rewrite app_length, skipn_length. apply rd_u64 in E2. unfold u64, blen in *. lia.
Qed.
Print Assumptions C18_read_keeps_buffer_length.

Theorem C18_read_preserves_inv_wobj : forall (dbg partial : bool) (r : wobj) (s : bytes) (o : outcome) (r' : wobj) (t : bytes),
  reader_wobj dbg partial r s = (o, r', t) -> inv_wobj r -> valid_wobj r -> inv_wobj r' /\ valid_wobj r'.
Proof. exact read_wobj_fixed_preserves_inv. Qed.
Print Assumptions C18_read_preserves_inv_wobj.

Theorem C18_read_preserves_inv_kseq : forall (dbg partial : bool) (r : kseq) (s : bytes),
  Ik r -> Ik (snd (fst (reader_kseq dbg partial r s))).
Proof. exact fixed_kseq_inv. Qed.
Print Assumptions C18_read_preserves_inv_kseq.

Theorem C18_read_preserves_inv_cbk : forall (dbg partial : bool) (r : cbk) (s : bytes),
  Ic r -> Ic (snd (fst (reader_cbk dbg partial r s))).
Proof. exact fixed_cbk_inv. Qed.
Print Assumptions C18_read_preserves_inv_cbk.

Theorem C18_read_preserves_inv_bdd : forall (dbg partial : bool) (r : bdd) (s : bytes),
  Ib r -> Ib (snd (fst (reader_bdd dbg partial r s))).
Proof. exact fixed_bdd_inv. Qed.
Print Assumptions C18_read_preserves_inv_bdd.

Theorem C18_err_leaves_metadata : forall (dbg partial : bool) (r : flat) (s : bytes) (r' : flat) (t : bytes),
  reader_flat dbg partial r s = (Err, r', t) -> fk r' = fk r /\ fh r' = fh r /\ length (fd r') = length (fd r).
Proof.
  intros dbg partial r s r' t E. apply read_flat_fixed_cases in E.
  destruct E as [(_ & H)|(h & s1 & len & s2 & a & H & _)]; [exact H|discriminate H].
Qed.
Print Assumptions C18_err_leaves_metadata.

(* wrappers: every scalar field (base2k, k, rank, dsize, degrees, p, seeds, dist) and the inner header *)
Theorem C18_err_leaves_metadata_wobj : forall (dbg partial : bool) (r : wobj) (s : bytes) (r' : wobj) (t : bytes),
  reader_wobj dbg partial r s = (Err, r', t) -> same_meta_wobj r' r.
Proof. exact read_wobj_fixed_err_leaves_metadata. Qed.
Print Assumptions C18_err_leaves_metadata_wobj.

(* composites (GGLWEToGGSWKey, BlindRotationKey, ...): the fields in front are untouched, the number of keys is
   unchanged, and every key is either untouched (metadata) or the complete result of a successful read of that key *)
Theorem C18_err_leaves_metadata_kseq_partial : forall (dbg partial : bool) (r : kseq) (s : bytes),
  let res := reader_kseq dbg partial r s in
  good (fst (fst res)) /\ (Ik r -> Ik (snd (fst res))) /\
  length (k_keys (snd (fst res))) = length (k_keys r) /\
  (fst (fst res) = Err -> k_pre (snd (fst res)) = k_pre r /\
                          Forall2 (key_atomic (reader_wobj dbg partial)) (k_keys r) (k_keys (snd (fst res)))).
Proof. exact fixed_kseq_props. Qed.
Print Assumptions C18_err_leaves_metadata_kseq_partial.

(* the full statement for composites is still FALSE of the code: the keys are filled in place, so keys 0..k-1 have
   been replaced when key k fails (known finding composite.partial_update_on_error) *)
Definition C18_err_leaves_metadata_composite_full : Prop :=
  forall (dbg partial : bool) (r : kseq) (s : bytes) (r' : kseq) (t : bytes),
    reader_kseq dbg partial r s = (Err, r', t) -> k_pre r' = k_pre r /\ Forall2 same_meta_wobj (k_keys r') (k_keys r).

Theorem C18_err_leaves_metadata_composite_refuted :
  exists k', reader_kseq false false w_two_keys w_second_truncated = (Err, k', []) /\
             k_keys k' = [w_key 9; w_key 8] /\ k_keys k' <> k_keys w_two_keys.
Proof. eexists. split; [vm_compute; reflexivity|]. split; [reflexivity|]. cbn. discriminate. Qed.
Print Assumptions C18_err_leaves_metadata_composite_refuted.

(* proposed repair of the composites (work/proposed_fixes/C18_composites_staged.diff, not yet in /repo): the
   stream is validated on copies of the sub-keys and replayed into the receiver on success.  Then the full statements
   hold for the bundles as well; on Err the receiver is unchanged altogether, bytes included. *)
Theorem C18_proposed_staged_read_total : forall (dbg partial : bool),
  (forall (r : kseq) (s : bytes), good (fst (fst (staged_kseq dbg partial r s)))) /\
  (forall (r : cbk) (s : bytes), good (fst (fst (staged_cbk dbg partial r s)))) /\
  (forall (r : bdd) (s : bytes), good (fst (fst (staged_bdd dbg partial r s)))).
Proof. exact (fun d p => conj (staged_kseq_total d p) (conj (staged_cbk_total d p) (staged_bdd_total d p))). Qed.
Print Assumptions C18_proposed_staged_read_total.

Theorem C18_proposed_staged_err_leaves_receiver : forall (dbg partial : bool),
  (forall (r : kseq) (s : bytes) (r' : kseq) (t : bytes), staged_kseq dbg partial r s = (Err, r', t) -> r' = r) /\
  (forall (r : cbk) (s : bytes) (r' : cbk) (t : bytes), staged_cbk dbg partial r s = (Err, r', t) -> r' = r) /\
  (forall (r : bdd) (s : bytes) (r' : bdd) (t : bytes), staged_bdd dbg partial r s = (Err, r', t) -> r' = r).
Proof. exact (fun d p => conj (staged_kseq_err d p) (conj (staged_cbk_err d p) (staged_bdd_err d p))). Qed.
Print Assumptions C18_proposed_staged_err_leaves_receiver.

Theorem C18_proposed_staged_preserves_inv : forall (dbg partial : bool),
  (forall (r : kseq) (s : bytes), Ik r -> Ik (snd (fst (staged_kseq dbg partial r s)))) /\
  (forall (r : cbk) (s : bytes), Ic r -> Ic (snd (fst (staged_cbk dbg partial r s)))) /\
  (forall (r : bdd) (s : bytes), Ib r -> Ib (snd (fst (staged_bdd dbg partial r s)))).
Proof. exact (fun d p => conj (staged_kseq_inv d p) (conj (staged_cbk_inv d p) (staged_bdd_inv d p))). Qed.
Print Assumptions C18_proposed_staged_preserves_inv.

Theorem C18_proposed_staged_roundtrip : forall (dbg partial : bool),
  (forall (r x : kseq) (tl : bytes), kseq_fits fits_fix r x ->
     staged_kseq dbg partial r (write_kseq x ++ tl) = (Ok, resk_fix r x, tl)) /\
  (forall (r x : cbk) (tl : bytes), cbk_fits fits_fix (kseq_fits fits_fix) r x ->
     staged_cbk dbg partial r (write_cbk x ++ tl) = (Ok, cbk_res res_fix resk_fix r x, tl)) /\
  (forall (r x : bdd) (tl : bytes), bdd_fits fits_fix (cbk_fits fits_fix (kseq_fits fits_fix)) r x ->
     staged_bdd dbg partial r (write_bdd x ++ tl) = (Ok, bdd_res res_fix (cbk_res res_fix resk_fix) r x, tl)).
Proof. exact (fun d p => conj (staged_kseq_roundtrip d p) (conj (staged_cbk_roundtrip d p) (staged_bdd_roundtrip d p))). Qed.
Print Assumptions C18_proposed_staged_roundtrip.

(* hypotheses are satisfiable *)
Definition ex_vec : flat := {| fk := KVec; fh := [4; 2; 3; 5]; fd := repeat 7 192%nat |}.
Definition ex_recv : flat := {| fk := KVec; fh := [1; 1; 1; 1]; fd := repeat 0 256%nat |}.

Example ex_wf_flat : wf_flat ex_vec.
Proof.
  apply wf_flat_of_pos.
  - reflexivity.
  - repeat (apply Forall_cons); try apply Forall_nil; lia.
  - repeat (apply Forall_cons); try apply Forall_nil; unfold u64; split; try lia; reflexivity.
  - vm_compute. discriminate.
  - vm_compute. reflexivity.
Qed.

Example ex_fits_flat : fk ex_recv = fk ex_vec /\ payload_len ex_vec <= blen (fd ex_recv) /\
                       (fk ex_vec = KVec -> hd_ (fh ex_vec) 2 <= hd_ (fh ex_vec) 3).
Proof. split; [reflexivity|]. split; [vm_compute; discriminate|intros _; vm_compute; discriminate]. Qed.

Example ex_inv_flat : inv_flat ex_recv.
Proof. split; [reflexivity|]. split; [vm_compute; discriminate|intros _; vm_compute; discriminate]. Qed.

Example ex_dist_canonical : dist_canonical 1 4602678819172646912 /\ dist_canonical 0 12345 /\ dist_canonical 6 0.
Proof.
  split; [|split].
  - left. split; [reflexivity|]. split; [unfold u64; split; [lia|reflexivity]|reflexivity].
  - right; left. split; [reflexivity|]. split; [lia|reflexivity].
  - right; right. split; [right; reflexivity|reflexivity].
Qed.

(* a GLWECompressed-like wrapper: base2k, rank, seed, VecZnx *)
Definition ex_wobj : wobj :=
  {| w_fields := [{| f_role := 1; f_val := VU32 12 |}; {| f_role := 3; f_val := VU32 2 |};
                  {| f_role := 8; f_val := VSeed (repeat 9 32%nat) |}];
     w_body := ex_vec |}.
Definition ex_wrecv : wobj :=
  {| w_fields := [{| f_role := 1; f_val := VU32 8 |}; {| f_role := 3; f_val := VU32 1 |};
                  {| f_role := 8; f_val := VSeed zero_seed |}];
     w_body := ex_recv |}.

Example ex_fits_wobj : fits_now ex_wrecv ex_wobj /\ fits_fix ex_wrecv ex_wobj /\ Iw ex_wrecv.
Proof.
  assert (Hwf : wf_wobj ex_wobj).
  { split; [|exact ex_wf_flat]. repeat (apply Forall_cons); try apply Forall_nil; cbn [f_val wf_fval]; try reflexivity;
      unfold u32; split; try lia; reflexivity. }
  assert (Hfit : wobj_fits ex_wrecv ex_wobj).
  { split; [|split; [reflexivity|vm_compute; discriminate]].
    repeat (apply Forall2_cons); try apply Forall2_nil; split; cbn; auto. }
  split; [|split].
  - split; [exact Hwf|]. split; [|exact Hfit]. repeat (apply Forall_cons); try apply Forall_nil; exact I.
  - split; [exact Hwf|]. split; [reflexivity|]. split; [exact Hfit|intros _; vm_compute; discriminate].
  - split; [exact ex_inv_flat|reflexivity].
Qed.

(* a two-key sequence with a Distribution in front (BlindRotationKey-like), and a BDDKey-like bundle around it *)
Definition ex_kseq (w : wobj) : kseq := {| k_pre := [{| f_role := 10; f_val := VDist 4 3 |}]; k_keys := [w; w] |}.

Example ex_fits_kseq : kseq_fits fits_now (ex_kseq ex_wrecv) (ex_kseq ex_wobj) /\ small_fields (k_pre (ex_kseq ex_wobj)) /\
                       kseq_fits fits_fix (ex_kseq ex_wrecv) (ex_kseq ex_wobj) /\ Ik (ex_kseq ex_wrecv).
Proof.
  destruct ex_fits_wobj as (Hn & Hf & Hi).
  assert (Hpre : Forall2 field_fits (k_pre (ex_kseq ex_wrecv)) (k_pre (ex_kseq ex_wobj))).
  { apply Forall2_cons; [split; cbn; auto|apply Forall2_nil]. }
  assert (Hwf : wf_fields (k_pre (ex_kseq ex_wobj))).
  { apply Forall_cons; [|apply Forall_nil]. cbn [f_val wf_fval]. right; left. split; [reflexivity|]. split; [lia|reflexivity]. }
  split; [|split; [|split]].
  - split; [exact Hpre|]. split; [exact Hwf|]. split; [repeat (apply Forall2_cons); try apply Forall2_nil; exact Hn|reflexivity].
  - apply Forall_cons; [exact I|apply Forall_nil].
  - split; [exact Hpre|]. split; [exact Hwf|]. split; [repeat (apply Forall2_cons); try apply Forall2_nil; exact Hf|reflexivity].
  - repeat (apply Forall_cons); try apply Forall_nil; exact Hi.
Qed.

Definition ex_cbk (w : wobj) : cbk := {| c_brk := ex_kseq w; c_atk := [(-1, w); (5, w)]; c_tsk := ex_kseq w |}.
Definition ex_bdd (w : wobj) : bdd := {| b_cbt := ex_cbk w; b_ksg := Some w; b_ksl := w |}.

Example ex_fits_bdd :
  bdd_fits fits_now (cbk_fits fits_now fitsk_now) (ex_bdd ex_wrecv) (ex_bdd ex_wobj) /\
  bdd_fits fits_fix (cbk_fits fits_fix (kseq_fits fits_fix)) (ex_bdd ex_wrecv) (ex_bdd ex_wobj) /\ Ib (ex_bdd ex_wrecv).
Proof.
  destruct ex_fits_wobj as (Hn & Hf & Hi). destruct ex_fits_kseq as (Kn & Ks & Kf & Ki).
  assert (Hr : Forall (fun q : Z * wobj => in_range 64 (fst q)) (c_atk (ex_cbk ex_wobj))).
  { repeat (apply Forall_cons); try apply Forall_nil; cbn [fst]; unfold in_range; split; try lia; vm_compute; try discriminate; reflexivity. }
  assert (Hnd : NoDup (map fst (c_atk (ex_cbk ex_wobj)))).
  { cbn. repeat constructor; cbn; intuition discriminate. }
  split; [|split].
  - split; [|split; [exact Hn|exact Hn]].
    split; [split; assumption|]. split; [repeat (apply Forall2_cons); try apply Forall2_nil; (split; [reflexivity|exact Hn])|].
    split; [exact Hr|]. split; [exact Hnd|]. split; [reflexivity|split; assumption].
  - split; [|split; [exact Hf|exact Hf]].
    split; [exact Kf|]. split; [repeat (apply Forall2_cons); try apply Forall2_nil; (split; [reflexivity|exact Hf])|].
    split; [exact Hr|]. split; [exact Hnd|]. split; [reflexivity|exact Kf].
  - split; [|split; [exact Hi|exact Hi]].
    split; [exact Ki|]. split; [|exact Ki]. repeat (apply Forall_cons); try apply Forall_nil; exact Hi.
Qed.

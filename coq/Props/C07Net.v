(* C07NET: the NTT120 butterfly networks (ntt_ref / intt_ref and their tables): the statements, each with a short
   derivation from the lemmas of Proofs/C07Net*.v, and Print Assumptions.
   Model: Model/C07NttNet.v (validated bit for bit against the Rust functions, opcodes 7201-7204).
   Everything is stated per prime Q_k (k < 4) of the three prime sets, for n = 2^m, 1 <= m <= 16, and for every input
   vector of u64 values (the documented input_bit_size is 64). *)
From PV Require Import Base.MachineInt Model.DftAbs Model.C07Ntt120 Model.C07NttNet Proofs.C07Ring Proofs.C07Ntt
  Proofs.C07NetBase Proofs.C07NetAbs Proofs.C07NetLazy Proofs.C07NetFacts Proofs.C07NetTable Proofs.C07NetFlat Proofs.C07NetMain.
Open Scope Z_scope.

(* the wrap function of the model is wrapu 64 *)
Theorem C07_net_w64_is_wrapu : forall x, w64 x = wrapu 64 x.
Proof. exact w64_wrapu. Qed.
Print Assumptions C07_net_w64_is_wrapu.

(* lazy budget: no u64 operation of any level wraps (ntt_safe / intt_safe evaluate, along the execution, that the exact
   value of every +, -, * is a u64 and that every level's outputs are below 2^bs of its NttStepMeta); hence the run equals
   the same network over unbounded integers; outputs are below 2^output_bit_size *)
Theorem C07_net_no_overflow : forall P, In P [primes29; primes30; primes31] -> forall k, (k < 4)%nat ->
  forall m, (1 <= m <= 16)%nat -> forall x, length x = pow2n m -> Forall (fun v => 0 <= v < 2 ^ 64) x ->
  (ntt_safe P k m x = true /\ ntt_k w64 P k m x = ntt_k (fun v => v) P k m x /\
   Forall (fun v => 0 <= v < 2 ^ fwd_out_bits P m) (ntt_k w64 P k m x) /\ length (ntt_k w64 P k m x) = pow2n m) /\
  (intt_safe P k m x = true /\ intt_k w64 P k m x = intt_k (fun v => v) P k m x /\
   Forall (fun v => 0 <= v < 2 ^ inv_out_bits P m) (intt_k w64 P k m x) /\ length (intt_k w64 P k m x) = pow2n m).
Proof.
  intros P HP k Hk [|m] Hm x Hx Hu; [lia|]. split.
  - apply (ntt_no_overflow P k m HP Hk ltac:(lia) x Hx Hu).
  - apply (intt_no_overflow P k m HP Hk ltac:(lia) x Hx Hu).
Qed.
Print Assumptions C07_net_no_overflow.

(* the root the tables use: psi = OMEGA_k^(2^(16-m)) mod Q_k, a primitive 2n-th root: psi^n = -1 *)
Theorem C07_net_root : forall P, In P [primes29; primes30; primes31] -> forall k, (k < 4)%nat -> forall m, (1 <= m <= 16)%nat ->
  let q := qk P k in let psi := omega_n P k m in
  psi = (omegak P k ^ 2 ^ (16 - Z.of_nat m)) mod q /\ psi ^ 2 ^ Z.of_nat m mod q = q - 1 /\ 1 < q.
Proof.
  intros P HP k Hk m Hm. cbv zeta. destruct (prime_facts P k HP Hk) as [HR _].
  split; [apply (psi_from_omega P k m ltac:(lia) HR)|].
  pose proof (q_range _ _ HR) as Hq.
  pose proof (psi_root P k m ltac:(lia) HR) as H. rewrite zp_pow, pow2n_Z in H. apply cong_unfold in H.
  split; [|lia]. rewrite H. replace (-1) with (qk P k - 1 + (-1) * qk P k) by ring.
  rewrite Z_mod_plus_full. apply Z.mod_small. lia.
Qed.
Print Assumptions C07_net_root.

(* the forward network: output p is the negacyclic evaluation at psi^(2 brev_m(p) + 1)  (brev m = bit reversal on m bits) *)
Theorem C07_net_ntt_spec : forall P, In P [primes29; primes30; primes31] -> forall k, (k < 4)%nat -> forall m, (1 <= m <= 16)%nat ->
  forall x, length x = pow2n m -> Forall (fun v => 0 <= v < 2 ^ 64) x -> forall p, (p < pow2n m)%nat ->
  nth p (ntt_k w64 P k m x) 0 mod qk P k =
  zsum (fun j => nth j x 0 * omega_n P k m ^ Z.of_nat ((2 * brev m p + 1) * j)) (pow2n m) mod qk P k.
Proof.
  intros P HP k Hk [|m] Hm x Hx Hu p Hp; [lia|]. apply (proj1 (cong_unfold _ _ _)).
  rewrite (ntt_spec P k m HP Hk ltac:(lia) x p Hx Hu Hp). unfold peval.
  apply zsum_cong. intros j _. rewrite zp_Zpow. reflexivity.
Qed.
Print Assumptions C07_net_ntt_spec.

(* inverse of forward is the identity on residues *)
Theorem C07_net_intt_ntt_id : forall P, In P [primes29; primes30; primes31] -> forall k, (k < 4)%nat -> forall m, (1 <= m <= 16)%nat ->
  forall x, length x = pow2n m -> Forall (fun v => 0 <= v < 2 ^ 64) x -> forall j, (j < pow2n m)%nat ->
  nth j (intt_k w64 P k m (ntt_k w64 P k m x)) 0 mod qk P k = nth j x 0 mod qk P k.
Proof.
  intros P HP k Hk [|m] Hm x Hx Hu j Hj; [lia|]. apply (proj1 (cong_unfold _ _ _)).
  destruct (ntt_no_overflow P k m HP Hk ltac:(lia) x Hx Hu) as [_ [_ [Hb Hl]]].
  apply (intt_of_ntt P k m HP Hk ltac:(lia) x _ j Hx Hu Hl); [|intros; reflexivity|exact Hj].
  apply (below_u64s (fwd_out_bits P (S m))); [apply (out_bits_64 P (S m) HP Hm)|exact Hb].
Qed.
Print Assumptions C07_net_intt_ntt_id.

(* convolution theorem: a, b residue vectors of the integer polynomials A, B; c any u64 vector carrying the residues of
   the pointwise products (as the bbc accumulators produce); then intt c carries the residues of the exact negacyclic product *)
Theorem C07_net_convolution : forall P, In P [primes29; primes30; primes31] -> forall k, (k < 4)%nat -> forall m, (1 <= m <= 16)%nat ->
  forall A B a b c, length A = pow2n m -> length B = pow2n m ->
  length a = pow2n m -> Forall (fun v => 0 <= v < 2 ^ 64) a -> length b = pow2n m -> Forall (fun v => 0 <= v < 2 ^ 64) b ->
  length c = pow2n m -> Forall (fun v => 0 <= v < 2 ^ 64) c ->
  (forall i, nth i a 0 mod qk P k = nth i A 0 mod qk P k) -> (forall i, nth i b 0 mod qk P k = nth i B 0 mod qk P k) ->
  (forall p, (p < pow2n m)%nat ->
     nth p c 0 mod qk P k = (nth p (ntt_k w64 P k m a) 0 * nth p (ntt_k w64 P k m b) 0) mod qk P k) ->
  forall j, (j < pow2n m)%nat -> nth j (intt_k w64 P k m c) 0 mod qk P k = nth j (pmul A B) 0 mod qk P k.
Proof.
  intros P HP k Hk [|m] Hm A B a b c HA HB Ha Hua Hb Hub Hc Huc HaA HbB Hprod j Hj; [lia|]. apply (proj1 (cong_unfold _ _ _)).
  rewrite (convolution P k m HP Hk ltac:(lia) a b c j Ha Hua Hb Hub Hc Huc).
  - apply pmul_lcong; [split; [lia|]|split; [lia|]|lia|lia]; intros i; apply (proj2 (cong_unfold _ _ _)).
    + apply HaA.
    + apply HbB.
  - intros p Hp. apply (proj2 (cong_unfold _ _ _)). apply Hprod. exact Hp.
  - exact Hj.
Qed.
Print Assumptions C07_net_convolution.

(* with C07_b_to_znx128_exact: the NTT120 product pipeline returns the exact integer coefficient whenever 2 |coefficient| < Q *)
Theorem C07_net_product_exact : forall P, In P [primes29; primes30; primes31] -> forall m, (1 <= m <= 16)%nat ->
  forall A B (a b c : nat -> list Z), length A = pow2n m -> length B = pow2n m ->
  (forall k, (k < 4)%nat ->
     length (a k) = pow2n m /\ Forall (fun v => 0 <= v < 2 ^ 64) (a k) /\ length (b k) = pow2n m /\ Forall (fun v => 0 <= v < 2 ^ 64) (b k) /\
     length (c k) = pow2n m /\ Forall (fun v => 0 <= v < 2 ^ 64) (c k) /\
     (forall i, nth i (a k) 0 mod qk P k = nth i A 0 mod qk P k) /\ (forall i, nth i (b k) 0 mod qk P k = nth i B 0 mod qk P k) /\
     (forall p, (p < pow2n m)%nat ->
        nth p (c k) 0 mod qk P k = (nth p (ntt_k w64 P k m (a k)) 0 * nth p (ntt_k w64 P k m (b k)) 0) mod qk P k)) ->
  forall j, (j < pow2n m)%nat -> 2 * Z.abs (nth j (pmul A B) 0) < Qprod P ->
  b_to_znx128 P (map (fun k => nth j (intt_k w64 P k m (c k)) 0) (seq 0 4)) = nth j (pmul A B) 0.
Proof.
  intros P HP m Hm A B a b c HA HB H j Hj Hsmall.
  apply (b_to_znx128_exact P HP); [|exact Hsmall].
  intros k Hk. rewrite nth_map_seq by exact Hk.
  destruct (H k Hk) as [Ha [Hua [Hb [Hub [Hc [Huc [HaA [HbB Hprod]]]]]]]].
  apply (C07_net_convolution P HP k Hk m Hm A B (a k) (b k) (c k)); assumption.
Qed.
Print Assumptions C07_net_product_exact.

(* the interleaved model (4 u64 per coefficient, as ntt_ref / intt_ref see the data) is the per-prime model column by column *)
Theorem C07_net_flat_view : forall P, In P [primes29; primes30; primes31] -> forall m, (1 <= m <= 16)%nat ->
  forall d, length d = (4 * pow2n m)%nat -> Forall (fun v => 0 <= v < 2 ^ 64) d ->
  forall k p, (k < 4)%nat -> (p < pow2n m)%nat ->
  nth p (colk k d) 0 = nth (4 * p + k) d 0 /\
  nth (4 * p + k) (ntt_ref P m d) 0 = nth p (ntt_k w64 P k m (colk k d)) 0 /\
  nth (4 * p + k) (intt_ref P m d) 0 = nth p (intt_k w64 P k m (colk k d)) 0.
Proof.
  intros P HP m Hm d Hd Hu k p Hk Hp. split; [apply (colk_nth _ d k p Hd Hk Hp)|].
  assert (L : forall k', (k' < 4)%nat -> length (ntt_k w64 P k' m (colk k' d)) = pow2n m /\ length (intt_k w64 P k' m (colk k' d)) = pow2n m).
  { intros k' Hk'. destruct (C07_net_no_overflow P HP k' Hk' m Hm (colk k' d) (colk_length _ d k' Hd Hk') (colk_u64s _ d k' Hd Hk' Hu)) as [[_ [_ [_ L1]]] [_ [_ [_ L2]]]].
    split; assumption. }
  split.
  - unfold ntt_ref. apply (per_prime_nth (fun k => ntt_k w64 P k m) (pow2n m) d k p Hd); [|exact Hk|exact Hp]. intros k' Hk'. apply (L k' Hk').
  - unfold intt_ref. apply (per_prime_nth (fun k => intt_k w64 P k m) (pow2n m) d k p Hd); [|exact Hk|exact Hp]. intros k' Hk'. apply (L k' Hk').
Qed.
Print Assumptions C07_net_flat_view.

(* examples: the hypotheses are satisfiable, the definitions say what they should *)
Example C07_net_brev_ex : map (brev 3) (seq 0 8) = [0; 4; 2; 6; 1; 5; 3; 7]%nat /\ pow2n 3 = 8%nat.
Proof. split; reflexivity. Qed.
Example C07_net_safe_ex :   (* all-ones input, n = 8: no wrap, and the safety predicate does say `false` when an operation wraps *)
  ntt_safe primes30 0 3 (repeat (2 ^ 64 - 1) 8) = true /\ intt_safe primes30 0 3 (repeat (2 ^ 64 - 1) 8) = true /\
  spm_ok w64 (2 ^ 64 - 1) (2 ^ 64 - 1) 32 (2 ^ 32 - 1) = false /\ isu (0 + 5 - 6) = false.
Proof.
  unfold ntt_safe, intt_safe, fwd_table, inv_table, inv_ml, inv_ms, fwd_ms, red_of, bs_red.
  rewrite fill_red_primes30. vm_compute. repeat split.
Qed.
Example C07_net_roundtrip_ex :
  map (fun v => v mod qk primes30 1) (intt_k w64 primes30 1 2 (ntt_k w64 primes30 1 2 [1; 2; 3; 2 ^ 64 - 1])) =
  map (fun v => v mod qk primes30 1) [1; 2; 3; 2 ^ 64 - 1].
Proof.
  unfold intt_k, ntt_k, fwd_table, inv_table, inv_ml, inv_ms, fwd_ms, red_of, bs_red.
  rewrite fill_red_primes30. vm_compute. reflexivity.
Qed.
Example C07_net_pipeline_ex : run_c07_net 7204 [3; 30; 2] [[1; 2; 0; -3]; [3; 4; 0; 0]] = Some [pmul [1; 2; 0; -3] [3; 4; 0; 0]]
  /\ pmul [1; 2; 0; -3] [3; 4; 0; 0] = [15; 10; 8; -9].
Proof.
  change (run_c07_net 7204 [3; 30; 2] [[1; 2; 0; -3]; [3; 4; 0; 0]]) with (Some [pipeline primes30 2 [1; 2; 0; -3] [3; 4; 0; 0]]).
  unfold pipeline, ntt_ref, intt_ref, ntt_k, intt_k, fwd_table, inv_table, inv_ml, inv_ms, fwd_ms, red_of, bs_red.
  rewrite fill_red_primes30. vm_compute. split; reflexivity.
Qed.
Example C07_net_bits_ex : fwd_out_bits primes30 16 = 64 /\ inv_out_bits primes30 16 = 59 /\ fwd_out_bits primes29 3 <= 64.
Proof.
  split; [|split].
  - unfold fwd_out_bits, fwd_ms, bs_red. rewrite fill_red_primes30. vm_compute. reflexivity.
  - unfold inv_out_bits, inv_ml, inv_ms, bs_red. rewrite fill_red_primes30. vm_compute. reflexivity.
  - apply (out_bits_64 primes29 3); [left; reflexivity|lia].
Qed.

(* C16 — CKKS evaluator: metadata / error algebra of every operation and of straight-line programs.
   Statements, each proved by `exact` or by a short derivation from the lemmas of Proofs/, and Print Assumptions.
   Model: Model/C16Meta.v (transcribed code),
   Model/C16Spec.v (invariant, documented closed-form algebra `spec_step`, admissible calls, known-finding classes).
   Value tracking (decrypted slots vs. shadow complex evaluation) and the float rounding of encode/decode are
   checked by the correspondence harness against the envelope of Model/C16Oracle.v; they are not theorems. *)
From Coq Require Import QArith.
From PV Require Import Base.MachineInt Model.C16Meta Model.C16Spec Proofs.C16Proofs Proofs.C16Composite Proofs.C16Value.
Open Scope Z_scope.

(* State of /repo: after the repairs fd924ce (ct x ct scale), 3326e5c (rescale_into), e31e2c8 (mul_pt base2k),
   84cafa8 (constant digits), b042dad (set_meta_checked), 628058f (_into forms check the budget first),
   18a4236 (dot_product_ct scale), 1a5cef0 (add_many / mul_many single input), 45bddf7 (OperandNotCompact).
   Hypotheses: base2k >= 1; operands `good` (log_delta + log_budget <= limbs * base2k < 2^62); caller scalars are
   arbitrary usize values (`wf_op`). *)

(* every Ok result satisfies log_delta + log_budget <= max_k(dst): every operation, either build profile *)
Theorem C16_meta_never_exceeds :
  forall (chk : bool) (B : Z) (o : op) (d a b : ct) (m : meta) (sz : Z) (sh : list Z),
    1 <= B -> wf_op B o -> good B d -> good B a -> good B b ->
    meta_step chk B o d a b = Done m sz sh ->
    good B (Ct m sz).
Proof. exact meta_never_exceeds. Qed.
Print Assumptions C16_meta_never_exceeds.

(* ... and so does every Err: a rejected call leaves metadata that the destination can hold *)
Theorem C16_fail_keeps_invariant :
  forall (chk : bool) (B : Z) (o : op) (d a b : ct) (e : ekind) (m : meta),
    1 <= B -> wf_op B o -> good B d -> good B a -> good B b ->
    meta_step chk B o d a b = Fail e m ->
    good B (Ct m (csize d)).
Proof. exact fail_keeps_good. Qed.
Print Assumptions C16_fail_keeps_invariant.

(* under the code's own branch guards no usize subtraction / addition leaves the usize range and no limb index is
   out of range: no admissible call panics, in either build profile *)
Theorem C16_no_underflow :
  forall (chk : bool) (B : Z) (o : op) (d a b : ct),
    1 <= B -> wf_op B o -> good B d -> good B a -> good B b ->
    admissible B o d a ->
    meta_step chk B o d a b <> Panic.
Proof.
  intros chk B o d a b HB Hwf Hd Ha Hb Hadm Hp.
  pose proof (step_sim chk B d HB Hd a b Ha Hb o Hwf) as H. unfold meta_step in Hp.
  destruct (meta_m chk B o d a b (cm d) []) as [u m sh | e m | ]; try discriminate Hp. exact (H Hadm).
Qed.
Print Assumptions C16_no_underflow.

(* totality: the call returns Err(kind) exactly when the closed-form algebra `spec_step` says so, Ok with exactly
   the documented metadata and limb count otherwise, and never a third outcome *)
Theorem C16_error_iff :
  forall (chk : bool) (B : Z) (o : op) (d a b : ct),
    1 <= B -> wf_op B o -> good B d -> good B a -> good B b ->
    admissible B o d a ->
    outcome_matches (meta_step chk B o d a b) (spec_step B o d a b).
Proof. exact error_iff. Qed.
Print Assumptions C16_error_iff.

(* the invariant holds after any straight-line program, whether its calls succeed, fail (and the caller goes on)
   or panic: by induction over the program *)
Theorem C16_program_meta :
  forall (chk : bool) (B : Z) (p : list step) (rs : regs),
    1 <= B -> Forall (good B) rs -> wf_prog B p ->
    Forall (good B) (snd (exec_prog chk B rs p)).
Proof.
  intros chk B p. induction p as [ | s tl IH ]; intros rs HB Hrs Hwf.
  - exact Hrs.
  - inversion Hwf as [ | x l Hs Htl ]; subst.
    pose proof (exec_step_good chk B rs s HB Hrs Hs) as Hg.
    cbn [exec_prog]. destruct (exec_step chk B rs s) as [o rs'] eqn:E. cbn [snd] in Hg.
    destruct o; cbn [snd].
    + specialize (IH rs' HB Hg Htl). destruct (exec_prog chk B rs' tl) as [os rf]. exact IH.
    + specialize (IH rs' HB Hg Htl). destruct (exec_prog chk B rs' tl) as [os rf]. exact IH.
    + exact Hg.
Qed.
Print Assumptions C16_program_meta.

Theorem C16_composite_meta_never_exceeds :
  forall (chk : bool) (B : Z) (c : comp) (d : ct) (xs ys : list ct) (m : meta) (sz : Z) (sh : list Z),
    1 <= B -> good B d -> Forall (good B) xs -> Forall (good B) ys ->
    comp_step chk B c d xs ys = Done m sz sh -> good B (Ct m sz).
Proof.
  intros chk B c d xs ys m sz sh HB Hd Hx Hy E. unfold comp_step in E.
  destruct (comp_m chk B c d xs ys (cm d) []) as [u m1 sh1 | e m1 | ] eqn:Ec; try discriminate.
  injection E as <- <- <-.
  assert (Hf : fits B (csize d) m1).
  { refine (comp_m_fits chk B c d xs ys _ _ (cm d) [] I u m1 sh1 Ec).
    - eapply Forall_impl; [ | exact Hx ]. intros a. apply good_nnct.
    - eapply Forall_impl; [ | exact Hy ]. intros a. apply good_nnct. }
  destruct Hf as [[H1 H2] H3]. destruct Hd as [_ [H4 H5]].
  unfold good, inv, maxk; cbn [cm csize]. repeat split; assumption.
Qed.
Print Assumptions C16_composite_meta_never_exceeds.

(* ... and so does every Err of a composite *)
Theorem C16_composite_fail_keeps_invariant :
  forall (chk : bool) (B : Z) (c : comp) (d : ct) (xs ys : list ct) (e : ekind) (m : meta),
    1 <= B -> good B d -> Forall (good B) xs -> Forall (good B) ys ->
    comp_step chk B c d xs ys = Fail e m -> good B (Ct m (csize d)).
Proof.
  intros chk B c d xs ys e m HB Hd Hx Hy E. unfold comp_step in E.
  assert (Hd' : fits B (csize d) (cm d)).
  { destruct Hd as [[H1 [H2 H3]] _]. repeat split; assumption. }
  assert (Hxs : Forall nnct xs) by (eapply Forall_impl; [ | exact Hx ]; intros a; apply good_nnct).
  assert (Hys : Forall nnct ys) by (eapply Forall_impl; [ | exact Hy ]; intros a; apply good_nnct).
  pose proof (comp_m_B chk B c d xs ys Hxs Hys (cm d) [] Hd') as H.
  destruct (comp_m chk B c d xs ys (cm d) []) as [u m1 sh1 | e1 m1 | ]; try discriminate.
  injection E as <- <-. destruct H as [[H1 H2] H3]. destruct Hd as [_ [H4 H5]].
  unfold good, inv, maxk; cbn [cm csize]. repeat split; assumption.
Qed.
Print Assumptions C16_composite_fail_keeps_invariant.

(* values over the exact phase model (Proofs/C16Value.v): the shifts handed to the GLWE layer make the
   resulting metadata tell the truth about the value = phase * 2^log_budget *)
Theorem C16_value_unary_into :
  forall (chk : bool) (B : Z) (d a b : ct) (m : meta) (sz : Z) (sh : list Z) (pa : Q) (o : op) (g : Z),
    unary_gain o = Some g -> 0 <= lb (cm a) < two63 -> 0 <= ld (cm a) ->
    meta_step chk B o d a b = Done m sz sh ->
    (valQ (pa * two ^ (fold_right Z.add 0%Z sh)) (lb m) == valQ pa (lb (cm a)) * two ^ g)%Q.
Proof.
  intros chk B d a b m sz sh pa o g Hg H1 H2 H. apply valQ_shift_gain.
  exact (unary_into_shift chk B o d a b g m sz sh Hg H1 H2 H).
Qed.
Print Assumptions C16_value_unary_into.

Theorem C16_value_add_sub_into :
  forall (chk : bool) (B : Z) (d a b : ct) (m : meta) (sz : Z) (sh : list Z) (pa pb : Q),
    meta_step chk B OLinInto d a b = Done m sz sh ->
    let '(sa, sb) := lin_roles a b sh in
    (valQ (pa * two ^ sa + pb * two ^ sb) (lb m) == valQ pa (lb (cm a)) + valQ pb (lb (cm b)))%Q /\
    (valQ (pa * two ^ sa - pb * two ^ sb) (lb m) == valQ pa (lb (cm a)) - valQ pb (lb (cm b)))%Q.
Proof.
  intros chk B d a b m sz sh pa pb H. destruct (lin_into_shifts chk B d a b m sz sh H) as (Ea & Eb & _).
  destruct (lin_roles a b sh) as [sa sb]. cbn [fst snd] in *.
  rewrite valQ_plus, valQ_minus, (valQ_shift pa _ _ _ Ea), (valQ_shift pb _ _ _ Eb). split; reflexivity.
Qed.
Print Assumptions C16_value_add_sub_into.

Theorem C16_value_add_sub_assign :
  forall (chk : bool) (B : Z) (d a b : ct) (m : meta) (sz : Z) (sh : list Z) (pa pd : Q),
    meta_step chk B OLinAssign d a b = Done m sz sh ->
    let '(sd, sa) := lin_assign_roles d a sh in
    (valQ (pd * two ^ sd + pa * two ^ sa) (lb m) == valQ pd (lb (cm d)) + valQ pa (lb (cm a)))%Q /\
    (valQ (pd * two ^ sd - pa * two ^ sa) (lb m) == valQ pd (lb (cm d)) - valQ pa (lb (cm a)))%Q.
Proof.
  intros chk B d a b m sz sh pa pd H. destruct (lin_assign_shifts chk B d a b m sz sh H) as (Ed & Ea).
  destruct (lin_assign_roles d a sh) as [sd sa]. cbn [fst snd] in *.
  rewrite valQ_plus, valQ_minus, (valQ_shift pd _ _ _ Ed), (valQ_shift pa _ _ _ Ea). split; reflexivity.
Qed.
Print Assumptions C16_value_add_sub_assign.

Theorem C16_value_rescale_assign :
  forall (chk : bool) (B : Z) (d a b : ct) (m : meta) (sz : Z) (sh : list Z) (pd : Q) (k : Z),
    meta_step chk B (ORescaleAssign k) d a b = Done m sz sh ->
    (valQ (pd * two ^ k) (lb m) == valQ pd (lb (cm d)))%Q.
Proof.
  intros chk B d a b m sz sh pd k H. destruct (rescale_assign_shift chk B k d a b m sz sh H) as (_ & E & _).
  apply valQ_shift. exact E.
Qed.
Print Assumptions C16_value_rescale_assign.

Theorem C16_value_mul_pow2_assign :
  forall (chk : bool) (B : Z) (d a b : ct) (m : meta) (sz : Z) (sh : list Z) (pd : Q) (bits : Z),
    meta_step chk B (OMulPow2Assign bits) d a b = Done m sz sh ->
    (valQ (pd * two ^ bits) (lb m) == valQ pd (lb (cm d)) * two ^ bits)%Q.
Proof.
  intros chk B d a b m sz sh pd bits H. destruct (mulpow2_assign_shift chk B bits d a b m sz sh H) as (_ & ->).
  unfold valQ. ring.
Qed.
Print Assumptions C16_value_mul_pow2_assign.

(* the statement that the defect repaired in fd924ce violated *)
Theorem C16_value_mul_into :
  forall (chk : bool) (B : Z) (d a b : ct) (m : meta) (sz : Z) (sh : list Z) (pa pb : Q),
    meta_step chk B OMulInto d a b = Done m sz sh ->
    (valQ (pa * pb * two ^ (fold_right Z.add 0%Z sh)) (lb m) == valQ pa (lb (cm a)) * valQ pb (lb (cm b)))%Q.
Proof.
  intros chk B d a b m sz sh pa pb H. apply valQ_prod. exact (proj1 (mul_into_offset chk B d a b m sz sh H)).
Qed.
Print Assumptions C16_value_mul_into.

(* ... and the same for the fused path of ckks_dot_product_ct (repaired in 18a4236) *)
Theorem C16_value_dot_product_ct_fused :
  forall (chk : bool) (B : Z) (d x0 y0 : ct) (q : ct * ct) (rest : list (ct * ct)) (xs ys : list ct)
         (m : meta) (sz : Z) (sh : list Z),
    combine xs ys = (x0, y0) :: q :: rest ->
    (zlen xs =? 0) || negb (zlen xs =? zlen ys) = false ->
    forallb (fun c => ld_of c =? ld_of x0) xs && forallb (fun c => ld_of c =? ld_of y0) ys = true ->
    comp_step chk B CDotCt d xs ys = Done m sz sh ->
    fold_right Z.add 0 sh + lb m = min_over lb_of xs + min_over lb_of ys /\ ld m = Z.min (ld_of x0) (ld_of y0).
Proof. exact dot_ct_fused_offset. Qed.
Print Assumptions C16_value_dot_product_ct_fused.

(* the hypotheses are satisfiable *)
Example C16_example_step :
  let B := 19 in let d := Ct (Meta 0 0) 6 in let a := c8 30 122 in
  1 <= B /\ wf_op B ONegInto /\ good B d /\ good B a /\ admissible B ONegInto d a /\
  meta_step true B ONegInto d a a = Done (Meta 30 84) 6 [38].
Proof.
  unfold good, inv, wf_op, admissible, eff, maxk, two62, c8; cbn.
  repeat split; try lia; try reflexivity; tauto.
Qed.

(* the repaired classes, as regression witnesses *)
Example C16_example_repaired :
  meta_step true 19 (ORescaleInto 3) (Ct (Meta 0 0) 6) (c8 30 122) (c8 30 122) = Done (Meta 30 84) 6 [38] /\
  meta_step true 19 (OCstRnxAssign (Meta 50 0) false) (Ct (Meta 30 8) 2) (c8 0 0) (c8 0 0) = Fail EAlign (Meta 30 8) /\
  meta_step true 19 ONegInto (Ct (Meta 0 0) 1) (c8 30 122) (c8 30 122) = Fail ECapacity (Meta 0 0) /\
  meta_step false 19 (ODivPow2Into (two64 - 1)) (Ct (Meta 0 0) 7) (c8 30 122) (c8 30 122) = Fail ECapacity (Meta 0 0) /\
  meta_step false 19 (OSetMeta (Meta (two64 - 1) 2)) (Ct (Meta 0 0) 7) (c8 0 0) (c8 0 0) = Fail EShrink (Meta 0 0) /\
  meta_step true 19 OSquareInto (Ct (Meta 0 0) 8) (c8 30 92) (c8 30 92) = Fail ENotCompact (Meta 0 0).
Proof. repeat split; reflexivity. Qed.

Example C16_example_program :
  let B := 19 in
  let rs := [Ct (Meta 0 0) 8; Ct (Meta 0 0) 8; Ct (Meta 0 0) 7] in
  let p := [Step (OEncrypt (Meta 30 10) 152) 0 0 0; Step OSquareInto 1 0 0; Step OCompact 1 1 1;
            Step (ORescaleInto 10) 2 1 1; Step OLinAssign 2 1 1; Step ONegInto 2 0 0] in
  1 <= B /\ Forall (good B) rs /\ wf_prog B p /\
  snd (exec_prog true B rs p) = [c8 30 122; Ct (Meta 30 92) 7; Ct (Meta 30 103) 7].
Proof.
  cbv zeta. split; [ lia | ]. split.
  { repeat constructor; unfold inv, eff, maxk, two62; cbn; lia. }
  split; [ | reflexivity ].
  unfold wf_prog. repeat constructor; unfold wf_op, smallm, small, two62, two64; cbn; lia.
Qed.

Example C16_example_composites :
  let B := 19 in let x := Ct (Meta 30 122) 8 in let d := Ct (Meta 0 0) 8 in
  done_with (comp_step true B CMulMany d [x; x; x] []) (Meta 30 62) 8 /\
  done_with (comp_step true B CDotCt d [x; x] [x; x]) (Meta 30 92) 8 /\
  done_with (comp_step true B CAddMany d [x; x; x] []) (Meta 30 122) 8.
Proof. cbv zeta. repeat split; vm_compute; reflexivity. Qed.

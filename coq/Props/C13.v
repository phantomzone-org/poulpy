(* C13 — compiled BDD circuits compute their 32-bit word functions for all inputs.
   This file holds only the statements of the property, `exact` proofs, Print Assumptions and Examples.

   Reading guide
   * [eval_stale]  (Model/C13Bdd.v) is the evaluator of poulpy-bin-fhe/src/bdd_arithmetic/eval.rs as it is: two
     buffers of max_inter_state slots, initial state [0,1,0,...], levels = chunks of max_inter_state nodes,
     Node::None leaves whatever the buffer held two levels ago, the result is the Cmux at the head of the last chunk.
   * [eval_strict] is the same evaluator where a slot not written by the previous level is *undefined* and reading
     it, an out-of-range slot or an input bit >= INPUT_BITS is an error.
   * [circuit_<op> i] is output bit i of the table generated from <op>_codegen.rs
     (Gen/C13Circuits_gen.v); for i >= OUTPUT_BITS (slt, sltu: i >= 1) it is the empty circuit, which the
     evaluator answers with zero.
   * [env_of a b] puts a on input bits [0,32) and b on [32,64) (FheUintHelper::get_bit). *)
From Coq Require Import ZArith List Bool Arith Lia.
From PV Require Import Model.C13Bdd Gen.C13Circuits_gen
  Proofs.C13Eval Proofs.C13Check Proofs.C13Spec Proofs.C13Circuits.
Import ListNotations.
Open Scope Z_scope.

(** * The two evaluators and the checker *)

Theorem C13_eval_strict_refines : forall (c : circuit) (e : env) (v : bool),
  eval_strict c e = Some v -> eval_stale c e = v.
Proof. exact eval_strict_refines. Qed.
Print Assumptions C13_eval_strict_refines.

Theorem C13_check_sound : forall (A : automaton) (hint : list nat) (c : circuit),
  automaton_ok A -> check A hint c = true -> forall e, eval_strict c e = Some (run A e).
Proof. exact check_sound. Qed.
Print Assumptions C13_check_sound.

(** * The specification automata compute the RISC-V word operations (all a, b, all i < 32) *)

Theorem C13_spec_add_correct : forall a b i, (i < 32)%nat ->
  run (A_add i) (env_of a b) = Z.testbit ((a + b) mod 2 ^ 32) (Z.of_nat i).
Proof. exact spec_add_correct. Qed.
Print Assumptions C13_spec_add_correct.

Theorem C13_spec_sub_correct : forall a b i, (i < 32)%nat ->
  run (A_sub i) (env_of a b) = Z.testbit ((a - b) mod 2 ^ 32) (Z.of_nat i).
Proof. exact spec_sub_correct. Qed.
Print Assumptions C13_spec_sub_correct.

Theorem C13_spec_sll_correct : forall a b i, 0 <= b -> (i < 32)%nat ->
  run (A_sll i) (env_of a b) = Z.testbit (Z.shiftl a (Z.land b 31) mod 2 ^ 32) (Z.of_nat i).
Proof. exact spec_sll_correct. Qed.
Print Assumptions C13_spec_sll_correct.

Theorem C13_spec_srl_correct : forall a b i, 0 <= a < 2 ^ 32 -> 0 <= b -> (i < 32)%nat ->
  run (A_srl i) (env_of a b) = Z.testbit (Z.shiftr a (Z.land b 31)) (Z.of_nat i).
Proof. exact spec_srl_correct. Qed.
Print Assumptions C13_spec_srl_correct.

Theorem C13_spec_sra_correct : forall a b i, 0 <= a < 2 ^ 32 -> 0 <= b -> (i < 32)%nat ->
  run (A_sra i) (env_of a b) = Z.testbit (Z.shiftr (sgn32 a) (Z.land b 31) mod 2 ^ 32) (Z.of_nat i).
Proof. exact spec_sra_correct. Qed.
Print Assumptions C13_spec_sra_correct.

Theorem C13_spec_slt_correct : forall a b i, 0 <= a < 2 ^ 32 -> 0 <= b < 2 ^ 32 -> (i < 32)%nat ->
  run (A_slt i) (env_of a b) = Z.testbit (if sgn32 a <? sgn32 b then 1 else 0) (Z.of_nat i).
Proof. exact spec_slt_correct. Qed.
Print Assumptions C13_spec_slt_correct.

Theorem C13_spec_sltu_correct : forall a b i, 0 <= a < 2 ^ 32 -> 0 <= b < 2 ^ 32 -> (i < 32)%nat ->
  run (A_sltu i) (env_of a b) = Z.testbit (if a <? b then 1 else 0) (Z.of_nat i).
Proof. exact spec_sltu_correct. Qed.
Print Assumptions C13_spec_sltu_correct.

Theorem C13_spec_and_correct : forall a b i, (i < 32)%nat ->
  run (A_and i) (env_of a b) = Z.testbit (Z.land a b) (Z.of_nat i).
Proof. exact spec_and_correct. Qed.
Print Assumptions C13_spec_and_correct.

Theorem C13_spec_or_correct : forall a b i, (i < 32)%nat ->
  run (A_or i) (env_of a b) = Z.testbit (Z.lor a b) (Z.of_nat i).
Proof. exact spec_or_correct. Qed.
Print Assumptions C13_spec_or_correct.

Theorem C13_spec_xor_correct : forall a b i, (i < 32)%nat ->
  run (A_xor i) (env_of a b) = Z.testbit (Z.lxor a b) (Z.of_nat i).
Proof. exact spec_xor_correct. Qed.
Print Assumptions C13_spec_xor_correct.

Theorem C13_spec_identity_correct : forall a b i, (i < 32)%nat ->
  run (A_identity i) (env_of a b) = Z.testbit a (Z.of_nat i).
Proof. exact spec_identity_correct. Qed.
Print Assumptions C13_spec_identity_correct.

(** * Every compiled circuit computes its word operation on all 2^64 input pairs *)

Theorem C13_circuit_add_correct : forall a b, 0 <= a < 2 ^ 32 -> 0 <= b < 2 ^ 32 -> forall i, (i < 32)%nat ->
  eval_stale (circuit_add i) (env_of a b) = Z.testbit (op_add a b) (Z.of_nat i).
Proof. exact circuit_add_correct. Qed.
Print Assumptions C13_circuit_add_correct.

Theorem C13_circuit_sub_correct : forall a b, 0 <= a < 2 ^ 32 -> 0 <= b < 2 ^ 32 -> forall i, (i < 32)%nat ->
  eval_stale (circuit_sub i) (env_of a b) = Z.testbit (op_sub a b) (Z.of_nat i).
Proof. exact circuit_sub_correct. Qed.
Print Assumptions C13_circuit_sub_correct.

Theorem C13_circuit_sll_correct : forall a b, 0 <= a < 2 ^ 32 -> 0 <= b < 2 ^ 32 -> forall i, (i < 32)%nat ->
  eval_stale (circuit_sll i) (env_of a b) = Z.testbit (op_sll a b) (Z.of_nat i).
Proof. exact circuit_sll_correct. Qed.
Print Assumptions C13_circuit_sll_correct.

Theorem C13_circuit_srl_correct : forall a b, 0 <= a < 2 ^ 32 -> 0 <= b < 2 ^ 32 -> forall i, (i < 32)%nat ->
  eval_stale (circuit_srl i) (env_of a b) = Z.testbit (op_srl a b) (Z.of_nat i).
Proof. exact circuit_srl_correct. Qed.
Print Assumptions C13_circuit_srl_correct.

Theorem C13_circuit_sra_correct : forall a b, 0 <= a < 2 ^ 32 -> 0 <= b < 2 ^ 32 -> forall i, (i < 32)%nat ->
  eval_stale (circuit_sra i) (env_of a b) = Z.testbit (op_sra a b) (Z.of_nat i).
Proof. exact circuit_sra_correct. Qed.
Print Assumptions C13_circuit_sra_correct.

Theorem C13_circuit_slt_correct : forall a b, 0 <= a < 2 ^ 32 -> 0 <= b < 2 ^ 32 -> forall i, (i < 32)%nat ->
  eval_stale (circuit_slt i) (env_of a b) = Z.testbit (op_slt a b) (Z.of_nat i).
Proof. exact circuit_slt_correct. Qed.
Print Assumptions C13_circuit_slt_correct.

Theorem C13_circuit_sltu_correct : forall a b, 0 <= a < 2 ^ 32 -> 0 <= b < 2 ^ 32 -> forall i, (i < 32)%nat ->
  eval_stale (circuit_sltu i) (env_of a b) = Z.testbit (op_sltu a b) (Z.of_nat i).
Proof. exact circuit_sltu_correct. Qed.
Print Assumptions C13_circuit_sltu_correct.

Theorem C13_circuit_and_correct : forall a b, 0 <= a < 2 ^ 32 -> 0 <= b < 2 ^ 32 -> forall i, (i < 32)%nat ->
  eval_stale (circuit_and i) (env_of a b) = Z.testbit (op_and a b) (Z.of_nat i).
Proof. exact circuit_and_correct. Qed.
Print Assumptions C13_circuit_and_correct.

Theorem C13_circuit_or_correct : forall a b, 0 <= a < 2 ^ 32 -> 0 <= b < 2 ^ 32 -> forall i, (i < 32)%nat ->
  eval_stale (circuit_or i) (env_of a b) = Z.testbit (op_or a b) (Z.of_nat i).
Proof. exact circuit_or_correct. Qed.
Print Assumptions C13_circuit_or_correct.

Theorem C13_circuit_xor_correct : forall a b, 0 <= a < 2 ^ 32 -> 0 <= b < 2 ^ 32 -> forall i, (i < 32)%nat ->
  eval_stale (circuit_xor i) (env_of a b) = Z.testbit (op_xor a b) (Z.of_nat i).
Proof. exact circuit_xor_correct. Qed.
Print Assumptions C13_circuit_xor_correct.

Theorem C13_circuit_identity_correct : forall a b, 0 <= a < 2 ^ 32 -> 0 <= b < 2 ^ 32 -> forall i, (i < 32)%nat ->
  eval_stale (circuit_identity i) (env_of a b) = Z.testbit (op_identity a b) (Z.of_nat i).
Proof. exact circuit_identity_correct. Qed.
Print Assumptions C13_circuit_identity_correct.

(** * Well-formedness: indices in range, length a multiple of the width, declared width covers every level,
      last chunk [Cmux; None...], no level reads a slot the previous level left undefined
      (definitions [WellFormed], [FamilyWellFormed] in Proofs/C13Circuits.v) *)

Theorem C13_wellformed_add : FamilyWellFormed add_nin add_nout 64 add_tab.
Proof. exact wellformed_add. Qed.
Print Assumptions C13_wellformed_add.
Theorem C13_wellformed_sub : FamilyWellFormed sub_nin sub_nout 64 sub_tab.
Proof. exact wellformed_sub. Qed.
Print Assumptions C13_wellformed_sub.
Theorem C13_wellformed_sll : FamilyWellFormed sll_nin sll_nout 64 sll_tab.
Proof. exact wellformed_sll. Qed.
Print Assumptions C13_wellformed_sll.
Theorem C13_wellformed_srl : FamilyWellFormed srl_nin srl_nout 64 srl_tab.
Proof. exact wellformed_srl. Qed.
Print Assumptions C13_wellformed_srl.
Theorem C13_wellformed_sra : FamilyWellFormed sra_nin sra_nout 64 sra_tab.
Proof. exact wellformed_sra. Qed.
Print Assumptions C13_wellformed_sra.
Theorem C13_wellformed_slt : FamilyWellFormed slt_nin slt_nout 64 slt_tab.
Proof. exact wellformed_slt. Qed.
Print Assumptions C13_wellformed_slt.
Theorem C13_wellformed_sltu : FamilyWellFormed sltu_nin sltu_nout 64 sltu_tab.
Proof. exact wellformed_sltu. Qed.
Print Assumptions C13_wellformed_sltu.
Theorem C13_wellformed_and : FamilyWellFormed and_nin and_nout 64 and_tab.
Proof. exact wellformed_and. Qed.
Print Assumptions C13_wellformed_and.
Theorem C13_wellformed_or : FamilyWellFormed or_nin or_nout 64 or_tab.
Proof. exact wellformed_or. Qed.
Print Assumptions C13_wellformed_or.
Theorem C13_wellformed_xor : FamilyWellFormed xor_nin xor_nout 64 xor_tab.
Proof. exact wellformed_xor. Qed.
Print Assumptions C13_wellformed_xor.
Theorem C13_wellformed_identity : FamilyWellFormed identity_nin identity_nout 32 identity_tab.
Proof. exact wellformed_identity. Qed.
Print Assumptions C13_wellformed_identity.

(** * The hypotheses are satisfiable / the statements are not vacuous *)

Example C13_ex_add : map (fun i => eval_stale (circuit_add i) (env_of 4000000000 500000000)) [0; 5; 31]%nat
                     = map (fun i => Z.testbit ((4000000000 + 500000000) mod 2 ^ 32) i) [0; 5; 31].
Proof. vm_compute. reflexivity. Qed.
Example C13_ex_sra : map (fun i => eval_stale (circuit_sra i) (env_of 2147483648 7)) [23; 24; 25; 31]%nat
                     = [false; true; true; true].
Proof. vm_compute. reflexivity. Qed.
Example C13_ex_slt : eval_stale (circuit_slt 0) (env_of 4294967295 1) = true /\
                     eval_stale (circuit_sltu 0) (env_of 4294967295 1) = false /\
                     circuit_slt 1 = empty_circuit.
Proof. vm_compute. auto. Qed.
(* a table where a Nonode slot is read: the strict evaluator rejects it although the real one returns a value *)
Example C13_ex_strict_rejects :
  let c := mkC 64 2 [Nonode; Copy; Cmux 0 0 1; Nonode] in
  eval_strict c (env_of 1 0) = None /\ eval_stale c (env_of 1 0) = false /\ wf c = false.
Proof. vm_compute. auto. Qed.

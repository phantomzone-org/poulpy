(* C03 — key-switching family.  Pinned statements, each proved by `exact` or by a short derivation from the lemmas of
   Proofs/Gadget*.v and C03Phase.v (spec-level notions: Model/GadgetSpec.v).
   Reading guide.  psumf n f m = sum_{i<m} f i in Z[X]/(X^n+1); pval P b n f size = sum_j 2^(P-(j+1)b) f_j; acol n a ci l = limb l of
   column ci (zero beyond the last limb); phase_f P b n cols size R Sk = sum_co pval(R co) (x) Sk co (Sk 0 = 1);
   gp_spec = functional form of Gadget.gadget_product; kphase q = phase of key cell q = (row, ci);
   key_rows_ok = "cell (row, ci) has phase 2^(P-(row+1) dsize b) src_ci + e_{row,ci} + 2^P I_{row,ci}" (HYPOTHESIS of the phase theorems);
   gadget_err = gadget_noise - gadget_trunc (explicit), gadget_noise = sum_{row,ci} digit (x) e, gadget_trunc = contribution of the key limbs
   that the product of digit di drops (zero for dsize <= 2), gadget_int = the multiple of 2^P. *)
From PV Require Import Base.MachineInt Model.Znx Model.Limbs Model.Flat Model.Ring Model.Poly Model.DftAbs Model.Gadget Model.GadgetOracle Model.C03Run.
From PV Require Import Model.GadgetSpec Proofs.C07Dft Proofs.C07Ring Proofs.GadgetDecomp Proofs.GadgetPhase Proofs.GadgetBound Proofs.C03Phase Proofs.C04Phase Model.GadgetEnc Proofs.GadgetEnc Proofs.GadgetNorm Model.GadgetDerived Proofs.GadgetSigma Proofs.GadgetShape Proofs.GadgetDerived.
Open Scope Z_scope.

(* (1) limbs grouped by (step = dsize, offset = dsize-di-1) recombine to the value: pure index arithmetic, all shapes *)
Theorem C03_gadget_decomposition_exact :
  forall (P b : Z) (dsize a_size : nat) (a : nat -> Z),
    (1 <= dsize)%nat ->
    zsum (fun l : nat => a l * 2 ^ (P - (Z.of_nat l + 1) * b)) a_size =
    zsum
      (fun di : nat =>
       zsum (fun q : nat => a (q * dsize + (dsize - di - 1))%nat * 2 ^ (P - (Z.of_nat q + 1) * Z.of_nat dsize * b + Z.of_nat di * b))
         ((a_size + di) / dsize)) dsize.
Proof. exact gadget_decomposition_exact. Qed.
Print Assumptions C03_gadget_decomposition_exact.

(* (1) with a key of dnum rows exactly the limbs l < min(a_size, dnum*dsize) survive *)
Theorem C03_gadget_decomposition_clamped :
  forall (P b : Z) (dsize dnum a_size : nat) (a : nat -> Z),
    (1 <= dsize)%nat ->
    zsum
      (fun di : nat =>
       zsum (fun q : nat => a (q * dsize + (dsize - di - 1))%nat * 2 ^ (P - (Z.of_nat q + 1) * Z.of_nat dsize * b + Z.of_nat di * b))
         (Nat.min ((a_size + di) / dsize) dnum)) dsize =
    zsum (fun l : nat => a l * 2 ^ (P - (Z.of_nat l + 1) * b)) (Nat.min a_size (dnum * dsize)).
Proof. exact gadget_decomposition_clamped. Qed.
Print Assumptions C03_gadget_decomposition_clamped.

(* (1) the difference to the full value is the dropped tail l in [dnum*dsize, a_size) *)
Theorem C03_gadget_decomposition_tail :
  forall (P b : Z) (dsize dnum a_size : nat) (a : nat -> Z),
    (1 <= dsize)%nat ->
    zsum (fun l : nat => a l * 2 ^ (P - (Z.of_nat l + 1) * b)) a_size =
    zsum
      (fun di : nat =>
       zsum (fun q : nat => a (q * dsize + (dsize - di - 1))%nat * 2 ^ (P - (Z.of_nat q + 1) * Z.of_nat dsize * b + Z.of_nat di * b))
         (Nat.min ((a_size + di) / dsize) dnum)) dsize +
    zsum (fun i : nat => a (dnum * dsize + i)%nat * 2 ^ (P - (Z.of_nat (dnum * dsize + i) + 1) * b)) (a_size - dnum * dsize).
Proof.
  intros P b dsize dnum a_size a Hd. rewrite gadget_decomposition_clamped by exact Hd.
  destruct (Nat.le_gt_cases (dnum * dsize) a_size) as [H|H].
  - rewrite (Nat.min_r a_size) by exact H.
    replace a_size with (dnum * dsize + (a_size - dnum * dsize))%nat at 1 by lia.
    apply zsum_app.
  - rewrite (Nat.min_l a_size) by lia. replace (a_size - dnum * dsize)%nat with 0%nat by lia.
    rewrite zsum_0. lia.
Qed.
Print Assumptions C03_gadget_decomposition_tail.

(* (1) on polynomial limbs *)
Theorem C03_gadget_decomposition_poly :
  forall (P b : Z) (n dsize dnum a_size : nat) (a : nat -> list Z),
    (1 <= dsize)%nat ->
    (forall l : nat, length (a l) = n) ->
    psumf n
      (fun di : nat =>
       psumf n (fun q : nat => pscale (2 ^ (P - (Z.of_nat q + 1) * Z.of_nat dsize * b + Z.of_nat di * b)) (a (q * dsize + (dsize - di - 1))%nat))
         (Nat.min ((a_size + di) / dsize) dnum)) dsize = pval P b n a (Nat.min a_size (dnum * dsize)).
Proof. exact gadget_decomposition_poly. Qed.
Print Assumptions C03_gadget_decomposition_poly.

(* (1) the model's (step, offset) selection is that grouping; the selected index always exists *)
Theorem C03_dft_select_digit :
  forall (n sz dsize di : nat) (a : plimbs) (q : nat),
    (1 <= dsize)%nat ->
    (di < dsize)%nat ->
    (q < sz)%nat ->
    (sz <= (length a + di) / dsize)%nat ->
    lim (dft_select n sz dsize (dsize - di - 1) a) q =
    (if (q * dsize + (dsize - di - 1) <? length a)%nat then lim a (q * dsize + (dsize - di - 1)) else pzero n) /\
    (q * dsize + (dsize - di - 1) < length a)%nat.
Proof. exact dft_select_digit. Qed.
Print Assumptions C03_dft_select_digit.

(* (2) the repaired entry point zeroes the accumulator: key-switch mode for EVERY prior content, external-product mode for every prior content of cols_out columns of msize limbs *)
Theorem C03_acc_start_zero :
  forall (n cols_out msize : nat) (clamp : bool) (res0 : cols_t),
    acc_shape cols_out msize clamp res0 -> acc_start n cols_out msize msize clamp res0 = zcols n cols_out msize.
Proof. exact acc_start_zero. Qed.
Print Assumptions C03_acc_start_zero.

Theorem C03_gadget_product_is_from_zero :
  forall (n cols_out msize : nat) (res0 a : cols_t) (a_size dsize dnum : nat) (clamp : bool) (m : pmat),
    acc_shape cols_out msize clamp res0 ->
    gadget_product n cols_out msize res0 a a_size dsize dnum msize clamp m =
    gadget_product_from n cols_out msize (zcols n cols_out msize) a a_size dsize dnum msize clamp m.
Proof. exact gadget_product_is_from_zero. Qed.
Print Assumptions C03_gadget_product_is_from_zero.

(* (2) the model IS the functional form, whatever the accumulator held; every dsize >= 1, both modes *)
Theorem C03_gadget_product_spec :
  forall (n cin cols_out msize a_size dsize dnum : nat) (clamp : bool) (a : cols_t) (m : pmat) (res0 : cols_t),
    wf_cols n cin a_size a ->
    (1 <= dsize)%nat ->
    (dsize - 2 <= msize)%nat ->
    acc_shape cols_out msize clamp res0 ->
    exists res : cols_t,
      gadget_product n cols_out msize res0 a a_size dsize dnum msize clamp m = Some res /\
      wf_cols n cols_out msize res /\
      (forall co j : nat,
       (co < cols_out)%nat -> (j < msize)%nat -> lim (col res co) j = gp_spec n cin cols_out msize a_size dsize dnum clamp (acol n a) m co j).
Proof. exact gadget_product_spec. Qed.
Print Assumptions C03_gadget_product_spec.

(* (2) the digit loop from a given accumulator content res0 of R >= msize limbs (what the code did before it zeroed the accumulator): limbs j >= sz_r(0) keep their prior content *)
Theorem C03_gadget_product_from_spec_grouped :
  forall (n cin cols_out msize a_size dsize dnum : nat) (clamp : bool) (a : cols_t) (m : pmat),
    wf_cols n cin a_size a ->
    forall (R : nat) (res0 : cols_t),
    wf_cols n cols_out R res0 ->
    (dsize - 2 <= msize)%nat ->
    (msize <= R)%nat ->
    (2 <= dsize)%nat ->
    exists res : cols_t,
      gadget_product_from n cols_out R res0 a a_size dsize dnum msize clamp m = Some res /\
      length res = cols_out /\
      (forall co : nat,
       (co < cols_out)%nat ->
       length (col res co) = R /\
       (forall j : nat,
        (j < R)%nat ->
        lim (col res co) j =
        padd (if (j <? sz_r msize dsize 0)%nat then pzero n else lim (col res0 co) j)
          (gp_spec n cin cols_out msize a_size dsize dnum clamp (acol n a) m co j))).
Proof. exact gadget_product_from_spec_grouped. Qed.
Print Assumptions C03_gadget_product_from_spec_grouped.

(* (2) dsize = 1: one vmp, res0 ignored *)
Theorem C03_gadget_product_from_spec_flat :
  forall (n cin cols_out msize a_size dnum : nat) (clamp : bool) (a : cols_t) (m : pmat),
    wf_cols n cin a_size a ->
    forall (R : nat) (res0 : cols_t),
    exists res : cols_t,
      gadget_product_from n cols_out R res0 a a_size 1 dnum msize clamp m = Some res /\
      length res = cols_out /\
      (forall co : nat,
       (co < cols_out)%nat ->
       length (col res co) = R /\
       (forall j : nat, (j < R)%nat -> lim (col res co) j = gp_flat n cin cols_out msize a_size dnum (acol n a) m R co j)).
Proof. exact gadget_product_from_spec_flat. Qed.
Print Assumptions C03_gadget_product_from_spec_flat.

(* (3a) exact phase of the functional form under any secret family *)
Theorem C03_gadget_phase_exact :
  forall (P b : Z) (n cin cols_out msize a_size dsize dnum : nat) (clamp : bool) (A : nat -> nat -> list Z) (K : pmat) (Sk : nat -> list Z),
    (forall ci l : nat, length (A ci l) = n) ->
    (forall q c : nat, length (K q c) = n) ->
    (forall co : nat, length (Sk co) = n) ->
    0 <= b ->
    Z.of_nat msize * b <= P ->
    phase_f P b n cols_out msize (gp_spec n cin cols_out msize a_size dsize dnum clamp A K) Sk =
    psumf n
      (fun di : nat =>
       psumf n
         (fun row : nat =>
          psumf n
            (fun ci : nat =>
             pmul (A ci (row * dsize + (dsize - di - 1))%nat)
               (pscale (2 ^ (Z.of_nat di * b)) (ktrunc P b n cols_out msize dsize K Sk (row * cin + ci) di))) cin)
         (rows_used a_size dsize dnum di clamp)) dsize.
Proof. exact gadget_phase_exact. Qed.
Print Assumptions C03_gadget_phase_exact.

(* (3) under the key-row hypothesis: phase = sum_ci val(used limbs) (x) src_ci + E + 2^P Iq, E and Iq explicit, all shapes *)
Theorem C03_gadget_phase_rows :
  forall (P b : Z) (n cin cols_out msize a_size dsize dnum : nat) (clamp : bool) (A : nat -> nat -> list Z) (K : pmat)
      (Sk src : nat -> list Z) (e I : nat -> nat -> list Z),
    (1 <= dsize)%nat ->
    (forall ci l : nat, length (A ci l) = n) ->
    (forall ci l : nat, (a_size <= l)%nat -> A ci l = pzero n) ->
    wf_pmat_in n (dnum * cin) (msize * cols_out) K ->
    (forall co : nat, length (Sk co) = n) ->
    (forall ci : nat, length (src ci) = n) ->
    (forall row ci : nat, length (e row ci) = n) ->
    (forall row ci : nat, length (I row ci) = n) ->
    0 <= b ->
    Z.of_nat msize * b <= P ->
    Z.of_nat dnum * Z.of_nat dsize * b <= P ->
    key_rows_ok P b n cin cols_out msize dsize dnum K Sk src e I ->
    phase_f P b n cols_out msize (gp_spec n cin cols_out msize a_size dsize dnum clamp A K) Sk =
    padd
      (padd (psumf n (fun ci : nat => pmul (pval_used P b n a_size dsize dnum A ci) (src ci)) cin)
         (gadget_err P b n cin cols_out msize dsize dnum A K Sk e)) (pscale (2 ^ P) (gadget_int b n cin cols_out msize dsize dnum A K Sk I)).
Proof. exact gadget_phase_rows_in. Qed.
Print Assumptions C03_gadget_phase_rows.

(* (3b) the product part of the key switch (gglwe_product_dft) on the model, any prior accumulator content res0 *)
Theorem C03_keyswitch_phase :
  forall (P b : Z) (n rin cols_out msize a_size dsize dnum : nat) (a res0 : cols_t) (K : pmat) (Sk s_in : nat -> list Z)
      (e I : nat -> nat -> list Z),
    wf_cols n rin a_size a ->
    wf_pmat_in n (dnum * rin) (msize * cols_out) K ->
    (1 <= dsize)%nat ->
    (dsize - 2 <= msize)%nat ->
    (forall co : nat, length (Sk co) = n) ->
    (forall ci : nat, length (s_in ci) = n) ->
    (forall row ci : nat, length (e row ci) = n) ->
    (forall row ci : nat, length (I row ci) = n) ->
    0 <= b ->
    Z.of_nat msize * b <= P ->
    Z.of_nat dnum * Z.of_nat dsize * b <= P ->
    key_rows_ok P b n rin cols_out msize dsize dnum K Sk s_in e I ->
    exists res : cols_t,
      gadget_product n cols_out msize res0 a a_size dsize dnum msize true K = Some res /\
      wf_cols n cols_out msize res /\
      phase_f P b n cols_out msize (limbs_of res) Sk =
      padd
        (padd (psumf n (fun ci : nat => pmul (pval_used P b n a_size dsize dnum (acol n a) ci) (s_in ci)) rin)
           (gadget_err P b n rin cols_out msize dsize dnum (acol n a) K Sk e))
        (pscale (2 ^ P) (gadget_int b n rin cols_out msize dsize dnum (acol n a) K Sk I)).
Proof. exact C03_keyswitch_phase_lemma. Qed.
Print Assumptions C03_keyswitch_phase.

(* (3b) glwe_keyswitch_internal: + min(msize, a_size) limbs of the body *)
Theorem C03_keyswitch_internal_phase :
  forall (P b : Z) (n rin cols_out msize a_size dsize dnum : nat) (ct res0 : cols_t) (K : pmat) (Sk s_in : nat -> list Z)
      (e I : nat -> nat -> list Z),
    wf_cols n (S rin) a_size ct ->
    wf_pmat_in n (dnum * rin) (msize * cols_out) K ->
    (1 <= n)%nat ->
    (1 <= cols_out)%nat ->
    (1 <= dsize)%nat ->
    (dsize - 2 <= msize)%nat ->
    (forall co : nat, length (Sk co) = n) ->
    Sk 0%nat = pone n ->
    (forall ci : nat, length (s_in ci) = n) ->
    (forall row ci : nat, length (e row ci) = n) ->
    (forall row ci : nat, length (I row ci) = n) ->
    0 <= b ->
    Z.of_nat msize * b <= P ->
    Z.of_nat dnum * Z.of_nat dsize * b <= P ->
    key_rows_ok P b n rin cols_out msize dsize dnum K Sk s_in e I ->
    exists ks : cols_t,
      keyswitch_internal n cols_out msize res0 ct a_size dsize dnum msize K = Some ks /\
      wf_cols n cols_out msize ks /\
      phase_f P b n cols_out msize (limbs_of ks) Sk =
      padd
        (padd
           (padd (pval P b n (acol n ct 0) (Nat.min msize a_size))
              (psumf n (fun ci : nat => pmul (pval_used P b n a_size dsize dnum (acol n (tl ct)) ci) (s_in ci)) rin))
           (gadget_err P b n rin cols_out msize dsize dnum (acol n (tl ct)) K Sk e))
        (pscale (2 ^ P) (gadget_int b n rin cols_out msize dsize dnum (acol n (tl ct)) K Sk I)).
Proof. exact C03_keyswitch_internal_phase_lemma. Qed.
Print Assumptions C03_keyswitch_internal_phase.

(* (3d) automorphism = key switch under Sk = sigma^-1(St), then sigma on every limb; sigma_* are hypotheses (any ring homomorphism sg) *)
Theorem C03_automorphism_phase :
  forall (n : nat) (sg : list Z -> list Z),
    (forall a : list Z, length a = n -> length (sg a) = n) ->
    (forall a b : list Z, length a = n -> length b = n -> sg (padd a b) = padd (sg a) (sg b)) ->
    (forall a b : list Z, length a = n -> length b = n -> sg (pmul a b) = pmul (sg a) (sg b)) ->
    (forall (c : Z) (a : list Z), length a = n -> sg (pscale c a) = pscale c (sg a)) ->
    forall (P b : Z) (rin cols_out msize a_size dsize dnum : nat) (ct res0 : cols_t) (K : pmat) (Sk St s_in : nat -> list Z)
      (e I : nat -> nat -> list Z),
    wf_cols n (S rin) a_size ct ->
    wf_pmat_in n (dnum * rin) (msize * cols_out) K ->
    (1 <= n)%nat ->
    (1 <= cols_out)%nat ->
    (1 <= dsize)%nat ->
    (dsize - 2 <= msize)%nat ->
    (forall co : nat, length (Sk co) = n) ->
    Sk 0%nat = pone n ->
    (forall co : nat, St co = sg (Sk co)) ->
    (forall ci : nat, length (s_in ci) = n) ->
    (forall row ci : nat, length (e row ci) = n) ->
    (forall row ci : nat, length (I row ci) = n) ->
    0 <= b ->
    Z.of_nat msize * b <= P ->
    Z.of_nat dnum * Z.of_nat dsize * b <= P ->
    key_rows_ok P b n rin cols_out msize dsize dnum K Sk s_in e I ->
    exists ks : cols_t,
      keyswitch_internal n cols_out msize res0 ct a_size dsize dnum msize K = Some ks /\
      wf_cols n cols_out msize ks /\
      phase_f P b n cols_out msize (limbs_of (map (map sg) ks)) St =
      padd
        (padd
           (sg
              (padd (pval P b n (acol n ct 0) (Nat.min msize a_size))
                 (psumf n (fun ci : nat => pmul (pval_used P b n a_size dsize dnum (acol n (tl ct)) ci) (s_in ci)) rin)))
           (sg (gadget_err P b n rin cols_out msize dsize dnum (acol n (tl ct)) K Sk e)))
        (pscale (2 ^ P) (sg (gadget_int b n rin cols_out msize dsize dnum (acol n (tl ct)) K Sk I))).
Proof.
  intros n sg sigma_length sigma_padd sigma_pmul sigma_pscale P b rin cols_out msize a_size dsize dnum ct res0 K Sk St s_in e I
    Hct HK Hn Hco Hd Hdrop HS HS0 HSt Hsin He HI Hb HP HP2 key_row.
  destruct (C03_keyswitch_internal_phase P b n rin cols_out msize a_size dsize dnum ct res0 K Sk s_in e I
              Hct HK Hn Hco Hd Hdrop HS HS0 Hsin He HI Hb HP HP2 key_row) as [ks [E1 [E2 E3]]].
  exists ks. split; [exact E1|]. split; [exact E2|].
  rewrite (phase_of_automorphism n sg sigma_length sigma_padd sigma_pmul sigma_pscale P b cols_out msize ks Sk St E2) by auto.
  rewrite E3.
  pose proof (acol_length n rin a_size (tl ct) (wf_tl n rin a_size ct Hct)) as LA.
  pose proof (acol_length n (S rin) a_size ct Hct) as LB.
  rewrite !sigma_padd, sigma_pscale by plen. reflexivity.
Qed.
Print Assumptions C03_automorphism_phase.

(* for dsize <= 2 no key limb is dropped: E = gadget noise *)
Theorem C03_gadget_err_small_dsize :
  forall (P b : Z) (n cin cols_out msize dsize dnum : nat) (A : nat -> nat -> list Z) (K : pmat) (Sk : nat -> list Z),
    (forall ci l : nat, length (A ci l) = n) ->
    (forall co : nat, length (Sk co) = n) ->
    forall e : nat -> nat -> list Z,
    (forall row ci : nat, length (e row ci) = n) ->
    (dsize <= 2)%nat -> gadget_err P b n cin cols_out msize dsize dnum A K Sk e = gadget_noise b n cin dsize dnum A e.
Proof. exact gadget_err_small. Qed.
Print Assumptions C03_gadget_err_small_dsize.

(* (4) sup-norm facts *)
Theorem C03_pnorm_padd :
  forall a b : list Z, pnorm (padd a b) <= pnorm a + pnorm b.
Proof. exact pnorm_padd. Qed.
Print Assumptions C03_pnorm_padd.

Theorem C03_pnorm_pscale :
  forall (c : Z) (a : list Z), pnorm (pscale c a) = Z.abs c * pnorm a.
Proof. exact pnorm_pscale. Qed.
Print Assumptions C03_pnorm_pscale.

Theorem C03_pnorm_pmul :
  forall a b : list Z, length b = length a -> pnorm (pmul a b) <= Z.of_nat (length a) * pnorm a * pnorm b.
Proof. exact pnorm_pmul. Qed.
Print Assumptions C03_pnorm_pmul.

Theorem C03_pnorm_psumf :
  forall (n : nat) (f : nat -> list Z) (m : nat), pnorm (psumf n f m) <= zsum (fun i : nat => pnorm (f i)) m.
Proof. exact pnorm_psumf. Qed.
Print Assumptions C03_pnorm_psumf.

(* (4) the gadget noise is below rows * cin * n * Dgroup * B *)
Theorem C03_keyswitch_bound :
  forall (b : Z) (n cin dsize rows : nat) (A e : nat -> nat -> list Z) (D B : Z),
    0 <= B ->
    (forall ci l : nat, length (A ci l) = n) ->
    (forall row ci : nat, length (e row ci) = n) ->
    (forall ci l : nat, pnorm (A ci l) <= D) ->
    (forall row ci : nat, pnorm (e row ci) <= B) ->
    pnorm (psumf n (fun row : nat => psumf n (fun ci : nat => pmul (digit b n dsize A ci row) (e row ci)) cin) rows) <=
    Z.of_nat rows * Z.of_nat cin * Z.of_nat n * (D * zsum (fun t : nat => 2 ^ (Z.of_nat t * b)) dsize) * B.
Proof. exact C03_keyswitch_bound. Qed.
Print Assumptions C03_keyswitch_bound.

(* (4) ... which is the `gadget` term of Gadget.gadget_env *)
Theorem C03_keyswitch_bound_env :
  forall (P b D : Z) (n cin dsize dnum a_size msize : nat) (A e : nat -> nat -> list Z) (rank_out S0 Ssrc Bkey rb : Z)
      (res_size : nat) (body : bool),
    (1 <= dsize)%nat ->
    0 <= D ->
    0 <= Bkey ->
    0 <= rank_out ->
    0 <= S0 ->
    0 <= Ssrc ->
    (forall ci l : nat, length (A ci l) = n) ->
    (forall row ci : nat, length (e row ci) = n) ->
    (forall ci l : nat, (a_size <= l)%nat -> A ci l = pzero n) ->
    (forall ci l : nat, pnorm (A ci l) <= D) ->
    (forall row ci : nat, pnorm (e row ci) <= Bkey) ->
    pnorm (gadget_noise b n cin dsize dnum A e) <=
    gadget_env P (Z.of_nat n) b D dsize dnum a_size msize (Z.of_nat cin) rank_out S0 Ssrc Bkey rb res_size body.
Proof. exact C03_keyswitch_bound_env. Qed.
Print Assumptions C03_keyswitch_bound_env.

(* link to the executable spec values of Model/Gadget.v: poly_val = pval, phase_val = phase_f under (1, sk) *)
Theorem C03_poly_val_pval :
  forall (P b : Z) (n : nat) (l : plimbs), poly_val P b n l = pval P b n (lim l) (length l).
Proof. exact poly_val_pval. Qed.
Print Assumptions C03_poly_val_pval.

Theorem C03_phase_val_phase_f :
  forall (P b : Z) (n : nat) (sk : list (list Z)) (ct : cols_t) (size : nat),
    (1 <= n)%nat ->
    wf_cols n (S (length sk)) size ct ->
    (forall i : nat, (i < length sk)%nat -> length (nth i sk (pzero n)) = n) ->
    phase_val P b n sk ct = phase_f P b n (S (length sk)) size (limbs_of ct) (sk_ext n sk).
Proof. exact phase_val_phase_f. Qed.
Print Assumptions C03_phase_val_phase_f.

(* (3b) glwe_keyswitch_internal with Gadget.phase_val on the left *)
Theorem C03_keyswitch_internal_phase_val :
  forall (P b : Z) (n rin msize a_size dsize dnum : nat) (ct res0 : cols_t) (K : pmat) (sk_out : list (list Z)) (s_in : nat -> list Z)
      (e I : nat -> nat -> list Z),
    wf_cols n (S rin) a_size ct ->
    wf_pmat_in n (dnum * rin) (msize * S (length sk_out)) K ->
    (1 <= n)%nat ->
    (1 <= dsize)%nat ->
    (dsize - 2 <= msize)%nat ->
    (forall s : list Z, In s sk_out -> length s = n) ->
    (forall ci : nat, length (s_in ci) = n) ->
    (forall row ci : nat, length (e row ci) = n) ->
    (forall row ci : nat, length (I row ci) = n) ->
    0 <= b ->
    Z.of_nat msize * b <= P ->
    Z.of_nat dnum * Z.of_nat dsize * b <= P ->
    key_rows_ok P b n rin (S (length sk_out)) msize dsize dnum K (sk_ext n sk_out) s_in e I ->
    exists ks : cols_t,
      keyswitch_internal n (S (length sk_out)) msize res0 ct a_size dsize dnum msize K = Some ks /\
      phase_val P b n sk_out ks =
      padd
        (padd
           (padd (pval P b n (acol n ct 0) (Nat.min msize a_size))
              (psumf n (fun ci : nat => pmul (pval_used P b n a_size dsize dnum (acol n (tl ct)) ci) (s_in ci)) rin))
           (gadget_err P b n rin (S (length sk_out)) msize dsize dnum (acol n (tl ct)) K (sk_ext n sk_out) e))
        (pscale (2 ^ P) (gadget_int b n rin (S (length sk_out)) msize dsize dnum (acol n (tl ct)) K (sk_ext n sk_out) I)).
Proof. exact C03_keyswitch_internal_phase_val_lemma. Qed.
Print Assumptions C03_keyswitch_internal_phase_val.

(* (5) key-row lemma for the modelled encryption (Model/GadgetEnc.v): the value-level body equation of gglwe_encrypt_sk implies key_rows_ok, same e, I = J *)
Theorem C03_key_rows_of_enc_body :
  forall (P b : Z) (n cin rank msize dsize dnum : nat) (K : pmat) (Sk src : nat -> list Z) (e J : nat -> nat -> list Z),
    (1 <= n)%nat ->
    wf_pmat_in n (dnum * cin) (msize * S rank) K ->
    (forall co : nat, length (Sk co) = n) ->
    Sk 0%nat = pone n ->
    (forall ci : nat, length (src ci) = n) ->
    (forall row ci : nat, length (e row ci) = n) ->
    (forall row ci : nat, length (J row ci) = n) ->
    enc_body_ok P b n cin rank msize dsize dnum K Sk src e J -> key_rows_ok P b n cin (S rank) msize dsize dnum K Sk src e J.
Proof. exact key_rows_of_enc_body. Qed.
Print Assumptions C03_key_rows_of_enc_body.

(* (5) the key-switch phase theorem with the body equation of the key encryption instead of the key-row hypothesis *)
Theorem C03_keyswitch_phase_enc :
  forall (P b : Z) (n rin msize a_size dsize dnum : nat) (ct res0 : cols_t) (K : pmat) (sk_out : list (list Z)) (s_in : nat -> list Z)
      (e J : nat -> nat -> list Z),
    wf_cols n (S rin) a_size ct ->
    wf_pmat_in n (dnum * rin) (msize * S (length sk_out)) K ->
    (1 <= n)%nat ->
    (1 <= dsize)%nat ->
    (dsize - 2 <= msize)%nat ->
    (forall s : list Z, In s sk_out -> length s = n) ->
    (forall ci : nat, length (s_in ci) = n) ->
    (forall row ci : nat, length (e row ci) = n) ->
    (forall row ci : nat, length (J row ci) = n) ->
    0 <= b ->
    Z.of_nat msize * b <= P ->
    Z.of_nat dnum * Z.of_nat dsize * b <= P ->
    enc_body_ok P b n rin (length sk_out) msize dsize dnum K (sk_ext n sk_out) s_in e J ->
    exists ks : cols_t,
      keyswitch_internal n (S (length sk_out)) msize res0 ct a_size dsize dnum msize K = Some ks /\
      phase_val P b n sk_out ks =
      padd
        (padd
           (padd (pval P b n (acol n ct 0) (Nat.min msize a_size))
              (psumf n (fun ci : nat => pmul (pval_used P b n a_size dsize dnum (acol n (tl ct)) ci) (s_in ci)) rin))
           (gadget_err P b n rin (S (length sk_out)) msize dsize dnum (acol n (tl ct)) K (sk_ext n sk_out) e))
        (pscale (2 ^ P) (gadget_int b n rin (S (length sk_out)) msize dsize dnum (acol n (tl ct)) K (sk_ext n sk_out) J)).
Proof.
  intros. apply C03_keyswitch_internal_phase_val; try assumption.
  apply key_rows_of_enc_body; try assumption; [apply sk_ext_length; assumption|reflexivity].
Qed.
Print Assumptions C03_keyswitch_phase_enc.

(* (6) one column normalisation, FFT64 family, same radix, from C08 normalize_inter_value: out = big + r + 2^P I, |r| <= one unit of the last limb *)
Theorem C03_big_normalize_value_fft64 :
  forall (b : Z) (n rsize : nat) (a : plimbs) (P : Z),
    1 <= b <= 62 ->
    (forall j : nat, (j < length a)%nat -> length (lim a j) = n) ->
    (forall j k : nat, Z.abs (nth k (lim a j) 0) <= 2 ^ 62) ->
    (Z.of_nat rsize + Z.of_nat (length a)) * b <= P -> normalize_value_ok 64 P n b b rsize a.
Proof. exact big_normalize_value_fft64. Qed.
Print Assumptions C03_big_normalize_value_fft64.

(* (6) normalising every column: phase(out) = phase(big) + R + 2^P I, |R| <= (1 + rank n S) units of the last limb *)
Theorem C03_normalize_cols_phase :
  forall (wb P : Z) (n : nat) (rb kb : Z) (res_size msize : nat) (sk : list (list Z)) (Sb : Z) (big : cols_t),
    (1 <= n)%nat ->
    wf_cols n (S (length sk)) msize big ->
    (forall s : list Z, In s sk -> length s = n) ->
    (forall s : list Z, In s sk -> pnorm s <= Sb) ->
    (forall co : nat, (co < S (length sk))%nat -> normalize_value_ok wb P n rb kb res_size (col big co)) ->
    exists (res : list plimbs) (R I : list Z),
      sequence (map (big_normalize wb n rb kb res_size) big) = Some res /\
      wf_cols n (S (length sk)) res_size res /\
      length R = n /\
      length I = n /\
      phase_val P rb n sk res = padd (padd (phase_val P kb n sk big) R) (pscale (2 ^ P) I) /\
      pnorm R <= (1 + Z.of_nat (length sk) * Z.of_nat n * Sb) * 2 ^ (P - Z.of_nat res_size * rb).
Proof. exact normalize_cols_phase. Qed.
Print Assumptions C03_normalize_cols_phase.

(* (6) Gadget.glwe_keyswitch (input radix = key radix): phase_out = phase_in + E + R + 2^P I; per-column normalize_value_ok is a hypothesis *)
Theorem C03_glwe_keyswitch_phase_final :
  forall (be P b rb : Z) (n rin msize a_size res_size dsize dnum : nat) (ct : cols_t) (K : pmat) (sk_out : list (list Z))
      (s_in : nat -> list Z) (e I : nat -> nat -> list Z) (Sb : Z),
    wf_cols n (S rin) a_size ct ->
    wf_pmat_in n (dnum * rin) (msize * S (length sk_out)) K ->
    (1 <= n)%nat ->
    (1 <= dsize)%nat ->
    (dsize - 2 <= msize)%nat ->
    (forall s : list Z, In s sk_out -> length s = n) ->
    (forall s : list Z, In s sk_out -> pnorm s <= Sb) ->
    (forall ci : nat, length (s_in ci) = n) ->
    (forall row ci : nat, length (e row ci) = n) ->
    (forall row ci : nat, length (I row ci) = n) ->
    0 <= b ->
    Z.of_nat msize * b <= P ->
    Z.of_nat dnum * Z.of_nat dsize * b <= P ->
    key_rows_ok P b n rin (S (length sk_out)) msize dsize dnum K (sk_ext n sk_out) s_in e I ->
    (forall big : cols_t,
     keyswitch_internal n (S (length sk_out)) msize (zcols n (S (length sk_out)) msize) ct a_size dsize dnum msize K = Some big ->
     forall co : nat, (co < S (length sk_out))%nat -> normalize_value_ok (wbig be) P n rb b res_size (col big co)) ->
    exists (res : cols_t) (R Itot : list Z),
      glwe_keyswitch be n b b rb (length sk_out) a_size res_size dsize dnum msize ct K = Some res /\
      wf_cols n (S (length sk_out)) res_size res /\
      length R = n /\
      length Itot = n /\
      phase_val P rb n sk_out res =
      padd
        (padd
           (padd
              (padd (pval P b n (acol n ct 0) (Nat.min msize a_size))
                 (psumf n (fun ci : nat => pmul (pval_used P b n a_size dsize dnum (acol n (tl ct)) ci) (s_in ci)) rin))
              (gadget_err P b n rin (S (length sk_out)) msize dsize dnum (acol n (tl ct)) K (sk_ext n sk_out) e)) R) (pscale (2 ^ P) Itot) /\
      pnorm R <= (1 + Z.of_nat (length sk_out) * Z.of_nat n * Sb) * 2 ^ (P - Z.of_nat res_size * rb).
Proof.
  intros be P b rb n rin msize a_size res_size dsize dnum ct K sk_out s_in e I Sb
    Hct HK Hn Hd Hdrop Hsk HSb Hsin He HI Hb HP HP2 key_row Hnorm.
  destruct (C03_keyswitch_internal_phase P b n rin (S (length sk_out)) msize a_size dsize dnum ct (zcols n (S (length sk_out)) msize) K
              (sk_ext n sk_out) s_in e I Hct HK Hn ltac:(lia) Hd Hdrop (sk_ext_length n sk_out Hn Hsk) eq_refl Hsin He HI Hb HP HP2 key_row)
    as [big [E1 [E2 E3]]].
  rewrite <- (phase_val_phase_f P b n sk_out big msize Hn E2) in E3 by (intros; apply Hsk, nth_In; assumption).
  pose proof (acol_length n rin a_size (tl ct) (wf_tl n rin a_size ct Hct)) as LA.
  pose proof (acol_length n (S rin) a_size ct Hct) as LB.
  destruct (normalize_cols_after (wbig be) P n rb b res_size msize sk_out Sb big Hn E2 Hsk HSb (Hnorm big E1) _ _ E3)
    as (res & R & Itot & F1 & F).
  - plen.
  - plen.
  - exists res, R, Itot. split; [|exact F].
    unfold glwe_keyswitch, pre_normalize. rewrite Z.eqb_refl, E1. exact F1.
Qed.
Print Assumptions C03_glwe_keyswitch_phase_final.

(* (7) the exact Galois automorphism sigmaE g (Model/GadgetDerived.v) = Poly.sigma w g on small coefficients *)
Theorem C03_sigmaE_sigma :
  forall (w g : Z) (a : list Z), 1 <= w -> (forall x : Z, In x a -> Z.abs x < 2 ^ (w - 1)) -> sigma w g a = sigmaE g a.
Proof. exact sigmaE_sigma. Qed.
Print Assumptions C03_sigmaE_sigma.

(* (7) sigma_g a (X^g) = a (X) on the exact extension, gcd g (2n) = 1 *)
Theorem C03_ext_sigmaE :
  forall (g : Z) (a : list Z) (k : Z), Z.gcd g (2 * Z.of_nat (length a)) = 1 -> (0 < length a)%nat -> ext' (sigmaE g a) (k * g) = ext' a k.
Proof. exact ext'_sigmaE. Qed.
Print Assumptions C03_ext_sigmaE.

Theorem C03_sigmaE_unique :
  forall (g : Z) (a c : list Z),
    Z.gcd g (2 * Z.of_nat (length a)) = 1 ->
    (0 < length a)%nat -> length c = length a -> (forall k : Z, ext' c (k * g) = ext' a k) -> c = sigmaE g a.
Proof. exact sigmaE_unique. Qed.
Print Assumptions C03_sigmaE_unique.

(* (7) ring-homomorphism facts, all PROVED *)
Theorem C03_sigmaE_len :
  forall (n : nat) (g : Z) (a : list Z), length a = n -> length (sigmaE g a) = n.
Proof. exact sigmaE_len. Qed.
Print Assumptions C03_sigmaE_len.

Theorem C03_sigmaE_padd :
  forall (n : nat) (g : Z),
    (0 < n)%nat ->
    Z.gcd g (2 * Z.of_nat n) = 1 -> forall a b : list Z, length a = n -> length b = n -> sigmaE g (padd a b) = padd (sigmaE g a) (sigmaE g b).
Proof. exact sigmaE_padd. Qed.
Print Assumptions C03_sigmaE_padd.

Theorem C03_sigmaE_psub :
  forall (n : nat) (g : Z),
    (0 < n)%nat ->
    Z.gcd g (2 * Z.of_nat n) = 1 -> forall a b : list Z, length a = n -> length b = n -> sigmaE g (psub a b) = psub (sigmaE g a) (sigmaE g b).
Proof. exact sigmaE_psub. Qed.
Print Assumptions C03_sigmaE_psub.

Theorem C03_sigmaE_pneg :
  forall (n : nat) (g : Z),
    (0 < n)%nat -> Z.gcd g (2 * Z.of_nat n) = 1 -> forall a : list Z, length a = n -> sigmaE g (pneg a) = pneg (sigmaE g a).
Proof. intros n g Hn Hg a. apply (sigmaE_hom1 n g Hn Hg pneg Z.opp a); [apply pneg_length|apply ext'_pneg]. Qed.
Print Assumptions C03_sigmaE_pneg.

Theorem C03_sigmaE_pscale :
  forall (n : nat) (g : Z),
    (0 < n)%nat -> Z.gcd g (2 * Z.of_nat n) = 1 -> forall (c : Z) (a : list Z), length a = n -> sigmaE g (pscale c a) = pscale c (sigmaE g a).
Proof. exact sigmaE_pscale. Qed.
Print Assumptions C03_sigmaE_pscale.

Theorem C03_sigmaE_pmul :
  forall (n : nat) (g : Z),
    (0 < n)%nat ->
    Z.gcd g (2 * Z.of_nat n) = 1 -> forall a b : list Z, length a = n -> length b = n -> sigmaE g (pmul a b) = pmul (sigmaE g a) (sigmaE g b).
Proof. exact sigmaE_pmul. Qed.
Print Assumptions C03_sigmaE_pmul.

(* (7) the sup norm is invariant: the envelope is unchanged *)
Theorem C03_sigmaE_pnorm :
  forall (g : Z) (a : list Z), Z.gcd g (Z.of_nat (length a)) = 1 -> pnorm (sigmaE g a) = pnorm a.
Proof. exact sigmaE_pnorm. Qed.
Print Assumptions C03_sigmaE_pnorm.

Theorem C03_sigmaE_compose :
  forall a : list Z,
    (0 < length a)%nat ->
    forall g h : Z, Z.gcd g (2 * Z.of_nat (length a)) = 1 -> Z.gcd h (2 * Z.of_nat (length a)) = 1 -> sigmaE g (sigmaE h a) = sigmaE (g * h) a.
Proof. exact sigmaE_compose. Qed.
Print Assumptions C03_sigmaE_compose.

Theorem C03_sigmaE_inverse :
  forall a : list Z,
    (0 < length a)%nat ->
    forall g h : Z, Z.gcd g (2 * Z.of_nat (length a)) = 1 -> (g * h) mod (2 * Z.of_nat (length a)) = 1 -> sigmaE h (sigmaE g a) = a.
Proof. exact sigmaE_inverse. Qed.
Print Assumptions C03_sigmaE_inverse.

(* (7) C03_automorphism_phase with sg := sigmaE g: no ring-homomorphism hypothesis left *)
Theorem C03_automorphism_phase_sigma :
  forall (n : nat) (g P b : Z) (rin cols_out msize a_size dsize dnum : nat) (ct res0 : cols_t) (K : pmat) (Sk St s_in : nat -> list Z)
      (e I : nat -> nat -> list Z),
    Z.gcd g (2 * Z.of_nat n) = 1 ->
    wf_cols n (S rin) a_size ct ->
    wf_pmat_in n (dnum * rin) (msize * cols_out) K ->
    (1 <= n)%nat ->
    (1 <= cols_out)%nat ->
    (1 <= dsize)%nat ->
    (dsize - 2 <= msize)%nat ->
    (forall co : nat, length (Sk co) = n) ->
    Sk 0%nat = pone n ->
    (forall co : nat, St co = sigmaE g (Sk co)) ->
    (forall ci : nat, length (s_in ci) = n) ->
    (forall row ci : nat, length (e row ci) = n) ->
    (forall row ci : nat, length (I row ci) = n) ->
    0 <= b ->
    Z.of_nat msize * b <= P ->
    Z.of_nat dnum * Z.of_nat dsize * b <= P ->
    key_rows_ok P b n rin cols_out msize dsize dnum K Sk s_in e I ->
    exists ks : cols_t,
      keyswitch_internal n cols_out msize res0 ct a_size dsize dnum msize K = Some ks /\
      wf_cols n cols_out msize ks /\
      phase_f P b n cols_out msize (limbs_of (map (map (sigmaE g)) ks)) St =
      padd
        (padd
           (sigmaE g
              (padd (pval P b n (acol n ct 0) (Nat.min msize a_size))
                 (psumf n (fun ci : nat => pmul (pval_used P b n a_size dsize dnum (acol n (tl ct)) ci) (s_in ci)) rin)))
           (sigmaE g (gadget_err P b n rin cols_out msize dsize dnum (acol n (tl ct)) K Sk e)))
        (pscale (2 ^ P) (sigmaE g (gadget_int b n rin cols_out msize dsize dnum (acol n (tl ct)) K Sk I))) /\
      pnorm (sigmaE g (gadget_err P b n rin cols_out msize dsize dnum (acol n (tl ct)) K Sk e)) =
      pnorm (gadget_err P b n rin cols_out msize dsize dnum (acol n (tl ct)) K Sk e).
Proof.
  intros n g P b rin cols_out msize a_size dsize dnum ct res0 K Sk St s_in e I
    Hg Hct HK Hn Hco Hd Hdrop HS HS0 HSt Hsin He HI Hb HP HP2 key_row.
  assert (Hn0 : (0 < n)%nat) by lia.
  destruct (C03_automorphism_phase n (sigmaE g)
              (sigmaE_len n g) (sigmaE_padd n g Hn0 Hg) (sigmaE_pmul n g Hn0 Hg) (sigmaE_pscale n g Hn0 Hg)
              P b rin cols_out msize a_size dsize dnum ct res0 K Sk St s_in e I
              Hct HK Hn Hco Hd Hdrop HS HS0 HSt Hsin He HI Hb HP HP2 key_row) as [ks [E1 [E2 E3]]].
  exists ks. split; [exact E1|]. split; [exact E2|]. split; [exact E3|].
  apply sigmaE_pnorm. rewrite gadget_err_length.
  - apply C09Sigma.gcd2n_gcdn; exact Hg.
  - apply (acol_length n rin a_size (tl ct) (wf_tl n rin a_size ct Hct)).
Qed.
Print Assumptions C03_automorphism_phase_sigma.

(* (8) two gadget shapes, same s_in -> s_out, one input that fits both: same plaintext image, torus distance <= env1 + env2 *)
Theorem C03_keyswitch_shape_independent :
  forall (P b : Z) (n rin a_size : nat) (ct : cols_t) (sk_out : list (list Z)) (s_in : nat -> list Z)
      (msize1 dsize1 dnum1 msize2 dsize2 dnum2 : nat) (res01 res02 : cols_t) (K1 K2 : pmat) (e1 I1 e2 I2 : nat -> nat -> list Z) 
      (env1 env2 : Z),
    wf_cols n (S rin) a_size ct ->
    (1 <= n)%nat ->
    (forall s : list Z, In s sk_out -> length s = n) ->
    (forall ci : nat, length (s_in ci) = n) ->
    0 <= b ->
    1 <= P ->
    wf_pmat_in n (dnum1 * rin) (msize1 * S (length sk_out)) K1 ->
    (1 <= dsize1)%nat ->
    (dsize1 - 2 <= msize1)%nat ->
    (a_size <= dnum1 * dsize1)%nat ->
    (a_size <= msize1)%nat ->
    (forall row ci : nat, length (e1 row ci) = n) ->
    (forall row ci : nat, length (I1 row ci) = n) ->
    Z.of_nat msize1 * b <= P ->
    Z.of_nat dnum1 * Z.of_nat dsize1 * b <= P ->
    key_rows_ok P b n rin (S (length sk_out)) msize1 dsize1 dnum1 K1 (sk_ext n sk_out) s_in e1 I1 ->
    wf_pmat_in n (dnum2 * rin) (msize2 * S (length sk_out)) K2 ->
    (1 <= dsize2)%nat ->
    (dsize2 - 2 <= msize2)%nat ->
    (a_size <= dnum2 * dsize2)%nat ->
    (a_size <= msize2)%nat ->
    (forall row ci : nat, length (e2 row ci) = n) ->
    (forall row ci : nat, length (I2 row ci) = n) ->
    Z.of_nat msize2 * b <= P ->
    Z.of_nat dnum2 * Z.of_nat dsize2 * b <= P ->
    key_rows_ok P b n rin (S (length sk_out)) msize2 dsize2 dnum2 K2 (sk_ext n sk_out) s_in e2 I2 ->
    pnorm (gadget_err P b n rin (S (length sk_out)) msize1 dsize1 dnum1 (acol n (tl ct)) K1 (sk_ext n sk_out) e1) <= env1 ->
    pnorm (gadget_err P b n rin (S (length sk_out)) msize2 dsize2 dnum2 (acol n (tl ct)) K2 (sk_ext n sk_out) e2) <= env2 ->
    env1 + env2 < 2 ^ (P - 1) ->
    exists ks1 ks2 : cols_t,
      keyswitch_internal n (S (length sk_out)) msize1 res01 ct a_size dsize1 dnum1 msize1 K1 = Some ks1 /\
      keyswitch_internal n (S (length sk_out)) msize2 res02 ct a_size dsize2 dnum2 msize2 K2 = Some ks2 /\
      phase_val P b n sk_out ks1 =
      padd
        (padd (phase_in_full P b n rin a_size ct s_in)
           (gadget_err P b n rin (S (length sk_out)) msize1 dsize1 dnum1 (acol n (tl ct)) K1 (sk_ext n sk_out) e1))
        (pscale (2 ^ P) (gadget_int b n rin (S (length sk_out)) msize1 dsize1 dnum1 (acol n (tl ct)) K1 (sk_ext n sk_out) I1)) /\
      phase_val P b n sk_out ks2 =
      padd
        (padd (phase_in_full P b n rin a_size ct s_in)
           (gadget_err P b n rin (S (length sk_out)) msize2 dsize2 dnum2 (acol n (tl ct)) K2 (sk_ext n sk_out) e2))
        (pscale (2 ^ P) (gadget_int b n rin (S (length sk_out)) msize2 dsize2 dnum2 (acol n (tl ct)) K2 (sk_ext n sk_out) I2)) /\
      psub (phase_val P b n sk_out ks1) (phase_val P b n sk_out ks2) =
      padd
        (psub (gadget_err P b n rin (S (length sk_out)) msize1 dsize1 dnum1 (acol n (tl ct)) K1 (sk_ext n sk_out) e1)
           (gadget_err P b n rin (S (length sk_out)) msize2 dsize2 dnum2 (acol n (tl ct)) K2 (sk_ext n sk_out) e2))
        (pscale (2 ^ P)
           (psub (gadget_int b n rin (S (length sk_out)) msize1 dsize1 dnum1 (acol n (tl ct)) K1 (sk_ext n sk_out) I1)
              (gadget_int b n rin (S (length sk_out)) msize2 dsize2 dnum2 (acol n (tl ct)) K2 (sk_ext n sk_out) I2))) /\
      tor_norm P (psub (phase_val P b n sk_out ks1) (phase_val P b n sk_out ks2)) <= env1 + env2.
Proof. exact keyswitch_shape_independent. Qed.
Print Assumptions C03_keyswitch_shape_independent.

(* (8) Model/C03Run.decode of M 2^(P-kpt) + err + 2^P I is M when |err| < half a message step *)
Theorem C03_decode_correct :
  forall (P kpt : Z) (n : nat) (msg err I : list Z),
    1 <= kpt ->
    kpt < P ->
    length msg = n ->
    length err = n ->
    length I = n ->
    pnorm err < 2 ^ (P - kpt - 1) -> decode P kpt (padd (padd (pscale (2 ^ (P - kpt)) msg) err) (pscale (2 ^ P) I)) = map (wrap kpt) msg.
Proof. exact decode_correct. Qed.
Print Assumptions C03_decode_correct.

(* (8) every fitting gadget shape decodes to the encrypted message *)
Theorem C03_keyswitch_fit_decodes :
  forall (P b kpt : Z) (n rin msize a_size dsize dnum : nat) (ct res0 : cols_t) (K : pmat) (sk_out : list (list Z))
      (s_in : nat -> list Z) (e I : nat -> nat -> list Z) (msg e_in : list Z) (env : Z),
    wf_cols n (S rin) a_size ct ->
    wf_pmat_in n (dnum * rin) (msize * S (length sk_out)) K ->
    (1 <= n)%nat ->
    (1 <= dsize)%nat ->
    (dsize - 2 <= msize)%nat ->
    (a_size <= dnum * dsize)%nat ->
    (a_size <= msize)%nat ->
    (forall s : list Z, In s sk_out -> length s = n) ->
    (forall ci : nat, length (s_in ci) = n) ->
    (forall row ci : nat, length (e row ci) = n) ->
    (forall row ci : nat, length (I row ci) = n) ->
    0 <= b ->
    Z.of_nat msize * b <= P ->
    Z.of_nat dnum * Z.of_nat dsize * b <= P ->
    key_rows_ok P b n rin (S (length sk_out)) msize dsize dnum K (sk_ext n sk_out) s_in e I ->
    1 <= kpt < P ->
    length msg = n ->
    length e_in = n ->
    phase_in_full P b n rin a_size ct s_in = padd (pscale (2 ^ (P - kpt)) msg) e_in ->
    pnorm (gadget_err P b n rin (S (length sk_out)) msize dsize dnum (acol n (tl ct)) K (sk_ext n sk_out) e) <= env ->
    pnorm e_in + env < 2 ^ (P - kpt - 1) ->
    exists ks : cols_t,
      keyswitch_internal n (S (length sk_out)) msize res0 ct a_size dsize dnum msize K = Some ks /\
      decode P kpt (phase_val P b n sk_out ks) = map (wrap kpt) msg.
Proof.
  intros P b kpt n rin msize a_size dsize dnum ct res0 K sk_out s_in e I msg e_in env
    Hct HK Hn Hd Hdrop Hfit1 Hfit2 Hsk Hsin He HI Hb HP HP2 key_row Hk Lmsg Lein Hmsg Henv Hsmall.
  destruct (keyswitch_phase_fit P b n rin msize a_size dsize dnum ct res0 K sk_out s_in e I
              Hct HK Hn Hd Hdrop Hfit1 Hfit2 Hsk Hsin He HI Hb HP HP2 key_row) as [ks [A1 A2]].
  exists ks. split; [exact A1|]. rewrite A2, Hmsg.
  pose proof (acol_length n rin a_size (tl ct) (wf_tl n rin a_size ct Hct)) as LA.
  apply (decode_noisy P kpt n msg e_in _ _ env); try assumption; try lia.
  - apply gadget_err_length; assumption.
  - apply gadget_int_length; assumption.
Qed.
Print Assumptions C03_keyswitch_fit_decodes.

(* (9) sample extraction: coefficient 0 of a (x) sigma_{-1}(s) is the LWE inner product *)
Theorem C03_sample_extract_phase :
  forall (n : nat) (a s : list Z),
    (0 < n)%nat -> length a = n -> (length s <= n)%nat -> nth 0 (pmul a (sigmaE (-1) (s ++ zeros (n - length s)))) 0 = lwe_dot a s (length s).
Proof. exact sample_extract_phase. Qed.
Print Assumptions C03_sample_extract_phase.

Theorem C03_rotate_selects :
  forall (x : list Z) (idx : nat), (idx < length x)%nat -> nth 0 (monomial_mul' (- Z.of_nat idx) x) 0 = nthZ x idx.
Proof. exact rotate_selects. Qed.
Print Assumptions C03_rotate_selects.

(* (9) lwe_from_glwe(idx) = rotate by -idx, key-switch, extract *)
Theorem C03_lwe_from_glwe_phase :
  forall (P : Z) (n idx : nat) (ph_in ph_rot ph_ks E I : list Z),
    length ph_in = n ->
    (idx < n)%nat ->
    length E = n ->
    length I = n ->
    ph_rot = monomial_mul' (- Z.of_nat idx) ph_in ->
    ph_ks = padd (padd ph_rot E) (pscale (2 ^ P) I) ->
    nth 0 ph_ks 0 = nthZ ph_in idx + nth 0 E 0 + 2 ^ P * nth 0 I 0 /\ Z.abs (nth 0 E 0) <= pnorm E.
Proof.
  intros P n idx ph_in ph_rot ph_ks E I L1 Hi L2 L3 -> ->. split; [|apply pnorm_nth].
  assert (Lm : length (monomial_mul' (- Z.of_nat idx) ph_in) = n) by (unfold monomial_mul'; rewrite map_length, seq_length; exact L1).
  rewrite !(nth_padd_n n), nth_pscale, rotate_selects by (plen || lia). reflexivity.
Qed.
Print Assumptions C03_lwe_from_glwe_phase.

Theorem C03_glwe_from_lwe_phase :
  forall (P : Z) (n : nat) (lwe_phase : Z) (ph_emb ph_out E I : list Z),
    (0 < n)%nat ->
    length ph_emb = n ->
    length E = n ->
    length I = n ->
    nth 0 ph_emb 0 = lwe_phase ->
    ph_out = padd (padd ph_emb E) (pscale (2 ^ P) I) -> nth 0 ph_out 0 = lwe_phase + nth 0 E 0 + 2 ^ P * nth 0 I 0 /\ Z.abs (nth 0 E 0) <= pnorm E.
Proof.
  intros P n lwe_phase ph_emb ph_out E I Hn L1 L2 L3 H0 ->. split; [|apply pnorm_nth].
  rewrite !(nth_padd_n n), nth_pscale, H0 by plen. reflexivity.
Qed.
Print Assumptions C03_glwe_from_lwe_phase.

(* (9) packing: err' <= err_a + err_b + lvl over any merge tree of depth <= L gives 2^L e0 + (2^L - 1) lvl *)
Theorem C03_pack_error_bound :
  forall (lvl e0 : Z) (t : mtree) (x : Z) (L : nat),
    0 <= lvl -> 0 <= e0 -> mleaves_le e0 t -> (mdepth t <= L)%nat -> merge_err lvl t x -> x <= 2 ^ Z.of_nat L * e0 + (2 ^ Z.of_nat L - 1) * lvl.
Proof. exact pack_error_bound. Qed.
Print Assumptions C03_pack_error_bound.

Theorem C03_pack_error_bound_fresh :
  forall (lvl : Z) (t : mtree) (x : Z) (L : nat),
    0 <= lvl -> mleaves_le 0 t -> (mdepth t <= L)%nat -> merge_err lvl t x -> x <= (2 ^ Z.of_nat L - 1) * lvl.
Proof. intros lvl t x L Hl Hle HL Hm. pose proof (pack_error_bound lvl 0 t x L Hl ltac:(lia) Hle HL Hm). lia. Qed.
Print Assumptions C03_pack_error_bound_fresh.

(* (9) glwe_pack: slot s ends at coefficient s; streaming packer: the k-th input ends at coefficient bitrev(k) *)
Theorem C03_pack_slot_placement :
  forall L s : nat, (s < 2 ^ L)%nat -> pack_pos L s = (0%nat, s).
Proof. intros L s H. unfold pack_pos. rewrite pack_fold by exact H. reflexivity. Qed.
Print Assumptions C03_pack_slot_placement.

Theorem C03_packer_slot_placement :
  forall L k : nat, packer_pos L k = GadgetDerived.bitrev L k.
Proof. intros L k. unfold packer_pos. rewrite packer_fold. reflexivity. Qed.
Print Assumptions C03_packer_slot_placement.

(* (9) AUTO(a X^t, g) = -X^t AUTO(a, g) when t g = t + n (mod 2n); one merge level of pack_internal, exactly *)
Theorem C03_sigmaE_monomial_flip :
  forall (n : nat) (g : Z),
    (0 < n)%nat ->
    Z.gcd g (2 * Z.of_nat n) = 1 ->
    forall (b : list Z) (t s : Z),
    length b = n -> t * g = t + Z.of_nat n + s * (2 * Z.of_nat n) -> sigmaE g (monomial_mul' t b) = pneg (monomial_mul' t (sigmaE g b)).
Proof. exact sigmaE_monomial_flip. Qed.
Print Assumptions C03_sigmaE_monomial_flip.

Theorem C03_pack_merge_level :
  forall (n : nat) (g : Z),
    (0 < n)%nat ->
    Z.gcd g (2 * Z.of_nat n) = 1 ->
    forall (a b : list Z) (t s : Z),
    length a = n ->
    length b = n ->
    t * g = t + Z.of_nat n + s * (2 * Z.of_nat n) ->
    padd (padd a (monomial_mul' t b)) (sigmaE g (psub a (monomial_mul' t b))) = padd (padd a (sigmaE g a)) (monomial_mul' t (padd b (sigmaE g b))).
Proof. exact pack_merge_level. Qed.
Print Assumptions C03_pack_merge_level.

(* (9) trace: per-level projection (2 x_j at the fixed positions, 0 at the negated ones) *)
Theorem C03_trace_level_coeff :
  forall (n : nat) (g : Z),
    (0 < n)%nat ->
    Z.gcd g (2 * Z.of_nat n) = 1 ->
    forall (x : list Z) (j : nat) (s : Z),
    length x = n ->
    (j < n)%nat ->
    (Z.of_nat j * g = Z.of_nat j + s * (2 * Z.of_nat n) -> nth j (padd x (sigmaE g x)) 0 = 2 * nthZ x j) /\
    (Z.of_nat j * g = Z.of_nat j + Z.of_nat n + s * (2 * Z.of_nat n) -> nth j (padd x (sigmaE g x)) 0 = 0).
Proof.
  intros n g Hn Hg x j s Hx Hj. split; intros E; rewrite nth_padd by (rewrite sigmaE_length; reflexivity);
    change (nth j (sigmaE g x) 0) with (nthZ (sigmaE g x) j).
  - rewrite (sigmaE_coeff_shift n g Hn Hg x j (2 * s)) by (try assumption; lia). rewrite Z.even_mul. unfold nthZ. cbn [Z.even orb]. lia.
  - rewrite (sigmaE_coeff_shift n g Hn Hg x j (1 + 2 * s)) by (try assumption; lia). rewrite Z.even_add_mul_2. unfold nthZ. cbn [Z.even]. lia.
Qed.
Print Assumptions C03_trace_level_coeff.

(* (9) the composed levels = sum over the generated set of Galois elements *)
Theorem C03_trace_op_span :
  forall n : nat,
    (0 < n)%nat ->
    forall gs : list Z,
    Forall (unit2n n) gs -> forall x : list Z, length x = n -> trace_op gs x = psum_over n (fun h : Z => sigmaE h x) (galois_span gs).
Proof. exact trace_op_span. Qed.
Print Assumptions C03_trace_op_span.

(* (9) 2^steps phase(out) = trace_op(phase(in)) + Err + 2^P I, |Err| <= steps 2^steps (rounding + key-switch envelope) *)
Theorem C03_trace_phase :
  forall (P : Z) (n : nat) (rho eps : Z),
    (0 < n)%nat ->
    forall gs x z : list Z,
    trace_rel P n rho eps gs x z ->
    Forall (unit2n n) gs ->
    length x = n ->
    exists Err I : list Z,
      length Err = n /\
      length I = n /\
      length z = n /\
      pscale (2 ^ Z.of_nat (length gs)) z = padd (padd (trace_op gs x) Err) (pscale (2 ^ P) I) /\
      pnorm Err <= Z.of_nat (length gs) * 2 ^ Z.of_nat (length gs) * (rho + eps).
Proof. exact trace_phase_lemma. Qed.
Print Assumptions C03_trace_phase.

(* (6) ... FFT64 family, one radix: the normalisation hypothesis is discharged by C08; remaining hypothesis = |big coefficient| <= 2^62 *)
Theorem C03_glwe_keyswitch_phase_final_fft64 :
  forall (be P b : Z) (n rin msize a_size res_size dsize dnum : nat) (ct : cols_t) (K : pmat) (sk_out : list (list Z))
      (s_in : nat -> list Z) (e I : nat -> nat -> list Z) (Sb : Z),
    be <= 2 ->
    wf_cols n (S rin) a_size ct ->
    wf_pmat_in n (dnum * rin) (msize * S (length sk_out)) K ->
    (1 <= n)%nat ->
    (1 <= dsize)%nat ->
    (dsize - 2 <= msize)%nat ->
    (forall s : list Z, In s sk_out -> length s = n) ->
    (forall s : list Z, In s sk_out -> pnorm s <= Sb) ->
    (forall ci : nat, length (s_in ci) = n) ->
    (forall row ci : nat, length (e row ci) = n) ->
    (forall row ci : nat, length (I row ci) = n) ->
    1 <= b <= 62 ->
    (Z.of_nat res_size + Z.of_nat msize) * b <= P ->
    Z.of_nat dnum * Z.of_nat dsize * b <= P ->
    key_rows_ok P b n rin (S (length sk_out)) msize dsize dnum K (sk_ext n sk_out) s_in e I ->
    (forall big : cols_t,
     keyswitch_internal n (S (length sk_out)) msize (zcols n (S (length sk_out)) msize) ct a_size dsize dnum msize K = Some big ->
     forall co j k : nat, Z.abs (nth k (lim (col big co) j) 0) <= 2 ^ 62) ->
    exists (res : cols_t) (R Itot : list Z),
      glwe_keyswitch be n b b b (length sk_out) a_size res_size dsize dnum msize ct K = Some res /\
      wf_cols n (S (length sk_out)) res_size res /\
      length R = n /\
      length Itot = n /\
      phase_val P b n sk_out res =
      padd
        (padd
           (padd
              (padd (pval P b n (acol n ct 0) (Nat.min msize a_size))
                 (psumf n (fun ci : nat => pmul (pval_used P b n a_size dsize dnum (acol n (tl ct)) ci) (s_in ci)) rin))
              (gadget_err P b n rin (S (length sk_out)) msize dsize dnum (acol n (tl ct)) K (sk_ext n sk_out) e)) R) (pscale (2 ^ P) Itot) /\
      pnorm R <= (1 + Z.of_nat (length sk_out) * Z.of_nat n * Sb) * 2 ^ (P - Z.of_nat res_size * b).
Proof.
  intros be P b n rin msize a_size res_size dsize dnum ct K sk_out s_in e I Sb
    Hbe Hct HK Hn Hd Hdrop Hsk HSb Hsin He HI Hb HP HP2 key_row big_in_domain.
  assert (HPm : Z.of_nat msize * b <= P) by nia.
  apply (C03_glwe_keyswitch_phase_final be P b b n rin msize a_size res_size dsize dnum ct K sk_out s_in e I Sb); try assumption; try lia.
  intros big Ebig co Hco.
  destruct (C03_keyswitch_internal_phase P b n rin (S (length sk_out)) msize a_size dsize dnum ct (zcols n (S (length sk_out)) msize) K
              (sk_ext n sk_out) s_in e I Hct HK Hn ltac:(lia) Hd Hdrop (sk_ext_length n sk_out Hn Hsk) eq_refl Hsin He HI ltac:(lia) HPm HP2 key_row)
    as [big' [E1 [[_ Hc] _]]].
  assert (Eb : Some big = Some big') by (rewrite <- Ebig, <- E1; reflexivity). injection Eb as <-.
  destruct (Hc co Hco) as [Lc Wc].
  assert (Ew : wbig be = 64) by (unfold wbig; destruct (Z.leb_spec be 2); [reflexivity|lia]).
  rewrite Ew. apply big_normalize_value_fft64; try assumption.
  - rewrite Lc. exact Wc.
  - apply (big_in_domain big Ebig).
  - rewrite Lc. exact HP.
Qed.
Print Assumptions C03_glwe_keyswitch_phase_final_fft64.

(* the hypotheses are satisfiable: a concrete small instance (definitions ex*_ in the Proofs file), and the model run on it *)
Example C03_hypotheses_satisfiable :
  wf_cols 2 2 2 ex3_ct /\ wf_pmat_in 2 (1 * 1) (2 * 2) ex3_K /\ (1 <= 2)%nat /\ (1 <= 2)%nat /\ (1 <= 2)%nat /\ (2 - 2 <= 2)%nat /\
  (forall co, length (sk_ext 2 ex3_sk co) = 2%nat) /\ sk_ext 2 ex3_sk 0 = pone 2 /\
  (forall ci, length (ex3_sin ci) = 2%nat) /\ (forall row ci, length (ex3_zero row ci) = 2%nat) /\
  0 <= 4 /\ Z.of_nat 2 * 4 <= 8 /\ Z.of_nat 1 * Z.of_nat 2 * 4 <= 8 /\
  key_rows_ok 8 4 2 1 2 2 2 1 ex3_K (sk_ext 2 ex3_sk) ex3_sin ex3_zero ex3_zero.
Proof. exact C03_hypotheses_satisfiable_lemma. Qed.

Example C03_instance_runs :
  exists ks, keyswitch_internal 2 2 2 (zcols 2 2 2) ex3_ct 2 2 1 2 ex3_K = Some ks /\
    phase_f 8 4 2 2 2 (limbs_of ks) (sk_ext 2 ex3_sk)
    = padd (padd (padd (pval 8 4 2 (acol 2 ex3_ct 0) (Nat.min 2 2))
                       (psumf 2 (fun ci => pmul (pval_used 8 4 2 2 2 1 (acol 2 (tl ex3_ct)) ci) (ex3_sin ci)) 1))
                 (gadget_err 8 4 2 1 2 2 2 1 (acol 2 (tl ex3_ct)) ex3_K (sk_ext 2 ex3_sk) ex3_zero))
           (pscale (2 ^ 8) (gadget_int 4 2 1 2 2 2 1 (acol 2 (tl ex3_ct)) ex3_K (sk_ext 2 ex3_sk) ex3_zero)).
Proof. eexists. split; vm_compute; reflexivity. Qed.

Example C03_enc_body_satisfiable : enc_body_ok 8 4 2 1 1 2 2 1 ex3_K (sk_ext 2 ex3_sk) ex3_sin ex3_zero ex3_zero.
Proof.
  intros row ci Hrow Hci. destruct row as [|row]; [|lia]. destruct ci as [|ci]; [|lia]. vm_compute. reflexivity.
Qed.

Example C03_trace_rel_satisfiable : trace_rel 8 2 0 0 [-1] [2; 4] [2; 0] /\ Forall (unit2n 2) [-1].
Proof.
  split.
  - apply (trace_cons 8 2 0 0 (-1) [] [2; 4] [1; 2] [0; 0] [0; 0] [0; 0] [0; 0] [2; 0] [2; 0]); try reflexivity; try (vm_compute; discriminate).
    apply trace_nil.
  - constructor; [reflexivity|constructor].
Qed.

Example C03_merge_err_satisfiable : merge_err 3 (MNode (MNode (MLeaf 0) (MLeaf 0)) (MLeaf 0)) 6 /\ mleaves_le 0 (MNode (MNode (MLeaf 0) (MLeaf 0)) (MLeaf 0)).
Proof.
  split; [|cbn; lia].
  apply (merge_node 3 _ _ 3 0); [apply (merge_node 3 _ _ 0 0); [apply merge_leaf; lia|apply merge_leaf; lia|lia]|apply merge_leaf; lia|lia].
Qed.

Example C03_sigma_flip_instance : Z.gcd 3 (2 * Z.of_nat 2) = 1 /\ 1 * 3 = 1 + Z.of_nat 2 + 0 * (2 * Z.of_nat 2).
Proof. split; reflexivity. Qed.

(* Secret tensor (tensor key of the GGSW family): producer order = accessor order for every rank (Model/GadgetTensor.v) *)
From PV Require Import Model.GadgetTensor Proofs.GadgetTensor.

Theorem C03_tensor_at_is_prod : forall rank i j : nat, (i <= j)%nat -> tensor_at_idx rank i j = tensor_prod_idx rank i j.
Proof. intros rank i j H. unfold tensor_at_idx, tensor_prod_idx. destruct (Nat.ltb_spec j i); [lia|reflexivity]. Qed.
Print Assumptions C03_tensor_at_is_prod.

Theorem C03_tensor_at_sym : forall rank i j : nat, tensor_at_idx rank i j = tensor_at_idx rank j i.
Proof.
  intros rank i j. unfold tensor_at_idx. destruct (Nat.ltb_spec j i), (Nat.ltb_spec i j); try lia; try reflexivity.
  assert (i = j) by lia. subst. reflexivity.
Qed.
Print Assumptions C03_tensor_at_sym.

Theorem C03_tensor_prod_idx_lt : forall rank i j : nat, (i <= j)%nat -> (j < rank)%nat -> (tensor_prod_idx rank i j < tensor_pairs rank)%nat.
Proof.
  intros rank i j Hij Hj. unfold tensor_prod_idx, tensor_pairs.
  pose proof (tri_even i). pose proof (tri_even rank). pose proof (tri_le i rank ltac:(lia)). nia.
Qed.
Print Assumptions C03_tensor_prod_idx_lt.

Theorem C03_tensor_prod_idx_inj : forall rank i j i' j' : nat,
  (i <= j)%nat -> (j < rank)%nat -> (i' <= j')%nat -> (j' < rank)%nat ->
  tensor_prod_idx rank i j = tensor_prod_idx rank i' j' -> i = i' /\ j = j'.
Proof.
  intros rank i j i' j' Hij Hj Hij' Hj' E. unfold tensor_prod_idx in E.
  pose proof (tri_even i). pose proof (tri_even i').
  pose proof (tri_le i rank ltac:(lia)). pose proof (tri_le i' rank ltac:(lia)).
  assert (i = i').
  { destruct (Nat.lt_trichotomy i i') as [L|[L|L]]; [exfalso|exact L|exfalso]; nia. }
  subst i'. split; [reflexivity|lia].
Qed.
Print Assumptions C03_tensor_prod_idx_inj.

(* the column-major packing j (j+1)/2 + i agrees with it up to rank 2 and swaps (0,2) with (1,1) at rank 3 *)
Theorem C03_tensor_colmajor_differs_rank3 :
  (tensor_at_idx_colmajor 0 2 = tensor_prod_idx 3 1 1 /\ tensor_at_idx_colmajor 1 1 = tensor_prod_idx 3 0 2 /\
   ~ (tensor_at_idx_colmajor 0 2 = tensor_at_idx 3 0 2))%nat.
Proof. vm_compute. repeat split; discriminate. Qed.
Print Assumptions C03_tensor_colmajor_differs_rank3.

Example C03_tensor_loop_in_order :
  map (fun p => tensor_prod_idx 3 (fst p) (snd p)) (tensor_loop 3) = [0; 1; 2; 3; 4; 5]%nat /\ tensor_pairs 3 = 6%nat.
Proof. split; reflexivity. Qed.


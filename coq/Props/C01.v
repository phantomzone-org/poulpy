(* C01 — encrypt-then-decrypt returns the message up to the configured bounded error.  The statements of the property, each proved
   here: by `exact`, by instantiating a theorem of Proofs/, or by its own short script; each with its Print Assumptions.

   Reading guide.  `enc_sk`, `dec_glwe`, ... are the transcriptions of glwe_encrypt_sk_internal / glwe_decrypt (Model/EncModel.v),
   tied to the code bit for bit by the correspondence check on four backends.  Values on the torus are integers scaled by 2^P
   (`val_scaled`, `lval`), `tor_abs P x` is the distance of x/2^P to the nearest integer times 2^P, `wt P b j = 2^(P-(j+1)b)`
   is the weight of limb j.  `normalize_value_ok` is the value statement of C08 about the normalisers.  It is a hypothesis of the general
   theorems (all radices up to R, any accumulator width); for the same-radix 64-bit case it is DISCHARGED from C08's theorems
   (C01_normalize_value_ok_small_from_C08, C01_normalize_value_ok_big_from_C08, C01_normalize_assign_value_ok_from_C08; hence
   C01_sk_roundtrip_fft64, C01_lwe_roundtrip_same_radix, C01_pk_roundtrip_fft64 below); for the cross-radix and the NTT120 i128 routines the C08 oracle checks it
   on every record.  The magnitude hypotheses are the backend's exact-product domain:
   S bounds the 1-norm of every secret polynomial, E the error, M the plaintext digits. *)
From PV Require Import Base.MachineInt Model.Znx Model.Limbs Model.Flat Model.DftAbs Model.C08Oracle Model.EncModel
  Proofs.EncValue Proofs.EncLists Proofs.EncSampler Proofs.C01Sk Proofs.C01Glwe Proofs.C01Lwe Proofs.C01Pk Proofs.EncC08.
Open Scope Z_scope.

(* decrypt(encrypt m) = m + e * 2^-(limb+1)b + rho on the torus, |rho| <= one unit of the decrypted plaintext's last limb,
   for every mask stream `us`: the mask cancels exactly.  The message is the plaintext as far as it fits the ciphertext
   (`firstn size`: limbs beyond the ciphertext are dropped by the size rule of vec_znx_add_assign). *)
Theorem C01_sk_roundtrip :
  forall (wb b pb R : Z) (n size psize rank : nat) (nk S E M : Z),
  normalize_value_ok (fun rb ab => normalize 64 rb ab 0) (2 ^ 62) R ->
  normalize_value_ok (bnorm wb) (2 ^ (wb - 2)) R ->
  2 <= wb -> 1 <= b <= R -> 1 <= pb <= R -> 0 <= S ->
  forall (pt : ccol) (sk : list poly) (us : nat -> Z) (e : poly) (ct : list ccol) (d : ccol),
  length sk = rank ->
  Forall (fun s => norm1 s <= S) sk ->
  (forall k, (k < n)%nat -> Z.abs (nthZ e k) <= E) ->
  (forall k, (k < n)%nat -> bnd M (coef pt k)) ->
  zn rank * 2 ^ (b - 1) + E + M <= 2 ^ 62 ->
  zn rank * (S * 2 ^ (b - 1)) + 2 ^ (b - 1) <= 2 ^ (wb - 2) ->
  S * 2 ^ (b - 1) <= 2 ^ (wb - 2) ->
  enc_sk wb b n size rank nk (Some (pt, O)) sk us e = Some ct ->
  dec_glwe wb b pb n size psize sk ct = Some d ->
  forall k, (k < n)%nat -> length (coef d k) = psize /\
    forall P, zn size * b <= P -> zn psize * pb <= P -> 1 <= P ->
    tor_abs P (val_scaled P pb (coef d k) - val_scaled P b (firstn size (coef pt k)) - nthZ e k * wt P b (target_limb nk b))
      <= 2 ^ (P - zn psize * pb).
Proof.
  (* the theorem of Proofs/ at the radix domain [1, R]; its hypotheses are those introduced, found by eassumption *)
  intros until d. intros.
  edestruct (sk_roundtrip wb b pb (fun x => 1 <= x <= R) n size psize rank nk)
    with (S := S) (E := E) (M := M)
         (pt := pt) (sk := sk) (us := us) (e := e)
    as (_ & _ & V); try eassumption; try lia.
  destruct (V k) as (_ & _ & L & W); [assumption|]. split; [exact L|]. intros P Q1 Q2 Q3. apply (W P Q1 Q2 Q3).
Qed.
Print Assumptions C01_sk_roundtrip.

(* the message sits where it was given: column 0, limb j of the plaintext at weight 2^-(j+1)b; the exact phase
   body + sum_i s_i a_i equals message + error on the torus, the error on limb ceil(nk/b)-1 with coefficient exactly 1;
   the mask columns are the digits of the mask stream, whatever the plaintext. *)
Theorem C01_message_position :
  forall (wb b pb R : Z) (n size psize rank : nat) (nk S E M : Z),
  normalize_value_ok (fun rb ab => normalize 64 rb ab 0) (2 ^ 62) R ->
  normalize_value_ok (bnorm wb) (2 ^ (wb - 2)) R ->
  2 <= wb -> 1 <= b <= R -> 1 <= pb <= R -> 0 <= S ->
  forall (pt : ccol) (sk : list poly) (us : nat -> Z) (e : poly) (ct : list ccol) (d : ccol),
  length sk = rank ->
  Forall (fun s => norm1 s <= S) sk ->
  (forall k, (k < n)%nat -> Z.abs (nthZ e k) <= E) ->
  (forall k, (k < n)%nat -> bnd M (coef pt k)) ->
  zn rank * 2 ^ (b - 1) + E + M <= 2 ^ 62 ->
  zn rank * (S * 2 ^ (b - 1)) + 2 ^ (b - 1) <= 2 ^ (wb - 2) ->
  S * 2 ^ (b - 1) <= 2 ^ (wb - 2) ->
  enc_sk wb b n size rank nk (Some (pt, O)) sk us e = Some ct ->
  dec_glwe wb b pb n size psize sk ct = Some d ->
  (target_limb nk b < size)%nat /\ tl ct = glwe_mask b n size rank us /\
  forall k, (k < n)%nat ->
    length (coef (hd [] ct) k) = size /\ Forall (in_range b) (coef (hd [] ct) k) /\
    forall P, zn size * b <= P -> zn psize * pb <= P -> 1 <= P ->
    exists q, lval P b size (coef (hd [] ct) k) + lvsum P b size (prods_at n size sk (tl ct) k)
              = lval P b size (coef pt k) + nthZ e k * wt P b (target_limb nk b) + q * 2 ^ P.
Proof.
  intros until d. intros.
  edestruct (sk_roundtrip wb b pb (fun x => 1 <= x <= R) n size psize rank nk)
    with (S := S) (E := E) (M := M)
         (pt := pt) (sk := sk) (us := us) (e := e)
    as (L & T & V); try eassumption; try lia.
  split; [exact L|]. split; [exact T|]. intros k Hk. destruct (V k Hk) as (L1 & R1 & _ & W).
  split; [exact L1|]. split; [exact R1|]. intros P Q1 Q2 Q3. apply (W P Q1 Q2 Q3).
Qed.
Print Assumptions C01_message_position.

(* LWE: `a` = the mask words of each limb, `normalize_assign_value_ok` = C08's statement about vec_znx_normalize_assign;
   D bounds the inner products <a_j, s> (|s|_1 * 2^(b-1) by C01_lwe_dot_bound) *)
Theorem C01_lwe_roundtrip :
  forall (b pb R : Z) (size psize : nat) (nk D E M : Z),
  normalize_value_ok (fun rb ab => normalize 64 rb ab 0) (2 ^ 62) R ->
  normalize_assign_value_ok R ->
  1 <= b <= R -> 1 <= pb <= R ->
  forall (pt s : list Z) (a : list (list Z)) (e : Z) (body d : list Z),
  (forall j, Z.abs (lwe_dot (nth j a []) s) <= D) -> Z.abs e <= E -> bnd M pt ->
  D + E + M <= 2 ^ 62 -> D + 2 ^ (b - 1) <= 2 ^ 62 ->
  lwe_enc_body b size nk pt s a e = Some body ->
  lwe_dec b pb size psize s a body = Some d ->
  length d = psize /\
  forall P, zn size * b <= P -> zn psize * pb <= P -> 1 <= P ->
    tor_abs P (val_scaled P pb d - val_scaled P b (firstn size pt) - e * wt P b (target_limb nk b)) <= 2 ^ (P - zn psize * pb).
Proof.
  intros until d. intros.
  edestruct (lwe_roundtrip b pb (fun x => 1 <= x <= R) size psize nk)
    with (D := D) (E := E) (M := M)
         (pt := pt) (s := s) (a := a) (e := e)
    as (_ & _ & _ & L & V); try eassumption; try lia.
  split; [exact L|]. intros P Q1 Q2 Q3. apply (V P Q1 Q2 Q3).
Qed.
Print Assumptions C01_lwe_roundtrip.

Theorem C01_lwe_dot_bound : forall B : Z, 0 <= B -> forall a s : list Z, Forall (fun x => Z.abs x <= B) a ->
  Z.abs (lwe_dot a s) <= norm1 s * B.
Proof.
  intros B HB. unfold lwe_dot, map2. induction a as [|x a IH]; intros s Ha.
  - cbn. pose proof (norm1_nonneg s). nia.
  - destruct s as [|y s]; [cbn; lia|].
    inversion Ha; subst. cbn [combine map fold_left fst snd]. rewrite fold_add_acc.
    specialize (IH s H2). cbn [norm1 fold_right]. fold (norm1 s). nia.
Qed.
Print Assumptions C01_lwe_dot_bound.

(* public-key encryption: pk = secret-key encryption of zero (noise precision nkp), ct_i = normalise(u*pk_i + e_i (+ m on column 0)).
   decrypt = m + [u*e_pk placed at nkp] + [e_0 + sum_i s_i*e_i placed at nk] + rho, |rho| <= one unit of the decrypted plaintext's
   last limb; the mask terms cancel by commutativity and associativity of the negacyclic product (C07_pmul_comm, C07_pmul_assoc).
   U bounds |u|_1, Sn the |s_i|_1; the ciphertext has as many limbs as the public key (size). *)
Theorem C01_pk_roundtrip :
  forall (wb b pb R : Z) (n size psize rank : nat) (nk nkp Sn U E Ep M : Z),
  normalize_value_ok (fun rb ab => normalize 64 rb ab 0) (2 ^ 62) R ->
  normalize_value_ok (bnorm wb) (2 ^ (wb - 2)) R ->
  2 <= wb -> 1 <= b <= R -> 1 <= pb <= R -> 0 <= Sn -> 0 <= U ->
  forall (pt : ccol) (sk : list poly) (us : nat -> Z) (epk u : poly) (es : list poly) (pk ct : list ccol) (d : ccol),
  length sk = rank -> length es = S rank ->
  Forall (fun s => length s = n /\ norm1 s <= Sn) sk -> length u = n -> norm1 u <= U ->
  length epk = n -> Forall (fun e => length e = n) es ->
  (forall k, (k < n)%nat -> Z.abs (nthZ epk k) <= Ep) ->
  (forall i k, (k < n)%nat -> Z.abs (nthZ (nth i es []) k) <= E) ->
  (forall k, (k < n)%nat -> bnd M (coef pt k)) -> 0 <= M ->
  zn rank * 2 ^ (b - 1) + Ep <= 2 ^ 62 ->
  Sn * 2 ^ (b - 1) <= 2 ^ (wb - 2) ->
  U * 2 ^ (b - 1) + E + M <= 2 ^ (wb - 2) ->
  zn rank * (Sn * 2 ^ (b - 1)) + 2 ^ (b - 1) <= 2 ^ (wb - 2) ->
  enc_sk wb b n size rank nkp None sk us epk = Some pk ->
  enc_pk wb b n size size nk (Some pt) u pk es = Some ct ->
  dec_glwe wb b pb n size psize sk ct = Some d ->
  forall k, (k < n)%nat -> length (coef d k) = psize /\
    forall P, zn size * b <= P -> zn psize * pb <= P -> 1 <= P ->
    tor_abs P (val_scaled P pb (coef d k) - val_scaled P b (firstn size (coef pt k)) - pk_error b rank nk nkp P sk u epk es k)
      <= 2 ^ (P - zn psize * pb).
Proof.
  intros until d. intros.
  edestruct (pk_roundtrip wb b pb (fun x => 1 <= x <= R) n size psize rank nk nkp)
    with (Sn := Sn) (U := U) (E := E) (Ep := Ep) (M := M)
         (pt := pt) (sk := sk) (us := us) (epk := epk) (u := u) (es := es) (pk := pk)
    as [L V]; try eassumption; try lia.
  split; [exact L|]. intros P Q1 Q2 Q3. apply (V P Q1 Q2 Q3).
Qed.
Print Assumptions C01_pk_roundtrip.

(* the error of a public-key ciphertext is at most bound * (|u|_1 + 1 + sum_i |s_i|_1) (each term at its precision) *)
Theorem C01_pk_error_bound :
  forall (wb b : Z) (n rank : nat) (nk nkp : Z), 2 <= wb -> forall Sn U E Ep : Z, 0 <= U ->
  forall (P : Z) (sk : list poly) (u epk : poly) (es : list poly) (k : nat),
  length sk = rank -> Forall (fun s => length s = n /\ norm1 s <= Sn) sk -> norm1 u <= U ->
  Forall (fun x => Z.abs x <= Ep) epk -> 0 <= Ep -> 0 <= E ->
  (forall i, Forall (fun x => Z.abs x <= E) (nth i es [])) ->
  Z.abs (pk_error b rank nk nkp P sk u epk es k)
  <= U * Ep * wt P b (target_limb nkp b) + (E + zn rank * (Sn * E)) * wt P b (target_limb nk b).
Proof. intros wb b n rank nk nkp _ Sn U E Ep _. apply pk_error_bound. Qed.
Print Assumptions C01_pk_error_bound.

(* the normaliser hypotheses discharged from C08 (same radix, 64-bit words: the FFT64 family, plaintext and decrypted plaintext in
   the ciphertext's radix b, 1 <= b <= 62): C08_normalize_inter_value / C08_normalize_assign_value, rescaled to every admissible P *)
Theorem C01_normalize_value_ok_small_from_C08 : forall b : Z, 1 <= b <= 62 ->
  normalize_value_ok_dom (fun x => x = b) (fun rb ab => normalize 64 rb ab 0) (2 ^ 62).
Proof. exact normalize_value_ok_small_same. Qed.
Print Assumptions C01_normalize_value_ok_small_from_C08.

Theorem C01_normalize_value_ok_big_from_C08 : forall b : Z, 1 <= b <= 62 ->
  normalize_value_ok_dom (fun x => x = b) (bnorm 64) (2 ^ (64 - 2)).
Proof. exact normalize_value_ok_big_same. Qed.
Print Assumptions C01_normalize_value_ok_big_from_C08.

Theorem C01_normalize_assign_value_ok_from_C08 : forall b : Z, 1 <= b <= 62 -> normalize_assign_value_ok_dom (fun x => x = b).
Proof. exact normalize_assign_value_ok_same. Qed.
Print Assumptions C01_normalize_assign_value_ok_from_C08.

(* hence, with NO hypothesis about the normalisers: *)
Theorem C01_sk_roundtrip_fft64 :
  forall (b : Z) (n size psize rank : nat) (nk S E M : Z), 1 <= b <= 62 -> 0 <= S ->
  forall (pt : ccol) (sk : list poly) (us : nat -> Z) (e : poly) (ct : list ccol) (d : ccol),
  length sk = rank ->
  Forall (fun s => norm1 s <= S) sk ->
  (forall k, (k < n)%nat -> Z.abs (nthZ e k) <= E) ->
  (forall k, (k < n)%nat -> bnd M (coef pt k)) ->
  zn rank * 2 ^ (b - 1) + E + M <= 2 ^ 62 ->
  zn rank * (S * 2 ^ (b - 1)) + 2 ^ (b - 1) <= 2 ^ (64 - 2) ->
  S * 2 ^ (b - 1) <= 2 ^ (64 - 2) ->
  enc_sk 64 b n size rank nk (Some (pt, O)) sk us e = Some ct ->
  dec_glwe 64 b b n size psize sk ct = Some d ->
  forall k, (k < n)%nat -> length (coef d k) = psize /\
    forall P, zn size * b <= P -> zn psize * b <= P -> 1 <= P ->
    (exists q, lval P b size (coef (hd [] ct) k) + lvsum P b size (prods_at n size sk (tl ct) k)
               = lval P b size (coef pt k) + nthZ e k * wt P b (target_limb nk b) + q * 2 ^ P) /\
    tor_abs P (val_scaled P b (coef d k) - val_scaled P b (firstn size (coef pt k)) - nthZ e k * wt P b (target_limb nk b))
      <= 2 ^ (P - zn psize * b).
Proof.
  intros until d. intros.
  edestruct (sk_roundtrip 64 b b (fun x => x = b) n size psize rank nk)
    with (S := S) (E := E) (M := M)
         (pt := pt) (sk := sk) (us := us) (e := e)
    as (_ & _ & V); try eassumption; try reflexivity; try lia.
  - apply normalize_value_ok_small_same. assumption.
  - apply normalize_value_ok_big_same. assumption.
  - destruct (V k) as (_ & _ & L & W); [assumption|]. split; [exact L|]. intros P Q1 Q2 Q3. apply (W P Q1 Q2 Q3).
Qed.
Print Assumptions C01_sk_roundtrip_fft64.

Theorem C01_lwe_roundtrip_same_radix :
  forall (b : Z) (size psize : nat) (nk D E M : Z), 1 <= b <= 62 ->
  forall (pt s : list Z) (a : list (list Z)) (e : Z) (body d : list Z),
  (forall j, Z.abs (lwe_dot (nth j a []) s) <= D) -> Z.abs e <= E -> bnd M pt ->
  D + E + M <= 2 ^ 62 -> D + 2 ^ (b - 1) <= 2 ^ 62 ->
  lwe_enc_body b size nk pt s a e = Some body ->
  lwe_dec b b size psize s a body = Some d ->
  length d = psize /\
  forall P, zn size * b <= P -> zn psize * b <= P -> 1 <= P ->
    tor_abs P (val_scaled P b d - val_scaled P b (firstn size pt) - e * wt P b (target_limb nk b)) <= 2 ^ (P - zn psize * b).
Proof.
  intros until d. intros.
  edestruct (lwe_roundtrip b b (fun x => x = b) size psize nk)
    with (D := D) (E := E) (M := M)
         (pt := pt) (s := s) (a := a) (e := e)
    as (_ & _ & _ & L & V); try eassumption; try reflexivity; try lia.
  - apply normalize_value_ok_small_same. assumption.
  - apply normalize_assign_value_ok_same. assumption.
  - split; [exact L|]. intros P Q1 Q2 Q3. apply (V P Q1 Q2 Q3).
Qed.
Print Assumptions C01_lwe_roundtrip_same_radix.

Theorem C01_pk_roundtrip_fft64 :
  forall (b : Z) (n size psize rank : nat) (nk nkp Sn U E Ep M : Z), 1 <= b <= 62 -> 0 <= Sn -> 0 <= U ->
  forall (pt : ccol) (sk : list poly) (us : nat -> Z) (epk u : poly) (es : list poly) (pk ct : list ccol) (d : ccol),
  length sk = rank -> length es = S rank ->
  Forall (fun s => length s = n /\ norm1 s <= Sn) sk -> length u = n -> norm1 u <= U ->
  length epk = n -> Forall (fun e => length e = n) es ->
  (forall k, (k < n)%nat -> Z.abs (nthZ epk k) <= Ep) ->
  (forall i k, (k < n)%nat -> Z.abs (nthZ (nth i es []) k) <= E) ->
  (forall k, (k < n)%nat -> bnd M (coef pt k)) -> 0 <= M ->
  zn rank * 2 ^ (b - 1) + Ep <= 2 ^ 62 ->
  Sn * 2 ^ (b - 1) <= 2 ^ (64 - 2) ->
  U * 2 ^ (b - 1) + E + M <= 2 ^ (64 - 2) ->
  zn rank * (Sn * 2 ^ (b - 1)) + 2 ^ (b - 1) <= 2 ^ (64 - 2) ->
  enc_sk 64 b n size rank nkp None sk us epk = Some pk ->
  enc_pk 64 b n size size nk (Some pt) u pk es = Some ct ->
  dec_glwe 64 b b n size psize sk ct = Some d ->
  forall k, (k < n)%nat -> length (coef d k) = psize /\
    forall P, zn size * b <= P -> zn psize * b <= P -> 1 <= P ->
    tor_abs P (val_scaled P b (coef d k) - val_scaled P b (firstn size (coef pt k)) - pk_error b rank nk nkp P sk u epk es k)
      <= 2 ^ (P - zn psize * b).
Proof.
  intros until d. intros.
  edestruct (pk_roundtrip 64 b b (fun x => x = b) n size psize rank nk nkp)
    with (Sn := Sn) (U := U) (E := E) (Ep := Ep) (M := M)
         (pt := pt) (sk := sk) (us := us) (epk := epk) (u := u) (es := es) (pk := pk)
    as [L V]; try eassumption; try reflexivity; try lia.
  - apply normalize_value_ok_small_same. assumption.
  - apply normalize_value_ok_big_same. assumption.
  - split; [exact L|]. intros P Q1 Q2 Q3. apply (V P Q1 Q2 Q3).
Qed.
Print Assumptions C01_pk_roundtrip_fft64.

(* `prods_at` really is the product of the clear secret with the mask, limb by limb: (s_i * a_i)_k *)
Theorem C01_phase_products : forall (s : poly) (n size : nat) (c : ccol) (k : nat), (k < n)%nat ->
  coef (svp s n size c) k = map (fun j => nthZ (pmul s (limb_poly c j)) k) (seq 0 size).
Proof. exact coef_svp. Qed.
Print Assumptions C01_phase_products.

(* the rejection loop `while |x| > bound { resample }; round` over ANY stream of samples (rationals num / 2^dl):
   every returned value satisfies |e| <= ceil(bound), bound = bn / 2^bl (= noise.bound * scale in the code) *)
Theorem C01_error_bound_from_sampler :
  forall (bn bl : Z), 0 <= bl -> 0 <= bn ->
  forall (cnt : nat) (xs : list (Z * Z)) (es : list Z) (rest : list (Z * Z)),
  Forall (fun x => 0 <= snd x) xs -> sample_n bn bl cnt xs = Some (es, rest) ->
  length es = cnt /\ Forall (fun e => Z.abs e <= (bn + 2 ^ bl - 1) / 2 ^ bl) es.
Proof.
  intros bn bl Hbl Hbn. induction cnt as [|cnt IH]; intros xs es rest Hwf H; cbn [sample_n] in H.
  - inversion H; subst. split; [reflexivity|constructor].
  - destruct (sample_one bn bl xs) as [[e r1]|] eqn:E1; [|discriminate].
    destruct (sample_n bn bl cnt r1) as [[es' r2]|] eqn:E2; [|discriminate].
    inversion H; subst.
    destruct (sample_one_bound bn bl Hbl Hbn xs e r1 Hwf E1) as (A & B & _).
    destruct (IH r1 es' rest B E2) as (L & F).
    split; [cbn [length]; lia|constructor; assumption].
Qed.
Print Assumptions C01_error_bound_from_sampler.

(* the accepted sample is the first one within the bound; earlier ones are all beyond it *)
Theorem C01_sampler_accepts_first :
  forall (bn bl : Z) (xs : list (Z * Z)) (e : Z) (rest : list (Z * Z)),
  sample_one bn bl xs = Some (e, rest) ->
  exists pre num dl, xs = pre ++ (num, dl) :: rest /\ Forall (fun x => exceeds (fst x) (snd x) bn bl = true) pre /\
                     exceeds num dl bn bl = false /\ e = round_half_away num dl.
Proof.
  intros bn bl xs. induction xs as [|[num dl] xs IH]; intros e rest H; cbn [sample_one] in H; [discriminate|].
  destruct (exceeds num dl bn bl) eqn:Ex.
  - destruct (IH e rest H) as (pre & n' & d' & E & F & X & R).
    exists ((num, dl) :: pre), n', d'. split; [rewrite E; reflexivity|]. split; [constructor; auto|]. auto.
  - inversion H; subst. exists [], num, dl. repeat split; auto.
Qed.
Print Assumptions C01_sampler_accepts_first.

(* the hypotheses are met by a concrete non-trivial instance; the conclusion is checked on it by computation *)
Example C01_sampler_ex :
  sample_n 77 2 3 [(5, 1); (-81, 2); (39, 1); (-77, 2); (1, 3)] = Some ([3; -19; 0], [])
  /\ (77 + 2 ^ 2 - 1) / 2 ^ 2 = 20.
Proof. vm_compute. split; reflexivity. Qed.

(* magnitude hypotheses at a typical layout: base2k = 17, rank 2, ternary secret of 1-norm <= 1024, sigma 3.2 *)
Example C01_domain_ex : zn 2 * 2 ^ (17 - 1) + 2 ^ 21 + 2 ^ 16 <= 2 ^ 62 /\
  zn 2 * (1024 * 2 ^ (17 - 1)) + 2 ^ (17 - 1) <= 2 ^ (64 - 2) /\ 1024 * 2 ^ (17 - 1) <= 2 ^ (64 - 2).
Proof. unfold zn. cbn. lia. Qed.

(* a complete encrypt / decrypt instance of the model (n = 4, rank 1, base2k 5, 2 limbs, noise at k = 7) *)
Example C01_roundtrip_ex :
  let us := fun i => nthZ [1234567; 89; 4000000001; 77; 13; 999999; 31; 2] i in
  let pt := [[3; -2]; [0; 1]; [-16; 15]; [7; 7]] in
  let sk := [[1; 0; -1; 1]] in
  let e := [2; -1; 0; 3] in
  match enc_sk 64 5 4 2 1 7 (Some (pt, O)) sk us e with
  | Some ct => match dec_glwe 64 5 5 4 2 2 sk ct with
               | Some d => forallb (fun k => tor_abs 20 (val_scaled 20 5 (coef d k) - val_scaled 20 5 (coef pt k)
                                                        - nthZ e k * wt 20 5 (target_limb 7 5)) <=? 2 ^ (20 - 10)) [0; 1; 2; 3]%nat = true
               | None => False
               end
  | None => False
  end.
Proof. vm_compute. reflexivity. Qed.

(* a complete public-key instance of the model (n = 4, rank 1, base2k 6, 2 limbs): the decrypted plaintext is the message plus
   pk_error within one unit *)
Example C01_pk_ex :
  let us := fun i => nthZ [123456789; 987654321; 55555; 4242424242; 77; 1000003; 31337; 65537] i in
  let pt := [[3; -2]; [0; 1]; [-16; 15]; [7; 7]] in
  let sk := [[1; 0; -1; 1]] in
  let u := [0; 1; 1; -1] in
  let epk := [1; -2; 0; 1] in
  let es := [[2; 0; -1; 1]; [0; 3; -2; 1]] in
  match enc_sk 64 6 4 2 1 9 None sk us epk with
  | Some pk =>
      match enc_pk 64 6 4 2 2 10 (Some pt) u pk es with
      | Some ct =>
          match dec_glwe 64 6 6 4 2 2 sk ct with
          | Some d => forallb (fun k => tor_abs 24 (val_scaled 24 6 (coef d k) - val_scaled 24 6 (coef pt k)
                                                      - pk_error 6 1 10 9 24 sk u epk es k) <=? 2 ^ (24 - 12)) [0; 1; 2; 3]%nat = true
          | None => False
          end
      | None => False
      end
  | None => False
  end.
Proof. vm_compute. reflexivity. Qed.

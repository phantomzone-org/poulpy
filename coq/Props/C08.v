(* C08 — limb representation: normalisation and shifts are exact.
   This file holds the statements of the property, each proved by `exact` or by a short derivation from the
   lemmas of Proofs/ (the w = 64 statements are instances of the width-generic ones), and Print Assumptions. *)
From PV Require Import Base.MachineInt Model.Znx Model.Limbs Model.C08Oracle Proofs.ZnxDigit Proofs.C08Steps
  Proofs.C08Chain Proofs.C08WChain Proofs.C08Value Proofs.C08Normalize Proofs.C08WRsh Proofs.C08WShift
  Proofs.C08ShiftValue Proofs.C08RshValue Proofs.C08CoeffOk Proofs.C08Cross Proofs.C08CrossTheorem
  Proofs.C08CoeffOkCross.
Open Scope Z_scope.

Theorem C08_digit_spec : forall w b x : Z, 1 <= b <= w -> get_digit w b x = wrap b x.
Proof. exact digit_spec. Qed.
Print Assumptions C08_digit_spec.

Theorem C08_digit_range : forall w b x : Z, 1 <= b <= w -> in_range b (get_digit w b x).
Proof. exact digit_range. Qed.
Print Assumptions C08_digit_range.

Theorem C08_carry_spec : forall w b x : Z, 1 <= b <= w -> in_range w (x - get_digit w b x) ->
  get_carry w b x (get_digit w b x) * 2 ^ b + get_digit w b x = x.
Proof. exact carry_spec. Qed.
Print Assumptions C08_carry_spec.

Theorem C08_carry_no_overflow : forall w b x : Z, 1 <= b < w -> in_range w x ->
  x < 2 ^ (w - 1) - 2 ^ (b - 1) -> in_range w (x - get_digit w b x).
Proof.
  intros w b x Hb [Hx1 Hx2] Hh. pose proof (digit_range w b x ltac:(lia)) as [Hd1 Hd2].
  destruct (digit_congr w b x ltac:(lia)) as [q Hq].
  set (d := get_digit w b x) in *. unfold in_range.
  pose proof (pow2_pos (b - 1) ltac:(lia)).
  pose proof (pow2_split b ltac:(lia)).
  assert (Hp : 2 ^ (w - 1) = 2 ^ (w - 1 - b) * 2 ^ b) by (rewrite <- Z.pow_add_r by lia; f_equal; lia).
  pose proof (pow2_pos (w - 1 - b) ltac:(lia)).
  split; [|lia].
  (* x - d = q*2^b >= -2^(w-1): since x >= -2^(w-1) = -(2^(w-1-b))*2^b and x - d is the nearest multiple *)
  assert (- 2 ^ (w - 1 - b) <= q) by nia. nia.
Qed.
Print Assumptions C08_carry_no_overflow.

Theorem C08_carry_wraps_refuted : exists x, in_range 64 x /\
    get_carry 64 2 x (get_digit 64 2 x) * 2 ^ 2 + get_digit 64 2 x <> x.
Proof. exact carry_wraps_refuted. Qed.
Print Assumptions C08_carry_wraps_refuted.

(* step kernels: any word width w, radix 1 <= b <= w - 2, 0 <= lsh < b *)
(* `bdiv b v` = (v + 2^(b-1)) / 2^b is the rounded quotient of the balanced division of v by 2^b *)

Theorem C08_balanced_division : forall b v : Z, 1 <= b ->
  wrap b v + 2 ^ b * bdiv b v = v /\ in_range b (wrap b v).
Proof. intros b v Hb; split; [apply wrap_bdiv; auto|apply wrap_range; auto]. Qed.
Print Assumptions C08_balanced_division.

(* closed form of the middle step: no wrap happens, digit and carry are those of the balanced division *)
Theorem C08_middle_core_ideal : forall w b lsh : Z, 1 <= b <= w - 2 -> 0 <= lsh < b ->
  forall a c : Z, Z.abs a <= 2 ^ (w - 2) -> Z.abs c <= 2 ^ (w - 2) ->
  middle_core w b lsh a c = (wrap b (a * 2 ^ lsh + c), bdiv b (a * 2 ^ lsh + c)).
Proof. exact middle_core_ideal. Qed.
Print Assumptions C08_middle_core_ideal.

Theorem C08_middle_core_spec : forall w b lsh : Z, 1 <= b <= w - 2 -> 0 <= lsh < b ->
  forall a c : Z, Z.abs a <= 2 ^ (w - 2) -> Z.abs c <= 2 ^ (w - 2) ->
  let '(x, c') := middle_core w b lsh a c in
  a * 2 ^ lsh + c = x + 2 ^ b * c' /\ in_range b x /\
  Z.abs c' * 2 ^ b <= Z.abs a * 2 ^ lsh + Z.abs c + 2 ^ (b - 1) /\ Z.abs c' <= 2 ^ (w - 2).
Proof.
  intros w b lsh Hb Hl a c Ha Hc. rewrite (middle_core_ideal w b lsh Hb Hl) by auto.
  pose proof (wrap_bdiv b (a * 2 ^ lsh + c) ltac:(lia)) as Hd.
  pose proof (bdiv_abs b (a * 2 ^ lsh + c) ltac:(lia)) as Hk.
  pose proof (pow2_pos lsh ltac:(lia)) as HL.
  repeat split.
  - lia.
  - apply wrap_range; lia.
  - apply wrap_range; lia.
  - assert (Z.abs (a * 2 ^ lsh + c) <= Z.abs a * 2 ^ lsh + Z.abs c).
    { rewrite <- (Z.abs_eq (2 ^ lsh)) at 2 by lia. rewrite <- Z.abs_mul. apply Z.abs_triangle. }
    lia.
  - pose proof (pow2_pos (w - 2) ltac:(lia)). apply bdiv_chain; try lia. apply shifted_bound; auto; lia.
Qed.
Print Assumptions C08_middle_core_spec.

Example C08_middle_core_spec_ex :
  let '(x, c') := middle_core 64 17 5 (2 ^ 62) (- 2 ^ 62) in
  2 ^ 62 * 2 ^ 5 + (- 2 ^ 62) = x + 2 ^ 17 * c' /\ in_range 17 x /\
  Z.abs c' * 2 ^ 17 <= Z.abs (2 ^ 62) * 2 ^ 5 + Z.abs (- 2 ^ 62) + 2 ^ (17 - 1) /\ Z.abs c' <= 2 ^ (64 - 2).
Proof. apply (C08_middle_core_spec 64 17 5); cbn; lia. Qed.

Theorem C08_middle_step_ideal : forall w b lsh : Z, 1 <= b <= w - 2 -> 0 <= lsh < b ->
  forall (ov : bool) (x a c : Z), Z.abs a <= 2 ^ (w - 2) -> Z.abs c <= 2 ^ (w - 2) ->
  (ov = false -> Z.abs x <= 2 ^ (w - 2)) ->
  middle_step w ov b lsh x a c =
    ((if ov then 0 else x) + wrap b (a * 2 ^ lsh + c), bdiv b (a * 2 ^ lsh + c)).
Proof. exact middle_step_ideal. Qed.
Print Assumptions C08_middle_step_ideal.

Theorem C08_middle_step_sub_ideal : forall w b lsh : Z, 1 <= b <= w - 2 -> 0 <= lsh < b ->
  forall x a c : Z, Z.abs a <= 2 ^ (w - 2) -> Z.abs c <= 2 ^ (w - 2) -> Z.abs x <= 2 ^ (w - 2) ->
  middle_step_sub w b lsh x a c = (x - wrap b (a * 2 ^ lsh + c), bdiv b (a * 2 ^ lsh + c)).
Proof. exact middle_step_sub_ideal. Qed.
Print Assumptions C08_middle_step_sub_ideal.

Theorem C08_first_step_assign_spec : forall w b lsh : Z, 1 <= b <= w - 2 -> 0 <= lsh < b ->
  forall a : Z, Z.abs a <= 2 ^ (w - 2) ->
  let '(x, c') := first_step_assign w b lsh a in
  a * 2 ^ lsh = x + 2 ^ b * c' /\ in_range b x /\
  Z.abs c' * 2 ^ b <= Z.abs a * 2 ^ lsh + 2 ^ (b - 1) /\ Z.abs c' <= 2 ^ (w - 2).
Proof.
  intros w b lsh Hb Hl a Ha. rewrite (first_step_assign_ideal w b lsh Hb Hl) by auto.
  pose proof (wrap_bdiv b (a * 2 ^ lsh) ltac:(lia)) as Hd.
  pose proof (bdiv_abs b (a * 2 ^ lsh) ltac:(lia)) as Hk.
  pose proof (pow2_pos lsh ltac:(lia)) as HL.
  repeat split.
  - lia.
  - apply wrap_range; lia.
  - apply wrap_range; lia.
  - rewrite Z.abs_mul, (Z.abs_eq (2 ^ lsh)) in Hk by lia. lia.
  - replace (a * 2 ^ lsh) with (a * 2 ^ lsh + 0) by lia. pose proof (pow2_pos (w - 2) ltac:(lia)).
    apply bdiv_chain; try lia. apply shifted_bound; auto; lia.
Qed.
Print Assumptions C08_first_step_assign_spec.

Example C08_first_step_assign_spec_ex :
  let '(x, c') := first_step_assign 64 12 11 (- 2 ^ 62) in
  (- 2 ^ 62) * 2 ^ 11 = x + 2 ^ 12 * c' /\ in_range 12 x /\
  Z.abs c' * 2 ^ 12 <= Z.abs (- 2 ^ 62) * 2 ^ 11 + 2 ^ (12 - 1) /\ Z.abs c' <= 2 ^ (64 - 2).
Proof. apply (C08_first_step_assign_spec 64 12 11); cbn; lia. Qed.

Theorem C08_first_step_spec : forall w b lsh : Z, 1 <= b <= w - 2 -> 0 <= lsh < b ->
  forall (ov : bool) (x a : Z), Z.abs a <= 2 ^ (w - 2) -> (ov = false -> Z.abs x <= 2 ^ (w - 2)) ->
  let '(x', c') := first_step w ov b lsh x a in
  exists d, x' = (if ov then 0 else x) + d /\
  a * 2 ^ lsh = d + 2 ^ b * c' /\ in_range b d /\
  Z.abs c' * 2 ^ b <= Z.abs a * 2 ^ lsh + 2 ^ (b - 1) /\ Z.abs c' <= 2 ^ (w - 2).
Proof.
  intros w b lsh Hb Hl ov x a Ha Hx. rewrite (first_step_ideal w b lsh Hb Hl) by auto.
  pose proof (C08_first_step_assign_spec w b lsh Hb Hl a Ha) as Hs. rewrite (first_step_assign_ideal w b lsh Hb Hl) in Hs by auto.
  exists (wrap b (a * 2 ^ lsh)). split; [reflexivity|exact Hs].
Qed.
Print Assumptions C08_first_step_spec.

Theorem C08_first_step_carry_only_spec : forall w b lsh : Z, 1 <= b <= w - 2 -> 0 <= lsh < b ->
  forall a : Z, Z.abs a <= 2 ^ (w - 2) ->
  first_step_carry_only w b lsh a = snd (first_step_assign w b lsh a).
Proof. intros. apply first_step_carry_only_snd. Qed.
Print Assumptions C08_first_step_carry_only_spec.

(* the first step is a middle step with carry 0; the final step is the digit of a middle step *)
Theorem C08_first_is_middle : forall w b lsh : Z, 1 <= b <= w - 2 -> 0 <= lsh < b ->
  forall a : Z, Z.abs a <= 2 ^ (w - 2) -> first_step_assign w b lsh a = middle_core w b lsh a 0.
Proof.
  intros w b lsh Hb Hl a Ha. pose proof (pow2_pos (w - 2) ltac:(lia)). rewrite (first_step_assign_ideal w b lsh Hb Hl), (middle_core_ideal w b lsh Hb Hl) by (auto; lia).
  rewrite Z.add_0_r. reflexivity.
Qed.
Print Assumptions C08_first_is_middle.

Theorem C08_final_core_spec : forall w b lsh : Z, 1 <= b <= w - 2 -> 0 <= lsh < b ->
  forall a c : Z, Z.abs a <= 2 ^ (w - 2) -> Z.abs c <= 2 ^ (w - 2) ->
  let x := final_core w b lsh a c in
  (a * 2 ^ lsh + c - x) mod 2 ^ b = 0 /\ in_range b x.
Proof.
  intros w b lsh Hb Hl a c Ha Hc. cbv zeta. rewrite (final_core_ideal w b lsh Hb Hl) by auto.
  pose proof (wrap_bdiv b (a * 2 ^ lsh + c) ltac:(lia)) as Hd.
  split; [|apply wrap_range; lia].
  replace (a * 2 ^ lsh + c - wrap b (a * 2 ^ lsh + c)) with (bdiv b (a * 2 ^ lsh + c) * 2 ^ b) by lia.
  apply Z_mod_mult.
Qed.
Print Assumptions C08_final_core_spec.

Example C08_final_core_spec_ex :
  let x := final_core 64 62 61 (2 ^ 62 - 1) (2 ^ 62) in
  ((2 ^ 62 - 1) * 2 ^ 61 + 2 ^ 62 - x) mod 2 ^ 62 = 0 /\ in_range 62 x.
Proof. apply (C08_final_core_spec 64 62 61); cbn; lia. Qed.

Theorem C08_final_is_middle : forall w b lsh : Z, 1 <= b <= w - 2 -> 0 <= lsh < b ->
  forall a c : Z, Z.abs a <= 2 ^ (w - 2) -> Z.abs c <= 2 ^ (w - 2) ->
  final_core w b lsh a c = fst (middle_core w b lsh a c).
Proof. intros. apply final_core_fst_middle. Qed.
Print Assumptions C08_final_is_middle.

Theorem C08_extract_digit_addmul_spec : forall w b lsh r s : Z, 1 <= b <= w - 2 -> 0 <= lsh ->
  Z.abs s <= 2 ^ (w - 2) -> in_range w (r + wrap b s * 2 ^ lsh) -> in_range w (wrap b s * 2 ^ lsh) ->
  let '(r', s') := extract_digit_addmul w b lsh r s in
  exists d, in_range b d /\ s = d + 2 ^ b * s' /\ r' = r + d * 2 ^ lsh /\
            Z.abs s' * 2 ^ b <= Z.abs s + 2 ^ (b - 1).
Proof.
  intros w b lsh r s Hb Hl Hs Hr Hd. unfold extract_digit_addmul.
  destruct (pow_facts w b Hb) as (Hp & Hs2 & Hle & Hw).
  destruct (digit_carry_ideal w b s Hb ltac:(lia)) as [E1 E2].
  cbv zeta. rewrite E2, E1. exists (wrap b s).
  pose proof (wrap_bdiv b s ltac:(lia)) as Hdec.
  repeat split.
  - apply wrap_range; lia.
  - apply wrap_range; lia.
  - lia.
  - unfold wadd. rewrite shl_exact by (auto; lia). apply wrap_id; [lia|auto].
  - apply bdiv_abs; lia.
Qed.
Print Assumptions C08_extract_digit_addmul_spec.

Theorem C08_normalize_digit_spec : forall w b r s : Z, 1 <= b <= w - 2 ->
  Z.abs r <= 2 ^ (w - 2) -> in_range w (s + bdiv b r) ->
  let '(r', s') := normalize_digit w b r s in
  in_range b r' /\ r + 2 ^ b * s = r' + 2 ^ b * s' /\ s' = s + bdiv b r.
Proof.
  intros w b r s Hb Hr Hs. unfold normalize_digit.
  destruct (pow_facts w b Hb) as (Hp & Hs2 & Hle & Hw).
  destruct (digit_carry_ideal w b r Hb ltac:(lia)) as [E1 E2].
  cbv zeta. rewrite E2, E1.
  pose proof (wrap_bdiv b r ltac:(lia)) as Hdec.
  assert (Ea : wadd w s (bdiv b r) = s + bdiv b r) by (unfold wadd; apply wrap_id; [lia|auto]).
  rewrite Ea. repeat split; try (apply wrap_range; lia). lia.
Qed.
Print Assumptions C08_normalize_digit_spec.

(* carries stay within the headroom along any chain of steps: `car b v c0 j` is the carry after j steps
   over the (already shifted) inputs v 0, v 1, ... starting from c0 *)
Theorem C08_carry_chain_headroom : forall b : Z, 1 <= b -> forall (H : Z) (v : nat -> Z) (c0 : Z) (j : nat),
  0 <= H -> (forall t, (t < j)%nat -> Z.abs (v t) <= H * 2 ^ (b - 1)) -> Z.abs c0 <= H ->
  Z.abs (car b v c0 j) <= H.
Proof. exact car_bound. Qed.
Print Assumptions C08_carry_chain_headroom.

(* a carry within 2^62 propagated through zero limbs is stationary after 64 steps *)
Theorem C08_gap_saturates : forall b : Z, 1 <= b -> forall (c : Z) (g : nat), Z.abs c <= 2 ^ 62 ->
  car b zseq c (Nat.min g 64) = car b zseq c g.
Proof.
  intros b Hb c g Hc. apply (car_zseq_sat_w b Hb 64 62); [lia|exact Hc|left; change (zn 64) with 64; lia].
Qed.
Print Assumptions C08_gap_saturates.

(* same-radix normalisation with any signed bit offset: per coefficient, w = 64 *)
(* `dgz b (vin a lsh) t` = digit of position t of the balanced radix-2^b expansion of the integer
   sum_j a_j 2^lsh 2^((|a|-1-j) b)  (0 for t < 0) *)

(* closed form: the output is a window of the balanced expansion of the (un-normalised) input *)
Theorem C08_normalize_inter_nth : forall b : Z, 1 <= b <= 62 -> forall (off : Z) (a r0 : list Z),
  hrl a ->
  let out := normalize_inter 64 b off a r0 in
  length out = length r0 /\
  forall i, (i < length r0)%nat ->
    nthZ out i = dgz b (vin a (off mod b)) (zn (length a) - off / b - 1 - zn i).
Proof.
  intros b Hb off a r0 Ha. apply (normalize_inter_c_nth 64 b Hb 64 off a r0); [apply hrlw_64; exact Ha|].
  left. change (zn 64) with 64. lia.
Qed.
Print Assumptions C08_normalize_inter_nth.

Theorem C08_normalize_inter_value : forall b : Z, 1 <= b <= 62 -> forall (off : Z) (a r0 : list Z),
  Forall (fun x => Z.abs x <= 2 ^ 62) a ->
  let out := normalize_inter 64 b off a r0 in
  length out = length r0 /\
  Forall (in_range b) out /\
  out = normalize_inter 64 b off a (zeros (length r0)) /\
  forall P, zn (length r0) * b + zn (length a) * b + Z.abs off <= P ->
    let D := tor_abs P (val_scaled P b out - val_scaled (P + off) b a) in
    D <= 2 ^ (P - zn (length r0) * b) /\
    (zn (length a) * b - off <= zn (length r0) * b -> D = 0).
Proof. exact normalize_inter_value. Qed.
Print Assumptions C08_normalize_inter_value.

Example C08_normalize_inter_value_ex :
  let a := [2 ^ 62; -5; 123456789012; - 2 ^ 62] in
  let out := normalize_inter 64 12 (-17) a [7; 7] in
  tor_abs 100 (val_scaled 100 12 out - val_scaled (100 + -17) 12 a) <= 2 ^ (100 - 2 * 12).
Proof.
  intros a out.
  destruct (C08_normalize_inter_value 12 ltac:(lia) (-17) a [7; 7]) as (_ & _ & _ & HV).
  - repeat constructor; cbn; lia.
  - apply (HV 100). cbn. lia.
Qed.

(* in-place normalisation and the shift family: per coefficient, w = 64 *)
(* hr62 l := Forall (fun x => |x| <= 2^62) l : inputs need not be normalised *)

Theorem C08_normalize_assign_value : forall b : Z, 1 <= b <= 62 -> forall r0 : list Z, hr62 r0 ->
  let out := normalize_assign 64 b r0 in
  length out = length r0 /\ Forall (in_range b) out /\
  forall P, 2 * zn (length r0) * b <= P -> tor_abs P (val_scaled P b out - val_scaled P b r0) = 0.
Proof. exact normalize_assign_value. Qed.
Print Assumptions C08_normalize_assign_value.

Example C08_normalize_assign_value_ex :
  let r0 := [2 ^ 62; - 2 ^ 62; 987654321987; -1] in
  let out := normalize_assign 64 7 r0 in
  Forall (in_range 7) out /\ tor_abs 60 (val_scaled 60 7 out - val_scaled 60 7 r0) = 0.
Proof.
  intros r0 out.
  destruct (C08_normalize_assign_value 7 ltac:(lia) r0) as (_ & HB & HV).
  - repeat constructor; cbn; lia.
  - split; [exact HB|]. apply HV. cbn. lia.
Qed.

Theorem C08_lsh_assign_value : forall b : Z, 1 <= b <= 62 -> forall (k : Z) (r0 : list Z), 0 <= k -> hr62 r0 ->
  let out := lsh_assign 64 b k r0 in
  length out = length r0 /\ Forall (in_range b) out /\
  forall P, 2 * zn (length r0) * b + k <= P ->
    tor_abs P (val_scaled P b out - val_scaled (P + k) b r0) = 0.
Proof. exact lsh_assign_value. Qed.
Print Assumptions C08_lsh_assign_value.

Theorem C08_lsh_value : forall b : Z, 1 <= b <= 62 -> forall (ov : bool) (k : Z) (a r0 : list Z),
  0 <= k -> hr62 a -> (ov = false -> hr62 r0) ->
  let out := lsh 64 ov b k a r0 in
  length out = length r0 /\ (ov = true -> Forall (in_range b) out) /\
  forall P, zn (length r0) * b + zn (length a) * b + k <= P ->
    let D := tor_abs P (val_scaled P b out - (if ov then 0 else val_scaled P b r0)
                        - val_scaled (P + k) b a) in
    D <= 2 ^ (P - zn (length r0) * b) /\ (zn (length a) * b - k <= zn (length r0) * b -> D = 0).
Proof. exact lsh_value. Qed.
Print Assumptions C08_lsh_value.

Example C08_lsh_value_ex :
  let a := [2 ^ 62; -5; 123456789012; - 2 ^ 62] in
  let r0 := [11; - 2 ^ 62] in
  let out := lsh 64 false 12 17 a r0 in
  tor_abs 100 (val_scaled 100 12 out - val_scaled 100 12 r0 - val_scaled (100 + 17) 12 a) <= 2 ^ (100 - 2 * 12).
Proof.
  intros a r0 out.
  destruct (C08_lsh_value 12 ltac:(lia) false 17 a r0) as (_ & _ & HV).
  - lia.
  - repeat constructor; cbn; lia.
  - intros _. repeat constructor; cbn; lia.
  - apply (HV 100). cbn. lia.
Qed.

Theorem C08_lsh_sub_value : forall b : Z, 1 <= b <= 62 -> forall (k : Z) (a r0 : list Z),
  0 <= k -> hr62 a -> hr62 r0 ->
  let out := lsh_sub 64 b k a r0 in
  length out = length r0 /\
  forall P, zn (length r0) * b + zn (length a) * b + k <= P ->
    let D := tor_abs P (val_scaled P b out - val_scaled P b r0 + val_scaled (P + k) b a) in
    D <= 2 ^ (P - zn (length r0) * b) /\ (zn (length a) * b - k <= zn (length r0) * b -> D = 0).
Proof. exact lsh_sub_value. Qed.
Print Assumptions C08_lsh_sub_value.

Theorem C08_rsh_assign_value : forall b : Z, 1 <= b <= 62 -> forall (k : Z) (r0 : list Z), 0 <= k -> hr62 r0 ->
  let out := rsh_assign 64 b k r0 in
  length out = length r0 /\ Forall (in_range b) out /\
  forall P, 2 * zn (length r0) * b + k <= P ->
    let D := tor_abs P (val_scaled P b out - val_scaled (P - k) b r0) in
    D <= 2 ^ (P - zn (length r0) * b) /\ (k = 0 -> D = 0).
Proof. exact rsh_assign_value. Qed.
Print Assumptions C08_rsh_assign_value.

Theorem C08_rsh_ov_value : forall b : Z, 1 <= b <= 62 -> forall (k : Z) (a r0 : list Z), 0 <= k -> hr62 a ->
  let out := rsh 64 true b k a r0 in
  length out = length r0 /\ Forall (in_range b) out /\
  forall P, zn (length r0) * b + zn (length a) * b + k <= P ->
    let D := tor_abs P (val_scaled P b out - val_scaled (P - k) b a) in
    D <= 2 ^ (P - zn (length r0) * b) /\ (zn (length a) * b + k <= zn (length r0) * b -> D = 0).
Proof.
  intros b Hb k a r0 Hk Ha. apply (rsh_ov_valueW 64 b Hb); [lia|exact Hk|exact (hr62_w a Ha)].
Qed.
Print Assumptions C08_rsh_ov_value.

Theorem C08_rsh_add_value : forall b : Z, 1 <= b <= 62 -> forall (k : Z) (a r0 : list Z),
  0 <= k -> hr62 a -> hr62 r0 ->
  let out := rsh 64 false b k a r0 in
  length out = length r0 /\
  forall P, zn (length r0) * b + zn (length a) * b + k <= P ->
    let D := tor_abs P (val_scaled P b out - val_scaled P b r0 - val_scaled (P - k) b a) in
    D <= 2 ^ (P - zn (length r0) * b) /\ (zn (length a) * b + k <= zn (length r0) * b -> D = 0).
Proof. exact rsh_add_value. Qed.
Print Assumptions C08_rsh_add_value.

Theorem C08_rsh_sub_value : forall b : Z, 1 <= b <= 62 -> forall (k : Z) (a r0 : list Z),
  0 <= k -> hr62 a -> hr62 r0 ->
  let out := rsh_sub 64 b k a r0 in
  length out = length r0 /\
  forall P, zn (length r0) * b + zn (length a) * b + k <= P ->
    let D := tor_abs P (val_scaled P b out - val_scaled P b r0 + val_scaled (P - k) b a) in
    D <= 2 ^ (P - zn (length r0) * b) /\ (zn (length a) * b + k <= zn (length r0) * b -> D = 0).
Proof. exact rsh_sub_value. Qed.
Print Assumptions C08_rsh_sub_value.

Example C08_rsh_sub_value_ex :
  let a := [2 ^ 62; -5; 123456789012; - 2 ^ 62] in
  let r0 := [11; - 2 ^ 62] in
  let out := rsh_sub 64 12 41 a r0 in
  tor_abs 120 (val_scaled 120 12 out - val_scaled 120 12 r0 + val_scaled (120 - 41) 12 a) <= 2 ^ (120 - 2 * 12).
Proof.
  intros a r0 out.
  destruct (C08_rsh_sub_value 12 ltac:(lia) 41 a r0) as (_ & HV).
  - lia.
  - repeat constructor; cbn; lia.
  - repeat constructor; cbn; lia.
  - apply (HV 120). cbn. lia.
Qed.

(* closed forms by index (the output digits are a window of the balanced expansion of the input) *)
Theorem C08_lsh_nth : forall b : Z, 1 <= b <= 62 -> forall (ov : bool) (k : Z) (a r0 : list Z),
  0 <= k -> hrl a -> (ov = false -> hrl r0) ->
  let out := lsh 64 ov b k a r0 in
  length out = length r0 /\
  forall i, (i < length r0)%nat ->
    nthZ out i = (if ov then 0 else nthZ r0 i)
                 + dgz b (vin a (k mod b)) (zn (length a) - k / b - 1 - zn i).
Proof.
  intros b Hb ov k a r0 Hk Ha Hr. apply (lsh_nthW 64 b Hb ov k a r0 Hk); [apply hrlw_64; exact Ha|].
  intros E. apply hrlw_64. exact (Hr E).
Qed.
Print Assumptions C08_lsh_nth.

Theorem C08_rsh_ov_nth : forall b : Z, 1 <= b <= 62 -> forall (k : Z) (a r0 : list Z), 0 <= k -> hrl a ->
  let steps := fst (rsh_params b k) in let lsh := snd (rsh_params b k) in
  let out := rsh 64 true b k a r0 in
  length out = length r0 /\
  forall i, (i < length r0)%nat ->
    nthZ out i = dgz b (vin a lsh) (zn (length a) - (- zn steps) - 1 - zn i).
Proof.
  intros b Hb k a r0 Hk Ha. apply (rsh_ov_nthW 64 b Hb ltac:(lia) k a r0 Hk). apply hrlw_64. exact Ha.
Qed.
Print Assumptions C08_rsh_ov_nth.

(* `coeff_ok rb ab off keep sgn need_bal a r0 out` (Model/C08Oracle.v) is the per-coefficient statement of C08
   that check.py evaluates on the implementation's outputs: 1 = holds, 0 = fails, 2 = outside the |x| <= 2^60 guard.
   On the outputs of the same-radix models it is never 0, for every radix 1..62, size, offset and content. *)

Theorem C08_coeff_ok_normalize_inter : forall b : Z, 1 <= b <= 62 -> forall (off : Z) (a r0 : list Z),
  coeff_ok b b off 0 1 true a r0 (normalize_inter 64 b off a r0) <> 0.
Proof. exact coeff_ok_normalize_inter. Qed.
Print Assumptions C08_coeff_ok_normalize_inter.

Theorem C08_coeff_ok_normalize_assign : forall b : Z, 1 <= b <= 62 -> forall r0 : list Z,
  coeff_ok b b 0 0 1 true r0 r0 (normalize_assign 64 b r0) <> 0.
Proof.
  intros b Hb r0.
  apply (coeff_ok_window b 0 0 0 0 1 true r0 r0 _ ltac:(lia) ltac:(lia) ltac:(lia)); [left; reflexivity|intros _; split; reflexivity|].
  intros Ha _.
  destruct (normalize_assign_nthW 64 b Hb r0 (all_hr_hrlw r0 Ha)) as [L N].
  split; [exact L|]. intros i Hi. rewrite (N i Hi). ring.
Qed.
Print Assumptions C08_coeff_ok_normalize_assign.

Theorem C08_coeff_ok_lsh_assign : forall b : Z, 1 <= b <= 62 -> forall (k : Z) (r0 : list Z), 0 <= k ->
  coeff_ok b b k 0 1 true r0 r0 (lsh_assign 64 b k r0) <> 0.
Proof.
  intros b Hb k r0 Hk.
  destruct (off_split b k ltac:(lia)) as [Hl Eo].
  apply (coeff_ok_window b k (k / b) (k mod b) 0 1 true r0 r0 _ ltac:(lia) Hl Eo); [left; reflexivity|intros _; split; reflexivity|].
  intros Ha _.
  destruct (lsh_assign_nthW 64 b Hb k r0 Hk (all_hr_hrlw r0 Ha)) as [L N].
  split; [exact L|]. intros i Hi. rewrite (N i Hi). ring.
Qed.
Print Assumptions C08_coeff_ok_lsh_assign.

Theorem C08_coeff_ok_lsh : forall b : Z, 1 <= b <= 62 -> forall (ov : bool) (k : Z) (a r0 : list Z), 0 <= k ->
  coeff_ok b b k (if ov then 0 else 1) 1 ov a r0 (lsh 64 ov b k a r0) <> 0.
Proof.
  intros b Hb ov k a r0 Hk.
  destruct (off_split b k ltac:(lia)) as [Hl Eo].
  apply (coeff_ok_window b k (k / b) (k mod b) _ 1 ov a r0 _ ltac:(lia) Hl Eo); [left; reflexivity|intros ->; split; reflexivity|].
  intros Ha Hr.
  destruct (lsh_nthW 64 b Hb ov k a r0 Hk (all_hr_hrlw a Ha)) as [L N].
  { intros ->. destruct Hr as [Hr|Hr]; [exact (all_hr_hrlw r0 Hr)|discriminate]. }
  split; [exact L|]. intros i Hi. rewrite (N i Hi). destruct ov; ring.
Qed.
Print Assumptions C08_coeff_ok_lsh.

Theorem C08_coeff_ok_lsh_sub : forall b : Z, 1 <= b <= 62 -> forall (k : Z) (a r0 : list Z), 0 <= k ->
  coeff_ok b b k 1 (-1) false a r0 (lsh_sub 64 b k a r0) <> 0.
Proof.
  intros b Hb k a r0 Hk.
  destruct (off_split b k ltac:(lia)) as [Hl Eo].
  apply (coeff_ok_window b k (k / b) (k mod b) 1 (-1) false a r0 _ ltac:(lia) Hl Eo); [right; reflexivity|discriminate|].
  intros Ha Hr.
  destruct Hr as [Hr|Hr]; [|discriminate].
  destruct (lsh_sub_nthW 64 b Hb k a r0 Hk (all_hr_hrlw a Ha) (all_hr_hrlw r0 Hr)) as [L N].
  split; [exact L|]. intros i Hi. rewrite (N i Hi). ring.
Qed.
Print Assumptions C08_coeff_ok_lsh_sub.

Theorem C08_coeff_ok_rsh_assign : forall b : Z, 1 <= b <= 62 -> forall (k : Z) (r0 : list Z), 0 <= k ->
  coeff_ok b b (- k) 0 1 true r0 r0 (rsh_assign 64 b k r0) <> 0.
Proof.
  intros b Hb k r0 Hk.
  destruct (rsh_params_spec b k ltac:(lia) Hk) as [Hl Eo].
  apply (coeff_ok_window b (- k) (- zn (fst (rsh_params b k))) (snd (rsh_params b k)) 0 1 true r0 r0 _ ltac:(lia) Hl Eo);
    [left; reflexivity|intros _; split; reflexivity|].
  intros Ha _.
  destruct (rsh_assign_nthW 64 b Hb ltac:(lia) k r0 Hk (all_hr_hrlw r0 Ha)) as [L N].
  split; [exact L|]. intros i Hi. rewrite (N i Hi). ring.
Qed.
Print Assumptions C08_coeff_ok_rsh_assign.

Theorem C08_coeff_ok_rsh_ov : forall b : Z, 1 <= b <= 62 -> forall (k : Z) (a r0 : list Z), 0 <= k ->
  coeff_ok b b (- k) 0 1 true a r0 (rsh 64 true b k a r0) <> 0.
Proof.
  intros b Hb k a r0 Hk.
  destruct (rsh_params_spec b k ltac:(lia) Hk) as [Hl Eo].
  apply (coeff_ok_window b (- k) (- zn (fst (rsh_params b k))) (snd (rsh_params b k)) 0 1 true a r0 _ ltac:(lia) Hl Eo);
    [left; reflexivity|intros _; split; reflexivity|].
  intros Ha _.
  destruct (rsh_ov_nthW 64 b Hb ltac:(lia) k a r0 Hk (all_hr_hrlw a Ha)) as [L N].
  split; [exact L|]. intros i Hi. rewrite (N i Hi). ring.
Qed.
Print Assumptions C08_coeff_ok_rsh_ov.

(* the accumulating right shifts re-normalise the top limbs of r0: their output is not a window of digits, and the
   two statements below come from the value theorems instead of the closed forms *)
Theorem C08_coeff_ok_rsh_add : forall b : Z, 1 <= b <= 62 -> forall (k : Z) (a r0 : list Z), 0 <= k ->
  coeff_ok b b (- k) 1 1 false a r0 (rsh 64 false b k a r0) <> 0.
Proof.
  intros b Hb k a r0 Hk.
  apply coeff_ok_holds. intros Ha Hr. cbv zeta.
  assert (Hr' : hr62 r0) by (destruct Hr as [Hr|Hr]; [apply all_hr_hr62; exact Hr|discriminate]).
  destruct (rsh_add_value b Hb k a r0 Hk (all_hr_hr62 a Ha) Hr') as (L & V).
  rewrite L. set (P := Z.of_nat (length r0) * b + Z.of_nat (length a) * b + Z.abs (- k) + 2).
  specialize (V P ltac:(unfold P, zn; lia)). cbv zeta in V. unfold zn in V. destruct V as [V1 V2].
  rewrite !Z.mul_1_l. replace (P + - k) with (P - k) by lia.
  split; [exact V1|]. split; [|discriminate].
  intros Hx. apply V2. lia.
Qed.
Print Assumptions C08_coeff_ok_rsh_add.

Theorem C08_coeff_ok_rsh_sub : forall b : Z, 1 <= b <= 62 -> forall (k : Z) (a r0 : list Z), 0 <= k ->
  coeff_ok b b (- k) 1 (-1) false a r0 (rsh_sub 64 b k a r0) <> 0.
Proof.
  intros b Hb k a r0 Hk.
  apply coeff_ok_holds. intros Ha Hr. cbv zeta.
  assert (Hr' : hr62 r0) by (destruct Hr as [Hr|Hr]; [apply all_hr_hr62; exact Hr|discriminate]).
  destruct (rsh_sub_value b Hb k a r0 Hk (all_hr_hr62 a Ha) Hr') as (L & V).
  rewrite L. set (P := Z.of_nat (length r0) * b + Z.of_nat (length a) * b + Z.abs (- k) + 2).
  specialize (V P ltac:(unfold P, zn; lia)). cbv zeta in V. unfold zn in V. destruct V as [V1 V2].
  replace (val_scaled P b (rsh_sub 64 b k a r0) - 1 * val_scaled P b r0 - -1 * val_scaled (P + - k) b a)
    with (val_scaled P b (rsh_sub 64 b k a r0) - val_scaled P b r0 + val_scaled (P - k) b a)
    by (replace (P + - k) with (P - k) by lia; ring).
  split; [exact V1|]. split; [|discriminate].
  intros Hx. apply V2. lia.
Qed.
Print Assumptions C08_coeff_ok_rsh_sub.

(* the guard is met, so the verdict is 1, on a concrete un-normalised input *)
Example C08_coeff_ok_ex :
  coeff_ok 12 12 (-41) 1 (-1) false [2 ^ 60; -5; 123456789012; - 2 ^ 60] [11; - 2 ^ 60]
    (rsh_sub 64 12 41 [2 ^ 60; -5; 123456789012; - 2 ^ 60] [11; - 2 ^ 60]) = 1.
Proof. vm_compute. reflexivity. Qed.

(* the inner repacking loop of vec_znx_normalize_cross_base2k always terminates within its fuel
   (ab + rb + 4 rounds): the model never answers None, for all radices >= 1, sizes, offsets, contents *)
Theorem C08_normalize_cross_total : forall rb ab : Z, 1 <= rb -> 1 <= ab ->
  forall (off : Z) (a r0 : list Z), normalize_cross 64 rb ab off a r0 <> None.
Proof. exact normalize_cross_total. Qed.
Print Assumptions C08_normalize_cross_total.

Example C08_normalize_cross_total_ex :
  normalize_cross 64 5 12 (-7) [2 ^ 62; -5; 123456789012] [0; 0; 0; 0] <> None.
Proof. apply C08_normalize_cross_total; lia. Qed.

(* input radix ab, output radix rb (any pair in 1..62, equal or not), offset >= 0, un-normalised input limbs:
   the output represents a * 2^off on the torus within one unit of its last limb, exactly when it fits.
   (The output limbs of this routine are not all balanced digits; the property does not ask for it.) *)
Theorem C08_normalize_cross_value : forall rb ab : Z, 1 <= rb <= 62 -> 1 <= ab <= 62 ->
  forall (off : Z) (a r0 : list Z), 0 <= off -> hr62 a ->
  exists out, normalize_cross 64 rb ab off a r0 = Some out /\ length out = length r0 /\
    forall P, zn (length r0) * rb + zn (length a) * ab + off <= P ->
      let D := tor_abs P (val_scaled P rb out - val_scaled (P + off) ab a) in
      D <= 2 ^ (P - zn (length r0) * rb) /\ (zn (length a) * ab - off <= zn (length r0) * rb -> D = 0).
Proof. exact normalize_cross_value. Qed.
Print Assumptions C08_normalize_cross_value.

Example C08_normalize_cross_value_ex :
  exists out, normalize_cross 64 5 12 7 [2 ^ 62; -5; 123456789012] [0; 0; 0; 0] = Some out /\
    tor_abs 80 (val_scaled 80 5 out - val_scaled (80 + 7) 12 [2 ^ 62; -5; 123456789012]) <= 2 ^ (80 - 4 * 5).
Proof.
  destruct (C08_normalize_cross_value 5 12 ltac:(lia) ltac:(lia) 7 [2 ^ 62; -5; 123456789012] [0; 0; 0; 0])
    as (out & E & _ & HV).
  - lia.
  - repeat constructor; cbn; lia.
  - exists out. split; [exact E|]. apply (HV 80). cbn. lia.
Qed.

(* the oracle on the dispatcher vec_znx_normalize (record code 8101): never 0 for offset >= 0 or equal radices *)
Theorem C08_coeff_ok_normalize : forall (rb ab off : Z) (a r0 : list Z), 1 <= rb <= 62 -> 1 <= ab <= 62 ->
  0 <= off \/ rb = ab ->
  exists out, normalize 64 rb ab off a r0 = Some out /\ coeff_ok rb ab off 0 1 (rb =? ab) a r0 out <> 0.
Proof. exact coeff_ok_normalize. Qed.
Print Assumptions C08_coeff_ok_normalize.

(* the full statement, cross-radix routine with a negative offset included (extra paths: partial fill of the top
   res limb from the a-carry, gapbits_phase, top_phase); it is proved for every offset as
   C08_cross_neg_normalize_cross_value in Props/C08Wide.v. *)
Definition normalize_cross_value_full : Prop :=
  forall rb ab : Z, 1 <= rb <= 62 -> 1 <= ab <= 62 ->
  forall (off : Z) (a r0 : list Z), hr62 a ->
  exists out, normalize_cross 64 rb ab off a r0 = Some out /\ length out = length r0 /\
    forall P, zn (length r0) * rb + zn (length a) * ab + Z.abs off <= P ->
      let D := tor_abs P (val_scaled P rb out - val_scaled (P + off) ab a) in
      D <= 2 ^ (P - zn (length r0) * rb) /\ (zn (length a) * ab - off <= zn (length r0) * rb -> D = 0).

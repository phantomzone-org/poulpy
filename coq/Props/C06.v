(* C06 — fresh ciphertexts carry the configured randomness: full noise, uniform mask.  The statements of the property, each proved
   here: by `exact`, by instantiating a theorem of Proofs/, or by its own short script; each with its Print Assumptions.

   The ChaCha8 stream (`us`, a function nat -> Z giving the raw u64 words) and the Gaussian sampler (the rounded samples `e`)
   are inputs of the model, never axioms; their statistical quality is measured by the check (support), not proved. *)
From PV Require Import Base.MachineInt Model.Znx Model.Limbs Model.Flat Model.DftAbs Model.C08Oracle Model.EncModel
  Proofs.EncValue Proofs.EncLists Proofs.C01Sk Proofs.C01Glwe Proofs.C01Pk Proofs.C06Struct.
Open Scope Z_scope.

(* for 1 <= b <= 63 and every digit d of the full balanced range, exactly 2^(64-b) of the 2^64 words map to d:
   `has_card P N` is a bijection between P and [0, N) (q |-> q*2^b + d + 2^(b-1), u |-> u / 2^b) *)
Theorem C06_uniform_digit_equidistributed : forall b d : Z, 1 <= b <= 63 -> - 2 ^ (b - 1) <= d < 2 ^ (b - 1) ->
  has_card (fun u => 0 <= u < 2 ^ 64 /\ uniform_digit b u = d) (2 ^ (64 - b)).
Proof. exact uniform_digit_equidistributed. Qed.
Print Assumptions C06_uniform_digit_equidistributed.

Theorem C06_uniform_digit_range : forall b u : Z, 1 <= b -> in_range b (uniform_digit b u).
Proof. exact uniform_digit_range. Qed.
Print Assumptions C06_uniform_digit_range.

Theorem C06_next_u64n_pow2_no_reject : forall b u : Z, 0 <= b -> 0 <= Z.land u (2 ^ b - 1) < 2 ^ b.
Proof. exact next_u64n_pow2_no_reject. Qed.
Print Assumptions C06_next_u64n_pow2_no_reject.

(* non-interference: every mask column is `glwe_mask b n size rank us`, a function of the mask stream and the shape;
   another plaintext (also on another column), secret, noise precision or error stream leaves it unchanged *)
Theorem C06_mask_depends_only_on_mask_seed :
  forall (wb b : Z) (n size rank : nat) (us : nat -> Z) (nk nk' : Z) (pt pt' : option (ccol * nat)) (sk sk' : list poly)
         (e e' : poly) (ct ct' : list ccol),
  enc_sk wb b n size rank nk pt sk us e = Some ct ->
  enc_sk wb b n size rank nk' pt' sk' us e' = Some ct' ->
  tl ct = glwe_mask b n size rank us /\ tl ct' = tl ct.
Proof. exact mask_depends_only_on_mask_seed. Qed.
Print Assumptions C06_mask_depends_only_on_mask_seed.

(* exactly rank*size*n words of the mask stream are consumed (one per coefficient, no rejection) *)
Theorem C06_mask_consumption : forall (b : Z) (n size rank : nat) (us us' : nat -> Z),
  (forall i, (i < rank * size * n)%nat -> us i = us' i) -> glwe_mask b n size rank us = glwe_mask b n size rank us'.
Proof. exact mask_consumption. Qed.
Print Assumptions C06_mask_consumption.

Theorem C06_lwe_mask_consumption : forall (b : Z) (n size : nat) (us us' : nat -> Z),
  (forall i, (i < size * (n + 1))%nat -> us i = us' i) -> lwe_mask b n size us = lwe_mask b n size us'.
Proof.
  intros b n size us us' H. unfold lwe_mask. apply map_ext_in. intros j Hj. apply in_seq in Hj.
  apply map_ext_in. intros t Ht. apply in_seq in Ht. f_equal. apply H.
  assert (((j + 1) * (n + 1) <= size * (n + 1))%nat) by (apply Nat.mul_le_mono_r; lia). lia.
Qed.
Print Assumptions C06_lwe_mask_consumption.

(* another error stream changes only column 0, and coefficient k of the body only through e_k *)
Theorem C06_body_changes_only :
  forall (wb b : Z) (n size rank : nat) (nk : Z) (pt : option (ccol * nat)) (sk : list poly) (us : nat -> Z) (e e' : poly)
         (ct ct' : list ccol),
  enc_sk wb b n size rank nk pt sk us e = Some ct ->
  enc_sk wb b n size rank nk pt sk us e' = Some ct' ->
  tl ct' = tl ct /\ forall k, (k < n)%nat -> nthZ e k = nthZ e' k -> coef (hd [] ct') k = coef (hd [] ct) k.
Proof. exact body_changes_only. Qed.
Print Assumptions C06_body_changes_only.

(* the ciphertext is a function of (plaintext, secret, consumed prefix of the mask stream, errors): no other input *)
Theorem C06_determinism :
  forall (wb b : Z) (n size rank : nat) (nk : Z) (pt : option (ccol * nat)) (sk : list poly) (us us' : nat -> Z) (e : poly),
  (forall i, (i < rank * size * n)%nat -> us i = us' i) ->
  enc_sk wb b n size rank nk pt sk us e = enc_sk wb b n size rank nk pt sk us' e.
Proof. exact determinism. Qed.
Print Assumptions C06_determinism.

(* error_is_full: the exact phase body + sum_i s_i a_i of a fresh GLWE ciphertext (hence of every cell of a GGLWE-shaped key,
   which is such a ciphertext of the row plaintext) is plaintext + e * 2^-(limb+1)b on the torus, limb = ceil(nk/b) - 1: the sampled
   error reaches the phase with coefficient exactly 1, not attenuated, not on a lower limb.  Hypotheses as in C01_sk_roundtrip. *)
Theorem C06_error_is_full :
  forall (wb b pb R : Z) (n size psize rank : nat) (nk S E M : Z),
  normalize_value_ok (fun rb ab => normalize 64 rb ab 0) (2 ^ 62) R ->
  normalize_value_ok (bnorm wb) (2 ^ (wb - 2)) R ->
  2 <= wb -> 1 <= b <= R -> 1 <= pb <= R -> 0 <= S ->
  forall (pt : ccol) (sk : list poly) (us : nat -> Z) (e : poly) (ct : list ccol) (d : ccol),
  length sk = rank ->
  Forall (fun s => norm1 s <= S) sk ->
  (forall k, (k < n)%nat -> Z.abs (nthZ e k) <= E) ->
  (forall k, (k < n)%nat -> bnd M (coef pt k)) ->
  zn rank * 2 ^ (b - 1) + E + M <= 2 ^ 62 ->
  zn rank * (S * 2 ^ (b - 1)) + 2 ^ (b - 1) <= 2 ^ (wb - 2) ->
  S * 2 ^ (b - 1) <= 2 ^ (wb - 2) ->
  enc_sk wb b n size rank nk (Some (pt, O)) sk us e = Some ct ->
  dec_glwe wb b pb n size psize sk ct = Some d ->
  forall k, (k < n)%nat -> forall P, zn size * b <= P -> zn psize * pb <= P -> 1 <= P ->
    exists q, lval P b size (coef (hd [] ct) k) + lvsum P b size (prods_at n size sk (tl ct) k)
              = lval P b size (coef pt k) + nthZ e k * 2 ^ (P - (zn (target_limb nk b) + 1) * b) + q * 2 ^ P.
Proof.
  intros until d. intros.
  edestruct (sk_roundtrip wb b pb (fun x => 1 <= x <= R) n size psize rank nk)
    with (S := S) (E := E) (M := M)
         (pt := pt) (sk := sk) (us := us) (e := e)
    as (_ & _ & V); try eassumption; try lia.
  destruct (V k) as (_ & _ & _ & W); [assumption|]. apply W; assumption.
Qed.
Print Assumptions C06_error_is_full.

(* error_is_full for public-key encryption: the exact phase of the ciphertext is plaintext + pk_error, where
   pk_error = (u*e_pk)_k at the key's precision + (e_0 + sum_i s_i*e_i)_k at the ciphertext's precision: all three error
   terms reach the phase with coefficient exactly 1 *)
Theorem C06_error_is_full_pk :
  forall (wb b pb R : Z) (n size psize rank : nat) (nk nkp Sn U E Ep M : Z),
  normalize_value_ok (fun rb ab => normalize 64 rb ab 0) (2 ^ 62) R ->
  normalize_value_ok (bnorm wb) (2 ^ (wb - 2)) R ->
  2 <= wb -> 1 <= b <= R -> 1 <= pb <= R -> 0 <= Sn -> 0 <= U ->
  forall (pt : ccol) (sk : list poly) (us : nat -> Z) (epk u : poly) (es : list poly) (pk ct : list ccol) (d : ccol),
  length sk = rank -> length es = S rank ->
  Forall (fun s => length s = n /\ norm1 s <= Sn) sk -> length u = n -> norm1 u <= U ->
  length epk = n -> Forall (fun e => length e = n) es ->
  (forall k, (k < n)%nat -> Z.abs (nthZ epk k) <= Ep) ->
  (forall i k, (k < n)%nat -> Z.abs (nthZ (nth i es []) k) <= E) ->
  (forall k, (k < n)%nat -> bnd M (coef pt k)) -> 0 <= M ->
  zn rank * 2 ^ (b - 1) + Ep <= 2 ^ 62 ->
  Sn * 2 ^ (b - 1) <= 2 ^ (wb - 2) ->
  U * 2 ^ (b - 1) + E + M <= 2 ^ (wb - 2) ->
  zn rank * (Sn * 2 ^ (b - 1)) + 2 ^ (b - 1) <= 2 ^ (wb - 2) ->
  enc_sk wb b n size rank nkp None sk us epk = Some pk ->
  enc_pk wb b n size size nk (Some pt) u pk es = Some ct ->
  dec_glwe wb b pb n size psize sk ct = Some d ->
  forall k, (k < n)%nat -> forall P, zn size * b <= P -> zn psize * pb <= P -> 1 <= P ->
    exists q, lval P b size (coef (hd [] ct) k) + lvsum P b size (prods_at n size sk (tl ct) k)
              = lval P b size (coef pt k) + pk_error b rank nk nkp P sk u epk es k + q * 2 ^ P.
Proof.
  intros until d. intros.
  edestruct (pk_roundtrip wb b pb (fun x => 1 <= x <= R) n size psize rank nk nkp)
    with (Sn := Sn) (U := U) (E := E) (Ep := Ep) (M := M)
         (pt := pt) (sk := sk) (us := us) (epk := epk) (u := u) (es := es) (pk := pk)
    as [_ V]; try eassumption; try lia.
  apply V; assumption.
Qed.
Print Assumptions C06_error_is_full_pk.

(* the remaining case of error_is_full: the GGSW cells whose plaintext sits on a column >= 1 (image s_{j-1}*m); for those the
   identity is checked by the oracle on every record (exact arithmetic), not proved *)
Definition C06_error_is_full_full : Prop :=
  forall (wb b : Z) (n size rank dsize : nat) (nk : Z) (row col : nat) (m : poly) (sk : list poly) (us : nat -> Z) (e : poly)
         (ct : list ccol),
  enc_sk wb b n size rank nk (Some (row_pt b n size dsize row m, col)) sk us e = Some ct ->
  forall k P, (k < n)%nat -> zn size * b <= P -> 1 <= P ->
  exists q, lval P b size (coef (hd [] ct) k) + lvsum P b size (prods_at n size sk (tl ct) k)
            = nthZ (match col with O => m | S j => pmul (nth j sk []) m end) k * wt P b ((dsize - 1) + row * dsize)
              + nthZ e k * wt P b (target_limb nk b) + q * 2 ^ P.

Example C06_digit_ex : uniform_digit 5 (2 ^ 64 - 1) = 15 /\ uniform_digit 5 32 = -16 /\ uniform_digit 1 3 = 0.
Proof. vm_compute. repeat split. Qed.

(* changing the plaintext and the secret leaves the mask as it is; changing e_2 only changes coefficient 2 of the body *)
Example C06_noninterference_ex :
  let us := fun i => nthZ [1234567; 89; 4000000001; 77; 13; 999999; 31; 2] i in
  match enc_sk 64 5 4 2 1 7 (Some ([[3; -2]; [0; 1]; [-16; 15]; [7; 7]], O)) [[1; 0; -1; 1]] us [2; -1; 0; 3],
        enc_sk 64 5 4 2 1 7 (Some ([[0; 0]; [1; 1]; [2; 2]; [3; 3]], O)) [[0; 1; 1; 0]] us [2; -1; 5; 3] with
  | Some ct, Some ct' => tl ct = tl ct' /\ hd [] ct <> hd [] ct'
  | _, _ => False
  end.
Proof. vm_compute. split; [reflexivity|discriminate]. Qed.

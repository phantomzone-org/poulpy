(* C10 — all backends give bit-identical results.  Pinned statements, each proved by `exact` or by a short derivation
   from the lemmas of Proofs/.
   Lane convention (Model/C10AvxLanes.v): a 64-bit lane is its signed value; `wadd 64`, `wsub 64`, `shl 64`, `asr`
   are the wrapping i64 operations of the scalar reference kernels (Model/Znx.v). *)
From PV Require Import Base.MachineInt Model.Znx Model.C10AvxLanes
  Proofs.C10Avx Proofs.C10Kernels Proofs.C10Simd Model.C07Ntt120 Proofs.C10Ntt
  Model.Limbs Model.Ring Proofs.C10Ring.
Open Scope Z_scope.

Theorem C10_land_mask_mod : forall b x : Z, 0 <= b -> Z.land x (2 ^ b - 1) = x mod 2 ^ b.
Proof. exact land_mask_mod. Qed.
Print Assumptions C10_land_mask_mod.

(* xor/sub sign extension on a b-bit value *)
Theorem C10_lxor_sign : forall b v : Z, 1 <= b -> 0 <= v < 2 ^ b ->
  Z.lxor v (2 ^ (b - 1)) = if v <? 2 ^ (b - 1) then v + 2 ^ (b - 1) else v - 2 ^ (b - 1).
Proof. exact lxor_sign. Qed.
Print Assumptions C10_lxor_sign.

(* logical shift right of the bit pattern, OR-ed with the sign fill, is the arithmetic shift (floor division) *)
Theorem C10_lsr_fill_asr : forall k y : Z, 1 <= k <= 63 -> in_range 64 y ->
  mm_or (of_u (Z.shiftr (to_u y) k)) (mm_and (mm_cmpgt mm_setzero y) (- 2 ^ (64 - k))) = y / 2 ^ k.
Proof. exact lsr_fill_asr. Qed.
Print Assumptions C10_lsr_fill_asr.

(* digit / carry helpers (normalize_consts_avx + get_digit_avx / get_carry_avx) *)
Theorem C10_avx_digit_eq_ref : forall b x : Z, 1 <= b <= 63 -> digit_avx b x = get_digit 64 b x.
Proof. exact avx_digit_eq_ref. Qed.
Print Assumptions C10_avx_digit_eq_ref.

Theorem C10_avx_carry_eq_ref : forall b x d : Z, 1 <= b <= 63 -> carry_avx b x d = get_carry 64 b x d.
Proof. exact avx_carry_eq_ref. Qed.
Print Assumptions C10_avx_carry_eq_ref.

(* normalisation kernels: lane function = scalar kernel, every lane value, 1 <= b <= 63, 0 <= lsh < b *)
Theorem C10_avx_first_step_carry_only_eq_ref : forall b lsh x : Z, 1 <= b <= 63 -> 0 <= lsh < b ->
  first_step_carry_only_avx b lsh x = first_step_carry_only 64 b lsh x.
Proof.
  intros b lsh x Hb Hl. unfold first_step_carry_only_avx, first_step_carry_only.
  destruct (Z.eqb_spec lsh 0) as [H0|H0]; rewrite consts_eq by lia; avx_norm; reflexivity.
Qed.
Print Assumptions C10_avx_first_step_carry_only_eq_ref.

Theorem C10_avx_first_step_assign_eq_ref : forall b lsh x : Z, 1 <= b <= 63 -> 0 <= lsh < b ->
  first_step_assign_avx b lsh x = first_step_assign 64 b lsh x.
Proof.
  intros b lsh x Hb Hl. unfold first_step_assign_avx, first_step_assign.
  destruct (Z.eqb_spec lsh 0) as [H0|H0]; rewrite consts_eq by lia; avx_norm; reflexivity.
Qed.
Print Assumptions C10_avx_first_step_assign_eq_ref.

Theorem C10_avx_first_step_eq_ref : forall (ov : bool) (b lsh x a : Z), 1 <= b <= 63 -> 0 <= lsh < b ->
  first_step_avx ov b lsh x a = first_step 64 ov b lsh x a.
Proof.
  intros ov b lsh x a Hb Hl. unfold first_step_avx, first_step.
  destruct (Z.eqb_spec lsh 0) as [H0|H0]; rewrite consts_eq by lia; destruct ov; avx_norm; reflexivity.
Qed.
Print Assumptions C10_avx_first_step_eq_ref.

Theorem C10_avx_middle_step_carry_only_eq_ref : forall b lsh x c : Z, 1 <= b <= 63 -> 0 <= lsh < b ->
  middle_step_carry_only_avx b lsh x c = middle_step_carry_only 64 b lsh x c.
Proof.
  intros b lsh x c Hb Hl. unfold middle_step_carry_only_avx, middle_step_carry_only.
  rewrite avx_middle_body_eq_ref by lia. reflexivity.
Qed.
Print Assumptions C10_avx_middle_step_carry_only_eq_ref.

Theorem C10_avx_middle_step_assign_eq_ref : forall b lsh x c : Z, 1 <= b <= 63 -> 0 <= lsh < b ->
  middle_step_assign_avx b lsh x c = middle_step_assign 64 b lsh x c.
Proof. intros b lsh x c Hb Hl. apply avx_middle_body_eq_ref; lia. Qed.
Print Assumptions C10_avx_middle_step_assign_eq_ref.

Theorem C10_avx_middle_step_eq_ref : forall (ov : bool) (b lsh x a c : Z), 1 <= b <= 63 -> 0 <= lsh < b ->
  middle_step_avx ov b lsh x a c = middle_step 64 ov b lsh x a c.
Proof.
  intros ov b lsh x a c Hb Hl. unfold middle_step_avx, middle_step.
  rewrite avx_middle_body_eq_ref by lia.
  destruct (middle_core 64 b lsh a c) as [x1 c']. destruct ov; reflexivity.
Qed.
Print Assumptions C10_avx_middle_step_eq_ref.

Theorem C10_avx_middle_step_sub_eq_ref : forall b lsh x a c : Z, 1 <= b <= 63 -> 0 <= lsh < b ->
  middle_step_sub_avx b lsh x a c = middle_step_sub 64 b lsh x a c.
Proof.
  intros b lsh x a c Hb Hl. unfold middle_step_sub_avx, middle_step_sub.
  rewrite avx_middle_body_eq_ref by lia.
  destruct (middle_core 64 b lsh a c) as [x1 c']. reflexivity.
Qed.
Print Assumptions C10_avx_middle_step_sub_eq_ref.

Theorem C10_avx_final_step_assign_eq_ref : forall b lsh x c : Z, 1 <= b <= 63 -> 0 <= lsh < b ->
  final_step_assign_avx b lsh x c = final_step_assign 64 b lsh x c.
Proof. intros b lsh x c Hb Hl. apply avx_final_body_eq_ref; lia. Qed.
Print Assumptions C10_avx_final_step_assign_eq_ref.

Theorem C10_avx_final_step_eq_ref : forall (ov : bool) (b lsh x a c : Z), 1 <= b <= 63 -> 0 <= lsh < b ->
  final_step_avx ov b lsh x a c = final_step 64 ov b lsh x a c.
Proof.
  intros ov b lsh x a c Hb Hl. unfold final_step_avx, final_step.
  rewrite avx_final_body_eq_ref by lia. destruct ov; reflexivity.
Qed.
Print Assumptions C10_avx_final_step_eq_ref.

Theorem C10_avx_final_step_sub_eq_ref : forall b lsh x a c : Z, 1 <= b <= 63 -> 0 <= lsh < b ->
  final_step_sub_avx b lsh x a c = final_step_sub 64 b lsh x a c.
Proof.
  intros b lsh x a c Hb Hl. unfold final_step_sub_avx, final_step_sub.
  rewrite avx_final_body_eq_ref by lia. reflexivity.
Qed.
Print Assumptions C10_avx_final_step_sub_eq_ref.

(* lsh of extract_digit_addmul is independent of the radix: any shift count 0..63 *)
Theorem C10_avx_extract_digit_addmul_eq_ref : forall b lsh r s : Z, 1 <= b <= 63 -> 0 <= lsh <= 63 ->
  extract_digit_addmul_avx b lsh r s = extract_digit_addmul 64 b lsh r s.
Proof.
  intros b lsh r s Hb Hl. unfold extract_digit_addmul_avx, extract_digit_addmul.
  rewrite consts_eq by lia. avx_norm. reflexivity.
Qed.
Print Assumptions C10_avx_extract_digit_addmul_eq_ref.

Theorem C10_avx_normalize_digit_eq_ref : forall b r s : Z, 1 <= b <= 63 ->
  normalize_digit_avx b r s = normalize_digit 64 b r s.
Proof.
  intros b r s Hb. unfold normalize_digit_avx, normalize_digit.
  rewrite consts_eq by lia. avx_norm. reflexivity.
Qed.
Print Assumptions C10_avx_normalize_digit_eq_ref.

(* mul.rs: |k| <= 63 is the kernels' contract (debug_assert!(k <= 63) / assert!((1..=63).contains(&kp))) *)
Theorem C10_avx_mul_power_of_two_eq_ref : forall k x : Z, -63 <= k <= 63 -> in_range 64 x ->
  mul_power_of_two_avx k x = mul_power_of_two 64 k x.
Proof.
  intros k x Hk Hx. unfold mul_power_of_two_avx, mul_power_of_two.
  destruct (Z.eqb_spec k 0) as [H0|H0]; [reflexivity|].
  destruct (Z.ltb_spec 0 k) as [Hp|Hn].
  - apply mm_sll_shl; lia.
  - cbv zeta. apply avx_mul_pow2_neg_body; [lia|exact Hx].
Qed.
Print Assumptions C10_avx_mul_power_of_two_eq_ref.

Theorem C10_avx_mul_add_power_of_two_eq_ref : forall k y x : Z, -63 <= k <= 63 -> in_range 64 x ->
  mul_add_power_of_two_avx k y x = mul_add_power_of_two 64 k y x.
Proof.
  intros k y x Hk Hx. unfold mul_add_power_of_two.
  rewrite <- C10_avx_mul_power_of_two_eq_ref by assumption.
  unfold mul_add_power_of_two_avx, mul_power_of_two_avx.
  destruct (Z.eqb_spec k 0) as [H0|H0]; [reflexivity|].
  destruct (Z.ltb_spec 0 k) as [Hp|Hn]; reflexivity.
Qed.
Print Assumptions C10_avx_mul_add_power_of_two_eq_ref.

Theorem C10_avx_add_eq_ref : forall a b : Z, add_avx a b = wadd 64 a b.
Proof. intros a b. reflexivity. Qed.
Print Assumptions C10_avx_add_eq_ref.
Theorem C10_avx_sub_eq_ref : forall a b : Z, sub_avx a b = wsub 64 a b.
Proof. intros a b. reflexivity. Qed.
Print Assumptions C10_avx_sub_eq_ref.
Theorem C10_avx_sub_negate_assign_eq_ref : forall r a : Z, sub_negate_assign_avx r a = wsub 64 a r.
Proof. intros r a. reflexivity. Qed.
Print Assumptions C10_avx_sub_negate_assign_eq_ref.
Theorem C10_avx_negate_eq_ref : forall v : Z, negate_avx v = wneg 64 v.
Proof. intros v. unfold negate_avx, mm_sub, mm_setzero, wneg. f_equal. Qed.
Print Assumptions C10_avx_negate_eq_ref.

(* loop skeleton: span = n >> 2 chunks of 4 lanes, then the scalar kernel on the tail *)
Theorem C10_simd_loop_split : forall (A : Type) (l : list A),
  let n := length l in let span := Nat.shiftr n 2 in
  l = firstn (4 * span) l ++ skipn (Nat.shiftl span 2) l /\
  length (firstn (4 * span) l) = (4 * span)%nat /\
  length (skipn (Nat.shiftl span 2) l) = (n mod 4)%nat /\
  (n mod 4 < 4)%nat /\ (4 * span + n mod 4 = n)%nat.
Proof. exact (@simd_loop_split). Qed.
Print Assumptions C10_simd_loop_split.

Theorem C10_simd_loop_partition : forall (A B : Type) (lane_f scalar_f : A -> B) (l : list A),
  (forall x, lane_f x = scalar_f x) -> simd_map lane_f scalar_f l = map scalar_f l.
Proof. exact (@simd_loop_partition). Qed.
Print Assumptions C10_simd_loop_partition.

(* one vector-level instance, spelled out: znx_normalize_middle_step_avx::<OVERWRITE> on slices (x, a, carry) zipped *)
Theorem C10_avx_vec_middle_step : forall (ov : bool) (b lsh : Z) (l : list (Z * Z * Z)),
  1 <= b <= 63 -> 0 <= lsh < b ->
  simd_map (fun t => middle_step_avx ov b lsh (fst (fst t)) (snd (fst t)) (snd t))
           (fun t => middle_step 64 ov b lsh (fst (fst t)) (snd (fst t)) (snd t)) l
  = map (fun t => middle_step 64 ov b lsh (fst (fst t)) (snd (fst t)) (snd t)) l.
Proof. intros ov b lsh l Hb Hl. apply simd_loop_partition. intros t. apply C10_avx_middle_step_eq_ref; assumption. Qed.
Print Assumptions C10_avx_vec_middle_step.

(* vector level: every normalisation / mul kernel on whole slices = map of the scalar kernel, every length *)
Theorem C10_avx_vec_first_step_carry_only : forall (b lsh : Z), 1 <= b <= 63 -> 0 <= lsh < b -> forall (l : list (Z)),
  simd_map (first_step_carry_only_avx b lsh) (first_step_carry_only 64 b lsh) l = map (first_step_carry_only 64 b lsh) l.
Proof. intros b lsh Hb Hl l. apply simd_loop_partition. intros t. apply C10_avx_first_step_carry_only_eq_ref; assumption. Qed.
Print Assumptions C10_avx_vec_first_step_carry_only.

Theorem C10_avx_vec_first_step_assign : forall (b lsh : Z), 1 <= b <= 63 -> 0 <= lsh < b -> forall (l : list (Z)),
  simd_map (first_step_assign_avx b lsh) (first_step_assign 64 b lsh) l = map (first_step_assign 64 b lsh) l.
Proof. intros b lsh Hb Hl l. apply simd_loop_partition. intros t. apply C10_avx_first_step_assign_eq_ref; assumption. Qed.
Print Assumptions C10_avx_vec_first_step_assign.

Theorem C10_avx_vec_first_step : forall (b lsh : Z), 1 <= b <= 63 -> 0 <= lsh < b -> forall (ov : bool) (l : list (Z * Z)),
  simd_map (fun t => first_step_avx ov b lsh (fst t) (snd t)) (fun t => first_step 64 ov b lsh (fst t) (snd t)) l
  = map (fun t => first_step 64 ov b lsh (fst t) (snd t)) l.
Proof. intros b lsh Hb Hl ov l. apply simd_loop_partition. intros t. apply C10_avx_first_step_eq_ref; assumption. Qed.
Print Assumptions C10_avx_vec_first_step.

Theorem C10_avx_vec_middle_step_carry_only : forall (b lsh : Z), 1 <= b <= 63 -> 0 <= lsh < b -> forall (l : list (Z * Z)),
  simd_map (fun t => middle_step_carry_only_avx b lsh (fst t) (snd t)) (fun t => middle_step_carry_only 64 b lsh (fst t) (snd t)) l
  = map (fun t => middle_step_carry_only 64 b lsh (fst t) (snd t)) l.
Proof. intros b lsh Hb Hl l. apply simd_loop_partition. intros t. apply C10_avx_middle_step_carry_only_eq_ref; assumption. Qed.
Print Assumptions C10_avx_vec_middle_step_carry_only.

Theorem C10_avx_vec_middle_step_assign : forall (b lsh : Z), 1 <= b <= 63 -> 0 <= lsh < b -> forall (l : list (Z * Z)),
  simd_map (fun t => middle_step_assign_avx b lsh (fst t) (snd t)) (fun t => middle_step_assign 64 b lsh (fst t) (snd t)) l
  = map (fun t => middle_step_assign 64 b lsh (fst t) (snd t)) l.
Proof. intros b lsh Hb Hl l. apply simd_loop_partition. intros t. apply C10_avx_middle_step_assign_eq_ref; assumption. Qed.
Print Assumptions C10_avx_vec_middle_step_assign.

Theorem C10_avx_vec_middle_step_sub : forall (b lsh : Z), 1 <= b <= 63 -> 0 <= lsh < b -> forall (l : list (Z * Z * Z)),
  simd_map (fun t => middle_step_sub_avx b lsh (fst (fst t)) (snd (fst t)) (snd t))
           (fun t => middle_step_sub 64 b lsh (fst (fst t)) (snd (fst t)) (snd t)) l
  = map (fun t => middle_step_sub 64 b lsh (fst (fst t)) (snd (fst t)) (snd t)) l.
Proof. intros b lsh Hb Hl l. apply simd_loop_partition. intros t. apply C10_avx_middle_step_sub_eq_ref; assumption. Qed.
Print Assumptions C10_avx_vec_middle_step_sub.

Theorem C10_avx_vec_final_step_assign : forall (b lsh : Z), 1 <= b <= 63 -> 0 <= lsh < b -> forall (l : list (Z * Z)),
  simd_map (fun t => final_step_assign_avx b lsh (fst t) (snd t)) (fun t => final_step_assign 64 b lsh (fst t) (snd t)) l
  = map (fun t => final_step_assign 64 b lsh (fst t) (snd t)) l.
Proof. intros b lsh Hb Hl l. apply simd_loop_partition. intros t. apply C10_avx_final_step_assign_eq_ref; assumption. Qed.
Print Assumptions C10_avx_vec_final_step_assign.

Theorem C10_avx_vec_final_step : forall (b lsh : Z), 1 <= b <= 63 -> 0 <= lsh < b -> forall (ov : bool) (l : list (Z * Z * Z)),
  simd_map (fun t => final_step_avx ov b lsh (fst (fst t)) (snd (fst t)) (snd t))
           (fun t => final_step 64 ov b lsh (fst (fst t)) (snd (fst t)) (snd t)) l
  = map (fun t => final_step 64 ov b lsh (fst (fst t)) (snd (fst t)) (snd t)) l.
Proof. intros b lsh Hb Hl ov l. apply simd_loop_partition. intros t. apply C10_avx_final_step_eq_ref; assumption. Qed.
Print Assumptions C10_avx_vec_final_step.

Theorem C10_avx_vec_final_step_sub : forall (b lsh : Z), 1 <= b <= 63 -> 0 <= lsh < b -> forall (l : list (Z * Z * Z)),
  simd_map (fun t => final_step_sub_avx b lsh (fst (fst t)) (snd (fst t)) (snd t))
           (fun t => final_step_sub 64 b lsh (fst (fst t)) (snd (fst t)) (snd t)) l
  = map (fun t => final_step_sub 64 b lsh (fst (fst t)) (snd (fst t)) (snd t)) l.
Proof. intros b lsh Hb Hl l. apply simd_loop_partition. intros t. apply C10_avx_final_step_sub_eq_ref; assumption. Qed.
Print Assumptions C10_avx_vec_final_step_sub.

Theorem C10_avx_vec_extract_digit_addmul : forall (b lsh : Z) (l : list (Z * Z)),
  1 <= b <= 63 -> 0 <= lsh <= 63 ->
  simd_map (fun t => extract_digit_addmul_avx b lsh (fst t) (snd t)) (fun t => extract_digit_addmul 64 b lsh (fst t) (snd t)) l
  = map (fun t => extract_digit_addmul 64 b lsh (fst t) (snd t)) l.
Proof. intros b lsh l Hb Hl. apply simd_loop_partition. intros t. apply C10_avx_extract_digit_addmul_eq_ref; assumption. Qed.
Print Assumptions C10_avx_vec_extract_digit_addmul.

Theorem C10_avx_vec_normalize_digit : forall (b : Z) (l : list (Z * Z)),
  1 <= b <= 63 ->
  simd_map (fun t => normalize_digit_avx b (fst t) (snd t)) (fun t => normalize_digit 64 b (fst t) (snd t)) l
  = map (fun t => normalize_digit 64 b (fst t) (snd t)) l.
Proof. intros b l Hb. apply simd_loop_partition. intros t. apply C10_avx_normalize_digit_eq_ref; assumption. Qed.
Print Assumptions C10_avx_vec_normalize_digit.

Theorem C10_avx_vec_mul_power_of_two : forall (k : Z) (l : list (Z)),
  -63 <= k <= 63 -> Forall (in_range 64) l ->
  simd_map (mul_power_of_two_avx k) (mul_power_of_two 64 k) l = map (mul_power_of_two 64 k) l.
Proof.
  intros k l Hk Hr. apply simd_loop_partition_in. intros x Hx.
  apply C10_avx_mul_power_of_two_eq_ref; [exact Hk|]. rewrite Forall_forall in Hr. apply Hr; exact Hx.
Qed.
Print Assumptions C10_avx_vec_mul_power_of_two.

Theorem C10_avx_vec_mul_add_power_of_two : forall (k : Z) (l : list (Z * Z)),
  -63 <= k <= 63 -> Forall (fun t => in_range 64 (snd t)) l ->
  simd_map (fun t => mul_add_power_of_two_avx k (fst t) (snd t)) (fun t => mul_add_power_of_two 64 k (fst t) (snd t)) l
  = map (fun t => mul_add_power_of_two 64 k (fst t) (snd t)) l.
Proof.
  intros k l Hk Hr. apply simd_loop_partition_in. intros x Hx.
  apply C10_avx_mul_add_power_of_two_eq_ref; [exact Hk|]. rewrite Forall_forall in Hr. apply Hr; exact Hx.
Qed.
Print Assumptions C10_avx_vec_mul_add_power_of_two.

(* NTT120 (Primes30): Barrett step with mu = floor(2^61/Q), c_from_b_avx2 and b_from_znx64_avx2 lane bodies *)
Theorem C10_barrett_reduce_eq : forall q tmp : Z, 2 ^ 29 < q < 2 ^ 30 -> 0 <= tmp < 2 ^ 61 ->
  barrett_reduce_avx tmp q (2 ^ 61 / q) = tmp mod q.
Proof. exact barrett_reduce_eq. Qed.
Print Assumptions C10_barrett_reduce_eq.

Theorem C10_c_from_b_avx_eq_ref : forall q x : Z, 2 ^ 29 < q < 2 ^ 30 ->
  (2 ^ 32 - q) * (2 ^ 32 mod q) + 2 ^ 32 <= 2 ^ 61 -> 0 <= x < 2 ^ 64 ->
  c_from_b_k_avx q x = c_from_b_k q x.
Proof. exact c_from_b_avx_eq_ref. Qed.
Print Assumptions C10_c_from_b_avx_eq_ref.

(* the four primes of Primes30 (translated from /repo: Gen/C07Consts_gen.v), every u64 input *)
Theorem C10_c_from_b_avx_eq_ref_primes30 : forall q x : Z, In q primes30_Q -> 0 <= x < 2 ^ 64 ->
  c_from_b_k_avx q x = c_from_b_k q x.
Proof. intros q x Hin Hx. destruct (primes30_side q Hin). apply c_from_b_avx_eq_ref; assumption. Qed.
Print Assumptions C10_c_from_b_avx_eq_ref_primes30.

Theorem C10_b_from_znx64_avx_eq_ref : forall q x : Z, 1 <= q < 2 ^ 62 -> in_range 64 x ->
  b_from_znx64_k_avx q x = b_from_znx64_k q x.
Proof. exact b_from_znx64_avx_eq_ref. Qed.
Print Assumptions C10_b_from_znx64_avx_eq_ref.

(* automorphism / switch_ring: the whole vector kernels (index maps, gathers, conditional negation) *)
Theorem C10_inv_mod_pow2_correct : forall p bits : Z, Z.odd p = true -> 1 <= bits <= 63 ->
  0 <= inv_mod_pow2 p bits < 2 ^ bits /\ (inv_mod_pow2 p bits * p) mod 2 ^ bits = 1.
Proof. exact inv_mod_pow2_correct. Qed.
Print Assumptions C10_inv_mod_pow2_correct.

(* contract of the kernel: n = 2^m (assert), p odd (debug_assert); lengths up to 2^60; any prior content r0 of res *)
Theorem C10_avx_automorphism_eq_ref : forall (p m : Z) (r0 a : list Z),
  0 <= m <= 60 -> Z.of_nat (length a) = 2 ^ m -> Z.odd p = true -> in_range 64 p ->
  length r0 = length a -> Forall (in_range 64) a ->
  znx_automorphism_avx p r0 a = znx_automorphism_onto 64 p r0 a.
Proof. exact avx_automorphism_eq_ref. Qed.
Print Assumptions C10_avx_automorphism_eq_ref.

(* contract: n_in = 2^m and max(n_in, n_out) a multiple of min(n_in, n_out) (the kernel's debug asserts) *)
Theorem C10_avx_switch_ring_eq_ref : forall (m : Z) (n_out : nat) (r0 a : list Z),
  0 <= m <= 60 -> Z.of_nat (length a) = 2 ^ m -> (0 < n_out)%nat -> Z.of_nat n_out < 2 ^ 62 ->
  length r0 = n_out ->
  (Nat.max (length a) n_out mod Nat.min (length a) n_out = 0)%nat ->
  znx_switch_ring_avx n_out r0 a = znx_switch_ring n_out r0 a.
Proof. exact avx_switch_ring_eq_ref. Qed.
Print Assumptions C10_avx_switch_ring_eq_ref.

(* boundary lanes: i64::MIN, i64::MAX, -1, 2^62 *)
Definition bnd : list Z := [- 2 ^ 63; 2 ^ 63 - 1; -1; 2 ^ 62].
Example C10_ex_bnd_in_range : forallb (in_rangeb 64) bnd = true.
Proof. vm_compute. reflexivity. Qed.
Example C10_ex_digit : map (digit_avx 12) bnd = map (get_digit 64 12) bnd /\ map (digit_avx 12) bnd = [0; -1; -1; 0].
Proof. vm_compute. split; reflexivity. Qed.
Example C10_ex_digit_b63 : map (digit_avx 63) bnd = [0; -1; -1; - 2 ^ 62].
Proof. vm_compute. reflexivity. Qed.
(* the carry wraps on i64::MAX exactly as the scalar one (x - digit overflows) *)
Example C10_ex_carry_wrap : carry_avx 2 (2 ^ 63 - 1) (digit_avx 2 (2 ^ 63 - 1)) = - 2 ^ 61
  /\ get_carry 64 2 (2 ^ 63 - 1) (get_digit 64 2 (2 ^ 63 - 1)) = - 2 ^ 61.
Proof. vm_compute. split; reflexivity. Qed.
Example C10_ex_middle : map (fun x => middle_step_avx false 17 5 x (2 ^ 63 - 1) (- 2 ^ 63)) bnd
                      = map (fun x => middle_step 64 false 17 5 x (2 ^ 63 - 1) (- 2 ^ 63)) bnd.
Proof. vm_compute. reflexivity. Qed.
(* x + bias wraps on i64::MAX and 2^62: both backends round them to -1 *)
Example C10_ex_mul_neg : map (mul_power_of_two_avx (-63)) bnd = [-1; -1; 0; -1]
  /\ map (mul_power_of_two 64 (-63)) bnd = [-1; -1; 0; -1].
Proof. vm_compute. split; reflexivity. Qed.
Example C10_ex_mul_pos : map (mul_power_of_two_avx 63) bnd = map (mul_power_of_two 64 63) bnd.
Proof. vm_compute. reflexivity. Qed.
Example C10_ex_simd_tail : forall f : Z -> Z,
  simd_map f f [1; 2; 3; 4; 5] = [f 1; f 2; f 3; f 4; f 5] /\ simd_map f f [1; 2; 3] = [f 1; f 2; f 3] /\
  simd_map f f [1] = [f 1] /\ simd_map f f [] = [].
Proof. intros f. repeat split. Qed.
Example C10_ex_c_from_b : map (fun x => c_from_b_k_avx 1073479681 x) [0; 2 ^ 64 - 1; 2 ^ 63; 1073479681 * 2 ^ 33]
                        = map (fun x => c_from_b_k 1073479681 x) [0; 2 ^ 64 - 1; 2 ^ 63; 1073479681 * 2 ^ 33].
Proof. vm_compute. reflexivity. Qed.
Example C10_ex_b_from_znx64 : map (b_from_znx64_k_avx 1068236801) bnd = map (b_from_znx64_k 1068236801) bnd.
Proof. vm_compute. reflexivity. Qed.
Example C10_ex_automorphism : znx_automorphism_avx (-5) [0; 0; 0; 0; 0; 0; 0; 0] [- 2 ^ 63; 2 ^ 63 - 1; -1; 2 ^ 62; 5; 6; 7; 8]
                            = znx_automorphism_onto 64 (-5) [0; 0; 0; 0; 0; 0; 0; 0] [- 2 ^ 63; 2 ^ 63 - 1; -1; 2 ^ 62; 5; 6; 7; 8].
Proof. vm_compute. reflexivity. Qed.
Example C10_ex_switch_ring : znx_switch_ring_avx 4 [9; 9; 9; 9] [- 2 ^ 63; 2 ^ 63 - 1; -1; 2 ^ 62; 5; 6; 7; 8] = [- 2 ^ 63; -1; 5; 7]
  /\ znx_switch_ring_avx 12 (repeat 9 12) [- 2 ^ 63; 2 ^ 63 - 1; -1; 2 ^ 62] = znx_switch_ring 12 (repeat 9 12) [- 2 ^ 63; 2 ^ 63 - 1; -1; 2 ^ 62].
Proof. vm_compute. split; reflexivity. Qed.

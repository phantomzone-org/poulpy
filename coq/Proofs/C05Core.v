(* C05 part 2 — proofs about the core-level model (Model/C05Core.v): the three ways a tensor column is filled as identities
   between vector expressions (square = self-multiplication, accumulate = add the product), the value of every tensor
   column and the phase of the tensor under (1, s, s (x) s) over exact products, column-wise products (column_phase, with
   mul_plain_phase / mul_const_phase at the end of the file), a normaliser that satisfies the Section hypotheses (`reshape`),
   the resummation and norm lemmas behind Props/C05.v.  The per-column big-normalisation enters through named Section
   hypotheses (`nrm_shape`, `nrm_no_overflow`, `normalize_value_ok`). *)
From PV Require Import Base.MachineInt Model.Znx Model.Limbs Model.LimbsBig Model.Flat Model.Ring Model.DftAbs
  Model.C05Cnv Model.C05Spec Model.C05Core.
From PV Require Import Proofs.C07Dft Proofs.C07Ring Proofs.C05Cnv Proofs.PolyFacts.
Open Scope Z_scope.

Definition shaped (n rsz : nat) (l : limbs) : Prop := length l = rsz /\ forall j, (j < rsz)%nat -> length (lnth l j) = n.

Lemma build_length rsz f : length (build rsz f) = rsz.
Proof. unfold build; rewrite map_length, seq_length; reflexivity. Qed.
Lemma lnth_build rsz f j : (j < rsz)%nat -> lnth (build rsz f) j = f j.
Proof. apply lim_mk'. Qed.

Lemma wrap_wrap_sub_l w x y : 1 <= w -> wrap w (wrap w x - y) = wrap w (x - y).
Proof. intros Hw. exact (wrap_wrap_add_l w x (- y) Hw). Qed.

Lemma wrap3_apply_val w p di dj : 1 <= w -> wadd w (wsub w (wneg w di) dj) p = wrap w (p - di - dj).
Proof. intros Hw. unfold wadd, wsub, wneg. rewrite wrap_wrap_sub_l, wrap_wrap_add_l by exact Hw. f_equal. ring. Qed.

Lemma wrap3_square w p di dj : 1 <= w ->
  wsub w (wsub w p di) dj = wadd w (wsub w (wneg w di) dj) p.
Proof. intros Hw. rewrite wrap3_apply_val by exact Hw. apply wrap_wrap_sub_l; exact Hw. Qed.

Lemma wrap3_add_assign w r p di dj : 1 <= w ->
  wadd w (wsub w (wsub w r di) dj) p = wadd w r (wadd w (wsub w (wneg w di) dj) p).
Proof.
  intros Hw. rewrite wrap3_apply_val by exact Hw. unfold wadd, wsub.
  rewrite wrap_wrap_sub_l, wrap_wrap_add_l, wrap_wrap_add_r by exact Hw. f_equal. ring.
Qed.

Lemma map2_ext_nth (f g : Z -> Z -> Z) x y x' y' :
  length x = length x' -> length y = length y' ->
  (forall k, (k < length x)%nat -> (k < length y)%nat -> f (nth k x 0) (nth k y 0) = g (nth k x' 0) (nth k y' 0)) ->
  map2 f x y = map2 g x' y'.
Proof.
  intros Hx Hy H. apply list_eq_nth; [rewrite !map2_length; lia|].
  rewrite map2_length. intros k Hk. rewrite !nth_map2 by lia. apply H; lia.
Qed.

Lemma vadd_length w x y : length (vadd w x y) = Nat.min (length x) (length y).
Proof. apply map2_length. Qed.
Lemma vsub_length w x y : length (vsub w x y) = Nat.min (length x) (length y).
Proof. apply map2_length. Qed.
Lemma vneg_length w x : length (vneg w x) = length x.
Proof. apply map_length. Qed.
Lemma nth_vadd w x y k : (k < length x)%nat -> (k < length y)%nat -> nth k (vadd w x y) 0 = wadd w (nth k x 0) (nth k y 0).
Proof. apply nth_map2. Qed.
Lemma nth_vsub w x y k : (k < length x)%nat -> (k < length y)%nat -> nth k (vsub w x y) 0 = wsub w (nth k x 0) (nth k y 0).
Proof. apply nth_map2. Qed.
Lemma nth_vneg w x k : (k < length x)%nat -> nth k (vneg w x) 0 = wneg w (nth k x 0).
Proof. intros H. unfold vneg. rewrite (nth_map' _ _ _ _ 0) by exact H. reflexivity. Qed.

Lemma limb_square w p di dj n : 1 <= w -> length p = n -> length di = n -> length dj = n ->
  vsub w (vsub w p di) dj = vadd w (vsub w (vneg w di) dj) p.
Proof.
  intros Hw Hp Hi Hj. apply list_eq_nth.
  { rewrite vadd_length, !vsub_length, vneg_length. lia. }
  rewrite !vsub_length. intros k Hk.
  rewrite nth_vsub, nth_vsub, nth_vadd, nth_vsub, nth_vneg by (rewrite ?vsub_length, ?vneg_length; lia).
  apply wrap3_square; exact Hw.
Qed.

Lemma limb_add_assign w r p di dj n : 1 <= w -> length r = n -> length p = n -> length di = n -> length dj = n ->
  vadd w (vsub w (vsub w r di) dj) p = vadd w r (vadd w (vsub w (vneg w di) dj) p).
Proof.
  intros Hw Hr Hp Hi Hj. apply list_eq_nth.
  { rewrite !vadd_length, !vsub_length, vneg_length. lia. }
  rewrite vadd_length, !vsub_length. intros k Hk.
  rewrite nth_vadd, nth_vsub, nth_vsub, nth_vadd, nth_vadd, nth_vsub, nth_vneg
    by (rewrite ?vadd_length, ?vsub_length, ?vneg_length; lia).
  apply wrap3_add_assign; exact Hw.
Qed.

Lemma W_pos : 1 <= W. Proof. unfold W; lia. Qed.

Lemma vec_unary_length n f a r0 : length (vec_unary n f a r0) = length r0.
Proof. apply build_length. Qed.
Lemma vec_add_assign_length w a r0 : length (vec_add_assign w a r0) = length r0.
Proof. apply build_length. Qed.
Lemma vec_sub_assign_length w a r0 : length (vec_sub_assign w a r0) = length r0.
Proof. apply build_length. Qed.

Lemma lnth_build_lt rsz m (F G : nat -> list Z) u : (u < rsz)%nat -> (u < m)%nat ->
  lnth (build rsz (fun j => if Nat.ltb j m then F j else G j)) u = F u.
Proof. intros Hu Hm. rewrite lnth_build by exact Hu. apply Nat.ltb_lt in Hm. rewrite Hm. reflexivity. Qed.

Lemma lnth_vec_unary n f a r0 u : (u < length r0)%nat -> (u < length a)%nat -> lnth (vec_unary n f a r0) u = f (lnth a u).
Proof. apply lnth_build_lt. Qed.
Lemma lnth_vec_add_assign w a r0 u : (u < length r0)%nat -> (u < length a)%nat ->
  lnth (vec_add_assign w a r0) u = vadd w (lnth r0 u) (lnth a u).
Proof. apply lnth_build_lt. Qed.
Lemma lnth_vec_sub_assign w a r0 u : (u < length r0)%nat -> (u < length a)%nat ->
  lnth (vec_sub_assign w a r0) u = vsub w (lnth r0 u) (lnth a u).
Proof. apply lnth_build_lt. Qed.

Lemma limbs_ext (l l' : limbs) : length l = length l' -> (forall u, (u < length l)%nat -> lnth l u = lnth l' u) -> l = l'.
Proof. intros HL H. apply (nth_ext _ _ [] [] HL). exact H. Qed.

(* the three ways the code fills a tensor column, on a diagonal term d (di, dj) and a pairwise term p of the column's shape *)
Section CellForms.
Variables (n rsz : nat) (di dj p r0 : limbs).
Hypothesis Si : shaped n rsz di.
Hypothesis Sj : shaped n rsz dj.
Hypothesis Sp : shaped n rsz p.
Hypothesis Hr : length r0 = rsz.

Lemma copy_limb u : (u < rsz)%nat -> lnth (vcopy n p r0) u = lnth p u.
Proof. intros Hu. destruct Sp as [Lp _]. apply (lnth_vec_unary n (fun l => l)); lia. Qed.

Lemma cross_apply_limb u : (u < rsz)%nat ->
  lnth (vec_add_assign W p (vec_sub_assign W dj (vnegate n di r0))) u = vadd W (vsub W (vneg W (lnth di u)) (lnth dj u)) (lnth p u).
Proof.
  intros Hu. destruct Si as [Li _], Sj as [Lj _], Sp as [Lp _]. unfold vnegate.
  rewrite lnth_vec_add_assign, lnth_vec_sub_assign, lnth_vec_unary by (rewrite ?vec_sub_assign_length, ?vec_unary_length; lia).
  reflexivity.
Qed.

Lemma cross_apply_shaped : shaped n rsz (vec_add_assign W p (vec_sub_assign W dj (vnegate n di r0))).
Proof.
  split; [rewrite vec_add_assign_length, vec_sub_assign_length; unfold vnegate; rewrite vec_unary_length; exact Hr|].
  intros u Hu. rewrite cross_apply_limb by exact Hu.
  rewrite vadd_length, vsub_length, vneg_length, (proj2 Si), (proj2 Sj), (proj2 Sp) by exact Hu. lia.
Qed.

(* square: (pairwise - diag_i) - diag_j is (-diag_i - diag_j) + pairwise, bit for bit *)
Lemma cross_square_eq_apply :
  vec_sub_assign W dj (vec_sub_assign W di (vcopy n p r0)) = vec_add_assign W p (vec_sub_assign W dj (vnegate n di r0)).
Proof.
  destruct Si as [Li Ni], Sj as [Lj Nj], Sp as [Lp Np].
  apply limbs_ext; unfold vcopy, vnegate; rewrite ?vec_add_assign_length, !vec_sub_assign_length, ?vec_unary_length; [reflexivity|].
  rewrite Hr. intros u Hu. fold (vcopy n p r0) (vnegate n di r0). rewrite cross_apply_limb by exact Hu.
  rewrite !lnth_vec_sub_assign, copy_limb by (rewrite ?vec_sub_assign_length; unfold vcopy; rewrite ?vec_unary_length; lia).
  apply (limb_square W _ _ _ n W_pos); auto.
Qed.

(* add_assign: the accumulated column is the prior column plus the column glwe_tensor_apply would produce *)
Lemma cross_add_assign_eq : shaped n rsz r0 ->
  vec_add_assign W p (vec_sub_assign W dj (vec_sub_assign W di r0)) =
  vec_add_assign W (vec_add_assign W p (vec_sub_assign W dj (vnegate n di r0))) r0.
Proof.
  intros [_ Nr]. destruct Si as [Li Ni], Sj as [Lj Nj], Sp as [Lp Np].
  apply limbs_ext; rewrite !vec_add_assign_length, ?vec_sub_assign_length; [reflexivity|].
  rewrite Hr. intros u Hu.
  rewrite (lnth_vec_add_assign W _ r0), cross_apply_limb by (rewrite ?(proj1 cross_apply_shaped); lia).
  rewrite lnth_vec_add_assign, !lnth_vec_sub_assign by (rewrite ?vec_sub_assign_length; lia).
  apply (limb_add_assign W _ _ _ _ n W_pos); auto.
Qed.
End CellForms.

Section Cells.
Variables (fft : bool) (n rsz : nat).
Variable nrm : plimbs -> limbs.
Hypothesis nrm_shape : forall D, shaped n rsz (nrm D).

Lemma cell_apply_shape dsz hi A B i j r0 : length r0 = rsz -> shaped n rsz (cell_apply fft n nrm dsz hi A B i j r0).
Proof.
  intros Hr. unfold cell_apply, diag, pairw. destruct (Nat.eqb i j).
  - split; [unfold vcopy; rewrite vec_unary_length; exact Hr|].
    intros u Hu. rewrite (copy_limb n rsz _ r0) by auto. apply nrm_shape; exact Hu.
  - apply cross_apply_shaped; auto.
Qed.

Lemma cell_square_eq_apply dsz hi A B i j r0 : length r0 = rsz ->
  cell_square fft n nrm dsz hi A B i j r0 = cell_apply fft n nrm dsz hi A B i j r0.
Proof.
  intros Hr. unfold cell_square, cell_apply, diag, pairw. destruct (Nat.eqb i j); [reflexivity|].
  apply (cross_square_eq_apply n rsz); auto.
Qed.

Lemma cell_add_assign_eq dsz hi A B i j r0 : shaped n rsz r0 ->
  cell_add_assign fft n nrm dsz hi A B i j r0 = vec_add_assign W (cell_apply fft n nrm dsz hi A B i j r0) r0.
Proof.
  intros Sr. pose proof (proj1 Sr) as Hr. unfold cell_add_assign, cell_apply, diag, pairw. destruct (Nat.eqb i j).
  - destruct (nrm_shape (cnv_apply fft n dsz hi (colsel A i) (colsel B i))) as [Li _].
    apply limbs_ext; rewrite !vec_add_assign_length; [reflexivity|]. rewrite Hr. intros u Hu.
    rewrite !lnth_vec_add_assign, (copy_limb n rsz _ r0) by (unfold vcopy; rewrite ?vec_unary_length; auto; lia). reflexivity.
  - apply (cross_add_assign_eq n rsz); auto.
Qed.

Lemma tensor_gen_ext (c1 c2 : nat -> nat -> limbs -> limbs) cols res0 :
  (forall i j r, In r res0 -> c1 i j r = c2 i j r) -> tensor_gen c1 cols res0 = tensor_gen c2 cols res0.
Proof.
  intros H. unfold tensor_gen. apply map_ext_in. intros [[i j] r] Hin. cbn [fst snd].
  apply H. apply in_combine_r in Hin. exact Hin.
Qed.

Lemma map2_map_combine {X Y Z0} (f : Y -> Z0 -> Z0) (g : X * Y -> Z0) (tp : list X) (l : list Y) :
  map2 (fun r t => f r t) l (map g (combine tp l)) = map (fun q => f (snd q) (g q)) (combine tp l).
Proof.
  revert l; induction tp as [|x tp IH]; intros [|y l]; cbn [combine map]; try reflexivity.
  unfold map2 in *. cbn [combine map fst snd]. f_equal. apply IH.
Qed.

Theorem tensor_add_assign_adds dsz hi A B cols res0 : (forall r, In r res0 -> shaped n rsz r) ->
  tensor_gen (cell_add_assign fft n nrm dsz hi A B) cols res0 =
  map2 (fun r t => vec_add_assign W t r) res0 (tensor_gen (cell_apply fft n nrm dsz hi A B) cols res0).
Proof using nrm_shape.
  intros H. unfold tensor_gen at 2.
  rewrite (map2_map_combine (fun r t => vec_add_assign W t r)).
  unfold tensor_gen. apply map_ext_in. intros [[i j] r] Hin. cbn [fst snd].
  apply cell_add_assign_eq. apply H. apply in_combine_r in Hin. exact Hin.
Qed.
End Cells.

Lemma shaped_wfl n rsz l : shaped n rsz l -> wfl n l.
Proof. intros [L S] j Hj. rewrite L in Hj. apply (S j Hj). Qed.

Definition cval (Q b : Z) (c : nat) (l : plimbs) : Z :=
  zsum (fun u => 2 ^ (Q - (zn u + 1) * b) * nth c (lim l u) 0) (length l).

Lemma pval_length n Q b l : wfl n l -> length (pval n Q b l) = n.
Proof. intros wl. unfold pval. apply psumf_length. intros u Hu. rewrite pscale_length. apply wl; exact Hu. Qed.

Lemma nth_pval n Q b l c : wfl n l -> nth c (pval n Q b l) 0 = cval Q b c l.
Proof.
  intros wl. unfold pval, cval.
  rewrite psumf_coeff by (intros u Hu; rewrite pscale_length; apply wl; exact Hu).
  apply zsum_ext; intros u _. apply nth_pscale.
Qed.

Definition lsum (l : list Z) : Z := fold_right Z.add 0 l.

Lemma fold_padd_length n l acc : length acc = n -> (forall x, In x l -> length x = n) -> length (fold_left padd l acc) = n.
Proof.
  revert acc; induction l as [|x l IH]; intros acc Ha H; [exact Ha|].
  cbn [fold_left]. apply IH; [rewrite padd_length, Ha, (H x (or_introl eq_refl)); apply Nat.min_id|].
  intros y Hy; apply H; right; exact Hy.
Qed.
Lemma fold_padd_nth n l acc c : length acc = n -> (forall x, In x l -> length x = n) ->
  nth c (fold_left padd l acc) 0 = nth c acc 0 + lsum (map (fun x => nth c x 0) l).
Proof.
  revert acc; induction l as [|x l IH]; intros acc Ha H; [cbn; lia|].
  cbn [fold_left map lsum fold_right].
  rewrite IH; [|rewrite padd_length, Ha, (H x (or_introl eq_refl)); apply Nat.min_id|intros y Hy; apply H; right; exact Hy].
  rewrite nth_padd by (rewrite Ha; apply H; left; reflexivity). fold (lsum (map (fun x0 => nth c x0 0) l)). lia.
Qed.
Lemma plsum_length n l : (forall x, In x l -> length x = n) -> length (plsum n l) = n.
Proof. intros H. apply fold_padd_length; [apply pzero_length|exact H]. Qed.
Lemma nth_plsum n l c : (forall x, In x l -> length x = n) -> nth c (plsum n l) 0 = lsum (map (fun x => nth c x 0) l).
Proof. intros H. unfold plsum. rewrite (fold_padd_nth n) by (try apply pzero_length; exact H). rewrite nth_pzero. lia. Qed.

Lemma map_lengths {X} n (F : X -> list Z) l : (forall x, In x l -> length (F x) = n) -> forall y, In y (map F l) -> length y = n.
Proof. intros H y Hy. apply in_map_iff in Hy. destruct Hy as (x & <- & Hx). apply H; exact Hx. Qed.
Lemma plsum_map_length {X} n (F : X -> list Z) l : (forall x, In x l -> length (F x) = n) -> length (plsum n (map F l)) = n.
Proof. intros H. apply plsum_length, map_lengths, H. Qed.
Lemma nth_plsum_map {X} n (F : X -> list Z) l c : (forall x, In x l -> length (F x) = n) ->
  nth c (plsum n (map F l)) 0 = lsum (map (fun x => nth c (F x) 0) l).
Proof. intros H. rewrite nth_plsum, map_map by (apply map_lengths, H). reflexivity. Qed.
#[export] Hint Resolve plsum_map_length : plen.

Lemma lsum_app l1 l2 : lsum (l1 ++ l2) = lsum l1 + lsum l2.
Proof. unfold lsum. induction l1 as [|x l IH]; cbn [app fold_right]; lia. Qed.
Lemma plsum_app n l1 l2 : (forall x, In x l1 -> length x = n) -> (forall x, In x l2 -> length x = n) ->
  plsum n (l1 ++ l2) = padd (plsum n l1) (plsum n l2).
Proof.
  intros H1 H2.
  assert (H12 : forall x, In x (l1 ++ l2) -> length x = n) by (intros x Hx; apply in_app_or in Hx; destruct Hx; auto).
  apply list_eq_nth; [rewrite padd_length, !plsum_length by assumption; lia|].
  intros c _. rewrite nth_padd, !nth_plsum, map_app, lsum_app by (rewrite ?plsum_length by assumption; auto). reflexivity.
Qed.

Lemma lsum_map_add {X} (f g : X -> Z) l : lsum (map (fun x => f x + g x) l) = lsum (map f l) + lsum (map g l).
Proof.
  induction l as [|x l IH]; cbn [map lsum fold_right]; [reflexivity|].
  fold (lsum (map (fun x => f x + g x) l)) (lsum (map f l)) (lsum (map g l)). lia.
Qed.
Lemma lsum_map_scale {X} k (f : X -> Z) l : lsum (map (fun x => k * f x) l) = k * lsum (map f l).
Proof.
  induction l as [|x l IH]; cbn [map lsum fold_right]; [lia|].
  fold (lsum (map (fun x => k * f x) l)) (lsum (map f l)). lia.
Qed.
Lemma lsum_map_ext {X} (f g : X -> Z) l : (forall x, In x l -> f x = g x) -> lsum (map f l) = lsum (map g l).
Proof. intros H. f_equal. apply map_ext_in. exact H. Qed.

(* pmul is linear in its first argument, coefficient-wise *)
Lemma nth_pmul_padd x y t c : length y = length x -> length t = length x ->
  nth c (pmul (padd x y) t) 0 = nth c (pmul x t) 0 + nth c (pmul y t) 0.
Proof. intros H1 H2. rewrite pmul_padd_distr_r by lia. rewrite nth_padd by (rewrite !pmul_length; lia). reflexivity. Qed.

Lemma nth_pmul_pscale k x t c : length t = length x -> nth c (pmul (pscale k x) t) 0 = k * nth c (pmul x t) 0.
Proof.
  intros H. destruct (Nat.lt_ge_cases c (length x)) as [Hc|Hc].
  - rewrite !pmul_spec by (rewrite ?pscale_length; lia). rewrite pscale_length, <- zsum_mul_l.
    apply zsum_ext; intros i _. unfold nthZ. rewrite nth_pscale. ring.
  - rewrite !nth_overflow by (rewrite pmul_length, ?pscale_length; lia). lia.
Qed.

(* a sum of products whose left factors split as G + E + 2^P K splits accordingly *)
Lemma plsum_pmul_split {X} n P (l : list X) (V G E K key : X -> list Z) :
  (forall x, In x l -> length (key x) = n /\ length (G x) = n /\ length (E x) = n /\ length (K x) = n /\
                       V x = padd (padd (G x) (E x)) (pscale (2 ^ P) (K x))) ->
  plsum n (map (fun x => pmul (V x) (key x)) l) =
  padd (padd (plsum n (map (fun x => pmul (G x) (key x)) l)) (plsum n (map (fun x => pmul (E x) (key x)) l)))
       (pscale (2 ^ P) (plsum n (map (fun x => pmul (K x) (key x)) l))).
Proof.
  intros H.
  assert (LG : forall x, In x l -> length (pmul (G x) (key x)) = n) by (intros x Hx; rewrite pmul_length; apply (H x Hx)).
  assert (LE : forall x, In x l -> length (pmul (E x) (key x)) = n) by (intros x Hx; rewrite pmul_length; apply (H x Hx)).
  assert (LK : forall x, In x l -> length (pmul (K x) (key x)) = n) by (intros x Hx; rewrite pmul_length; apply (H x Hx)).
  assert (LV : forall x, In x l -> length (pmul (V x) (key x)) = n).
  { intros x Hx. destruct (H x Hx) as (_ & L1 & L2 & L3 & ->). plen. }
  pcoeff n. rewrite !nth_plsum_map by assumption.
  rewrite <- lsum_map_scale, <- !lsum_map_add. apply lsum_map_ext. intros x Hx.
  destruct (H x Hx) as (L0 & L1 & L2 & L3 & ->).
  rewrite !nth_pmul_padd, nth_pmul_pscale by (rewrite ?padd_length, ?pscale_length; lia). reflexivity.
Qed.

(* no wrap-around in a cross column when the three terms are within 2^61 *)
Lemma cross_limb_value (di dj p : list Z) c : length di = length p -> length dj = length p ->
  Z.abs (nth c di 0) <= 2 ^ 61 -> Z.abs (nth c dj 0) <= 2 ^ 61 -> Z.abs (nth c p 0) <= 2 ^ 61 ->
  nth c (vadd W (vsub W (vneg W di) dj) p) 0 = nth c p 0 - nth c di 0 - nth c dj 0.
Proof.
  intros Li Lj Bi Bj Bp. destruct (Nat.lt_ge_cases c (length p)) as [Hc|Hc].
  - rewrite nth_vadd, nth_vsub, nth_vneg by (rewrite ?vsub_length, ?vneg_length; lia).
    rewrite wrap3_apply_val by apply W_pos. apply wrap_id; [apply W_pos|].
    unfold in_range, W. change (2 ^ (64 - 1)) with (4 * 2 ^ 61). lia.
  - rewrite !nth_overflow by (rewrite ?vadd_length, ?vsub_length, ?vneg_length; lia). ring.
Qed.

Lemma cval_ext Q b c l l' : length l = length l' -> (forall u, (u < length l)%nat -> nth c (lim l u) 0 = nth c (lim l' u) 0) ->
  cval Q b c l = cval Q b c l'.
Proof. intros HL H. unfold cval. rewrite <- HL. apply zsum_ext; intros u Hu. rewrite H by exact Hu. reflexivity. Qed.

Lemma tpairs_bounds cols ij : In ij (tpairs cols) -> (fst ij <= snd ij)%nat /\ (snd ij < cols)%nat.
Proof.
  unfold tpairs. rewrite in_flat_map. intros (i & Hi & Hin). apply in_seq in Hi.
  apply in_map_iff in Hin. destruct Hin as (j & <- & Hj). apply in_seq in Hj. cbn [fst snd]. lia.
Qed.

Lemma combine_map_combine {X Y Z1 Z2} (f : X * Y -> Z1) (g : X -> Z2) (tp : list X) (r0 : list Y) :
  length r0 = length tp ->
  combine (map f (combine tp r0)) (map g tp) = map (fun q => (f q, g (fst q))) (combine tp r0).
Proof.
  revert r0; induction tp as [|x tp IH]; intros [|y r0] H; cbn [length] in H; try discriminate; [reflexivity|].
  cbn [combine map fst]. f_equal. apply IH. lia.
Qed.

Lemma map_fst_combine {X Y} (tp : list X) (r0 : list Y) : length r0 = length tp -> map fst (combine tp r0) = tp.
Proof.
  revert r0; induction tp as [|x tp IH]; intros [|y r0] H; cbn [length] in H; try discriminate; [reflexivity|].
  cbn [combine map fst]. f_equal. apply IH. lia.
Qed.

Section TensorPhase.
Variables (fft : bool) (n rsz dsz hi cols asz bsz : nat) (P rb ab lo : Z).
Variable nrm : plimbs -> limbs.
Variables eps kap : plimbs -> list Z.
Variable dom : plimbs -> Prop.
Variables A B : list plimbs.
Variable sigma : nat * nat -> list Z.

Definition Uu : Z := 2 ^ (P - zn rsz * rb).
Definition Vr (l : limbs) : list Z := pval n P rb l.
Definition Vd (D : plimbs) : list Z := pval n (P + lo) ab D.

Hypothesis nrm_shape : forall D, shaped n rsz (nrm D).
Hypothesis nrm_no_overflow : forall D, wfl n D -> length D = dsz -> dom D -> forall u c, Z.abs (nth c (lim (nrm D) u) 0) <= 2 ^ 61.
(* the value fact of the per-column big-normalisation (C08): one unit of the result's last limb, on the torus *)
Hypothesis normalize_value_ok : forall D, wfl n D -> length D = dsz -> dom D ->
  length (eps D) = n /\ length (kap D) = n /\
  Vr (nrm D) = padd (padd (Vd D) (eps D)) (pscale (2 ^ P) (kap D)) /\
  forall c, Z.abs (nth c (eps D) 0) <= Uu.

Hypothesis HA : forall i, (i < cols)%nat -> wfl n (colsel A i) /\ length (colsel A i) = asz.
Hypothesis HB : forall i, (i < cols)%nat -> wfl n (colsel B i) /\ length (colsel B i) = bsz.
Hypothesis Hasz : (1 <= asz)%nat.
Hypothesis Hbsz : (1 <= bsz)%nat.

Definition Cn (i j : nat) : plimbs := cnv_apply fft n dsz hi (colsel A i) (colsel B j).
Definition Pw (i j : nat) : plimbs := cnv_pairwise fft n dsz hi (colsel A i) (colsel A j) (colsel B i) (colsel B j) false.

Hypothesis Hdom_diag : forall i, (i < cols)%nat -> dom (Cn i i).
Hypothesis Hdom_pair : forall i j, (i < cols)%nat -> (j < cols)%nat -> i <> j -> dom (Pw i j).

Lemma Cn_wfl i j : (i < cols)%nat -> (j < cols)%nat -> wfl n (Cn i j) /\ length (Cn i j) = dsz.
Proof.
  intros Hi Hj. destruct (HA i Hi) as [wa La]. destruct (HB j Hj) as [wb Lb]. split.
  - apply cnv_apply_wfl; try assumption; lia.
  - apply cnv_apply_length.
Qed.
Lemma Pw_wfl i j : (i < cols)%nat -> (j < cols)%nat -> wfl n (Pw i j) /\ length (Pw i j) = dsz.
Proof.
  intros Hi Hj. destruct (HA i Hi) as [wa La]. destruct (HB i Hi) as [wb Lb].
  destruct (HA j Hj) as [wa' La']. destruct (HB j Hj) as [wb' Lb']. unfold Pw, cnv_pairwise. split.
  - apply cnv_apply_wfl; try (apply plimbs_add_wfl; try assumption; lia); rewrite plimbs_add_length; lia.
  - apply cnv_apply_length.
Qed.

(* the pairwise trick under the (linear) value map *)
Lemma cval_pairwise Q b c i j : (i < cols)%nat -> (j < cols)%nat ->
  cval Q b c (Pw i j) - cval Q b c (Cn i i) - cval Q b c (Cn j j) = cval Q b c (Cn i j) + cval Q b c (Cn j i).
Proof.
  intros Hi Hj. unfold cval.
  rewrite (proj2 (Pw_wfl i j Hi Hj)), (proj2 (Cn_wfl i i Hi Hi)), (proj2 (Cn_wfl j j Hj Hj)), (proj2 (Cn_wfl i j Hi Hj)),
    (proj2 (Cn_wfl j i Hj Hi)), <- !zsum_sub, <- zsum_add.
  apply zsum_ext; intros u Hu.
  destruct (HA i Hi) as [wa La]. destruct (HB i Hi) as [wb Lb]. destruct (HA j Hj) as [wa' La']. destruct (HB j Hj) as [wb' Lb'].
  unfold Pw, Cn. rewrite cnv_pairwise_spec, !cnv_apply_spec by (try assumption; lia).
  rewrite <- !Z.mul_sub_distr_l, <- Z.mul_add_distr_l. f_equal. apply pairwise_bivariate_nth; try assumption; lia.
Qed.

(* value of a cross column of glwe_tensor_apply: no wrap-around happens, so V(T_ij) = V(pairwise) - V(diag_i) - V(diag_j) *)
Lemma cval_cell_cross c i j r0 : (i < cols)%nat -> (j < cols)%nat -> length r0 = rsz -> i <> j ->
  cval P rb c (cell_apply fft n nrm dsz hi A B i j r0) =
  cval P rb c (nrm (Pw i j)) - cval P rb c (nrm (Cn i i)) - cval P rb c (nrm (Cn j j)).
Proof.
  intros Hi Hj Hr Hij.
  destruct (Cn_wfl i i Hi Hi) as [w1 l1]. destruct (Cn_wfl j j Hj Hj) as [w2 l2]. destruct (Pw_wfl i j Hi Hj) as [w3 l3].
  pose proof (nrm_shape (Cn i i)) as Si. pose proof (nrm_shape (Cn j j)) as Sj. pose proof (nrm_shape (Pw i j)) as Sp.
  unfold cval. rewrite (proj1 (cell_apply_shape fft n rsz nrm nrm_shape dsz hi A B i j r0 Hr)), (proj1 Si), (proj1 Sj), (proj1 Sp), <- !zsum_sub.
  apply zsum_ext; intros u Hu. rewrite <- !Z.mul_sub_distr_l. f_equal.
  unfold cell_apply, diag, pairw. rewrite (proj2 (Nat.eqb_neq i j) Hij). fold (Cn i i) (Cn j j) (Pw i j).
  change (lim ?l u) with (lnth l u). rewrite (cross_apply_limb n rsz) by assumption.
  apply cross_limb_value.
  - rewrite (proj2 Si), (proj2 Sp) by exact Hu. reflexivity.
  - rewrite (proj2 Sj), (proj2 Sp) by exact Hu. reflexivity.
  - exact (nrm_no_overflow (Cn i i) w1 l1 (Hdom_diag i Hi) u c).
  - exact (nrm_no_overflow (Cn j j) w2 l2 (Hdom_diag j Hj) u c).
  - exact (nrm_no_overflow (Pw i j) w3 l3 (Hdom_pair i j Hi Hj Hij) u c).
Qed.

Lemma cval_cell_diag c i r0 : length r0 = rsz ->
  cval P rb c (cell_apply fft n nrm dsz hi A B i i r0) = cval P rb c (nrm (Cn i i)).
Proof.
  intros Hr. unfold cell_apply, diag. rewrite Nat.eqb_refl. fold (Cn i i).
  pose proof (nrm_shape (Cn i i)) as Si.
  apply cval_ext; unfold vcopy at 1; rewrite vec_unary_length, Hr; [symmetry; apply Si|].
  intros u Hu. change (lim ?l u) with (lnth l u). rewrite (copy_limb n rsz) by assumption. reflexivity.
Qed.

Hypothesis Hsigma : forall ij, length (sigma ij) = n.

Definition Gm (ij : nat * nat) : list Z :=
  if Nat.eqb (fst ij) (snd ij) then Vd (Cn (fst ij) (fst ij)) else padd (Vd (Cn (fst ij) (snd ij))) (Vd (Cn (snd ij) (fst ij))).
Definition Em (ij : nat * nat) : list Z :=
  if Nat.eqb (fst ij) (snd ij) then eps (Cn (fst ij) (fst ij))
  else psub (psub (eps (Pw (fst ij) (snd ij))) (eps (Cn (fst ij) (fst ij)))) (eps (Cn (snd ij) (snd ij))).
Definition Km (ij : nat * nat) : list Z :=
  if Nat.eqb (fst ij) (snd ij) then kap (Cn (fst ij) (fst ij))
  else psub (psub (kap (Pw (fst ij) (snd ij))) (kap (Cn (fst ij) (fst ij)))) (kap (Cn (snd ij) (snd ij))).

Lemma nvo_diag i : (i < cols)%nat ->
  length (eps (Cn i i)) = n /\ length (kap (Cn i i)) = n /\
  Vr (nrm (Cn i i)) = padd (padd (Vd (Cn i i)) (eps (Cn i i))) (pscale (2 ^ P) (kap (Cn i i))) /\
  forall c, Z.abs (nth c (eps (Cn i i)) 0) <= Uu.
Proof. intros Hi. destruct (Cn_wfl i i Hi Hi) as [w L]. apply normalize_value_ok; auto. Qed.
Lemma nvo_pair i j : (i < cols)%nat -> (j < cols)%nat -> i <> j ->
  length (eps (Pw i j)) = n /\ length (kap (Pw i j)) = n /\
  Vr (nrm (Pw i j)) = padd (padd (Vd (Pw i j)) (eps (Pw i j))) (pscale (2 ^ P) (kap (Pw i j))) /\
  forall c, Z.abs (nth c (eps (Pw i j)) 0) <= Uu.
Proof. intros Hi Hj Hij. destruct (Pw_wfl i j Hi Hj) as [w L]. apply normalize_value_ok; auto. Qed.

Lemma Vd_length D : wfl n D -> length (Vd D) = n.
Proof. apply pval_length. Qed.

Lemma Gm_length ij : (fst ij < cols)%nat -> (snd ij < cols)%nat -> length (Gm ij) = n.
Proof.
  intros Hi Hj. unfold Gm. destruct (Nat.eqb (fst ij) (snd ij)).
  - apply Vd_length. apply Cn_wfl; assumption.
  - rewrite padd_length, !Vd_length by (apply Cn_wfl; assumption). apply Nat.min_id.
Qed.
Lemma Em_length ij : (fst ij < cols)%nat -> (snd ij < cols)%nat -> length (Em ij) = n.
Proof.
  intros Hi Hj. unfold Em. destruct (Nat.eqb_spec (fst ij) (snd ij)) as [E|E].
  - apply (nvo_diag _ Hi).
  - rewrite !psub_length. destruct (nvo_pair _ _ Hi Hj E) as [-> _]. destruct (nvo_diag _ Hi) as [-> _]. destruct (nvo_diag _ Hj) as [-> _]. lia.
Qed.
Lemma Km_length ij : (fst ij < cols)%nat -> (snd ij < cols)%nat -> length (Km ij) = n.
Proof.
  intros Hi Hj. unfold Km. destruct (Nat.eqb_spec (fst ij) (snd ij)) as [E|E].
  - apply (nvo_diag _ Hi).
  - rewrite !psub_length. destruct (nvo_pair _ _ Hi Hj E) as (_ & -> & _). destruct (nvo_diag _ Hi) as (_ & -> & _).
    destruct (nvo_diag _ Hj) as (_ & -> & _). lia.
Qed.

(* error of a tensor column: one normalisation unit on the diagonal, three on a cross column *)
Lemma Em_bound ij c : (fst ij < cols)%nat -> (snd ij < cols)%nat ->
  Z.abs (nth c (Em ij) 0) <= (if Nat.eqb (fst ij) (snd ij) then 1 else 3) * Uu.
Proof.
  intros Hi Hj. unfold Em. destruct (Nat.eqb_spec (fst ij) (snd ij)) as [E|E].
  - destruct (nvo_diag _ Hi) as (_ & _ & _ & Hb). specialize (Hb c). lia.
  - destruct (nvo_pair _ _ Hi Hj E) as (L1 & _ & _ & B1). destruct (nvo_diag _ Hi) as (L2 & _ & _ & B2).
    destruct (nvo_diag _ Hj) as (L3 & _ & _ & B3).
    rewrite !nth_psub by (rewrite ?psub_length; lia).
    specialize (B1 c). specialize (B2 c). specialize (B3 c). lia.
Qed.

(* the value fact of the normaliser, coefficient c *)
Lemma nvo_cval D c : wfl n D -> length D = dsz -> dom D ->
  cval P rb c (nrm D) = cval (P + lo) ab c D + nth c (eps D) 0 + 2 ^ P * nth c (kap D) 0.
Proof.
  intros w L d. destruct (normalize_value_ok D w L d) as (L1 & L2 & V & _).
  apply (f_equal (fun l => nth c l 0)) in V. unfold Vr, Vd in V.
  rewrite !nth_padd, nth_pscale, !nth_pval in V
    by (try assumption; try (eapply shaped_wfl; apply nrm_shape); rewrite ?padd_length, ?pscale_length, ?pval_length by assumption; lia).
  exact V.
Qed.

(* each column of the tensor, as a value: the tensor product of the two ciphertext vectors, cell by cell *)
Theorem cell_value i j r0 : (i < cols)%nat -> (j < cols)%nat -> length r0 = rsz ->
  Vr (cell_apply fft n nrm dsz hi A B i j r0) = padd (padd (Gm (i, j)) (Em (i, j))) (pscale (2 ^ P) (Km (i, j))).
Proof using nrm_shape nrm_no_overflow normalize_value_ok HA HB Hasz Hbsz Hdom_diag Hdom_pair Hsigma.
  intros Hi Hj Hr.
  pose proof (shaped_wfl _ _ _ (cell_apply_shape fft n rsz nrm nrm_shape dsz hi A B i j r0 Hr)) as wc.
  pose proof (Gm_length (i, j) Hi Hj) as LG. pose proof (Em_length (i, j) Hi Hj) as LE. pose proof (Km_length (i, j) Hi Hj) as LK.
  apply list_eq_nth; unfold Vr; rewrite pval_length by exact wc; [rewrite !padd_length, pscale_length, LG, LE, LK; lia|].
  intros c _. rewrite !nth_padd, nth_pscale, nth_pval by (try exact wc; rewrite ?padd_length, ?pscale_length; lia).
  unfold Gm, Em, Km. cbn [fst snd]. destruct (Nat.eqb_spec i j) as [E|E].
  - subst j. destruct (Cn_wfl i i Hi Hi) as [w L].
    rewrite cval_cell_diag, nvo_cval by auto. unfold Vd. rewrite nth_pval by exact w. reflexivity.
  - destruct (Cn_wfl i i Hi Hi) as [w1 L1]. destruct (Cn_wfl j j Hj Hj) as [w2 L2]. destruct (Pw_wfl i j Hi Hj) as [w3 L3].
    rewrite cval_cell_cross, !nvo_cval by auto.
    destruct (nvo_diag i Hi) as (Ei & Ki & _). destruct (nvo_diag j Hj) as (Ej & Kj & _). destruct (nvo_pair i j Hi Hj E) as (Ep & Kp & _).
    rewrite nth_padd, !nth_psub by (rewrite ?psub_length, ?Vd_length by (apply Cn_wfl; assumption); lia).
    unfold Vd. rewrite !nth_pval by (apply Cn_wfl; assumption).
    pose proof (cval_pairwise (P + lo) ab c i j Hi Hj). lia.
Qed.

(* decrypting the tensor with the keys sigma(i, j) (= s_i s_j for the real tensor secret): the phase is the phase of the
   coefficient-wise tensor product  sum_{i <= j} (c_i d_j + [i <> j] c_j d_i) sigma(i, j)  of the two ciphertext vectors,
   taken over exact products, plus the normalisation error (one resp. three units per column) plus a multiple of 2^P *)
Theorem tensor_phase res0 : length res0 = length (tpairs cols) -> (forall r, In r res0 -> length r = rsz) ->
  phase n P rb (tensor_gen (cell_apply fft n nrm dsz hi A B) cols res0) (map sigma (tpairs cols)) =
  padd (padd (plsum n (map (fun ij => pmul (Gm ij) (sigma ij)) (tpairs cols)))
             (plsum n (map (fun ij => pmul (Em ij) (sigma ij)) (tpairs cols))))
       (pscale (2 ^ P) (plsum n (map (fun ij => pmul (Km ij) (sigma ij)) (tpairs cols)))).
Proof using nrm_shape nrm_no_overflow normalize_value_ok HA HB Hasz Hbsz Hdom_diag Hdom_pair Hsigma.
  intros HL Hres.
  unfold phase, tensor_gen. rewrite combine_map_combine by exact HL. rewrite map_map. cbn [fst snd].
  rewrite (plsum_pmul_split n P _ _ (fun q => Gm (fst q)) (fun q => Em (fst q)) (fun q => Km (fst q)) (fun q => sigma (fst q))).
  - rewrite <- !(map_map fst (fun ij => pmul (_ ij) (sigma ij))), map_fst_combine by exact HL. reflexivity.
  - intros [[i j] r] Hq. cbn [fst snd].
    destruct (tpairs_bounds cols _ (in_combine_l _ _ _ _ Hq)) as [H1 H2]. cbn [fst snd] in H1, H2.
    assert (Hi : (i < cols)%nat) by lia.
    split; [apply Hsigma|]. split; [apply Gm_length; assumption|]. split; [apply Em_length; assumption|].
    split; [apply Km_length; assumption|].
    apply cell_value; [exact Hi|exact H2|]. apply Hres. eapply in_combine_r; exact Hq.
Qed.
End TensorPhase.

Lemma combine_map_l {X Y Z1} (f : X -> Z1) (l : list X) (k : list Y) :
  combine (map f l) k = map (fun q => (f (fst q), snd q)) (combine l k).
Proof.
  revert k; induction l as [|x l IH]; intros [|y k]; cbn [map combine fst snd]; try reflexivity. f_equal. apply IH.
Qed.

Section ColumnPhase.
Variables (n rsz dsz : nat) (P rb ab lo : Z).
Variable nrm : plimbs -> limbs.
Variables eps kap : plimbs -> list Z.
Variable dom : plimbs -> Prop.
Variable Cf : plimbs -> plimbs.          (* the big accumulator computed from one ciphertext column *)

Hypothesis nrm_shape : forall D, shaped n rsz (nrm D).
Hypothesis normalize_value_ok : forall D, wfl n D -> length D = dsz -> dom D ->
  length (eps D) = n /\ length (kap D) = n /\
  pval n P rb (nrm D) = padd (padd (pval n (P + lo) ab D) (eps D)) (pscale (2 ^ P) (kap D)) /\
  forall c, Z.abs (nth c (eps D) 0) <= 2 ^ (P - zn rsz * rb).

Theorem column_phase (A : list plimbs) (key : list (list Z)) :
  (forall a, In a A -> wfl n (Cf a) /\ length (Cf a) = dsz /\ dom (Cf a)) -> (forall k, In k key -> length k = n) ->
  phase n P rb (map (fun a => nrm (Cf a)) A) key =
  padd (padd (plsum n (map (fun q => pmul (pval n (P + lo) ab (Cf (fst q))) (snd q)) (combine A key)))
             (plsum n (map (fun q => pmul (eps (Cf (fst q))) (snd q)) (combine A key))))
       (pscale (2 ^ P) (plsum n (map (fun q => pmul (kap (Cf (fst q))) (snd q)) (combine A key)))).
Proof using nrm_shape normalize_value_ok.
  intros HA Hkey. unfold phase. rewrite combine_map_l, map_map. cbn [fst snd].
  apply (plsum_pmul_split n P (combine A key) (fun q => pval n P rb (nrm (Cf (fst q))))
           (fun q => pval n (P + lo) ab (Cf (fst q))) (fun q => eps (Cf (fst q))) (fun q => kap (Cf (fst q))) snd).
  intros [a k] Hin. cbn [fst snd]. destruct (HA a (in_combine_l _ _ _ _ Hin)) as (w & L & d).
  destruct (normalize_value_ok _ w L d) as (E1 & E2 & EV & _).
  split; [apply Hkey; eapply in_combine_r; exact Hin|]. split; [apply pval_length; exact w|]. auto.
Qed.
End ColumnPhase.

Lemma sequence_length {X} (l : list (option X)) cs : sequence l = Some cs -> length cs = length l.
Proof.
  revert cs; induction l as [|[x|] l IH]; intros cs H; cbn [sequence] in H; try discriminate.
  - injection H as <-. reflexivity.
  - destruct (sequence l) as [t|]; [|discriminate]. injection H as <-. cbn [length]. f_equal. apply IH. reflexivity.
Qed.

Lemma lift_coeff_shape f n rsz a r l : lift_coeff f n rsz a r = Some l -> shaped n rsz l.
Proof.
  unfold lift_coeff. destruct (sequence _) as [cs|] eqn:E; [|discriminate]. intros H; injection H as <-.
  apply sequence_length in E. rewrite map_length, combine_length in E.
  unfold transpose in E. rewrite !map_length, !seq_length, Nat.min_id in E.
  unfold untranspose. split; [rewrite map_length, seq_length; reflexivity|].
  intros j Hj. unfold lnth. rewrite (nth_indep _ [] (map (fun c => nthZ c 0%nat) cs)) by (rewrite map_length, seq_length; exact Hj).
  rewrite (map_nth (fun j => map (fun c => nthZ c j) cs)). rewrite map_length. exact E.
Qed.

Lemma sequence_all_some {X Y} (g : X -> option Y) l : (forall x, In x l -> g x <> None) -> sequence (map g l) <> None.
Proof.
  induction l as [|x l IH]; intros H; cbn [map sequence]; [discriminate|].
  destruct (g x) eqn:E; [|exfalso; apply (H x (or_introl eq_refl)); exact E].
  assert (IH' : sequence (map g l) <> None) by (apply IH; intros y0 Hy; apply H; right; exact Hy).
  destruct (sequence (map g l)); [discriminate|exfalso; apply IH'; reflexivity].
Qed.

(* the concrete per-column normaliser keeps the shape (same radix: no fuel involved) *)
Lemma big_nrm_shape_same_radix fft n rsz b lo D : shaped n rsz (big_nrm fft n rsz b b lo D).
Proof.
  unfold big_nrm.
  destruct (lift_coeff _ n rsz D (mk rsz (fun _ => pzero n))) as [l|] eqn:E; [eapply lift_coeff_shape; exact E|].
  exfalso. unfold lift_coeff in E. destruct (sequence _) eqn:E2; [discriminate|].
  revert E2. apply sequence_all_some. intros [x y] _. cbn [fst snd].
  unfold normalize, normalize_big. rewrite Z.eqb_refl. destruct fft; discriminate.
Qed.

Lemma wfl_map_map n (g : Z -> Z) X : wfl n X -> wfl n (map (map g) X).
Proof.
  intros w j Hj. rewrite map_length in Hj. unfold lim.
  rewrite (nth_indep _ [] (map g [])) by (rewrite map_length; exact Hj).
  rewrite map_nth, map_length. apply w; exact Hj.
Qed.

Lemma pconst_wfl n b : wfl n (map (pconst n) b).
Proof.
  intros j Hj. rewrite map_length in Hj. unfold lim.
  rewrite (nth_indep _ [] (pconst n 0)) by (rewrite map_length; exact Hj).
  rewrite map_nth. apply pconst_length.
Qed.

Lemma cnv_by_const_wfl fft n dsz hi a b : wfl n a -> (1 <= length a)%nat -> (1 <= length b)%nat ->
  wfl n (cnv_by_const fft n dsz hi a b) /\ length (cnv_by_const fft n dsz hi a b) = dsz.
Proof.
  intros wa Ha Hb. unfold cnv_by_const. split.
  - apply wfl_map_map. apply cnv_apply_wfl; try assumption; [apply pconst_wfl|rewrite map_length; exact Hb].
  - rewrite map_length. apply cnv_apply_length.
Qed.

(* a witness for the Section hypotheses, the normaliser of already-normalised accumulators: radices equal, no shift, as many result limbs as accumulator limbs: on accumulators whose entries are within 2^61
   (dom) the normaliser that reshapes and clamps is the identity and its value error is zero *)
Definition clampz (x : Z) : Z := Z.max (- 2 ^ 61) (Z.min x (2 ^ 61)).
Definition reshape (n rsz : nat) (D : plimbs) : limbs :=
  build rsz (fun u => map clampz (firstn n (lim D u ++ zeros n))).
Definition small_dom (n rsz : nat) (D : plimbs) : Prop :=
  shaped n rsz D /\ forall u c, Z.abs (nth c (lim D u) 0) <= 2 ^ 61.

Lemma reshape_shape n rsz D : shaped n rsz (reshape n rsz D).
Proof.
  split; [apply build_length|]. intros j Hj. unfold reshape. rewrite lnth_build by exact Hj.
  rewrite map_length, firstn_length, app_length. unfold zeros. rewrite repeat_length. lia.
Qed.

Lemma clampz_bound x : Z.abs (clampz x) <= 2 ^ 61.
Proof. unfold clampz. assert (0 < 2 ^ 61) by (apply pow2_pos; lia). lia. Qed.

Lemma reshape_no_overflow n rsz D u c : Z.abs (nth c (lim (reshape n rsz D) u) 0) <= 2 ^ 61.
Proof.
  unfold reshape. destruct (Nat.lt_ge_cases u rsz) as [Hu|Hu].
  - change (lim ?l u) with (lnth l u). rewrite lnth_build by exact Hu.
    set (l := firstn n (lim D u ++ zeros n)).
    destruct (Nat.lt_ge_cases c (length l)) as [Hc|Hc].
    + rewrite (nth_map' _ _ _ _ 0) by exact Hc. apply clampz_bound.
    + rewrite nth_overflow by (rewrite map_length; exact Hc). assert (0 < 2 ^ 61) by (apply pow2_pos; lia). cbn [Z.abs]. lia.
  - unfold lim. rewrite (nth_overflow (build _ _)) by (rewrite build_length; exact Hu).
    destruct c; cbn [nth Z.abs]; assert (0 < 2 ^ 61) by (apply pow2_pos; lia); lia.
Qed.

Lemma reshape_id n rsz D : small_dom n rsz D -> reshape n rsz D = D.
Proof.
  intros [[L S] Bd]. unfold reshape.
  apply (nth_ext _ _ [] []); [rewrite build_length; symmetry; exact L|].
  rewrite build_length. intros u Hu. fold (lnth (build rsz (fun u0 => map clampz (firstn n (lim D u0 ++ zeros n)))) u).
  rewrite lnth_build by exact Hu. fold (lnth D u). change (lim D u) with (lnth D u).
  rewrite firstn_app, (S u Hu), Nat.sub_diag. cbn [firstn]. rewrite app_nil_r.
  rewrite firstn_all2 by (rewrite (S u Hu); lia).
  apply list_eq_nth; [apply map_length|]. rewrite map_length. intros c Hc.
  rewrite (nth_map' _ _ _ _ 0) by exact Hc.
  specialize (Bd u c). change (lim D u) with (lnth D u) in Bd. unfold clampz. lia.
Qed.

Lemma reshape_value_ok n rsz P b D : wfl n D -> length D = rsz -> small_dom n rsz D ->
  length (pzero n) = n /\ length (pzero n) = n /\
  pval n P b (reshape n rsz D) = padd (padd (pval n (P + 0) b D) (pzero n)) (pscale (2 ^ P) (pzero n)) /\
  forall c, Z.abs (nth c (pzero n) 0) <= 2 ^ (P - zn rsz * b).
Proof.
  intros w L d. split; [apply pzero_length|]. split; [apply pzero_length|]. split.
  - rewrite reshape_id by exact d. rewrite Z.add_0_r. unfold pscale. rewrite scale_pzero.
    rewrite !padd_pzero_r by (rewrite ?padd_pzero_r; apply pval_length; exact w). reflexivity.
  - intros c. rewrite nth_pzero. cbn [Z.abs]. apply Z.pow_nonneg. lia.
Qed.

(* the operands and keys of C05_tensor_phase_ex (Props/C05.v): rank 1, n = 2, one limb per column *)
Definition exA : list plimbs := [[[1; 2]]; [[3; -1]]].
Definition exB : list plimbs := [[[2; 0]]; [[-1; 4]]].
Definition exsig (ij : nat * nat) : list Z := [Z.of_nat (fst ij) + 1; Z.of_nat (snd ij)].

Lemma small_dom_check n rsz (D : plimbs) :
  (length D = rsz /\ forallb (fun l => Nat.eqb (length l) n && forallb (fun x => Z.abs x <=? 2 ^ 61) l) D = true) ->
  small_dom n rsz D.
Proof.
  intros [L H]. rewrite forallb_forall in H.
  assert (G : forall u, (u < rsz)%nat -> length (lnth D u) = n /\ forall c, Z.abs (nth c (lnth D u) 0) <= 2 ^ 61).
  { intros u Hu. assert (Hin : In (lnth D u) D) by (apply nth_In; lia).
    apply H, andb_prop in Hin. destruct Hin as [A Bf]. split; [apply Nat.eqb_eq; exact A|].
    intros c. rewrite forallb_forall in Bf. destruct (Nat.lt_ge_cases c (length (lnth D u))).
    - apply Z.leb_le, Bf, nth_In. assumption.
    - rewrite nth_overflow by assumption. cbn. lia. }
  split; [split; [exact L|intros j Hj; apply G; exact Hj]|].
  intros u c. destruct (Nat.lt_ge_cases u rsz) as [Hu|Hu]; [apply G; exact Hu|].
  unfold lim. rewrite (nth_overflow D) by lia. destruct c; cbn; lia.
Qed.

Lemma lsum_flat_map {X Y} (f : Y -> Z) (h : X -> list Y) l :
  lsum (map f (flat_map h l)) = lsum (map (fun i => lsum (map f (h i))) l).
Proof.
  induction l as [|x l IH]; [reflexivity|]. cbn [flat_map map lsum fold_right].
  rewrite map_app, lsum_app, IH. reflexivity.
Qed.

Lemma lsum_seq (F : nat -> Z) lo len : lsum (map F (seq lo len)) = zsum (fun t => F (lo + t)%nat) len.
Proof.
  revert lo; induction len as [|len IH]; intros lo; [reflexivity|].
  rewrite seq_S, map_app, lsum_app, IH, zsum_S. cbn [map lsum fold_right]. lia.
Qed.

Lemma zsum_split3 (t : nat -> nat -> Z) m :
  zsum (fun i => zsum (fun j => if Nat.leb i j && Nat.ltb j m then (if Nat.eqb i j then t i i else t i j + t j i) else 0) m) m
  = zsum (fun i => zsum (fun j => t i j) m) m.
Proof.
  transitivity (zsum (fun i => zsum (fun j => (if Nat.ltb i j then t i j else 0) + (if Nat.ltb i j then t j i else 0)
                                              + (if Nat.eqb i j then t i j else 0)) m) m).
  { apply zsum_ext; intros i Hi. apply zsum_ext; intros j Hj.
    destruct (Nat.leb_spec i j); destruct (Nat.ltb_spec j m); destruct (Nat.eqb_spec i j); destruct (Nat.ltb_spec i j);
      cbn [andb]; subst; try lia. }
  rewrite (zsum_ext _ (fun i => zsum (fun j => if Nat.ltb i j then t i j else 0) m
                                + zsum (fun j => if Nat.ltb i j then t j i else 0) m
                                + zsum (fun j => if Nat.eqb i j then t i j else 0) m))
    by (intros i _; rewrite <- !zsum_add; reflexivity).
  rewrite !zsum_add.
  rewrite (zsum_swap (fun i j => if Nat.ltb i j then t j i else 0)).
  rewrite <- !zsum_add. apply zsum_ext; intros i Hi. rewrite <- !zsum_add. apply zsum_ext; intros j Hj.
  destruct (Nat.ltb_spec i j); destruct (Nat.ltb_spec j i); destruct (Nat.eqb_spec i j); subst; lia.
Qed.

Lemma lsum_tpairs (F : nat * nat -> Z) cols :
  lsum (map F (tpairs cols)) = zsum (fun i => zsum (fun j => if Nat.leb i j && Nat.ltb j cols then F (i, j) else 0) cols) cols.
Proof.
  unfold tpairs. rewrite lsum_flat_map, lsum_seq. apply zsum_ext; intros i Hi. cbn [Nat.add].
  rewrite map_map, lsum_seq. rewrite zsum_window. rewrite Nat.min_id. reflexivity.
Qed.

Lemma norm1_fold l acc : fold_left (fun a x => a + Z.abs x) l acc = acc + norm1 l.
Proof.
  unfold norm1. revert acc; induction l as [|x l IH]; intros acc; cbn [fold_left]; [lia|].
  rewrite IH, (IH (0 + Z.abs x)). lia.
Qed.
Lemma norm1_app l x : norm1 (l ++ [x]) = norm1 l + Z.abs x.
Proof. unfold norm1. rewrite fold_left_app. cbn [fold_left]. reflexivity. Qed.
Lemma norm1_zsum l : norm1 l = zsum (fun i => Z.abs (nthZ l i)) (length l).
Proof.
  induction l as [|x l IH] using rev_ind; [reflexivity|].
  rewrite norm1_app, app_length, Nat.add_comm. cbn [length Nat.add]. rewrite zsum_S, IH.
  f_equal.
  - apply zsum_ext; intros i Hi. unfold nthZ. rewrite app_nth1 by exact Hi. reflexivity.
  - unfold nthZ. rewrite app_nth2, Nat.sub_diag by lia. reflexivity.
Qed.
Lemma norm1_nonneg l : 0 <= norm1 l.
Proof. rewrite norm1_zsum. induction (length l) as [|m IH]; [cbn; lia|rewrite zsum_S; lia]. Qed.

Lemma norm1_le l D : (forall i, Z.abs (nth i l 0) <= D) -> norm1 l <= zn (length l) * D.
Proof.
  intros H. rewrite norm1_zsum. unfold zn. induction (length l) as [|m IH]; [reflexivity|].
  rewrite zsum_S, Nat2Z.inj_succ, Z.mul_succ_l. specialize (H m). unfold nthZ in *. lia.
Qed.

Lemma ext'_bound x k Bd : 0 <= Bd -> (forall i, Z.abs (nthZ x i) <= Bd) -> Z.abs (ext' x k) <= Bd.
Proof. intros HB H. unfold ext'. cbv zeta. destruct (Z.even _); [apply H|rewrite Z.abs_opp; apply H]. Qed.

Lemma zsum_abs_le (f g : nat -> Z) m : (forall i, (i < m)%nat -> Z.abs (f i) <= g i) -> Z.abs (zsum f m) <= zsum g m.
Proof.
  induction m as [|m IH]; intros H; [cbn; lia|].
  rewrite !zsum_S. specialize (IH (fun i Hi => H i (Nat.lt_lt_succ_r _ _ Hi))). specialize (H m (Nat.lt_succ_diag_r m)). lia.
Qed.

(* |x * t|_inf <= |x|_inf |t|_1 *)
Theorem pmul_norm_bound x t c Bd : length t = length x -> 0 <= Bd -> (forall i, Z.abs (nth i x 0) <= Bd) ->
  Z.abs (nth c (pmul x t) 0) <= Bd * norm1 t.
Proof.
  intros HL HB Hx.
  destruct (Nat.lt_ge_cases c (length x)) as [Hc|Hc].
  - rewrite pmul_comm by exact HL. rewrite pmul_spec by lia.
    rewrite norm1_zsum, <- zsum_mul_l.
    apply zsum_abs_le. intros i _. rewrite Z.abs_mul.
    pose proof (ext'_bound x (Z.of_nat c - Z.of_nat i) Bd HB Hx). pose proof (Z.abs_nonneg (nthZ t i)). nia.
  - rewrite nth_overflow by (rewrite pmul_length; exact Hc). cbn [Z.abs]. pose proof (norm1_nonneg t). nia.
Qed.

Lemma lsum_abs_le {X} (f g : X -> Z) l : (forall x, In x l -> Z.abs (f x) <= g x) -> Z.abs (lsum (map f l)) <= lsum (map g l).
Proof.
  unfold lsum. induction l as [|x l IH]; intros H; cbn [map fold_right]; [lia|].
  specialize (IH (fun y Hy => H y (or_intror Hy))). specialize (H x (or_introl eq_refl)). lia.
Qed.

Lemma combine_app_eq {X Y} (a1 a2 : list X) (b1 b2 : list Y) : length a1 = length b1 ->
  combine (a1 ++ a2) (b1 ++ b2) = combine a1 b1 ++ combine a2 b2.
Proof.
  revert b1; induction a1 as [|x a1 IH]; intros [|y b1] H; cbn [length] in H; try discriminate; [reflexivity|].
  cbn [app combine]. f_equal. apply IH. lia.
Qed.

Theorem cnv_is_truncated_bivariate_product :
  forall (fft : bool) (n rsz cnv_offset pasz pbsz : nat) (mask_a mask_b : Z) (a b : plimbs) (k : nat),
  wfl n a -> wfl n b -> (1 <= pasz)%nat -> (1 <= pbsz)%nat -> (k < rsz)%nat ->
  let A := cnv_prepare n pasz mask_a a in let B := cnv_prepare n pbsz mask_b b in
  lim (cnv_apply fft n rsz cnv_offset A B) k =
  psumf n (fun i => psumf n (fun j =>
     if Nat.eqb (i + j) (k + cnv_offset) then pmul (lim A i) (lim B j) else pzero n) pbsz) pasz.
Proof.
  intros fft n rsz off pasz pbsz ma mb a b k wa wb Ha Hb Hk A B.
  pose proof (cnv_apply_spec fft n rsz off A B k) as H. unfold bivariate_coeff in H.
  subst A B. rewrite !cnv_prepare_length in H. apply H; try assumption; try (rewrite cnv_prepare_length; assumption);
    apply cnv_prepare_wfl; assumption.
Qed.

Theorem mul_plain_phase :
  forall (fft : bool) (n rsz dsz hi : nat) (P rb ab lo : Z) (nrm : plimbs -> limbs) (eps kap : plimbs -> list Z) (dom : plimbs -> Prop)
         (B : plimbs),
  (forall D, shaped n rsz (nrm D)) ->
  (forall D, wfl n D -> length D = dsz -> dom D ->
     length (eps D) = n /\ length (kap D) = n /\
     pval n P rb (nrm D) = padd (padd (pval n (P + lo) ab D) (eps D)) (pscale (2 ^ P) (kap D)) /\
     (forall c, Z.abs (nth c (eps D) 0) <= 2 ^ (P - zn rsz * rb))) ->
  wfl n B -> (1 <= length B)%nat ->
  forall (A : list plimbs) (key : list (list Z)),
  (forall a, In a A -> wfl n a /\ (1 <= length a)%nat /\ dom (cnv_apply fft n dsz hi a B)) -> (forall k, In k key -> length k = n) ->
  let Cf := fun a => cnv_apply fft n dsz hi a B in
  phase n P rb (map (fun a => nrm (Cf a)) A) key =
  padd (padd (plsum n (map (fun q => pmul (pval n (P + lo) ab (Cf (fst q))) (snd q)) (combine A key)))
             (plsum n (map (fun q => pmul (eps (Cf (fst q))) (snd q)) (combine A key))))
       (pscale (2 ^ P) (plsum n (map (fun q => pmul (kap (Cf (fst q))) (snd q)) (combine A key)))).
Proof.
  intros fft n rsz dsz hi P rb ab lo nrm eps kap dom B Hs Hv wB LB A key HA Hk Cf.
  apply (column_phase n rsz dsz P rb ab lo nrm eps kap dom Cf Hs Hv A key); [|exact Hk].
  intros a Ha. destruct (HA a Ha) as (wa & La & da). subst Cf. cbv beta. repeat split.
  - apply cnv_apply_wfl; assumption.
  - apply cnv_apply_length.
  - exact da.
Qed.

Theorem mul_const_phase :
  forall (fft : bool) (n rsz dsz hi : nat) (P rb ab lo : Z) (nrm : plimbs -> limbs) (eps kap : plimbs -> list Z) (dom : plimbs -> Prop)
         (b : list Z),
  (forall D, shaped n rsz (nrm D)) ->
  (forall D, wfl n D -> length D = dsz -> dom D ->
     length (eps D) = n /\ length (kap D) = n /\
     pval n P rb (nrm D) = padd (padd (pval n (P + lo) ab D) (eps D)) (pscale (2 ^ P) (kap D)) /\
     (forall c, Z.abs (nth c (eps D) 0) <= 2 ^ (P - zn rsz * rb))) ->
  (1 <= length b)%nat ->
  forall (A : list plimbs) (key : list (list Z)),
  (forall a, In a A -> wfl n a /\ (1 <= length a)%nat /\ dom (cnv_by_const fft n dsz hi a b)) -> (forall k, In k key -> length k = n) ->
  let Cf := fun a => cnv_by_const fft n dsz hi a b in
  phase n P rb (map (fun a => nrm (Cf a)) A) key =
  padd (padd (plsum n (map (fun q => pmul (pval n (P + lo) ab (Cf (fst q))) (snd q)) (combine A key)))
             (plsum n (map (fun q => pmul (eps (Cf (fst q))) (snd q)) (combine A key))))
       (pscale (2 ^ P) (plsum n (map (fun q => pmul (kap (Cf (fst q))) (snd q)) (combine A key)))).
Proof.
  intros fft n rsz dsz hi P rb ab lo nrm eps kap dom b Hs Hv Lb A key HA Hk Cf.
  apply (column_phase n rsz dsz P rb ab lo nrm eps kap dom Cf Hs Hv A key); [|exact Hk].
  intros a Ha. destruct (HA a Ha) as (wa & La & da). subst Cf. cbv beta.
  destruct (cnv_by_const_wfl fft n dsz hi a b wa La Lb) as [w L]. repeat split; assumption.
Qed.

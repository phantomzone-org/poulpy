(* C08: torus-value theorems of normalize_assign, the left shifts and the overwriting right shifts at
   any word width w (right shifts: w - 2 <= 63 b). *)
From PV Require Import Base.MachineInt Model.Znx Model.Limbs Model.C08Oracle
  Proofs.ZnxDigit Proofs.C08Steps Proofs.C08Chain Proofs.C08Value
  Proofs.C08WChain Proofs.C08WLoops Proofs.C08WNormalize Proofs.C08WShift Proofs.C08WRsh.
Open Scope Z_scope.

Section ShiftValue.
Variable w : Z.
Variable b : Z.
Hypothesis Hb : 1 <= b <= w - 2.

Local Notation hrw := (Forall (fun x => Z.abs x <= 2 ^ (w - 2))).

Let Hb1 : 1 <= b. Proof. lia. Qed.

Theorem normalize_assign_valueW (r0 : list Z) : hrw r0 ->
  let out := normalize_assign w b r0 in
  length out = length r0 /\ Forall (in_range b) out /\
  forall P, 2 * zn (length r0) * b <= P -> tor_abs P (val_scaled P b out - val_scaled P b r0) = 0.
Proof.
  intros Hr. apply hrlw_of_Forall in Hr. cbv zeta.
  destruct (normalize_assign_nthW w b Hb r0 Hr) as [L N].
  split; [exact L|]. split.
  - apply (window_balanced b (vin r0 0) (zn (length r0) - 0)); [lia|].
    intros i Hi. apply N. lia.
  - intros P HP.
    destruct (affine_window_value b P 0 0 0 1 r0 r0 (normalize_assign w b r0) Hb1 ltac:(lia)
                ltac:(left; reflexivity) L
                ltac:(intros i Hi; rewrite N by lia; ring)
                ltac:(rewrite L; cbn [Z.abs]; lia)) as [_ H2].
    cbv zeta in H2. rewrite L in H2. specialize (H2 ltac:(lia)).
    replace (P + (0 * b + 0)) with P in H2 by lia.
    rewrite <- H2. f_equal. ring.
Qed.

Lemma off_posW (k : Z) : 0 <= k -> k / b * b + k mod b = k /\ 0 <= k mod b < b.
Proof.
  intros Hk. pose proof (Z.div_mod k b ltac:(lia)). pose proof (Z.mod_pos_bound k b ltac:(lia)). lia.
Qed.

Theorem lsh_assign_valueW (k : Z) (r0 : list Z) : 0 <= k -> hrw r0 ->
  let out := lsh_assign w b k r0 in
  length out = length r0 /\ Forall (in_range b) out /\
  forall P, 2 * zn (length r0) * b + k <= P ->
    tor_abs P (val_scaled P b out - val_scaled (P + k) b r0) = 0.
Proof.
  intros Hk Hr. apply hrlw_of_Forall in Hr. cbv zeta.
  destruct (lsh_assign_nthW w b Hb k r0 Hk Hr) as [L N].
  destruct (off_posW k Hk) as [Eo Hl].
  split; [exact L|]. split.
  - apply (window_balanced b (vin r0 (k mod b)) (zn (length r0) - k / b)); [lia|].
    intros i Hi. apply N. lia.
  - intros P HP.
    destruct (affine_window_value b P (k / b) (k mod b) 0 1 r0 r0 (lsh_assign w b k r0) Hb1 Hl
                ltac:(left; reflexivity) L
                ltac:(intros i Hi; rewrite N by lia; ring)
                ltac:(rewrite L, Eo; lia)) as [_ H2].
    cbv zeta in H2. rewrite L, Eo in H2. specialize (H2 ltac:(lia)).
    rewrite <- H2. f_equal. ring.
Qed.

Theorem lsh_valueW (ov : bool) (k : Z) (a r0 : list Z) : 0 <= k -> hrw a -> (ov = false -> hrw r0) ->
  let out := lsh w ov b k a r0 in
  length out = length r0 /\ (ov = true -> Forall (in_range b) out) /\
  forall P, zn (length r0) * b + zn (length a) * b + k <= P ->
    let D := tor_abs P (val_scaled P b out - (if ov then 0 else val_scaled P b r0)
                        - val_scaled (P + k) b a) in
    D <= 2 ^ (P - zn (length r0) * b) /\ (zn (length a) * b - k <= zn (length r0) * b -> D = 0).
Proof.
  intros Hk Ha Hr. apply hrlw_of_Forall in Ha.
  assert (Hr' : ov = false -> hrlw w r0) by (intros E; apply hrlw_of_Forall; apply Hr; exact E).
  cbv zeta.
  destruct (lsh_nthW w b Hb ov k a r0 Hk Ha Hr') as [L N].
  destruct (off_posW k Hk) as [Eo Hl].
  split; [exact L|]. split.
  - intros ->. apply (window_balanced b (vin a (k mod b)) (zn (length a) - k / b)); [lia|].
    intros i Hi. rewrite N by lia. ring.
  - intros P HP.
    pose proof (affine_window_value b P (k / b) (k mod b) (if ov then 0 else 1) 1 a r0 (lsh w ov b k a r0)
                  Hb1 Hl ltac:(left; reflexivity) L
                  ltac:(intros i Hi; rewrite N by lia; destruct ov; ring)
                  ltac:(rewrite L, Eo; lia)) as HV.
    cbv zeta in HV. rewrite L, Eo in HV.
    replace (val_scaled P b (lsh w ov b k a r0) - (if ov then 0 else val_scaled P b r0) - val_scaled (P + k) b a)
      with (val_scaled P b (lsh w ov b k a r0) - (if ov then 0 else 1) * val_scaled P b r0
            - 1 * val_scaled (P + k) b a) by (destruct ov; ring).
    exact HV.
Qed.

Theorem lsh_sub_valueW (k : Z) (a r0 : list Z) : 0 <= k -> hrw a -> hrw r0 ->
  let out := lsh_sub w b k a r0 in
  length out = length r0 /\
  forall P, zn (length r0) * b + zn (length a) * b + k <= P ->
    let D := tor_abs P (val_scaled P b out - val_scaled P b r0 + val_scaled (P + k) b a) in
    D <= 2 ^ (P - zn (length r0) * b) /\ (zn (length a) * b - k <= zn (length r0) * b -> D = 0).
Proof.
  intros Hk Ha Hr. apply hrlw_of_Forall in Ha. apply hrlw_of_Forall in Hr. cbv zeta.
  destruct (lsh_sub_nthW w b Hb k a r0 Hk Ha Hr) as [L N].
  destruct (off_posW k Hk) as [Eo Hl].
  split; [exact L|].
  intros P HP.
  pose proof (affine_window_value b P (k / b) (k mod b) 1 (-1) a r0 (lsh_sub w b k a r0)
                Hb1 Hl ltac:(right; reflexivity) L
                ltac:(intros i Hi; rewrite N by lia; ring)
                ltac:(rewrite L, Eo; lia)) as HV.
  cbv zeta in HV. rewrite L, Eo in HV.
  replace (val_scaled P b (lsh_sub w b k a r0) - val_scaled P b r0 + val_scaled (P + k) b a)
    with (val_scaled P b (lsh_sub w b k a r0) - 1 * val_scaled P b r0 - -1 * val_scaled (P + k) b a) by ring.
  exact HV.
Qed.

(* the right shifts propagate a carry through a gap capped at 64 steps: it must saturate *)
Hypothesis Hcap : w - 2 <= 63 * b.

Lemma off_negW (k : Z) : 0 <= k ->
  - zn (fst (rsh_params b k)) * b + snd (rsh_params b k) = - k /\ 0 <= snd (rsh_params b k) < b.
Proof. intros Hk. destruct (rsh_params_spec b k Hb1 Hk). lia. Qed.

Theorem rsh_assign_valueW (k : Z) (r0 : list Z) : 0 <= k -> hrw r0 ->
  let out := rsh_assign w b k r0 in
  length out = length r0 /\ Forall (in_range b) out /\
  forall P, 2 * zn (length r0) * b + k <= P ->
    let D := tor_abs P (val_scaled P b out - val_scaled (P - k) b r0) in
    D <= 2 ^ (P - zn (length r0) * b) /\ (k = 0 -> D = 0).
Proof.
  intros Hk Hr. apply hrlw_of_Forall in Hr. cbv zeta.
  destruct (rsh_assign_nthW w b Hb Hcap k r0 Hk Hr) as [L N]. cbv zeta in N.
  destruct (off_negW k Hk) as [Eo Hl].
  set (steps := fst (rsh_params b k)) in *. set (lsh := snd (rsh_params b k)) in *.
  split; [exact L|]. split.
  - apply (window_balanced b (vin r0 lsh) (zn (length r0) - - zn steps)); [lia|].
    intros i Hi. apply N. lia.
  - intros P HP.
    pose proof (affine_window_value b P (- zn steps) lsh 0 1 r0 r0 (rsh_assign w b k r0) Hb1 Hl
                  ltac:(left; reflexivity) L
                  ltac:(intros i Hi; rewrite N by lia; ring)
                  ltac:(rewrite L, Eo; lia)) as HV.
    cbv zeta in HV. rewrite L, Eo in HV.
    replace (val_scaled P b (rsh_assign w b k r0) - val_scaled (P - k) b r0)
      with (val_scaled P b (rsh_assign w b k r0) - 0 * val_scaled P b r0 - 1 * val_scaled (P + - k) b r0)
      by (replace (P + - k) with (P - k) by lia; ring).
    destruct HV as [H1 H2]. split; [exact H1|]. intros ->. apply H2. lia.
Qed.

Theorem rsh_ov_valueW (k : Z) (a r0 : list Z) : 0 <= k -> hrw a ->
  let out := rsh w true b k a r0 in
  length out = length r0 /\ Forall (in_range b) out /\
  forall P, zn (length r0) * b + zn (length a) * b + k <= P ->
    let D := tor_abs P (val_scaled P b out - val_scaled (P - k) b a) in
    D <= 2 ^ (P - zn (length r0) * b) /\ (zn (length a) * b + k <= zn (length r0) * b -> D = 0).
Proof.
  intros Hk Ha. apply hrlw_of_Forall in Ha. cbv zeta.
  destruct (rsh_ov_nthW w b Hb Hcap k a r0 Hk Ha) as [L N]. cbv zeta in N.
  destruct (off_negW k Hk) as [Eo Hl].
  set (steps := fst (rsh_params b k)) in *. set (lsh := snd (rsh_params b k)) in *.
  split; [exact L|]. split.
  - apply (window_balanced b (vin a lsh) (zn (length a) - - zn steps)); [lia|].
    intros i Hi. apply N. lia.
  - intros P HP.
    pose proof (affine_window_value b P (- zn steps) lsh 0 1 a r0 (rsh w true b k a r0) Hb1 Hl
                  ltac:(left; reflexivity) L
                  ltac:(intros i Hi; rewrite N by lia; ring)
                  ltac:(rewrite L, Eo; lia)) as HV.
    cbv zeta in HV. rewrite L, Eo in HV.
    replace (val_scaled P b (rsh w true b k a r0) - val_scaled (P - k) b a)
      with (val_scaled P b (rsh w true b k a r0) - 0 * val_scaled P b r0 - 1 * val_scaled (P + - k) b a)
      by (replace (P + - k) with (P - k) by lia; ring).
    destruct HV as [H1 H2]. split; [exact H1|]. intros Hx. apply H2. lia.
Qed.

End ShiftValue.

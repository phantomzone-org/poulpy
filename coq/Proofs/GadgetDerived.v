(* Phase-level theorems for the DERIVED operations (definitions: Model/GadgetDerived.v).
   sample extraction: sample_extract_phase, rotate_selects
   packing: pack_error_bound (the (2^L - 1) factor over an abstract merge tree), pack_fold, packer_fold (bitrev),
        sigmaE_coeff_shift (what sigma_g does to one coefficient), sigmaE_monomial_flip, pack_merge_level
   GGSW rows: expand_regroup, ggsw_expand_row_cells_lemma (on the model), cell0_after_keyswitch
   trace: trace_op_span, trace_phase_lemma *)
From Coq Require Import Znumtheory.
From PV Require Import Base.MachineInt Model.Znx Model.Limbs Model.Flat Model.Ring Model.Poly Model.DftAbs Model.Gadget Model.GadgetSpec Model.GadgetDerived
  Proofs.C07Dft Proofs.C07Ring Proofs.C09Lists Proofs.C09Sigma Proofs.GadgetDecomp Proofs.GadgetPhase Proofs.GadgetBound Proofs.C03Phase Proofs.C04Phase Proofs.GadgetSigma.
Open Scope Z_scope.

(* sample extraction, lwe_from_glwe, glwe_from_lwe : exact algebraic facts *)
Section Extract.
Lemma gcd_m1 m : Z.gcd (-1) m = 1.
Proof. change (-1) with (Z.opp 1). rewrite Z.gcd_opp_l. apply Z.gcd_1_l. Qed.


Lemma nthZ_app_zeros (s : list Z) k i : nthZ (s ++ zeros k) i = nthZ s i.
Proof.
  unfold nthZ. destruct (Nat.lt_ge_cases i (length s)) as [H|H].
  - apply app_nth1; exact H.
  - rewrite app_nth2 by exact H. rewrite (nth_overflow s) by exact H. apply nth_pzero.
Qed.

(* coefficient 0 of  a (x) sigma_{-1}(s padded with zeros)  is the LWE inner product  sum_{i<nl} a_i s_i *)
Theorem sample_extract_phase (n : nat) (a s : list Z) : (0 < n)%nat -> length a = n -> (length s <= n)%nat ->
  nth 0 (pmul a (sigmaE (-1) (s ++ zeros (n - length s)))) 0 = lwe_dot a s (length s).
Proof.
  intros Hn Ha Hs. set (sp := s ++ zeros (n - length s)).
  assert (Lsp : length sp = n) by (unfold sp, zeros; rewrite app_length, repeat_length; lia).
  rewrite pmul_spec by (rewrite ?sigmaE_length; lia). rewrite Ha.
  assert (E : forall i, (i < n)%nat -> ext' (sigmaE (-1) sp) (Z.of_nat 0 - Z.of_nat i) = nthZ s i).
  { intros i Hi. replace (Z.of_nat 0 - Z.of_nat i) with (Z.of_nat i * -1) by lia.
    rewrite ext'_sigmaE by (rewrite ?Lsp; try apply gcd_m1; lia).
    rewrite ext'_nth by lia. apply nthZ_app_zeros. }
  rewrite (zsum_ext _ (fun i => nthZ a i * nthZ s i) n) by (intros i Hi; rewrite E by exact Hi; reflexivity).
  change (lwe_dot a s (length s)) with (zsum (fun i => nthZ a i * nthZ s i) (length s)).
  replace n with (length s + (n - length s))%nat at 1 by lia.
  rewrite zsum_app. rewrite (zsum_none (fun i => nthZ a (length s + i) * nthZ s (length s + i))); [lia|].
  intros j _. unfold nthZ at 2. rewrite nth_overflow by lia. ring.
Qed.

(* multiplication by X^p on the whole extension *)
Lemma ext'_monomial p (a : list Z) k : (0 < length a)%nat -> ext' (monomial_mul' p a) k = ext' a (k - p).
Proof.
  intros Hl. set (n := Z.of_nat (length a)). assert (Hn : 0 < n) by (unfold n; lia).
  assert (Lm : length (monomial_mul' p a) = length a) by (unfold monomial_mul'; rewrite map_length, seq_length; reflexivity).
  pose proof (Z.div_mod k n ltac:(lia)) as E. pose proof (Z.mod_pos_bound k n Hn) as Hr.
  set (q := k / n) in *. set (r := k mod n) in *.
  replace k with (r + q * Z.of_nat (length (monomial_mul' p a))) at 1 by (rewrite Lm; fold n; lia).
  rewrite ext'_shift by lia.
  replace (k - p) with ((r - p) + q * Z.of_nat (length a)) by (fold n; lia).
  rewrite (ext'_shift a) by exact Hl.
  assert (E0 : ext' (monomial_mul' p a) r = ext' a (r - p)).
  { rewrite <- (Z2Nat.id r) by lia. rewrite ext'_nth by lia.
    unfold monomial_mul', nthZ. rewrite nth_map_seq by lia. reflexivity. }
  rewrite E0. reflexivity.
Qed.

(* rotation by -idx brings coefficient idx to position 0 *)
Theorem rotate_selects (x : list Z) (idx : nat) : (idx < length x)%nat ->
  nth 0 (monomial_mul' (- Z.of_nat idx) x) 0 = nthZ x idx.
Proof.
  intros H. change (nth 0 (monomial_mul' (- Z.of_nat idx) x) 0) with (nthZ (monomial_mul' (- Z.of_nat idx) x) 0).
  rewrite <- (ext'_nth (monomial_mul' (- Z.of_nat idx) x) 0) by (unfold monomial_mul'; rewrite map_length, seq_length; lia).
  rewrite ext'_monomial by lia. replace (Z.of_nat 0 - - Z.of_nat idx) with (Z.of_nat idx) by lia. apply ext'_nth; exact H.
Qed.

End Extract.


(* packing *)

Section PackError.
Lemma merge_err_le lvl t x : merge_err lvl t x -> x <= merr lvl t.
Proof. induction 1 as [e x H|l r xl xr x Hl IHl Hr IHr H]; cbn [merr]; lia. Qed.

(* the (2^L - 1) factor: a tree of depth L has at most 2^L leaves and 2^L - 1 merges *)
Theorem merr_bound lvl e0 t : 0 <= lvl -> 0 <= e0 -> mleaves_le e0 t ->
  merr lvl t <= 2 ^ Z.of_nat (mdepth t) * e0 + (2 ^ Z.of_nat (mdepth t) - 1) * lvl.
Proof.
  intros Hl He. induction t as [e|l IHl r IHr]; intros H; cbn [merr mdepth mleaves_le] in *.
  - change (Z.of_nat 0) with 0. rewrite Z.pow_0_r. lia.
  - destruct H as [H1 H2]. specialize (IHl H1). specialize (IHr H2).
    set (d := Nat.max (mdepth l) (mdepth r)).
    assert (Dl : 2 ^ Z.of_nat (mdepth l) <= 2 ^ Z.of_nat d) by (apply Z.pow_le_mono_r; unfold d; lia).
    assert (Dr : 2 ^ Z.of_nat (mdepth r) <= 2 ^ Z.of_nat d) by (apply Z.pow_le_mono_r; unfold d; lia).
    assert (P1 : 1 <= 2 ^ Z.of_nat (mdepth l)) by (pose proof (pow2_pos (Z.of_nat (mdepth l)) ltac:(lia)); lia).
    assert (P2 : 1 <= 2 ^ Z.of_nat (mdepth r)) by (pose proof (pow2_pos (Z.of_nat (mdepth r)) ltac:(lia)); lia).
    replace (Z.of_nat (S d)) with (Z.of_nat d + 1) by lia. rewrite Z.pow_add_r by lia. change (2 ^ 1) with 2.
    nia.
Qed.

Theorem pack_error_bound lvl e0 t x (L : nat) : 0 <= lvl -> 0 <= e0 -> mleaves_le e0 t -> (mdepth t <= L)%nat ->
  merge_err lvl t x -> x <= 2 ^ Z.of_nat L * e0 + (2 ^ Z.of_nat L - 1) * lvl.
Proof.
  intros Hl He Hle HL Hm. pose proof (merge_err_le lvl t x Hm). pose proof (merr_bound lvl e0 t Hl He Hle).
  assert (D : 2 ^ Z.of_nat (mdepth t) <= 2 ^ Z.of_nat L) by (apply Z.pow_le_mono_r; lia).
  assert (P1 : 1 <= 2 ^ Z.of_nat (mdepth t)) by (pose proof (pow2_pos (Z.of_nat (mdepth t)) ltac:(lia)); lia).
  nia.
Qed.

End PackError.

Section Slots.
Lemma pack_shifts_S L : pack_shifts (S L) = (2 ^ L)%nat :: pack_shifts L.
Proof.
  unfold pack_shifts. cbn [seq map]. f_equal; [f_equal; lia|].
  rewrite <- seq_shift, map_map. apply map_ext. intros i. f_equal. lia.
Qed.

Lemma pack_fold L : forall s off, (s < 2 ^ L)%nat -> fold_left pack_step (pack_shifts L) (s, off) = (0, off + s)%nat.
Proof.
  induction L as [|L IH]; intros s off Hs.
  - cbn in Hs. cbn. f_equal; lia.
  - rewrite pack_shifts_S. cbn [fold_left]. unfold pack_step at 2. cbn [fst snd].
    rewrite Nat.pow_succ_r' in Hs.
    destruct (Nat.leb_spec (2 ^ L) s) as [G|G].
    + rewrite IH by lia. f_equal. lia.
    + apply IH. exact G.
Qed.

Lemma packer_fold L : forall k off, 
  fold_left (fun off i => if Nat.odd (k / 2 ^ i) then off + 2 ^ (L - 1 - i) else off)%nat (seq 0 L) off = (off + bitrev L k)%nat.
Proof.
  induction L as [|L IH]; intros k off; [cbn; lia|].
  cbn [seq fold_left bitrev]. rewrite <- seq_shift, fold_left_map'.
  rewrite (fold_left_ext2 _ (fun off i => if Nat.odd ((k / 2) / 2 ^ i) then off + 2 ^ (L - 1 - i) else off)%nat).
  2:{ intros a i. rewrite Nat.pow_succ_r', <- Nat.div_div by (try apply Nat.pow_nonzero; lia).
      replace (S L - 1 - S i)%nat with (L - 1 - i)%nat by lia. reflexivity. }
  rewrite IH. cbn [Nat.pow]. rewrite Nat.div_1_r. replace (S L - 1 - 0)%nat with L by lia.
  rewrite <- Nat.bit0_mod, Nat.bit0_odd. destruct (Nat.odd k); cbn [Nat.b2n]; lia.
Qed.

Lemma bitrev_lt L : forall k, (bitrev L k < 2 ^ L)%nat.
Proof.
  induction L as [|L IH]; intros k; cbn [bitrev]; [cbn; lia|].
  pose proof (IH (k / 2)%nat). pose proof (Nat.mod_upper_bound k 2 ltac:(lia)). rewrite Nat.pow_succ_r'. nia.
Qed.
End Slots.


(* per-coefficient action of sigma_g : fixed / negated positions (the projection facts behind trace and packing) *)
Section SigmaCoeff.
Variables (n : nat) (g : Z).
Hypothesis Hn : (0 < n)%nat.
Hypothesis Hg : Z.gcd g (2 * Z.of_nat n) = 1.

Lemma monomial_length p (a : list Z) : length (monomial_mul' p a) = length a.
Proof. unfold monomial_mul'. rewrite map_length, seq_length. reflexivity. Qed.

(* j g = j + q n : coefficient j of sigma_g a is a_j for even q (fixed position) and - a_j for odd q (negated position) *)
Lemma sigmaE_coeff_shift (a : list Z) (j : nat) q : length a = n -> (j < n)%nat -> Z.of_nat j * g = Z.of_nat j + q * Z.of_nat n ->
  nthZ (sigmaE g a) j = if Z.even q then nthZ a j else - nthZ a j.
Proof.
  intros Ha Hj E. assert (Ls : length (sigmaE g a) = n) by (rewrite sigmaE_length; exact Ha).
  rewrite <- (ext'_nth (sigmaE g a) j), <- (ext'_nth a j) by lia.
  rewrite <- (ext'_sigmaE g a (Z.of_nat j)) by (rewrite ?Ha; assumption || lia).
  rewrite E, <- Ls, ext'_shift by lia. destruct (Z.even q); lia.
Qed.

(* sigma_g (X^t b) = - X^t sigma_g(b)  when  t g = t + n (mod 2n)   [AUTO(a X^t, g) = -X^t AUTO(a, g) of pack_internal] *)
Theorem sigmaE_monomial_flip (b : list Z) (t s : Z) : length b = n -> t * g = t + Z.of_nat n + s * (2 * Z.of_nat n) ->
  sigmaE g (monomial_mul' t b) = pneg (monomial_mul' t (sigmaE g b)).
Proof.
  intros Hb E. symmetry.
  assert (Lm : length (monomial_mul' t b) = n) by (rewrite monomial_length; exact Hb).
  apply sigmaE_unique.
  - rewrite Lm. exact Hg.
  - rewrite Lm. exact Hn.
  - rewrite pneg_length, !monomial_length, sigmaE_length. reflexivity.
  - intros k. rewrite ext'_pneg, !ext'_monomial by (rewrite ?sigmaE_length; lia).
    rewrite <- (ext'_sigmaE g b (k - t)) by (rewrite ?Hb; assumption || lia).
    replace ((k - t) * g) with ((k * g - t) + (- (2 * s) - 1) * Z.of_nat (length (sigmaE g b))) by (rewrite sigmaE_length, Hb; nia).
    rewrite ext'_shift by (rewrite sigmaE_length; lia).
    replace (Z.even (- (2 * s) - 1)) with false; [lia|].
    symmetry. replace (- (2 * s) - 1) with (1 + 2 * (- s - 1)) by lia. rewrite Z.even_add_mul_2. reflexivity.
Qed.

(* one merge level of pack_internal, exactly (before the halving):
   (a + X^t b) + sigma_g (a - X^t b) = (a + sigma_g a) + X^t (b + sigma_g b) *)
Theorem pack_merge_level (a b : list Z) (t s : Z) : length a = n -> length b = n -> t * g = t + Z.of_nat n + s * (2 * Z.of_nat n) ->
  padd (padd a (monomial_mul' t b)) (sigmaE g (psub a (monomial_mul' t b)))
  = padd (padd a (sigmaE g a)) (monomial_mul' t (padd b (sigmaE g b))).
Proof.
  intros Ha Hb E.
  assert (Lm : length (monomial_mul' t b) = n) by (rewrite monomial_length; exact Hb).
  rewrite (sigmaE_psub n g Hn Hg) by assumption. rewrite (sigmaE_monomial_flip b t s Hb E).
  assert (Lsa : length (sigmaE g a) = n) by (rewrite sigmaE_length; exact Ha).
  assert (Lsb : length (sigmaE g b) = n) by (rewrite sigmaE_length; exact Hb).
  apply ext'_inj.
  - repeat (rewrite ?padd_length, ?psub_length, ?pneg_length, ?monomial_length). lia.
  - intros k.
    repeat first [ rewrite ext'_padd by (repeat (rewrite ?padd_length, ?psub_length, ?pneg_length, ?monomial_length); lia)
                 | rewrite ext'_psub by (repeat (rewrite ?padd_length, ?psub_length, ?pneg_length, ?monomial_length); lia)
                 | rewrite ext'_pneg
                 | rewrite ext'_monomial by (repeat (rewrite ?padd_length, ?monomial_length); lia) ].
    ring.
Qed.
End SigmaCoeff.


(* GGSW row expansion: column j of a row from its column 0 and the tensor key *)
Section ExpandAlgebra.
(* s (x) (X + e + 2^P I) regrouped, with the norm of the new error *)
Lemma expand_regroup (n : nat) (P : Z) (sj Mr e0 I0 E Iq KS c0s : list Z) (Sb env : Z) :
  length sj = n -> length Mr = n -> length e0 = n -> length I0 = n -> length E = n -> length Iq = n -> length KS = n -> length c0s = n ->
  padd KS c0s = pmul sj (padd (padd Mr e0) (pscale (2 ^ P) I0)) ->
  pnorm sj <= Sb -> pnorm E <= env ->
  padd (padd (padd KS E) (pscale (2 ^ P) Iq)) c0s
  = padd (padd (pmul sj Mr) (padd (pmul sj e0) E)) (pscale (2 ^ P) (padd Iq (pmul sj I0))) /\
  pnorm (padd (pmul sj e0) E) <= Z.of_nat n * Sb * pnorm e0 + env.
Proof.
  intros L1 L2 L3 L4 L5 L6 L7 L8 H HSb HE. split.
  - rewrite !pmul_padd_distr_l in H by (repeat (rewrite ?padd_length, ?pscale_length); lia).
    rewrite pscale_pmul_r in H.
    pcoeff_as n k. apply (f_equal (fun l => nth k l 0)) in H.
    rewrite !(nth_padd_n n), !nth_pscale in H by plen. lia.
  - eapply Z.le_trans; [apply pnorm_padd|].
    pose proof (pnorm_pmul sj e0 ltac:(lia)) as B. rewrite L1 in B.
    pose proof (pnorm_nonneg sj). pose proof (pnorm_nonneg e0).
    assert (Z.of_nat n * pnorm sj * pnorm e0 <= Z.of_nat n * Sb * pnorm e0) by (apply Z.mul_le_mono_nonneg_r; [lia|apply Z.mul_le_mono_nonneg_l; lia]).
    lia.
Qed.

Lemma acol_tl n (ct : cols_t) ci l : acol n (tl ct) ci l = acol n ct (S ci) l.
Proof. unfold acol, col. destruct ct; [destruct ci|]; reflexivity. Qed.
End ExpandAlgebra.

Section ExpandRow.
Variables (P b : Z) (n rank msize a_size dsize dnum j : nat).
Variable ct0 : cols_t.                     (* column 0 of the row: a GLWE (body :: rank mask columns) *)
Variable res0 : cols_t.
Variable K : pmat.                         (* tensor key for column j: rows encrypt s_i (x) s_{j-1} *)
Variable Sk : nat -> list Z.
Variables (e I : nat -> nat -> list Z).
Variables (Mr e0 I0 : list Z) (Sb env : Z).
Hypothesis Hct : wf_cols n (S rank) a_size ct0.
Hypothesis HK : wf_pmat_in n (dnum * rank) (msize * S rank) K.
Hypothesis Hn : (1 <= n)%nat.
Hypothesis Hj : (1 <= j <= rank)%nat.
Hypothesis Hd : (1 <= dsize)%nat.
Hypothesis Hdrop : (dsize - 2 <= msize)%nat.
Hypothesis Hfit : (a_size <= dnum * dsize)%nat.
Hypothesis HS : forall co, length (Sk co) = n.
Hypothesis HS0 : Sk 0%nat = pone n.
Hypothesis He : forall row ci, length (e row ci) = n.
Hypothesis HI : forall row ci, length (I row ci) = n.
Hypothesis Hb : 0 <= b.
Hypothesis HP : Z.of_nat msize * b <= P.
Hypothesis HP2 : Z.of_nat dnum * Z.of_nat dsize * b <= P.
Hypothesis tensor_key_rows : key_rows_ok P b n rank (S rank) msize dsize dnum K Sk (fun i => pmul (Sk (S i)) (Sk j)) e I.
Hypothesis LMr : length Mr = n.
Hypothesis Le0 : length e0 = n.
Hypothesis LI0 : length I0 = n.
(* column 0 of the row encrypts M_r = m2 2^(P-(r+1) dsize b) with error e0 *)
Hypothesis cell0 : phase_f P b n (S rank) a_size (acol n ct0) Sk = padd (padd Mr e0) (pscale (2 ^ P) I0).
Hypothesis HSb : pnorm (Sk j) <= Sb.
Hypothesis Henv : pnorm (gadget_err P b n rank (S rank) msize dsize dnum (acol n (tl ct0)) K Sk e) <= env.

(* column j = (gadget product of the mask columns with the tensor key) + (body of column 0 placed on column j):
   it encrypts s_{j-1} (x) M_r with error s_{j-1} (x) e0 + E *)
Theorem ggsw_expand_row_cells_lemma :
  exists res, gadget_product n (S rank) msize res0 (tl ct0) a_size dsize dnum msize true K = Some res /\
    padd (phase_f P b n (S rank) msize (limbs_of res) Sk) (pmul (pval P b n (acol n ct0 0) a_size) (Sk j))
    = padd (padd (pmul (Sk j) Mr)
                 (padd (pmul (Sk j) e0) (gadget_err P b n rank (S rank) msize dsize dnum (acol n (tl ct0)) K Sk e)))
           (pscale (2 ^ P) (padd (gadget_int b n rank (S rank) msize dsize dnum (acol n (tl ct0)) K Sk I) (pmul (Sk j) I0))) /\
    pnorm (padd (pmul (Sk j) e0) (gadget_err P b n rank (S rank) msize dsize dnum (acol n (tl ct0)) K Sk e))
    <= Z.of_nat n * Sb * pnorm e0 + env.
Proof.
  destruct (C03_keyswitch_phase_lemma P b n rank (S rank) msize a_size dsize dnum (tl ct0) res0 K Sk (fun i => pmul (Sk (S i)) (Sk j)) e I
              (wf_tl n rank a_size ct0 Hct) HK Hd Hdrop HS ltac:(intros; cbv beta; rewrite pmul_length; apply HS) He HI Hb HP HP2 tensor_key_rows)
    as [res [E1 [E2 E3]]].
  exists res. split; [exact E1|]. rewrite E3.
  pose proof (acol_length n (S rank) a_size ct0 Hct) as LB.
  pose proof (acol_length n rank a_size (tl ct0) (wf_tl n rank a_size ct0 Hct)) as LA.
  set (E := gadget_err P b n rank (S rank) msize dsize dnum (acol n (tl ct0)) K Sk e) in *.
  set (Iq := gadget_int b n rank (S rank) msize dsize dnum (acol n (tl ct0)) K Sk I).
  set (V := fun ci => pval P b n (acol n ct0 (S ci)) a_size).
  assert (LV : forall ci, length (V ci) = n) by (unfold V; plen).
  set (c0v := pval P b n (acol n ct0 0) a_size).
  assert (Lc0 : length c0v = n) by (unfold c0v; plen).
  assert (EV : psumf n (fun ci => pmul (pval_used P b n a_size dsize dnum (acol n (tl ct0)) ci) (pmul (Sk (S ci)) (Sk j))) rank
               = psumf n (fun ci => pmul (V ci) (pmul (Sk (S ci)) (Sk j))) rank).
  { apply psumf_ext; intros ci Hci. f_equal. unfold pval_used, V. rewrite Nat.min_l by exact Hfit.
    unfold pval. apply psumf_ext; intros l _. f_equal. apply acol_tl. }
  rewrite EV.
  set (KS := psumf n (fun ci => pmul (V ci) (pmul (Sk (S ci)) (Sk j))) rank).
  assert (LKS : length KS = n) by (unfold KS; plen).
  (* s_j (x) phase(column 0) *)
  assert (Hmul : padd KS (pmul c0v (Sk j)) = pmul (Sk j) (padd (padd Mr e0) (pscale (2 ^ P) I0))).
  { rewrite <- cell0. unfold phase_f.
    rewrite psumf_shift by plen.
    fold c0v. rewrite HS0, (pmul_pone_r n c0v Hn Lc0).
    assert (LR : length (psumf n (fun i => pmul (pval P b n (acol n ct0 (S i)) a_size) (Sk (S i))) rank) = n) by plen.
    rewrite pmul_padd_distr_l by (rewrite ?HS, ?Lc0, ?LR; reflexivity).
    rewrite padd_comm. f_equal; [apply pmul_comm; rewrite HS, Lc0; reflexivity|].
    rewrite pmul_psumf_l by plen.
    unfold KS. apply psumf_ext; intros ci _. fold (V ci).
    rewrite (pmul_comm (Sk (S ci)) (Sk j)) by (rewrite !HS; reflexivity).
    rewrite <- pmul_assoc by (rewrite ?HS, ?LV; reflexivity).
    rewrite (pmul_comm (V ci) (Sk j)) by (rewrite HS, LV; reflexivity).
    apply pmul_assoc; rewrite ?HS, ?LV; reflexivity. }
  apply (expand_regroup n P (Sk j) Mr e0 I0 E Iq KS (pmul c0v (Sk j)) Sb env); try assumption; unfold E, Iq; plen.
Qed.
End ExpandRow.

(* GGSW key-switch / automorphism = (key-switch resp. automorphism of column 0) then row expansion under the new secret:
   every cell keeps the same m2 (resp. sigma_g m2).  Phase level: all lists have length n. *)
Section GgswDerived.
Variables (n : nat) (P : Z).
Hypothesis Hn : (0 < n)%nat.

Lemma cell0_after_keyswitch (ph0 ph0' Mr e0 I0 Eks Iks : list Z) :
  length Mr = n -> length e0 = n -> length I0 = n -> length Eks = n -> length Iks = n ->
  ph0 = padd (padd Mr e0) (pscale (2 ^ P) I0) ->
  ph0' = padd (padd ph0 Eks) (pscale (2 ^ P) Iks) ->
  ph0' = padd (padd Mr (padd e0 Eks)) (pscale (2 ^ P) (padd I0 Iks)).
Proof.
  intros L1 L2 L3 L4 L5 -> ->. pcoeff n. ring.
Qed.

End GgswDerived.


(* trace *)

Section TraceOp.
Variable n : nat.
Hypothesis Hn : (0 < n)%nat.

Lemma Tg_length g x : length x = n -> length (Tg g x) = n.
Proof. intros H. unfold Tg. apply padd_len; [exact H|rewrite sigmaE_length; exact H]. Qed.

Lemma Tg_padd g x y : unit2n n g -> length x = n -> length y = n -> Tg g (padd x y) = padd (Tg g x) (Tg g y).
Proof. intros Hg Hx Hy. unfold Tg. rewrite (sigmaE_padd n g Hn Hg) by assumption. apply padd_swap4. Qed.

Lemma Tg_pscale g c x : unit2n n g -> length x = n -> Tg g (pscale c x) = pscale c (Tg g x).
Proof. intros Hg Hx. unfold Tg. rewrite (sigmaE_pscale n g Hn Hg) by assumption. symmetry. apply pscale_padd. Qed.

Lemma Tg_pnorm g x : unit2n n g -> length x = n -> pnorm (Tg g x) <= 2 * pnorm x.
Proof.
  intros Hg Hx. unfold Tg. eapply Z.le_trans; [apply pnorm_padd|].
  rewrite sigmaE_pnorm by (rewrite Hx; apply gcd2n_gcdn; exact Hg). lia.
Qed.

Lemma trace_op_length gs : forall x, length x = n -> length (trace_op gs x) = n.
Proof. induction gs as [|g gs IH]; intros x Hx; [exact Hx|]. cbn [trace_op fold_left]. apply IH. apply Tg_length; exact Hx. Qed.

Lemma trace_op_padd gs : Forall (unit2n n) gs -> forall x y, length x = n -> length y = n ->
  trace_op gs (padd x y) = padd (trace_op gs x) (trace_op gs y).
Proof.
  induction 1 as [|g gs Hg HF IH]; intros x y Hx Hy; [reflexivity|].
  cbn [trace_op fold_left]. rewrite Tg_padd by assumption. apply IH; apply Tg_length; assumption.
Qed.

Lemma trace_op_pscale gs c : Forall (unit2n n) gs -> forall x, length x = n -> trace_op gs (pscale c x) = pscale c (trace_op gs x).
Proof.
  induction 1 as [|g gs Hg HF IH]; intros x Hx; [reflexivity|].
  cbn [trace_op fold_left]. rewrite Tg_pscale by assumption. apply IH. apply Tg_length; exact Hx.
Qed.

Lemma trace_op_pnorm gs : Forall (unit2n n) gs -> forall x, length x = n -> pnorm (trace_op gs x) <= 2 ^ Z.of_nat (length gs) * pnorm x.
Proof.
  induction 1 as [|g gs Hg HF IH]; intros x Hx; [cbn [trace_op fold_left length]; change (Z.of_nat 0) with 0; rewrite Z.pow_0_r; lia|].
  cbn [trace_op fold_left length]. eapply Z.le_trans; [apply IH; apply Tg_length; exact Hx|].
  pose proof (Tg_pnorm g x Hg Hx). pose proof (pow2_pos (Z.of_nat (length gs)) ltac:(lia)).
  replace (Z.of_nat (S (length gs))) with (Z.of_nat (length gs) + 1) by lia. rewrite Z.pow_add_r by lia. change (2 ^ 1) with 2. nia.
Qed.

Lemma psum_over_length {X} (f : X -> list Z) (l : list X) : (forall x, length (f x) = n) -> length (psum_over n f l) = n.
Proof.
  intros Hf. unfold psum_over. induction l as [|x l IH] using rev_ind; [apply pzero_length|].
  rewrite fold_left_app. cbn [fold_left]. apply padd_len; [exact IH|apply Hf].
Qed.

Lemma psum_over_app {X} (f : X -> list Z) (l1 l2 : list X) : (forall x, length (f x) = n) ->
  psum_over n f (l1 ++ l2) = padd (psum_over n f l1) (psum_over n f l2).
Proof.
  intros Hf. unfold psum_over. rewrite fold_left_app.
  assert (G : forall l acc, length acc = n -> fold_left (fun a x => padd a (f x)) l acc = padd acc (fold_left (fun a x => padd a (f x)) l (pzero n))).
  { induction l as [|x l IH]; intros acc Ha; cbn [fold_left]; [rewrite padd_pzero_r by exact Ha; reflexivity|].
    rewrite IH by (apply padd_len; [exact Ha|apply Hf]).
    rewrite (IH (padd (pzero n) (f x))) by (apply padd_len; [apply pzero_length|apply Hf]).
    rewrite padd_pzero_l by apply Hf. apply padd_assoc. }
  apply G. apply (psum_over_length f l1 Hf).
Qed.

Lemma psum_over_map {X Y} (f : Y -> list Z) (m : X -> Y) (l : list X) : psum_over n f (map m l) = psum_over n (fun x => f (m x)) l.
Proof. unfold psum_over. rewrite fold_left_map'. reflexivity. Qed.

Lemma sigmaE_psum_over g (f : Z -> list Z) (l : list Z) : unit2n n g -> (forall x, length (f x) = n) ->
  sigmaE g (psum_over n f l) = psum_over n (fun x => sigmaE g (f x)) l.
Proof.
  intros Hg Hf. unfold psum_over. induction l as [|x l IH] using rev_ind; [apply (sigmaE_pzero n g Hn Hg)|].
  rewrite !fold_left_app. cbn [fold_left]. rewrite (sigmaE_padd n g Hn Hg); [rewrite IH; reflexivity| |apply Hf].
  apply (psum_over_length f l Hf).
Qed.

Theorem trace_op_span gs : Forall (unit2n n) gs -> forall x, length x = n ->
  trace_op gs x = psum_over n (fun h => sigmaE h x) (galois_span gs).
Proof.
  intros HF x Hx. unfold trace_op, galois_span.
  assert (G : forall L, Forall (unit2n n) L ->
     fold_left (fun y g => Tg g y) gs (psum_over n (fun h => sigmaE h x) L)
     = psum_over n (fun h => sigmaE h x) (fold_left (fun L g => L ++ map (Z.mul g) L) gs L)).
  { induction HF as [|g gs Hg HF IH]; intros L HL; [reflexivity|]. cbn [fold_left].
    rewrite <- IH.
    - f_equal. unfold Tg. assert (Lf : forall h, length (sigmaE h x) = n) by (intros; rewrite sigmaE_length; exact Hx).
      rewrite psum_over_app by exact Lf. f_equal.
      rewrite sigmaE_psum_over by assumption. rewrite psum_over_map.
      unfold psum_over. apply fold_left_ext_in. intros acc h Hh. f_equal.
      rewrite Forall_forall in HL. apply (sigmaE_compose x ltac:(lia) g h); rewrite Hx; [exact Hg|apply HL; exact Hh].
    - apply Forall_app. split; [exact HL|]. apply Forall_forall. intros y Hy. apply in_map_iff in Hy. destruct Hy as [h [<- Hh]].
      rewrite Forall_forall in HL. apply gcd_mul_2n; [exact Hg|apply HL; exact Hh]. }
  rewrite <- G.
  - f_equal. unfold psum_over. cbn [fold_left]. rewrite padd_pzero_l by (rewrite sigmaE_length; exact Hx).
    symmetry. apply sigmaE_1. lia.
  - constructor; [apply Z.gcd_1_l|constructor].
Qed.
End TraceOp.
#[export] Hint Resolve Tg_length trace_op_length : plen.


Section TracePhase.
Variables (P : Z) (n : nat) (rho eps : Z).
Hypothesis Hn : (0 < n)%nat.
Hypothesis Hrho : 0 <= rho.
Hypothesis Heps : 0 <= eps.

(* 2^steps phase(out) = sum_{h in span} sigma_h(phase(in)) + Err + 2^P I,  |Err| <= steps 2^steps (rho + eps):
   relative to the output scale the error is steps * (rounding + key-switch envelope) *)
Theorem trace_phase_lemma gs x z : trace_rel P n rho eps gs x z -> Forall (unit2n n) gs -> length x = n ->
  exists Err I, length Err = n /\ length I = n /\ length z = n /\
    pscale (2 ^ Z.of_nat (length gs)) z = padd (padd (trace_op gs x) Err) (pscale (2 ^ P) I) /\
    pnorm Err <= Z.of_nat (length gs) * 2 ^ Z.of_nat (length gs) * (rho + eps).
Proof.
  induction 1 as [x|g gs x h r J E I y z Lh Lr LJ LE LI Hh Hr Hy HE Hrel IH]; intros HF Hx.
  - exists (pzero n), (pzero n). rewrite !pzero_length. repeat split; try assumption.
    + cbn [length trace_op fold_left]. change (Z.of_nat 0) with 0. rewrite Z.pow_0_r. pcoeff n. ring.
    + rewrite pnorm_pzero. cbn [length]. lia.
  - inversion HF as [|g' gs' Hg HF']; subst g' gs'.
    assert (Ly : length y = n) by (rewrite Hy; plen).
    destruct (IH HF' Ly) as (Err' & I' & LE' & LI' & Lz & Eq & Bd).
    set (m := Z.of_nat (length gs)) in *.
    (* both levels are linear: 2 y = Tg x + V + 2^P W, hence 2 trace(y) = trace(Tg x) + trace V + 2^P trace W *)
    set (V := padd (Tg g r) (pscale 2 E)). set (W := padd (Tg g J) (pscale 2 I)).
    assert (LV : length V = n) by (unfold V; plen).
    assert (LW : length W = n) by (unfold W; plen).
    assert (E2y : pscale 2 y = padd (padd (Tg g x) V) (pscale (2 ^ P) W)).
    { rewrite Hy, !pscale_padd, <- (Tg_pscale n Hn g 2 h Hg Lh), Hh.
      rewrite !(Tg_padd n Hn g), (Tg_pscale n Hn g) by plen.
      unfold V, W. pcoeff n. ring. }
    assert (ET : pscale 2 (trace_op gs y)
                 = padd (padd (trace_op gs (Tg g x)) (trace_op gs V)) (pscale (2 ^ P) (trace_op gs W))).
    { rewrite <- (trace_op_pscale n Hn gs 2 HF' y Ly), E2y.
      rewrite !(trace_op_padd n Hn gs HF'), (trace_op_pscale n Hn gs _ HF') by plen. reflexivity. }
    exists (padd (trace_op gs V) (pscale 2 Err')), (padd (trace_op gs W) (pscale 2 I')).
    split; [plen|]. split; [plen|]. split; [exact Lz|].
    cbn [length]. replace (Z.of_nat (S (length gs))) with (m + 1) by (unfold m; lia).
    rewrite Z.pow_add_r by (unfold m; lia). change (2 ^ 1) with 2. split.
    + cbn [trace_op fold_left]. fold (trace_op gs (Tg g x)).
      rewrite (Z.mul_comm (2 ^ m) 2), <- pscale_pscale, Eq, !pscale_padd, ET.
      pcoeff n. ring.
    + eapply Z.le_trans; [apply pnorm_padd|]. rewrite pnorm_pscale. change (Z.abs 2) with 2.
      pose proof (trace_op_pnorm n Hn gs HF' V LV) as BV. fold m in BV.
      assert (BV2 : pnorm V <= 2 * rho + 2 * eps).
      { unfold V. eapply Z.le_trans; [apply pnorm_padd|]. rewrite pnorm_pscale. change (Z.abs 2) with 2.
        pose proof (Tg_pnorm n Hn g r Hg Lr). lia. }
      pose proof (pow2_pos m ltac:(unfold m; lia)). pose proof (pnorm_nonneg V).
      assert (2 ^ m * pnorm V <= 2 ^ m * (2 * rho + 2 * eps)) by (apply Z.mul_le_mono_nonneg_l; lia).
      nia.
Qed.
End TracePhase.

(* row expansion: n = 2, rank = 1, j = 1, secret s = 1 + X, tensor key row encrypting s (x) s without noise *)
Definition ex5_sk : list (list Z) := [[1; 1]].
Definition ex5_K : pmat := fun q c => if Nat.eqb q 0 && Nat.eqb c 2 then pmul [1; 1] [1; 1] else pzero 2.
Definition ex5_ct0 : cols_t := [[[1; 2]; [3; 4]]; [[5; 6]; [7; 8]]].
Definition ex5_zero : nat -> nat -> list Z := fun _ _ => pzero 2.

(* C08, cross-radix normalisation at any word width with a non-negative offset: the value theorem.
   The routine is stated with the cap of the gap rounding as a parameter: Limbs.normalize_cross is capbits = 128,
   LimbsBig.normalize_cross_big 192. *)
From PV Require Import Base.MachineInt Model.Znx Model.Limbs Model.LimbsBig Model.C08Oracle
  Proofs.ZnxDigit Proofs.C08Steps Proofs.C08Chain Proofs.C08Loops Proofs.C08Value Proofs.C08Normalize
  Proofs.C08WShift Proofs.C08ShiftValue Proofs.C08CrossInner Proofs.C08CrossGeom Proofs.C08CrossOuter Proofs.C08CrossMain
  Proofs.C08WChain Proofs.C08WLoops Proofs.C08WNormalize Proofs.C08WCrossInner Proofs.C08WCrossOuter
  Proofs.C08WCrossLoop.
Open Scope Z_scope.

(* vec_znx_normalize_cross_base2k / vec_znx_normalize_cross_big_base2k with the cap on the gap bits as a parameter *)
Definition normalize_cross_c (w : Z) (capbits : Z) (rb ab : Z) (off : Z) (a r0 : list Z) : option (list Z) :=
  let rsz := length r0 in let asz := length a in
  let a_tot := zn asz * ab in let r_tot := zn rsz * rb in
  let '(lsh, lo) := split_offset ab off in
  let res_end_bit := clampZ (- lo * ab) 0 r_tot in
  let res_start_bit := clampZ (a_tot - lo * ab) 0 r_tot in
  let a_end_bit := clampZ (lo * ab) 0 a_tot in
  let a_start_bit := clampZ (r_tot + lo * ab) 0 a_tot in
  let res_end := Z.to_nat (res_end_bit / rb) in
  let res_start := Z.to_nat (div_ceil res_start_bit rb) in
  let a_end := Z.to_nat (a_end_bit / ab) in
  let a_start := Z.to_nat (div_ceil a_start_bit ab) in
  let rz := zeros rsz in
  if Nat.eqb res_start 0 then Some rz else
  let a_out := (asz - a_start)%nat in
  let ac0 := carry_phase w ab lsh a asz a_out in
  let mid := (a_start - a_end)%nat in
  let s0 := {| c_res := rz; c_anorm := 0; c_acarry := ac0; c_rcarry := 0; c_atake := 0; c_racc := rb; c_rlimb := (res_start - 1)%nat |} in
  let fuel := (Z.to_nat ab + Z.to_nat rb + 4)%nat in
  let '(s, brk, bad) :=
    fold_left (fun (acc : cstate * bool * bool) j =>
      let '(s, brk, bad) := acc in
      if brk || bad then acc else
      let a_limb := (a_start - j - 1)%nat in
      let '(an, ac) := middle_step w true ab lsh 0 (nthZ a a_limb) (c_acarry s) in
      let s1 := {| c_res := c_res s; c_anorm := an; c_acarry := ac; c_rcarry := c_rcarry s; c_atake := ab;
                   c_racc := c_racc s; c_rlimb := c_rlimb s |} in
      let s2 :=
        if Nat.eqb j 0 then
          if negb ((a_tot - a_start_bit) mod ab =? 0) then
            let take := (a_tot - a_start_bit) mod ab in
            {| c_res := c_res s1; c_anorm := mul_power_of_two w (- take) (c_anorm s1); c_acarry := c_acarry s1; c_rcarry := c_rcarry s1;
               c_atake := c_atake s1 - take; c_racc := c_racc s1; c_rlimb := c_rlimb s1 |}
          else if negb ((r_tot - res_start_bit) mod rb =? 0) then
            {| c_res := c_res s1; c_anorm := c_anorm s1; c_acarry := c_acarry s1; c_rcarry := c_rcarry s1;
               c_atake := c_atake s1; c_racc := c_racc s1 - (r_tot - res_start_bit) mod rb; c_rlimb := c_rlimb s1 |}
          else s1
        else s1 in
      match cross_inner w fuel rb ab a_limb s2 with
      | (s3, InnerDone) => (s3, false, false)
      | (s3, OuterBreak) => (s3, true, false)
      | (s3, Fuel) => (s3, false, true)
      end) (seq 0 mid) (s0, false, false) in
  if bad then None else
  if Nat.eqb res_end 0 then Some (c_res s) else
  let cu := if Nat.eqb a_start a_end then c_acarry s else c_rcarry s in
  let cu' := if Nat.eqb a_start a_end && (lo <? 0)
             then gapbits_phase w 8 (Z.min (Z.max (- lo * ab - r_tot) 0) capbits) cu else cu in
  Some (fst (top_phase w false rb 0 res_end (c_res s, cu'))).

Lemma normalize_cross_is_c128 (w rb ab off : Z) (a r0 : list Z) :
  normalize_cross w rb ab off a r0 = normalize_cross_c w 128 rb ab off a r0.
Proof. reflexivity. Qed.

Lemma normalize_cross_big_is_c192 (w rb ab off : Z) (a r0 : list Z) :
  normalize_cross_big w rb ab off a r0 = normalize_cross_c w 192 rb ab off a r0.
Proof. reflexivity. Qed.

Section Thm.
Variable wd : Z.
Variable capbits : Z.
Variables rb ab : Z.
Hypothesis Hrb : 1 <= rb <= wd - 2.
Hypothesis Hab : 1 <= ab <= wd - 2.

Theorem normalize_cross_c_value_pos (off : Z) (a r0 : list Z) : 0 <= off -> Forall (fun x => Z.abs x <= 2 ^ (wd - 2)) a ->
  exists out, normalize_cross_c wd capbits rb ab off a r0 = Some out /\ length out = length r0 /\
    forall P, zn (length r0) * rb + zn (length a) * ab + off <= P ->
      let D := tor_abs P (val_scaled P rb out - val_scaled (P + off) ab a) in
      D <= 2 ^ (P - zn (length r0) * rb) /\ (zn (length a) * ab - off <= zn (length r0) * rb -> D = 0).
Proof.
  intros Hoff Ha. apply hrlw_of_Forall in Ha.
  unfold normalize_cross_c.
  destruct (split_offset ab off) as [lsh lo] eqn:Esp.
  rewrite (split_offset_spec ab off ltac:(lia)) in Esp.
  assert (Hl : 0 <= lsh < ab) by (injection Esp as <- _; apply Z.mod_pos_bound; lia).
  assert (Hlo : 0 <= lo) by (injection Esp as _ <-; apply Z.div_pos; lia).
  assert (Eoff : lo * ab + lsh = off).
  { injection Esp as <- <-. pose proof (Z.div_mod off ab ltac:(lia)). lia. }
  clear Esp.
  set (rsz := length r0). set (asz := length a).
  set (res_start := Z.to_nat (div_ceil (clampZ (zn asz * ab - lo * ab) 0 (zn rsz * rb)) rb)).
  set (a_start := Z.to_nat (div_ceil (clampZ (zn rsz * rb + lo * ab) 0 (zn asz * ab)) ab)).
  set (take := (zn asz * ab - clampZ (zn rsz * rb + lo * ab) 0 (zn asz * ab)) mod ab).
  set (m := (zn rsz * rb - clampZ (zn asz * ab - lo * ab) 0 (zn rsz * rb)) mod rb).
  set (a_end := Z.to_nat (clampZ (lo * ab) 0 (zn asz * ab) / ab)).
  assert (Hloab : 0 <= lo * ab) by (apply Z.mul_nonneg_nonneg; lia).
  assert (HRrb : 0 <= zn rsz * rb) by (apply Z.mul_nonneg_nonneg; unfold zn; lia).
  assert (Eend : Z.to_nat (clampZ (- lo * ab) 0 (zn rsz * rb) / rb) = 0%nat).
  { unfold clampZ. replace (Z.max 0 (Z.min (- lo * ab) (zn rsz * rb))) with 0 by (clear - Hloab HRrb; lia). reflexivity. }
  rewrite Eend. clear Eend.
  destruct (Nat.eqb_spec res_start 0) as [Ers0|Ers0].
  - (* nothing of a reaches res *)
    exists (zeros rsz). split; [reflexivity|]. split; [apply zeros_length|].
    intros P HP. rewrite <- Eoff in HP |- *.
    apply (zeros_value rb ab P lo lsh a rsz ltac:(lia) ltac:(lia) Hl Hlo); [|fold asz; lia].
    destruct (Z_le_gt_dec (zn asz - lo) 0) as [|HT]; [left; assumption|]. right.
    destruct (Nat.eq_dec rsz 0) as [|HR]; [assumption|]. exfalso.
    (* the stream overlaps res, and then res_start >= 1 *)
    assert (HA1 : (1 <= asz)%nat) by (clear - HT Hlo; unfold zn in *; lia).
    assert (Hov : - lo * ab < zn rsz * rb).
    { assert (1 * 1 <= zn rsz * rb) by (apply Z.mul_le_mono_nonneg; clear - HR Hrb; unfold zn; lia).
      clear - H Hloab. lia. }
    pose proof (cross_geom rb ab lo asz rsz ltac:(clear - Hrb; lia) ltac:(clear - Hab; lia)) as G. cbv zeta in G.
    fold res_start in G.
    destruct (G HA1 ltac:(clear - HR; lia) ltac:(clear - HT; lia) Hov)
      as (z & g & _ & _ & _ & _ & _ & _ & _ & _ & _ & _ & Hrs & _).
    clear - Hrs Ers0. lia.
  - destruct (res_start_nonzero rb ab lo asz rsz ltac:(lia) ltac:(lia) Ers0) as [HloA HR1].
    assert (HA1 : (1 <= asz)%nat) by (clear - HloA Hlo; unfold zn in *; lia).
    assert (Hov : - lo * ab < zn rsz * rb).
    { assert (1 * 1 <= zn rsz * rb) by (apply Z.mul_le_mono_nonneg; clear - HR1 Hrb; unfold zn; lia).
      clear - H Hloab. lia. }
    pose proof (cross_geom rb ab lo asz rsz ltac:(clear - Hrb; lia) ltac:(clear - Hab; lia)) as G. cbv zeta in G.
    fold res_start a_start take m a_end in G.
    destruct (G HA1 HR1 HloA Hov)
      as (z & g & Hz & Hg & Hzg & Hgeo & Hast & Eaend & Hmid & Eg & Htake & Hm & Hrs & Ez & Htk & Hzp & _).
    clear G. clearbody res_start a_start take m a_end.
    cbn [c_res c_anorm c_acarry c_rcarry c_atake c_racc c_rlimb].
    assert (Hab1 : 1 <= ab) by lia.
    set (a_out := (asz - a_start)%nat) in *.
    destruct (low_carry wd ab Hab a Ha lsh Hl a_out ltac:(unfold a_out, asz; lia)) as (ac0 & Dlow & Ecp & Hac0 & HC & HD & H0).
    fold asz in Ecp. rewrite Ecp. clear Ecp.
    set (fuel := (Z.to_nat ab + Z.to_nat rb + 4)%nat).
    assert (Hfuel : ab <= Z.of_nat fuel) by (unfold fuel; clear - Hab1; lia). clearbody fuel.
    set (s0 := {| c_res := zeros rsz; c_anorm := 0; c_acarry := ac0; c_rcarry := 0; c_atake := 0;
                  c_racc := rb; c_rlimb := (res_start - 1)%nat |}).
    assert (Hlo' : 0 <= lo < zn (length a)) by (fold asz; lia).
    assert (Hgeo' : (zn (length a) - lo) * ab = zn rsz * rb + g - z) by (fold asz; exact Hgeo).
    match goal with |- context [fold_left ?f (seq 0 ?n) ?init] =>
      pose proof (fold_left_seq_ind f (fun j (acc : cstate * bool * bool) =>
        snd acc = false /\
        (snd (fst acc) = true -> C08CrossOuter.Final rb ab a lsh rsz z g (c_res (fst (fst acc)))) /\
        (snd (fst acc) = false ->
           (j = 0%nat /\ fst (fst acc) = s0) \/
           ((1 <= j)%nat /\ OuterW wd rb ab a lsh rsz z g (a_out + j) (fst (fst acc))))) n init) as HI
    end.
    destruct HI as (I1 & I2 & I3).
    + cbn [fst snd]. split; [reflexivity|]. split; [discriminate|]. intros _. left. split; reflexivity.
    + intros j [[s brk] bad] Hj (Ibad & Ibrk & Inb). cbn [fst snd] in Ibad, Ibrk, Inb. subst bad.
      destruct brk; cbn [orb].
      * cbn [fst snd]. split; [reflexivity|]. split; [intros _; apply Ibrk; reflexivity|discriminate].
      * specialize (Inb eq_refl). clear Ibrk.
        replace (a_start - j - 1)%nat with (length a - 1 - (a_out + j))%nat by (clear - Hj Hast; unfold a_out, asz in *; lia).
        set (t := (a_out + j)%nat).
        assert (Ht : (t < length a)%nat) by (clear - Hj Hast; unfold t, a_out, asz in *; lia).
        assert (Htl : zn t + 1 <= zn (length a) - lo) by (clear - Hj Hast Eaend Hlo; unfold t, a_out, asz, zn in *; lia).
        (* common ending: from the entry invariant of the actual inner-loop state *)
        assert (Hfin : forall st,
          EntryW wd rb ab a lsh rsz z g t st ->
          let r := cross_inner wd fuel rb ab (length a - 1 - t) st in
          let acc' := let (s3, c) := r in
                      match c with InnerDone => (s3, false, false) | OuterBreak => (s3, true, false)
                                 | Fuel => (s3, false, true) end in
          snd acc' = false /\
          (snd (fst acc') = true -> C08CrossOuter.Final rb ab a lsh rsz z g (c_res (fst (fst acc')))) /\
          (snd (fst acc') = false ->
             (S j = 0%nat /\ fst (fst acc') = s0) \/
             ((1 <= S j)%nat /\ OuterW wd rb ab a lsh rsz z g (a_out + S j) (fst (fst acc'))))).
        { intros st HE. cbv zeta.
          destruct (entry_stepW wd rb ab Hrb Hab a lsh rsz z g lo Hz Hg Hgeo' t st fuel HE Ht
                      ltac:(clear - Htl Hlo; unfold zn in *; lia) Hfuel) as (C1 & C2 & C3). cbv zeta in C1, C2, C3.
          destruct (cross_inner wd fuel rb ab (length a - 1 - t) st) as [s3 [| |]]; cbn [fst snd] in *.
          - split; [reflexivity|]. split; [discriminate|]. intros _. right. split; [lia|].
            replace (a_out + S j)%nat with (S t) by (unfold t; lia). apply C2. reflexivity.
          - split; [reflexivity|]. split; [intros _; apply (C3 eq_refl)|discriminate].
          - exfalso. apply C1. reflexivity. }
        destruct Inb as [[Ej Es]|[Hj1 HO]].
        -- (* first iteration *)
           subst j s.
           assert (Et : t = a_out) by (unfold t; lia). clearbody t. subst t.
           cbn [Nat.eqb]. unfold s0. cbn [c_res c_anorm c_acarry c_rcarry c_atake c_racc c_rlimb].
           destruct (Z.eqb_spec take 0) as [Et0|Et0]; cbn [negb].
           ++ assert (Eg0 : g = zn a_out * ab) by (rewrite Eg, Et0; ring).
              destruct (Z.eqb_spec m 0) as [Em0|Em0]; cbn [negb].
              ** pose proof (first_outerW wd rb ab Hab a lsh Hl rsz z g Hz Hg a_out res_start 0 rb ac0 Dlow 0 0
                   Hrs ltac:(lia) ltac:(lia) ltac:(rewrite <- Ez, Em0; ring) Eg0 HC HD Hac0
                   ltac:(intros E; apply H0; exact E)) as HO0.
                 pose proof (next_entryW wd rb ab Hrb Hab a Ha lsh Hl rsz z g Hz Hg a_out _ HO0 Ht) as HE.
                 cbv zeta in HE. cbn [c_res c_anorm c_acarry c_rcarry c_atake c_racc c_rlimb] in HE.
                 destruct (middle_step wd true ab lsh 0 (nthZ a (length a - 1 - a_out)) ac0) as [an ac].
                 cbn [fst snd] in HE. apply (Hfin _ HE).
              ** pose proof (first_outerW wd rb ab Hab a lsh Hl rsz z g Hz Hg a_out res_start m (rb - m) ac0 Dlow 0 0
                   Hrs Hm eq_refl Ez Eg0 HC HD Hac0 ltac:(intros E; apply H0; exact E)) as HO0.
                 pose proof (next_entryW wd rb ab Hrb Hab a Ha lsh Hl rsz z g Hz Hg a_out _ HO0 Ht) as HE.
                 cbv zeta in HE. cbn [c_res c_anorm c_acarry c_rcarry c_atake c_racc c_rlimb] in HE.
                 destruct (middle_step wd true ab lsh 0 (nthZ a (length a - 1 - a_out)) ac0) as [an ac].
                 cbn [fst snd] in HE. apply (Hfin _ HE).
           ++ destruct (Htk Et0) as [Ez0 Ers]. subst res_start.
              pose proof (first_takeW wd rb ab Hrb Hab a Ha lsh Hl rsz z g a_out take ac0 Dlow
                   ltac:(lia) Ez0 Eg ltac:(lia) Ht HC HD Hac0 H0) as HE.
              cbv zeta in HE.
              destruct (middle_step wd true ab lsh 0 (nthZ a (length a - 1 - a_out)) ac0) as [an ac].
              cbn [fst snd] in HE. apply (Hfin _ HE).
        -- (* later iterations *)
           destruct (Nat.eqb_spec j 0) as [|_]; [lia|].
           pose proof (next_entryW wd rb ab Hrb Hab a Ha lsh Hl rsz z g Hz Hg t s HO Ht) as HE.
           cbv zeta in HE.
           destruct (middle_step wd true ab lsh 0 (nthZ a (length a - 1 - t)) (c_acarry s)) as [an ac].
           cbn [fst snd] in HE. apply (Hfin _ HE).
    + destruct (fold_left _ (seq 0 (a_start - a_end)) (s0, false, false)) as [[s brk] bad].
      cbn [fst snd] in I1, I2, I3. subst bad. cbn [Nat.eqb].
      assert (HF : C08CrossOuter.Final rb ab a lsh rsz z g (c_res s)).
      { destruct brk; [apply I2; reflexivity|].
        destruct (I3 eq_refl) as [[E _]|[_ HO]]; [clear - E Hmid; lia|].
        apply (outer_finalW wd rb ab Hab a lsh Hl rsz z g Hz Hg lo (a_out + (a_start - a_end)) s Hlo Hgeo'); [|exact HO].
        clear - Hast Hmid Eaend Hlo HloA. unfold a_out, asz, zn in *. lia. }
      exists (c_res s). split; [reflexivity|]. split; [apply HF|].
      intros P HP. rewrite <- Eoff in HP |- *.
      apply (final_valueW wd rb ab Hrb Hab a lsh Hl rsz z g Hz Hg Hzg lo P (c_res s) ltac:(lia) Hgeo' HF).
      fold asz. rewrite Z.mul_sub_distr_r. clear - HP Hloab Hl. lia.
Qed.

End Thm.

(* The secret tensor (Model/GadgetTensor.v): the triangular numbers behind the packed index (the theorems on it are proved in
   Props/C03.v), the producer's double loop visits the positions 0, 1, 2, ... in order (checked for rank <= 8), and the
   column-major formula agrees with the packed index up to rank 2. *)
From PV Require Import Base.MachineInt Model.GadgetTensor.
From Coq Require Import Arith.
Local Open Scope nat_scope.

Lemma tri_even i : (2 * (i * (i + 1) / 2) = i * (i + 1))%nat.
Proof.
  induction i as [|i IH]; [reflexivity|].
  replace (S i * (S i + 1))%nat with (i * (i + 1) + (i + 1) * 2)%nat by lia.
  rewrite Nat.div_add by lia. lia.
Qed.

Lemma tri_le i rank : (i < rank)%nat -> (i * (i + 1) / 2 <= i * rank)%nat.
Proof. intros H. pose proof (tri_even i). nia. Qed.

Lemma tensor_loop_in_order_small :
  forallb (fun rank => if list_eq_dec Nat.eq_dec
                          (map (fun p => tensor_prod_idx rank (fst p) (snd p)) (tensor_loop rank)) (seq 0 (tensor_pairs rank))
                       then true else false) (seq 0 9) = true.
Proof. vm_compute. reflexivity. Qed.

Lemma tensor_colmajor_agrees_small rank i j : (rank <= 2)%nat -> (i < rank)%nat -> (j < rank)%nat ->
  tensor_at_idx_colmajor i j = tensor_at_idx rank i j.
Proof.
  intros Hr Hi Hj. destruct rank as [|[|[|rank]]]; try lia;
  destruct i as [|[|i]]; destruct j as [|[|j]]; try lia; reflexivity.
Qed.

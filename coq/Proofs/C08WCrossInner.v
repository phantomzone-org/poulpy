(* C08, cross-radix normalisation at any word width wd (radices 1 <= rb, ab <= wd - 2, headroom 2^(wd-2)):
   the arithmetic of cutting a value into balanced pieces, and the two kernels that do it
   (extract_digit_addmul, znx_mul_power_of_two with a negative exponent). *)
From PV Require Import Base.MachineInt Model.Znx Model.Limbs
  Proofs.ZnxDigit Proofs.C08Steps Proofs.C08Chain Proofs.C08Loops Proofs.C08WChain Proofs.C08WLoops.
Open Scope Z_scope.

Lemma pow2_le_mono (x y : Z) : 0 <= x <= y -> 2 ^ x <= 2 ^ y.
Proof. intros; apply Z.pow_le_mono_r; lia. Qed.

Lemma pow2_add (x y : Z) : 0 <= x -> 0 <= y -> 2 ^ (x + y) = 2 ^ x * 2 ^ y.
Proof. intros; apply Z.pow_add_r; lia. Qed.

Lemma pow_wd1 (wd : Z) : 3 <= wd -> 2 ^ (wd - 1) = 2 * 2 ^ (wd - 2).
Proof. intros H. replace (wd - 2) with (wd - 1 - 1) by lia. apply pow2_split; lia. Qed.

Lemma bal_abs (w d : Z) : 1 <= w -> in_range w d -> Z.abs d <= 2 ^ w - 1.
Proof.
  intros Hw [H1 H2]. pose proof (pow2_pos (w - 1) ltac:(lia)). pose proof (pow2_split w ltac:(lia)). lia.
Qed.

Lemma half_abs (e low : Z) : 0 <= e -> 2 * Z.abs low <= 2 ^ e -> Z.abs low <= 2 ^ e - 1.
Proof.
  intros He Hl. destruct (Z.eq_dec e 0) as [->|Hne].
  - change (2 ^ 0) with 1 in *. lia.
  - pose proof (pow2_split e ltac:(lia)). pose proof (pow2_pos (e - 1) ltac:(lia)). lia.
Qed.

(* a piece of e bits below a piece of k bits is a piece of e + k bits *)
Lemma pt_bound2 (e k low p : Z) : 0 <= e -> 0 <= k -> Z.abs low <= 2 ^ e - 1 -> Z.abs p <= 2 ^ k - 1 ->
  Z.abs (low + 2 ^ e * p) <= 2 ^ e * 2 ^ k - 1.
Proof.
  intros He Hk Hl Hp. pose proof (pow2_pos e He). pose proof (pow2_pos k Hk).
  assert (Z.abs (2 ^ e * p) = 2 ^ e * Z.abs p) by (rewrite Z.abs_mul, (Z.abs_eq (2 ^ e)) by lia; reflexivity).
  nia.
Qed.

Lemma pt_bound (e k low p : Z) : 0 <= e -> 0 <= k -> 2 * Z.abs low <= 2 ^ e -> Z.abs p <= 2 ^ k - 1 ->
  Z.abs (low + 2 ^ e * p) <= 2 ^ e * 2 ^ k - 1.
Proof. intros He Hk Hl Hp. apply pt_bound2; auto using half_abs. Qed.

Lemma pieces_bound (w t d p : Z) : 1 <= w -> 0 <= t -> in_range w d -> Z.abs p <= 2 ^ t - 1 ->
  Z.abs (d + 2 ^ w * p) <= 2 ^ w * 2 ^ t - 1.
Proof. intros Hw Ht Hd Hp. apply pt_bound2; auto using bal_abs. lia. Qed.

(* remaining part after peeling w bits off a value bounded by 2^t *)
Lemma rest_bound (w t s : Z) : 1 <= w <= t -> Z.abs s <= 2 ^ t -> Z.abs (bdiv w s) <= 2 ^ (t - w).
Proof.
  intros Hw Hs. pose proof (bdiv_abs w s ltac:(lia)) as Hk.
  assert (E : 2 ^ t = 2 ^ w * 2 ^ (t - w)) by (rewrite <- pow2_add by lia; f_equal; lia).
  pose proof (pow2_pos (w - 1) ltac:(lia)). pose proof (pow2_split w ltac:(lia)).
  pose proof (pow2_pos (t - w) ltac:(lia)).
  set (K := Z.abs (bdiv w s)) in *.
  destruct (Z_le_gt_dec K (2 ^ (t - w))) as [|Hgt]; auto.
  assert ((2 ^ (t - w) + 1) * 2 ^ w <= K * 2 ^ w) by (apply Z.mul_le_mono_nonneg_r; lia).
  nia.
Qed.

(* the a-carry after one digit has been repacked *)
Lemma carry_after_pieces (ab H X Pt c' : Z) : 1 <= ab -> 0 <= H ->
  Z.abs X <= H * 2 ^ (ab - 1) + H -> X = Pt + 2 ^ ab * c' -> Z.abs Pt <= 2 ^ ab - 1 -> Z.abs c' <= H.
Proof.
  intros Hab HH HX HE HP.
  pose proof (pow2_pos (ab - 1) ltac:(lia)) as Hp. pose proof (pow2_split ab ltac:(lia)) as Hs.
  set (K := Z.abs c') in *.
  assert (HK : K * 2 ^ ab <= H * 2 ^ (ab - 1) + H + 2 ^ ab - 1).
  { assert (Z.abs (2 ^ ab * c') <= Z.abs X + Z.abs Pt) by lia.
    rewrite Z.abs_mul, (Z.abs_eq (2 ^ ab)) in H0 by lia. fold K in H0. lia. }
  destruct (Z_le_gt_dec K H) as [|Hgt]; auto.
  assert ((H + 1) * 2 ^ ab <= K * 2 ^ ab) by (apply Z.mul_le_mono_nonneg_r; lia).
  nia.
Qed.

(* peel a balanced w-bit piece off s and add it at bit `scale` of a limb that is clean above `scale` *)
Lemma extractW (wd w scale r s : Z) : 3 <= wd -> 1 <= w -> 0 <= scale -> scale + w <= wd - 2 ->
  Z.abs s <= 2 ^ (wd - 2) -> Z.abs r <= 2 ^ scale - 1 ->
  extract_digit_addmul wd w scale r s = (r + wrap w s * 2 ^ scale, bdiv w s) /\
  Z.abs (r + wrap w s * 2 ^ scale) <= 2 ^ (scale + w) - 1.
Proof.
  intros Hwd Hw Hs Hsw Hs62 Hr.
  pose proof (pow_wd1 wd Hwd) as Hw1.
  pose proof (wrap_range w s Hw) as [D1 D2].
  pose proof (pow2_pos scale Hs) as Hp.
  pose proof (pow2_pos (w - 1) ltac:(lia)) as Hpw.
  assert (E : 2 ^ (scale + w) = 2 ^ scale * (2 * 2 ^ (w - 1))).
  { rewrite pow2_add by lia. f_equal. apply pow2_split; lia. }
  assert (Hle : 2 ^ (scale + w) <= 2 ^ (wd - 2)) by (apply pow2_le_mono; lia).
  assert (Hb : Z.abs (r + wrap w s * 2 ^ scale) <= 2 ^ (scale + w) - 1) by (rewrite E; nia).
  split; [|exact Hb].
  unfold extract_digit_addmul.
  destruct (digit_carry_ideal wd w s ltac:(lia)) as [E1 E2]; [lia|].
  cbv zeta. rewrite E2, E1. f_equal.
  assert (Hd : in_range wd (wrap w s * 2 ^ scale)).
  { unfold in_range. rewrite Hw1. rewrite E in Hle. nia. }
  rewrite shl_exact by (auto; lia). unfold wadd. apply wrap_id; [lia|].
  unfold in_range. rewrite Hw1. lia.
Qed.

(* the rounding right shift znx_mul_power_of_two(-take) *)
Lemma mp2_roundW (wd take x : Z) : 3 <= wd -> 1 <= take <= wd - 2 -> Z.abs x <= 2 ^ (wd - 2) ->
  exists rho, x = rho + 2 ^ take * mul_power_of_two wd (- take) x /\ 2 * Z.abs rho <= 2 ^ take /\
              (x mod 2 ^ take = 0 -> rho = 0).
Proof.
  intros Hwd Ht Hx. unfold mul_power_of_two.
  destruct (Z.eqb_spec (- take) 0) as [E|_]; [lia|].
  destruct (Z.ltb_spec 0 (- take)) as [E|_]; [lia|].
  cbv zeta. replace (- - take) with take by lia.
  set (h := 2 ^ (take - 1)).
  assert (Hh : 0 < h) by (apply pow2_pos; lia).
  assert (H2 : 2 ^ take = 2 * h) by (apply pow2_split; lia).
  pose proof (pow_wd1 wd Hwd) as Hw1.
  assert (Hw2 : 2 ^ (wd - 2) = 2 * 2 ^ (wd - 3)).
  { replace (wd - 3) with (wd - 2 - 1) by lia. apply pow2_split; lia. }
  assert (Hh61 : h <= 2 ^ (wd - 3)) by (apply pow2_le_mono; lia).
  set (M := 2 ^ (wd - 2)) in *. set (M2 := 2 ^ (wd - 3)) in *.
  assert (HM : 0 < M2) by (apply pow2_pos; lia).
  set (sb := Z.land (asr x (wd - 1)) 1).
  assert (Hsb : (0 <= x /\ sb = 0) \/ (x < 0 /\ sb = 1)).
  { unfold sb, asr. rewrite Hw1.
    destruct (Z_lt_le_dec x 0) as [Hn|Hp].
    - right. split; [exact Hn|]. replace (x / (2 * M)) with (-1).
      + reflexivity.
      + apply (Z.div_unique x (2 * M) (-1) (x + 2 * M)); lia.
    - left. split; [exact Hp|]. rewrite Z.div_small by lia. reflexivity. }
  assert (Eshl : shl wd 1 (take - 1) = h).
  { unfold shl. rewrite Z.mul_1_l. apply wrap_id; [lia|]. unfold in_range. rewrite Hw1. fold h. lia. }
  rewrite Eshl.
  assert (Ebias : wsub wd h sb = h - sb).
  { unfold wsub. apply wrap_id; [lia|]. unfold in_range. rewrite Hw1. lia. }
  rewrite Ebias.
  assert (Eadd : wadd wd x (h - sb) = x + (h - sb)).
  { unfold wadd. apply wrap_id; [lia|]. unfold in_range. rewrite Hw1. lia. }
  rewrite Eadd. unfold asr. rewrite H2.
  pose proof (Z.div_mod (x + (h - sb)) (2 * h) ltac:(lia)) as Hdm.
  pose proof (Z.mod_pos_bound (x + (h - sb)) (2 * h) ltac:(lia)) as Hmb.
  set (q := (x + (h - sb)) / (2 * h)) in *. set (m := (x + (h - sb)) mod (2 * h)) in *.
  exists (m - h + sb). split; [lia|]. split; [lia|].
  intros Hdiv. apply Z.mod_divide in Hdiv; [|lia]. destruct Hdiv as [k Hk].
  assert (Hq : q = k).
  { unfold q. symmetry. apply (Z.div_unique (x + (h - sb)) (2 * h) k (h - sb)); lia. }
  lia.
Qed.

(* the rounded value keeps abw - take bits *)
Lemma rnd_bound (take abw an rho rnd : Z) : 1 <= take < abw -> in_range abw an ->
  an = rho + 2 ^ take * rnd -> 2 * Z.abs rho <= 2 ^ take -> Z.abs rnd <= 2 ^ (abw - take).
Proof.
  intros Ht [A1 A2] E Hr.
  assert (Eab : 2 ^ (abw - 1) = 2 ^ (take - 1) * 2 ^ (abw - take)) by (rewrite <- pow2_add by lia; f_equal; lia).
  pose proof (pow2_split take ltac:(lia)) as Hs. pose proof (pow2_pos (take - 1) ltac:(lia)) as Hp.
  pose proof (pow2_pos (abw - take) ltac:(lia)) as Hq.
  set (T := 2 ^ (take - 1)) in *. set (Q := 2 ^ (abw - take)) in *. set (K := Z.abs rnd).
  destruct (Z_le_gt_dec K Q) as [|Hgt]; auto. exfalso.
  assert (H1 : Z.abs (2 ^ take * rnd) <= Z.abs an + Z.abs rho) by lia.
  rewrite Z.abs_mul, (Z.abs_eq (2 ^ take)) in H1 by lia. fold K in H1.
  assert (H2 : (2 * T) * (Q + 1) <= (2 * T) * K) by (apply Z.mul_le_mono_nonneg_l; lia).
  rewrite Hs in H1. nia.
Qed.

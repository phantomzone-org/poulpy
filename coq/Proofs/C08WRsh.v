(* C08: closed forms (by index) of the right shifts at any word width w with w - 2 <= 63 b
   (so that the 64-step cap of the gap propagation saturates). *)
From PV Require Import Base.MachineInt Model.Znx Model.Limbs Model.LimbsBig Model.C08Oracle
  Proofs.ZnxDigit Proofs.C08Steps Proofs.C08Chain Proofs.C08Value
  Proofs.C08WChain Proofs.C08WLoops Proofs.C08WNormalize Proofs.C08WShift.
Open Scope Z_scope.

(* a right shift by k bits = a right shift by `steps` limbs followed by a left shift by lsh bits *)
Lemma rsh_params_spec (b k : Z) : 1 <= b -> 0 <= k ->
  0 <= snd (rsh_params b k) < b /\ - k = - zn (fst (rsh_params b k)) * b + snd (rsh_params b k).
Proof.
  intros Hb Hk. unfold rsh_params. cbn [fst snd].
  pose proof (Z.div_mod k b ltac:(lia)) as Hdm.
  pose proof (Z.mod_pos_bound k b ltac:(lia)) as Hm.
  assert (Hq : 0 <= k / b) by (apply Z.div_pos; lia).
  destruct (Z.eqb_spec (k mod b) 0) as [E|E].
  - rewrite E, Z.sub_0_r, Z_mod_same_full. unfold zn. rewrite Z2Nat.id by lia. lia.
  - rewrite Z.mod_small by lia. unfold zn. rewrite Nat2Z.inj_succ, Z2Nat.id by lia. lia.
Qed.

Section Top.
Variable b : Z.

(* input sequence of the top phase: the (un-normalised) top limbs of r0, or zeros *)
Definition utop (zero : bool) (lsh : Z) (r0 : list Z) (re : nat) (t : nat) : Z :=
  if Nat.ltb t re then (if zero then 0 else nthZ r0 (re - t - 1)) * 2 ^ lsh else 0.

(* carry entering the top phase of the right shifts: everything of `a` and the gap consumed *)
Definition ctop (lsh : Z) (a : list Z) (gap : nat) : Z := car b (vin a lsh) 0 (length a + gap).

(* the top digits when the top limbs are zero: they continue the window *)
Lemma top_zero_window (lsh lsh' : Z) (a r0 : list Z) (re gap i : nat) : (i < re)%nat ->
  dig b (utop true lsh' r0 re) (ctop lsh a gap) (re - 1 - i)
  = dgz b (vin a lsh) (zn (length a) + zn (gap + re) - 1 - zn i).
Proof.
  intros Hi. unfold ctop.
  rewrite (dig_above b lsh a (length a + gap) (re - 1 - i)); [|lia|].
  - rewrite dgz_nonneg by (unfold zn; lia). f_equal. unfold zn. lia.
  - intros t. unfold utop. destruct (Nat.ltb t re); [apply Z.mul_0_l|reflexivity].
Qed.

End Top.

(* the index arithmetic of rsh<ov> and rsh_sub *)
Lemma rsh_shape (rsz asz steps res_end res_start a_start a_out mid : nat) :
  res_end = Nat.min rsz steps -> res_start = Nat.min rsz (asz + steps) ->
  a_start = Nat.min asz (rsz - steps) -> a_out = (asz - a_start)%nat -> mid = (res_start - res_end)%nat ->
  mid = a_start /\ (a_out + mid = asz)%nat /\ (res_start - mid = res_end)%nat /\
  (res_end <= res_start <= rsz)%nat /\
  ((res_end < res_start)%nat -> (a_out + res_start = asz + steps)%nat) /\
  ((res_start < rsz)%nat -> res_start = (asz + steps)%nat).
Proof. lia. Qed.

Section Rsh.
Variable w : Z.
Variable b : Z.
Hypothesis Hb : 1 <= b <= w - 2.
(* the cap 64 of the gap propagation saturates every carry within the headroom *)
Hypothesis Hcap : w - 2 <= 63 * b.

Let Hb1 : 1 <= b. Proof. lia. Qed.
Let Hcap64 (gap : nat) : w - 2 <= (zn 64 - 1) * b \/ (gap <= 64)%nat. Proof. left. exact Hcap. Qed.

(* shared front part of rsh<ov> and rsh_sub: carry phase + middle phase *)
Lemma rsh_frontW (lsh : Z) (steps : nat) (a r1 : list Z)
    (mp : list Z * Z) (sg : Z) :
  0 <= lsh < b -> hrlw w a ->
  let rsz := length r1 in let asz := length a in
  let res_end := Nat.min rsz steps in
  let res_start := Nat.min rsz (asz + steps) in
  let a_start := Nat.min asz (rsz - steps) in
  let a_out := (asz - a_start)%nat in
  let mid := (res_start - res_end)%nat in
  let c0 := carry_phase w b lsh a asz a_out in
  (Z.abs c0 <= 2 ^ (w - 2) ->
   let u := fun t : nat => nthZ a (a_start - t - 1) * 2 ^ lsh in
   snd mp = car b u c0 mid /\ length (fst mp) = length r1 /\
   forall i, nthZ (fst mp) i =
     if (Nat.leb (res_start - mid) i && Nat.ltb i res_start && Nat.ltb i (length r1))%bool
     then sg * dig b u c0 (res_start - 1 - i) + nthZ r1 i else nthZ r1 i) ->
  snd mp = car b (vin a lsh) 0 asz /\ length (fst mp) = length r1 /\
  forall i, (i < rsz)%nat -> nthZ (fst mp) i =
    if Nat.ltb i res_end then nthZ r1 i
    else sg * dgz b (vin a lsh) (zn asz + zn steps - 1 - zn i) + nthZ r1 i.
Proof.
  intros Hl Ha rsz asz res_end res_start a_start a_out mid c0 HM.
  destruct (rsh_shape rsz asz steps res_end res_start a_start a_out mid eq_refl eq_refl eq_refl eq_refl eq_refl)
    as (S1 & S2 & S3 & S4 & S5 & S6).
  clearbody res_end res_start a_start a_out mid.
  assert (Ec0 : c0 = car b (vin a lsh) 0 a_out).
  { unfold c0. rewrite (carry_phase_carW w b Hb lsh a asz a_out Hl Ha).
    apply (car_lowW b lsh a a_out). fold asz. lia. }
  assert (Hc0 : Z.abs c0 <= 2 ^ (w - 2)) by (rewrite Ec0; apply (car_vin_hrW w b Hb); auto).
  destruct (HM Hc0) as (M1 & M2 & M3). clear HM Hc0.
  assert (Hu : forall t, (t < mid)%nat -> nthZ a (a_start - t - 1) * 2 ^ lsh = vin a lsh (a_out + t)%nat).
  { intros t Ht. symmetry. apply vin_at; fold asz; lia. }
  split; [|split; [exact M2|]].
  - rewrite M1, Ec0. rewrite (car_piece b _ a lsh a_out mid Hu). rewrite S2. reflexivity.
  - intros i Hi. rewrite M3, S3. fold rsz.
    destruct (Nat.ltb_spec i rsz) as [_|]; [|lia]. rewrite Bool.andb_true_r.
    destruct (Nat.ltb_spec i res_end) as [Hi1|Hi1].
    + destruct (Nat.leb_spec res_end i); [lia|]. reflexivity.
    + destruct (Nat.leb_spec res_end i) as [_|]; [|lia]. cbn [andb].
      destruct (Nat.ltb_spec i res_start) as [Hi2|Hi2].
      * rewrite Ec0, (dig_piece b _ a lsh a_out mid (res_start - 1 - i) Hu) by lia.
        rewrite dgz_nonneg by (unfold zn; lia). f_equal. f_equal. f_equal.
        unfold zn. lia.
      * rewrite dgz_neg; [lia|]. unfold zn. lia.
Qed.

(* vec_znx_rsh<OVERWRITE>, stated with the decomposition (steps, lsh) of the shift *)
Theorem rsh_nthW (ov : bool) (k : Z) (a r0 : list Z) : 0 <= k -> hrlw w a -> (ov = false -> hrlw w r0) ->
  let steps := fst (rsh_params b k) in let lsh := snd (rsh_params b k) in
  let re := Nat.min (length r0) steps in
  let out := rsh w ov b k a r0 in
  length out = length r0 /\
  forall i, (i < length r0)%nat ->
    nthZ out i =
      if Nat.ltb i re
      then dig b (utop ov (if ov then lsh else 0) r0 re) (ctop b lsh a (steps - re)) (re - 1 - i)
      else (if ov then 0 else nthZ r0 i) + dgz b (vin a lsh) (zn (length a) + zn steps - 1 - zn i).
Proof.
  intros Hk Ha Hr. cbv zeta. unfold rsh.
  destruct (rsh_params_spec b k Hb1 Hk) as [Hl _].
  destruct (rsh_params b k) as [steps lsh]. cbn [fst snd] in *.
  set (rsz := length r0). set (asz := length a).
  set (res_end := Nat.min rsz steps).
  set (res_start := Nat.min rsz (asz + steps)).
  set (a_start := Nat.min asz (rsz - steps)).
  set (a_out := (asz - a_start)%nat).
  set (mid := (res_start - res_end)%nat).
  set (r1 := if ov then zeros rsz else r0).
  assert (L1 : length r1 = rsz) by (unfold r1; destruct ov; [apply zeros_length|reflexivity]).
  assert (Hr1 : hrlw w r1) by (unfold r1; destruct ov; [apply hrlw_zeros|apply Hr; reflexivity]).
  assert (N1 : forall i, nthZ r1 i = if ov then 0 else nthZ r0 i)
    by (intros i; unfold r1; destruct ov; [apply nthZ_zeros|reflexivity]).
  set (c0 := carry_phase w b lsh a asz a_out).
  pose proof (rsh_frontW lsh steps a r1 (mid_phase w ov b lsh a res_start a_start mid (r1, c0)) 1 Hl Ha) as HF.
  cbv zeta in HF. rewrite L1 in HF. fold asz res_end res_start a_start a_out mid c0 in HF.
  destruct HF as (F1 & F2 & F3).
  { intros Hc0.
    destruct (mid_phase_specW w b Hb ov lsh a res_start a_start mid r1 c0 Hl Ha ltac:(intros; exact Hr1) Hc0
                ltac:(unfold mid; lia)) as (M1 & M2 & M3).
    split; [exact M1|]. split; [rewrite M2; exact L1|]. intros i. rewrite M3, L1, N1.
    match goal with |- context [if ?c then _ else _] => destruct c end; [|reflexivity].
    destruct ov; lia. }
  destruct (mid_phase w ov b lsh a res_start a_start mid (r1, c0)) as [r2 c2].
  cbn [fst snd] in F1, F2, F3.
  assert (Hre : (res_end <= rsz)%nat) by apply Nat.le_min_l.
  clearbody res_end res_start a_start a_out mid.
  set (gap := (steps - res_end)%nat).
  assert (Hc2 : Z.abs c2 <= 2 ^ (w - 2)) by (rewrite F1; apply (car_vin_hrW w b Hb); auto).
  assert (Ec3 : gap_phase w b gap c2 = ctop b lsh a gap).
  { rewrite gap_phase_c_64, (gap_phase_carW w b Hb 64 gap c2 Hc2 (Hcap64 gap)). rewrite F1. unfold ctop. apply car_above. }
  rewrite Ec3.
  assert (Hc3 : Z.abs (ctop b lsh a gap) <= 2 ^ (w - 2)) by (apply (car_vin_hrW w b Hb); auto).
  assert (Hl' : 0 <= (if ov then lsh else 0) < b) by (destruct ov; lia).
  assert (Htop : forall i, (i < res_end)%nat -> nthZ r2 i = if ov then 0 else nthZ r0 i).
  { intros i Hi. rewrite F3 by lia.
    destruct (Nat.ltb_spec i res_end); [apply N1|lia]. }
  destruct (top_phase_specW w b Hb false (if ov then lsh else 0) res_end r2 (ctop b lsh a gap) Hl'
              ltac:(intros _ i Hi; rewrite Htop by exact Hi; destruct ov;
                    [pose proof (HW_pos w b Hb); cbn [Z.abs]; lia|apply Hr; reflexivity]) Hc3) as [T1 T2].
  cbv beta in T2.
  split; [rewrite T1; exact F2|].
  intros i Hi. rewrite T2, F2. fold rsz in Hi.
  destruct (Nat.ltb_spec i rsz) as [_|]; [|lia]. rewrite Bool.andb_true_r.
  destruct (Nat.ltb_spec i res_end) as [Hi1|Hi1].
  - apply dig_ext. intros t Ht. unfold utop.
    destruct (Nat.ltb_spec t res_end) as [Htr|]; [|reflexivity].
    rewrite Htop by (clear - Htr; lia). destruct ov; reflexivity.
  - rewrite F3 by exact Hi. destruct (Nat.ltb_spec i res_end); [lia|]. rewrite N1. lia.
Qed.

(* overwrite: the whole output is the window *)
Theorem rsh_ov_nthW (k : Z) (a r0 : list Z) : 0 <= k -> hrlw w a ->
  let steps := fst (rsh_params b k) in let lsh := snd (rsh_params b k) in
  let out := rsh w true b k a r0 in
  length out = length r0 /\
  forall i, (i < length r0)%nat ->
    nthZ out i = dgz b (vin a lsh) (zn (length a) - (- zn steps) - 1 - zn i).
Proof.
  intros Hk Ha. cbv zeta.
  destruct (rsh_nthW true k a r0 Hk Ha ltac:(discriminate)) as [L N]. cbv zeta in N.
  split; [exact L|]. intros i Hi. rewrite N by exact Hi.
  set (steps := fst (rsh_params b k)). set (lsh := snd (rsh_params b k)).
  destruct (Nat.ltb_spec i (Nat.min (length r0) steps)) as [Hi1|Hi1].
  - rewrite (top_zero_window b) by exact Hi1. f_equal. unfold zn. lia.
  - rewrite Z.add_0_l. f_equal. lia.
Qed.

(* vec_znx_rsh_sub *)
Theorem rsh_sub_nthW (k : Z) (a r0 : list Z) : 0 <= k -> hrlw w a -> hrlw w r0 ->
  let steps := fst (rsh_params b k) in let lsh := snd (rsh_params b k) in
  let re := Nat.min (length r0) steps in
  let out := rsh_sub w b k a r0 in
  length out = length r0 /\
  forall i, (i < length r0)%nat ->
    nthZ out i =
      if Nat.ltb i re
      then dig b (utop false 0 r0 re) (car b zseq (- car b (vin a lsh) 0 (length a)) (steps - re)) (re - 1 - i)
      else nthZ r0 i - dgz b (vin a lsh) (zn (length a) + zn steps - 1 - zn i).
Proof.
  intros Hk Ha Hr. cbv zeta. unfold rsh_sub.
  destruct (rsh_params_spec b k Hb1 Hk) as [Hl _].
  destruct (rsh_params b k) as [steps lsh]. cbn [fst snd] in *.
  set (rsz := length r0). set (asz := length a).
  set (res_end := Nat.min rsz steps).
  set (res_start := Nat.min rsz (asz + steps)).
  set (a_start := Nat.min asz (rsz - steps)).
  set (a_out := (asz - a_start)%nat).
  set (mid := (res_start - res_end)%nat).
  set (c0 := carry_phase w b lsh a asz a_out).
  pose proof (rsh_frontW lsh steps a r0 (mid_phase_sub w b lsh a res_start a_start mid (r0, c0)) (-1) Hl Ha) as HF.
  cbv zeta in HF. fold rsz asz res_end res_start a_start a_out mid c0 in HF.
  destruct HF as (F1 & F2 & F3).
  { intros Hc0.
    destruct (mid_phase_sub_specW w b Hb lsh a res_start a_start mid r0 c0 Hl Ha Hr Hc0
                ltac:(unfold mid; lia)) as (M1 & M2 & M3).
    split; [exact M1|]. split; [exact M2|]. intros i. rewrite M3. fold rsz.
    match goal with |- context [if ?c then _ else _] => destruct c end; [|reflexivity]. lia. }
  destruct (mid_phase_sub w b lsh a res_start a_start mid (r0, c0)) as [r2 c2].
  cbn [fst snd] in F1, F2, F3.
  assert (Hre : (res_end <= rsz)%nat) by apply Nat.le_min_l.
  clearbody res_end res_start a_start a_out mid.
  set (gap := (steps - res_end)%nat).
  assert (Hc2 : Z.abs c2 <= 2 ^ (w - 2)) by (rewrite F1; apply (car_vin_hrW w b Hb); auto).
  assert (Eneg : wneg w c2 = - c2).
  { unfold wneg. apply wrap_id; [lia|]. unfold in_range. destruct (pow_facts w b Hb) as (_ & _ & _ & ->). lia. }
  assert (Hn2 : Z.abs (- c2) <= 2 ^ (w - 2)) by lia.
  rewrite Eneg, gap_phase_c_64, (gap_phase_carW w b Hb 64 gap (- c2) Hn2 (Hcap64 gap)), F1.
  set (c3 := car b zseq (- car b (vin a lsh) 0 asz) gap).
  assert (Hc3 : Z.abs c3 <= 2 ^ (w - 2)).
  { apply (car_hrW w b Hb); [apply vboundW_zseq; auto|]. rewrite <- F1. exact Hn2. }
  assert (Htop : forall i, (i < res_end)%nat -> nthZ r2 i = nthZ r0 i).
  { intros i Hi. rewrite F3 by lia.
    destruct (Nat.ltb_spec i res_end); [reflexivity|lia]. }
  destruct (top_phase_specW w b Hb false 0 res_end r2 c3 ltac:(lia)
              ltac:(intros _ i Hi; rewrite Htop by exact Hi; apply Hr) Hc3) as [T1 T2].
  cbv beta in T2.
  split; [rewrite T1; exact F2|].
  intros i Hi. rewrite T2, F2. fold rsz in Hi |- *.
  destruct (Nat.ltb_spec i rsz) as [_|]; [|lia]. rewrite Bool.andb_true_r.
  destruct (Nat.ltb_spec i res_end) as [Hi1|Hi1].
  - apply dig_ext. intros t Ht. unfold utop.
    destruct (Nat.ltb_spec t res_end) as [Htr|]; [|reflexivity].
    rewrite Htop by (clear - Htr; lia). reflexivity.
  - rewrite F3 by exact Hi. destruct (Nat.ltb_spec i res_end); [lia|]. lia.
Qed.

(* vec_znx_rsh_assign *)
Theorem rsh_assign_nthW (k : Z) (r0 : list Z) : 0 <= k -> hrlw w r0 ->
  let steps := fst (rsh_params b k) in let lsh := snd (rsh_params b k) in
  let out := rsh_assign w b k r0 in
  length out = length r0 /\
  forall i, (i < length r0)%nat ->
    nthZ out i = dgz b (vin r0 lsh) (zn (length r0) - (- zn steps) - 1 - zn i).
Proof.
  intros Hk Hr. cbv zeta. unfold rsh_assign.
  destruct (rsh_params_spec b k Hb1 Hk) as [Hl _].
  destruct (rsh_params b k) as [steps lsh]. cbn [fst snd] in *.
  set (sz := length r0). set (res_end := Nat.min steps sz).
  assert (Hre : (res_end <= sz)%nat /\ (res_end <= steps)%nat /\ (res_end = steps \/ res_end = sz))
    by (unfold res_end; lia).
  clearbody res_end.
  rewrite (carry_phase_carW w b Hb lsh r0 sz res_end Hl Hr).
  pose proof (car_lowW b lsh r0 res_end ltac:(fold sz; lia)) as CL. fold sz in CL.
  rewrite CL. clear CL.
  set (c0 := car b (vin r0 lsh) 0 res_end).
  assert (Hc0 : Z.abs c0 <= 2 ^ (w - 2)) by (apply (car_vin_hrW w b Hb); auto).
  set (u := fun t : nat => nthZ r0 (sz - res_end - t - 1) * 2 ^ lsh).
  assert (Hu : vboundW w b u) by (apply vboundW_limbs; auto).
  match goal with |- context [fold_left ?f _ _] => set (body := f) end.
  destruct (dloopW_spec w b Hb body (fun j y c' => middle_step_assign w b lsh y c')
              (fun j => (sz - res_end - j - 1)%nat) (fun j d => d) u false
              sz (sz - res_end) r0 c0 ltac:(lia) Hu Hc0) as (D1 & D2 & D3).
  { intros r' c' j Hj. unfold body. destruct (middle_step_assign w b lsh _ c'); reflexivity. }
  { intros j Hj. lia. }
  { intros j Hj Hc'. unfold middle_step_assign. rewrite (mcW w b Hb) by (auto; apply Hr).
    cbn [fst snd]. split; [reflexivity|intros _; reflexivity]. }
  specialize (D1 eq_refl).
  destruct (fold_left _ (seq 0 (sz - res_end)) (r0, c0)) as [r1 c1].
  cbn [fst snd] in D1, D2, D3.
  assert (Hupiece : forall t, (t < sz - res_end)%nat -> u t = vin r0 lsh (res_end + t)%nat).
  { intros t Ht. unfold u. symmetry. apply vin_at; fold sz; lia. }
  assert (Ec1 : c1 = car b (vin r0 lsh) 0 sz).
  { rewrite D1. unfold c0. rewrite (car_piece b u r0 lsh res_end (sz - res_end) Hupiece).
    f_equal. lia. }
  destruct (zero_range_spec r1 0 res_end) as [Z1 Z2].
  set (zr := zero_range r1 0 res_end) in *.
  set (gap := (steps - res_end)%nat).
  assert (Hc1 : Z.abs c1 <= 2 ^ (w - 2)) by (rewrite Ec1; apply (car_vin_hrW w b Hb); auto).
  assert (Ec3 : gap_phase w b gap c1 = ctop b lsh r0 gap).
  { rewrite gap_phase_c_64, (gap_phase_carW w b Hb 64 gap c1 Hc1 (Hcap64 gap)). rewrite Ec1. unfold ctop. apply car_above. }
  rewrite Ec3.
  assert (Hc3 : Z.abs (ctop b lsh r0 gap) <= 2 ^ (w - 2)) by (apply (car_vin_hrW w b Hb); auto).
  assert (Hzr : forall i, (i < res_end)%nat -> nthZ zr i = 0).
  { intros i Hi. rewrite Z2. destruct (Nat.leb_spec 0 i); [|lia].
    destruct (Nat.ltb_spec i res_end); [reflexivity|lia]. }
  destruct (top_phase_specW w b Hb false lsh res_end zr (ctop b lsh r0 gap) Hl
              ltac:(intros _ i Hi; rewrite Hzr by exact Hi; pose proof (HW_pos w b Hb); cbn [Z.abs]; lia) Hc3)
    as [T1 T2].
  cbv beta in T2. clear Hc0 Hc1 Hc3 Hu.
  split; [rewrite T1, Z1; exact D2|].
  intros i Hi. rewrite T2, Z1, D2. fold sz in Hi |- *.
  destruct (Nat.ltb_spec i sz) as [_|]; [|lia]. rewrite Bool.andb_true_r.
  destruct (Nat.ltb_spec i res_end) as [Hi1|Hi1].
  - rewrite (dig_ext b _ (utop true lsh r0 res_end)).
    + rewrite (top_zero_window b) by exact Hi1. fold sz. f_equal. unfold zn, gap. lia.
    + intros t Ht. unfold utop. destruct (Nat.ltb_spec t res_end); [|reflexivity].
      rewrite Hzr by lia. reflexivity.
  - rewrite Z2. destruct (Nat.ltb_spec i res_end); [lia|]. rewrite Bool.andb_false_r.
    rewrite D3. fold sz.
    destruct (Nat.leb_spec (sz - (sz - res_end)) i) as [_|]; [|lia].
    destruct (Nat.ltb_spec i sz) as [_|]; [|lia]. cbn [andb].
    unfold c0. rewrite (dig_piece b u r0 lsh res_end (sz - res_end) (sz - 1 - i) Hupiece) by lia.
    rewrite dgz_nonneg by (unfold zn; lia). f_equal. unfold zn. lia.
Qed.

End Rsh.

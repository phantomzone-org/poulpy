(* C08: torus-value theorems of the accumulating right shifts (rsh<false> = add, rsh_sub) at any word
   width w with w - 2 <= 63 b. *)
From PV Require Import Base.MachineInt Model.Znx Model.Limbs Model.C08Oracle
  Proofs.ZnxDigit Proofs.C08Steps Proofs.C08Chain Proofs.C08Value
  Proofs.C08WChain Proofs.C08WLoops Proofs.C08WNormalize Proofs.C08WShift Proofs.C08WRsh Proofs.C08WShiftValue.
Open Scope Z_scope.

Section RshValue.
Variable w : Z.
Variable b : Z.
Hypothesis Hb : 1 <= b <= w - 2.
Hypothesis Hcap : w - 2 <= 63 * b.

Local Notation hrw := (Forall (fun x => Z.abs x <= 2 ^ (w - 2))).

Let Hb1 : 1 <= b. Proof. lia. Qed.

(* the top phase re-normalises  x_0 .. x_{re-1}  plus the incoming carry, modulo 1 *)
Lemma top_valueW (x u : nat -> Z) (c : Z) (re : nat) (P : Z) :
  (forall t, (t < re)%nat -> u t = x (re - 1 - t)%nat) -> zn re * b <= P ->
  sumn re (fun i => dig b u c (re - 1 - i) * wt P b i)
  = sumn re (fun i => x i * wt P b i) + c * 2 ^ (P - zn re * b) - 2 ^ P * car b u c re.
Proof.
  intros Hu HP. set (E := P - zn re * b).
  assert (HE : 0 <= E) by (unfold E; lia).
  assert (Hwt : forall i, (i < re)%nat -> wt P b i = 2 ^ (E + (zn re - zn i - 1) * b)).
  { intros i Hi. unfold wt, E. f_equal. ring. }
  assert (E1 : sumn re (fun i => dig b u c (re - 1 - i) * wt P b i)
               = 2 ^ E * sumn re (fun t => dig b u c t * 2 ^ (zn t * b))).
  { rewrite <- (window_rev b Hb1 (dig b u c) re E HE). apply sumn_ext. intros i Hi.
    rewrite Hwt by auto. reflexivity. }
  assert (E2 : sumn re (fun i => x i * wt P b i) = 2 ^ E * sumn re (fun t => u t * 2 ^ (zn t * b))).
  { rewrite <- (window_rev b Hb1 u re E HE). apply sumn_ext. intros i Hi.
    rewrite Hwt, Hu by lia. replace (re - 1 - (re - 1 - i))%nat with i by lia. reflexivity. }
  pose proof (chain_sum b Hb1 u c re) as HC.
  assert (EP : 2 ^ P = 2 ^ E * 2 ^ (zn re * b)).
  { rewrite <- Z.pow_add_r by (unfold zn in *; nia). f_equal. unfold E. ring. }
  rewrite E1, E2, EP. nia.
Qed.

Lemma utop_false_x (r0 : list Z) (re : nat) (t : nat) : (t < re)%nat ->
  utop false 0 r0 re t = nthZ r0 (re - 1 - t).
Proof.
  intros Ht. unfold utop. destruct (Nat.ltb_spec t re); [|lia].
  rewrite Z.pow_0_r, Z.mul_1_r. f_equal. lia.
Qed.

Lemma utop_true_x (l : Z) (r0 : list Z) (re : nat) (t : nat) : (t < re)%nat ->
  utop true l r0 re t = (fun _ : nat => 0) (re - 1 - t)%nat.
Proof.
  intros Ht. unfold utop. destruct (Nat.ltb_spec t re); [|lia]. apply Z.mul_0_l.
Qed.

(* out = [re-normalised (r0_top + c3')] ++ [r0_i + s * window_i]  against  r0 + s * window,
   when the window's own top part comes from the carry c3 *)
Lemma rsh_fused_valueW (P lsh s c3' : Z) (a r0 out : list Z) (steps : nat) :
  let re := Nat.min (length r0) steps in
  let T := zn (length a) + zn steps in
  length out = length r0 ->
  (forall i, (i < length r0)%nat ->
     nthZ out i = if Nat.ltb i re then dig b (utop false 0 r0 re) c3' (re - 1 - i)
                  else nthZ r0 i + s * dgz b (vin a lsh) (T - 1 - zn i)) ->
  zn (length r0) * b <= P ->
  exists Z0, val_scaled P b out
    = val_scaled P b r0 + s * dval P b (vin a lsh) T (length out)
      + (c3' - s * ctop b lsh a (steps - re)) * 2 ^ (P - zn re * b) + 2 ^ P * Z0.
Proof.
  intros re T L N HP.
  set (gap := (steps - re)%nat). set (c3 := ctop b lsh a gap).
  assert (Hre : (re <= length r0)%nat) by (unfold re; lia).
  assert (HPre : zn re * b <= P) by (unfold zn in *; nia).
  rewrite (val_scaled_ext P b out _ ltac:(rewrite L; exact N)), (val_scaled_sumn P b r0). unfold dval.
  rewrite L. replace (length r0) with (re + (length r0 - re))%nat by lia.
  rewrite !sumn_add.
  (* top parts *)
  assert (Etop : sumn re (fun i => (if Nat.ltb i re then dig b (utop false 0 r0 re) c3' (re - 1 - i)
                     else nthZ r0 i + s * dgz b (vin a lsh) (T - 1 - zn i)) * wt P b i)
                 = sumn re (fun i => dig b (utop false 0 r0 re) c3' (re - 1 - i) * wt P b i)).
  { apply sumn_ext. intros i Hi. destruct (Nat.ltb_spec i re); [reflexivity|lia]. }
  rewrite Etop, (top_valueW (nthZ r0) (utop false 0 r0 re) c3' re P (utop_false_x r0 re) HPre).
  assert (Ewin : sumn re (fun i => dgz b (vin a lsh) (T - 1 - zn i) * wt P b i)
                 = sumn re (fun i => dig b (utop true 0 r0 re) c3 (re - 1 - i) * wt P b i)).
  { apply sumn_ext. intros i Hi. unfold c3. rewrite (top_zero_window b lsh 0 a r0 re gap i Hi).
    f_equal. f_equal. unfold T, gap, re, zn in *. lia. }
  rewrite Ewin, (top_valueW (fun _ => 0) (utop true 0 r0 re) c3 re P (utop_true_x 0 r0 re) HPre).
  rewrite (sumn_zero re (fun i => 0 * wt P b i)) by (intros; apply Z.mul_0_l).
  (* low parts *)
  assert (Elow : sumn (length r0 - re) (fun t => (if Nat.ltb (re + t) re
                     then dig b (utop false 0 r0 re) c3' (re - 1 - (re + t))
                     else nthZ r0 (re + t) + s * dgz b (vin a lsh) (T - 1 - zn (re + t))) * wt P b (re + t))
                 = sumn (length r0 - re) (fun t => nthZ r0 (re + t) * wt P b (re + t))
                   + s * sumn (length r0 - re) (fun t => dgz b (vin a lsh) (T - 1 - zn (re + t)) * wt P b (re + t))).
  { rewrite <- sumn_scale, <- sumn_plus. apply sumn_ext. intros t Ht.
    destruct (Nat.ltb_spec (re + t) re); [lia|]. ring. }
  rewrite Elow.
  exists (s * car b (utop true 0 r0 re) c3 re - car b (utop false 0 r0 re) c3' re).
  fold gap c3. ring.
Qed.

Lemma val_nilW (P : Z) : val_scaled P b [] = 0.
Proof. reflexivity. Qed.

Lemma dropped_bound (pE pA pG Dlow G : Z) : 0 < pE -> 0 < pA -> 0 < pG ->
  Z.abs Dlow <= pA - 1 -> Z.abs G <= pG - 1 -> Z.abs (pE * (Dlow - pA * G)) <= pE * (pA * pG).
Proof.
  intros HE HA HG HD HGb. rewrite Z.abs_mul, (Z.abs_eq pE) by lia.
  apply Z.mul_le_mono_nonneg_l; [lia|].
  assert (Z.abs (pA * G) <= pA * (pG - 1)) by (rewrite Z.abs_mul, (Z.abs_eq pA) by lia; nia).
  lia.
Qed.

(* every output limb is a top limb: it re-normalises r0 plus the negated carry c of a, after gap steps over
   zero limbs.  Modulo 1 the result is r0 - a 2^-k + delta, where delta collects the digits of a (Dlow) and the gap
   digits of -c (G), all below the last output limb. *)
Lemma rsh_sub_far_value (P lsh : Z) (a r0 out : list Z) (steps : nat) :
  let c := car b (vin a lsh) 0 (length a) in
  let re := length r0 in
  0 <= lsh -> (re < steps)%nat -> length out = re ->
  (forall i, (i < re)%nat ->
     nthZ out i = dig b (utop false 0 r0 re) (car b zseq (- c) (steps - re)) (re - 1 - i)) ->
  (zn (length a) + zn steps) * b <= P ->
  tor_abs P (val_scaled P b out - val_scaled P b r0 + val_scaled (P + (- zn steps * b + lsh)) b a)
  <= 2 ^ (P - zn re * b).
Proof.
  intros c re Hl Hre L N HE.
  set (gap := (steps - re)%nat) in *. set (c3 := car b zseq (- c) gap) in *.
  assert (Hgap : zn gap = zn steps - zn re) by (unfold gap, zn; lia).
  assert (HA0 : 0 <= zn (length a)) by (unfold zn; lia).
  assert (HR0 : 0 <= zn re) by (unfold zn; lia).
  assert (HG0 : 0 <= zn gap) by (unfold zn; lia).
  assert (HP0 : 0 <= P) by nia.
  assert (HPre : zn re * b <= P) by nia.
  rewrite (val_scaled_ext P b out _ ltac:(rewrite L; exact N)), L, (val_scaled_sumn P b r0). fold re.
  rewrite (top_valueW (nthZ r0) (utop false 0 r0 re) c3 re P (utop_false_x r0 re) HPre).
  pose proof (val_scaled_vin b P (- zn steps) lsh a Hb1 Hl) as HA.
  replace (zn (length a) - - zn steps) with (zn (length a) + zn steps) in HA by ring.
  rewrite (HA ltac:(lia)). clear HA.
  pose proof (chain_sum b Hb1 (vin a lsh) 0 (length a)) as HC1. fold c in HC1.
  fold (ival b (vin a lsh) (length a)) in HC1.
  pose proof (chain_sum b Hb1 zseq (- c) gap) as HC2. fold c3 in HC2.
  rewrite (sumn_zero gap (fun t => zseq t * 2 ^ (zn t * b))) in HC2 by (intros; apply Z.mul_0_l).
  pose proof (digits_small b Hb1 (dig b (vin a lsh) 0) (length a) ltac:(intros; apply dig_range; auto)) as HD1.
  pose proof (digits_small b Hb1 (dig b zseq (- c)) gap ltac:(intros; apply dig_range; auto)) as HD2.
  assert (EU : 2 ^ (P - zn re * b)
               = 2 ^ (P - (zn (length a) + zn steps) * b) * (2 ^ (zn (length a) * b) * 2 ^ (zn gap * b))).
  { rewrite <- !Z.pow_add_r by nia. f_equal. rewrite Hgap. ring. }
  pose proof (pow2_pos (P - (zn (length a) + zn steps) * b) ltac:(lia)) as HpE.
  pose proof (pow2_pos (zn (length a) * b) ltac:(nia)) as HpA.
  pose proof (pow2_pos (zn gap * b) ltac:(nia)) as HpG.
  set (pE := 2 ^ (P - (zn (length a) + zn steps) * b)) in *.
  set (pA := 2 ^ (zn (length a) * b)) in *. set (pG := 2 ^ (zn gap * b)) in *.
  set (Dlow := sumn (length a) (fun t => dig b (vin a lsh) 0 t * 2 ^ (zn t * b))) in *.
  set (G := sumn gap (fun t => dig b zseq (- c) t * 2 ^ (zn t * b))) in *.
  set (IV := ival b (vin a lsh) (length a)) in *.
  set (S0 := sumn re (fun i => nthZ r0 i * wt P b i)).
  set (K := car b (utop false 0 r0 re) c3 re).
  clearbody pE pA pG Dlow G IV S0 K c3 c. rewrite EU.
  replace (S0 + c3 * (pE * (pA * pG)) - 2 ^ P * K - S0 + pE * IV)
    with (pE * (Dlow - pA * G) + 2 ^ P * (- K)).
  2:{ replace IV with (Dlow + pA * c) by lia. replace c with (- G - pG * c3) by lia. ring. }
  rewrite tor_abs_add_mul by exact HP0.
  pose proof (tor_abs_le P (pE * (Dlow - pA * G)) HP0).
  pose proof (dropped_bound pE pA pG Dlow G HpE HpA HpG HD1 HD2). lia.
Qed.

(* rsh<false>: res += a * 2^-k *)

Theorem rsh_add_valueW (k : Z) (a r0 : list Z) : 0 <= k -> hrw a -> hrw r0 ->
  let out := rsh w false b k a r0 in
  length out = length r0 /\
  forall P, zn (length r0) * b + zn (length a) * b + k <= P ->
    let D := tor_abs P (val_scaled P b out - val_scaled P b r0 - val_scaled (P - k) b a) in
    D <= 2 ^ (P - zn (length r0) * b) /\ (zn (length a) * b + k <= zn (length r0) * b -> D = 0).
Proof.
  intros Hk Ha Hr. apply hrlw_of_Forall in Ha. apply hrlw_of_Forall in Hr. cbv zeta.
  destruct (rsh_nthW w b Hb Hcap false k a r0 Hk Ha ltac:(intros; exact Hr)) as [L N]. cbv zeta in N.
  destruct (off_negW w b Hb k Hk) as [Eo Hl].
  set (steps := fst (rsh_params b k)) in *. set (lsh := snd (rsh_params b k)) in *.
  split; [exact L|]. intros P HP.
  destruct (rsh_fused_valueW P lsh 1 (ctop b lsh a (steps - Nat.min (length r0) steps)) a r0
              (rsh w false b k a r0) steps L
              ltac:(intros i Hi; rewrite N by exact Hi;
                    destruct (Nat.ltb i (Nat.min (length r0) steps)); [reflexivity|ring])
              ltac:(unfold zn in *; nia)) as [Z0 HZ].
  pose proof (variant_value b P (- zn steps) lsh 1 1 a r0 (rsh w false b k a r0) Hb1 Hl
                ltac:(left; reflexivity)) as HV.
  cbv zeta in HV. rewrite L, Eo in HV.
  replace (val_scaled P b (rsh w false b k a r0) - val_scaled P b r0 - val_scaled (P - k) b a)
    with (val_scaled P b (rsh w false b k a r0) - 1 * val_scaled P b r0 - 1 * val_scaled (P + - k) b a)
    by (replace (P + - k) with (P - k) by lia; ring).
  destruct HV as [H1 H2].
  - exists Z0. rewrite HZ, L. replace (zn (length a) - - zn steps) with (zn (length a) + zn steps) by ring. ring.
  - lia.
  - split; [exact H1|]. intros Hx. apply H2. lia.
Qed.

(* rsh_sub: res -= a * 2^-k *)

Theorem rsh_sub_valueW (k : Z) (a r0 : list Z) : 0 <= k -> hrw a -> hrw r0 ->
  let out := rsh_sub w b k a r0 in
  length out = length r0 /\
  forall P, zn (length r0) * b + zn (length a) * b + k <= P ->
    let D := tor_abs P (val_scaled P b out - val_scaled P b r0 + val_scaled (P - k) b a) in
    D <= 2 ^ (P - zn (length r0) * b) /\ (zn (length a) * b + k <= zn (length r0) * b -> D = 0).
Proof.
  intros Hk Ha Hr. apply hrlw_of_Forall in Ha. apply hrlw_of_Forall in Hr. cbv zeta.
  destruct (rsh_sub_nthW w b Hb Hcap k a r0 Hk Ha Hr) as [L N]. cbv zeta in N.
  destruct (off_negW w b Hb k Hk) as [Eo Hl].
  set (steps := fst (rsh_params b k)) in *. set (lsh := snd (rsh_params b k)) in *.
  set (out := rsh_sub w b k a r0) in *.
  set (re := Nat.min (length r0) steps) in *.
  set (gap := (steps - re)%nat) in *.
  set (c := car b (vin a lsh) 0 (length a)) in *.
  set (c3' := car b zseq (- c) gap) in *.
  split; [exact L|]. intros P HP.
  assert (HP0 : 0 <= P) by (unfold zn in *; nia).
  destruct (rsh_fused_valueW P lsh (-1) c3' a r0 out steps L
              ltac:(intros i Hi; rewrite N by exact Hi; fold re;
                    destruct (Nat.ltb i re); [reflexivity|ring])
              ltac:(unfold zn in *; nia)) as [Z0 HZ].
  fold re gap in HZ.
  replace (val_scaled P b out - val_scaled P b r0 + val_scaled (P - k) b a)
    with (val_scaled P b out - 1 * val_scaled P b r0 - -1 * val_scaled (P + - k) b a)
    by (replace (P + - k) with (P - k) by lia; ring).
  destruct (Nat.eq_dec gap 0) as [Hg|Hg].
  - (* the negated carry enters the top phase unchanged *)
    pose proof (variant_value b P (- zn steps) lsh 1 (-1) a r0 out Hb1 Hl ltac:(right; reflexivity)) as HV.
    cbv zeta in HV. rewrite L, Eo in HV.
    destruct HV as [H1 H2].
    + exists Z0. rewrite HZ, L.
      replace (zn (length a) - - zn steps) with (zn (length a) + zn steps) by ring.
      assert (Ec : c3' - -1 * ctop b lsh a gap = 0).
      { unfold c3', ctop. rewrite Hg, Nat.add_0_r. cbn [car]. fold c. ring. }
      rewrite Ec. ring.
    + lia.
    + split; [exact H1|]. intros Hx. apply H2. lia.
  - (* steps > |r0|: everything of a and the gap digits of -c are dropped *)
    assert (Hre : re = length r0) by (unfold gap, re in *; lia).
    assert (Hst : (length r0 < steps)%nat) by (unfold gap, re in *; lia).
    clear HZ. clearbody out. clear Ha Hr.
    split.
    2:{ intros Hx. exfalso. unfold zn in *. nia. }
    destruct (Nat.eq_dec (length r0) 0) as [Hz|Hz].
    { rewrite Hz. change (zn 0) with 0. rewrite Z.mul_0_l, Z.sub_0_r. apply tor_abs_le_unit; auto. }
    replace (val_scaled P b out - 1 * val_scaled P b r0 - -1 * val_scaled (P + - k) b a)
      with (val_scaled P b out - val_scaled P b r0 + val_scaled (P + (- zn steps * b + lsh)) b a)
      by (rewrite Eo; ring).
    apply (rsh_sub_far_value P lsh a r0 out steps (proj1 Hl) Hst L).
    + intros i Hi. rewrite N by exact Hi. destruct (Nat.ltb_spec i re); [|lia].
      unfold c3', gap. rewrite Hre. reflexivity.
    + assert (1 <= zn (length r0)) by (unfold zn; lia). nia.
Qed.

End RshValue.

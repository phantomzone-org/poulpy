(* C08 at w = 64: the headroom constant of the i64 routines; the phases are in Proofs/C08WLoops.v. *)
From PV Require Import Base.MachineInt.
From PV Require Export Proofs.C08WLoops.
Open Scope Z_scope.

Definition H62 : Z := 2 ^ 62.

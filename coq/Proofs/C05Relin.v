(* C05 — relinearisation: the accumulator of Model/C05Relin.glwe_relinearize before its final normalisation, its phase derived from
   C03_keyswitch_phase_lemma; Props/C05.v adds the normalisation (GadgetNorm.normalize_cols_after). *)
From PV Require Import Base.MachineInt Model.Znx Model.Limbs Model.Flat Model.Ring Model.Poly Model.DftAbs Model.Gadget Model.GadgetSpec
  Model.C05Relin.
From PV Require Import Proofs.C07Dft Proofs.C07Ring Proofs.GadgetDecomp Proofs.GadgetPhase Proofs.GadgetBound Proofs.C03Phase Proofs.C04Phase Proofs.GadgetNorm Proofs.ListFacts.
Open Scope Z_scope.

Lemma wf_skipn n c p a_size (T : cols_t) : wf_cols n (c + p) a_size T -> wf_cols n p a_size (skipn c T).
Proof.
  intros [Hl Hc]. split; [rewrite skipn_length; lia|].
  intros ci Hci. unfold col. rewrite nth_skipn. apply (Hc (c + ci)%nat). lia.
Qed.

Lemma acol_skipn n c (T : cols_t) ci l : acol n (skipn c T) ci l = acol n T (c + ci) l.
Proof. unfold acol, col. rewrite nth_skipn. reflexivity. Qed.

Lemma wf_firstn n c p a_size (T : cols_t) : wf_cols n (c + p) a_size T -> wf_cols n c a_size (firstn c T).
Proof.
  intros [Hl Hc]. split; [rewrite firstn_length; lia|].
  intros ci Hci. unfold col. rewrite nth_firstn_lt by exact Hci. apply (Hc ci). lia.
Qed.

Lemma acol_firstn n c (T : cols_t) ci l : (ci < c)%nat -> acol n (firstn c T) ci l = acol n T ci l.
Proof. intros H. unfold acol, col. rewrite nth_firstn_lt by exact H. reflexivity. Qed.


Section RelinInternal.
Variables (P b : Z) (n pairs cols msize a_size dsize dnum : nat).
Variable T : cols_t.                       (* the tensor in the key's radix: cols columns (1, s_i) then pairs columns (s_i s_j) *)
Variable K : pmat.
Variable Sk : nat -> list Z.               (* target secret family (1, s_1, ..) *)
Variables (s_in : nat -> list Z) (e I : nat -> nat -> list Z).   (* what the key rows encrypt: s_in p = s_i s_j *)
Hypothesis HT : wf_cols n (cols + pairs) a_size T.
Hypothesis HK : wf_pmat_in n (dnum * pairs) (msize * cols) K.
Hypothesis Hd : (1 <= dsize)%nat.
Hypothesis Hdrop : (dsize - 2 <= msize)%nat.
Hypothesis HS : forall co, length (Sk co) = n.
Hypothesis Hsin : forall ci, length (s_in ci) = n.
Hypothesis He : forall row ci, length (e row ci) = n.
Hypothesis HI : forall row ci, length (I row ci) = n.
Hypothesis Hb : 0 <= b.
Hypothesis HP : Z.of_nat msize * b <= P.
Hypothesis HP2 : Z.of_nat dnum * Z.of_nat dsize * b <= P.
(* C03_keyswitch_phase_lemma's hypothesis on the tensor key: row r, input column p is a GLWE under Sk with phase 2^(P-(r+1) dsize b) s_in p + e + 2^P I *)
Hypothesis keyswitch_phase : key_rows_ok P b n pairs cols msize dsize dnum K Sk s_in e I.

Theorem relinearize_internal_phase :
  exists big, relinearize_internal n cols T a_size dsize dnum msize K = Some big /\
    wf_cols n cols msize big /\
    phase_f P b n cols msize (limbs_of big) Sk
    = padd (padd (padd (psumf n (fun co => pmul (pval P b n (acol n T co) (Nat.min msize a_size)) (Sk co)) cols)
                       (psumf n (fun ci => pmul (pval_used P b n a_size dsize dnum (acol n (skipn cols T)) ci) (s_in ci)) pairs))
                 (gadget_err P b n pairs cols msize dsize dnum (acol n (skipn cols T)) K Sk e))
           (pscale (2 ^ P) (gadget_int b n pairs cols msize dsize dnum (acol n (skipn cols T)) K Sk I)).
Proof.
  pose proof (wf_skipn n cols pairs a_size T HT) as Ha. pose proof (wf_firstn n cols pairs a_size T HT) as Hf.
  destruct (C03_keyswitch_phase_lemma P b n pairs cols msize a_size dsize dnum (skipn cols T) (zcols n cols msize) K Sk s_in e I
              Ha HK Hd Hdrop HS Hsin He HI Hb HP HP2 keyswitch_phase) as [res [E1 [E2 E3]]].
  unfold relinearize_internal. rewrite E1. eexists; split; [reflexivity|].
  destruct (add_small_cols n cols msize a_size res (firstn cols T) E2 Hf) as [Wbig Hlimb].
  split; [exact Wbig|].
  pose proof (acol_length n cols a_size (firstn cols T) Hf) as LF. pose proof (acol_zero n cols a_size (firstn cols T) Hf) as ZF.
  rewrite (phase_f_ext P b n cols msize _ _ Sk Hlimb).
  rewrite phase_f_padd by (intros; try apply LF; try apply HS; apply (proj2 E2 co); assumption).
  rewrite E3, (phase_f_cut P b n cols (Nat.min msize a_size) msize) by (try exact LF; try lia; intros; apply ZF; lia).
  rewrite (phase_f_ext P b n cols _ (acol n (firstn cols T)) (acol n T) Sk) by (intros; apply acol_firstn; assumption).
  fold (phase_f P b n cols (Nat.min msize a_size) (acol n T) Sk).
  rewrite padd_comm, <- !padd_assoc. reflexivity.
Qed.
Lemma relinearize_terms_length :
  length (padd (padd (psumf n (fun co => pmul (pval P b n (acol n T co) (Nat.min msize a_size)) (Sk co)) cols)
                     (psumf n (fun ci => pmul (pval_used P b n a_size dsize dnum (acol n (skipn cols T)) ci) (s_in ci)) pairs))
               (gadget_err P b n pairs cols msize dsize dnum (acol n (skipn cols T)) K Sk e)) = n /\
  length (gadget_int b n pairs cols msize dsize dnum (acol n (skipn cols T)) K Sk I) = n.
Proof using HT.
  pose proof (acol_length n pairs a_size (skipn cols T) (wf_skipn n cols pairs a_size T HT)) as LA.
  pose proof (acol_length n (cols + pairs) a_size T HT) as LB.
  split; [|apply gadget_int_length; intros; apply LA].
  apply padd_len; [apply padd_len|apply gadget_err_length; assumption]; apply psumf_length; intros c _; rewrite pmul_length.
  - apply pval_length; intros; apply LB.
  - unfold pval_used. apply pval_length; intros; apply LA.
Qed.

Lemma relinearize_internal_wf big : relinearize_internal n cols T a_size dsize dnum msize K = Some big -> wf_cols n cols msize big.
Proof.
  intros E. destruct relinearize_internal_phase as (big' & E' & W & _).
  rewrite E in E'. injection E' as ->. exact W.
Qed.

(* FFT64 family, one radix: the normalisation fact of every column of the accumulator, from C08 through C03's
   big_normalize_value_fft64; what remains is the magnitude domain of the i64 accumulator *)
Lemma relinearize_cols_value_fft64 be res_size big : be <= 2 -> 1 <= b <= 62 -> (Z.of_nat res_size + Z.of_nat msize) * b <= P ->
  relinearize_internal n cols T a_size dsize dnum msize K = Some big ->
  (forall co j k, Z.abs (nth k (lim (col big co) j) 0) <= 2 ^ 62) ->
  forall co, (co < cols)%nat -> normalize_value_ok (wbig be) P n b b res_size (col big co).
Proof.
  intros Hbe Hb62 HPr E Hdom co Hco.
  destruct (relinearize_internal_wf big E) as [_ Hc]. destruct (Hc co Hco) as [Lc Wc].
  replace (wbig be) with 64 by (unfold wbig; destruct (Z.leb_spec be 2); [reflexivity|lia]).
  apply big_normalize_value_fft64; rewrite ?Lc; auto.
Qed.
End RelinInternal.


(* C18 — byte-level lemmas: structural `take`, little-endian words, header products. *)
From PV Require Import Base.MachineInt Model.C18Serial.
Open Scope Z_scope.

Definition u64 (v : Z) : Prop := 0 <= v < 2 ^ 64.
Definition u32 (v : Z) : Prop := 0 <= v < 2 ^ 32.

Lemma take_spec (k : nat) (s : bytes) :
  take k s = if (k <=? length s)%nat then Some (firstn k s, skipn k s) else None.
Proof.
  revert s; induction k as [|k IH]; intros s; cbn [take].
  - reflexivity.
  - destruct s as [|b t]; cbn [length firstn skipn]; [reflexivity|].
    rewrite IH. change (S k <=? S (length t))%nat with (k <=? length t)%nat.
    destruct (k <=? length t)%nat; reflexivity.
Qed.

Lemma take_some (k : nat) (s a r : bytes) : take k s = Some (a, r) -> s = a ++ r /\ length a = k.
Proof.
  rewrite take_spec. destruct (k <=? length s)%nat eqn:E; [|discriminate].
  intros H; inversion H; subst. apply Nat.leb_le in E. split.
  - symmetry; apply firstn_skipn.
  - apply firstn_length_le; exact E.
Qed.

Lemma take_none (k : nat) (s : bytes) : take k s = None -> (length s < k)%nat.
Proof.
  rewrite take_spec. destruct (k <=? length s)%nat eqn:E; [discriminate|].
  intros _. apply Nat.leb_gt in E. exact E.
Qed.

Lemma take_app (a t : bytes) : take (length a) (a ++ t) = Some (a, t).
Proof.
  rewrite take_spec, app_length.
  replace (length a <=? length a + length t)%nat with true by (symmetry; apply Nat.leb_le; lia).
  rewrite firstn_app, Nat.sub_diag, firstn_all, skipn_app, Nat.sub_diag, skipn_all. cbn [firstn skipn].
  rewrite app_nil_r. reflexivity.
Qed.

Lemma take_app_n (k : nat) (a t : bytes) : length a = k -> take k (a ++ t) = Some (a, t).
Proof. intros <-; apply take_app. Qed.

Lemma le_bytes_length (k : nat) (v : Z) : length (le_bytes k v) = k.
Proof. revert v; induction k; intros; cbn [le_bytes length]; auto. Qed.

Lemma pow256_S (k : nat) : 256 ^ Z.of_nat (S k) = 256 * 256 ^ Z.of_nat k.
Proof. rewrite Nat2Z.inj_succ, Z.pow_succ_r by lia. reflexivity. Qed.

Lemma le_val_le_bytes (k : nat) (v : Z) : 0 <= v < 256 ^ Z.of_nat k -> le_val (le_bytes k v) = v.
Proof.
  revert v; induction k as [|k IH]; intros v Hv.
  - cbn in Hv. cbn. lia.
  - rewrite pow256_S in Hv. cbn [le_bytes le_val].
    rewrite Z.mod_mod by lia.
    rewrite IH.
    + pose proof (Z.div_mod v 256 ltac:(lia)). lia.
    + split; [apply Z.div_pos; lia|]. apply Z.div_lt_upper_bound; lia.
Qed.

Lemma le_val_range (bs : bytes) : 0 <= le_val bs < 256 ^ Z.of_nat (length bs).
Proof.
  induction bs as [|b t IH].
  - cbn. lia.
  - cbn [le_val length]. rewrite pow256_S.
    pose proof (Z.mod_pos_bound b 256 ltac:(lia)). lia.
Qed.

Lemma pow256_4 : 256 ^ Z.of_nat 4 = 2 ^ 32. Proof. reflexivity. Qed.
Lemma pow256_8 : 256 ^ Z.of_nat 8 = 2 ^ 64. Proof. reflexivity. Qed.
Lemma pow256_1 : 256 ^ Z.of_nat 1 = 256. Proof. reflexivity. Qed.

Lemma rd_le (k : nat) (v : Z) (t : bytes) : 0 <= v < 256 ^ Z.of_nat k -> rd k (le_bytes k v ++ t) = Some (v, t).
Proof.
  intros Hv. unfold rd. rewrite (take_app_n k) by apply le_bytes_length.
  rewrite le_val_le_bytes by exact Hv. reflexivity.
Qed.

Lemma rd_some (k : nat) (s r : bytes) (v : Z) :
  rd k s = Some (v, r) -> 0 <= v < 256 ^ Z.of_nat k /\ (length s = k + length r)%nat /\ r = skipn k s.
Proof.
  unfold rd. destruct (take k s) as [[a r']|] eqn:E; [|discriminate].
  intros H; inversion H; subst. apply take_some in E. destruct E as [Hs Hl].
  split; [|split].
  - rewrite <- Hl. apply le_val_range.
  - rewrite Hs, app_length. lia.
  - rewrite Hs, skipn_app, Hl, Nat.sub_diag. rewrite <- Hl, skipn_all. reflexivity.
Qed.

Lemma rd_u64 (s r : bytes) (v : Z) : rd 8 s = Some (v, r) -> u64 v.
Proof. intros H; apply rd_some in H. destruct H as [H _]. rewrite pow256_8 in H. exact H. Qed.

Lemma rd_u32 (s r : bytes) (v : Z) : rd 4 s = Some (v, r) -> u32 v.
Proof. intros H; apply rd_some in H. destruct H as [H _]. rewrite pow256_4 in H. exact H. Qed.

Lemma rd_fields_app (h : list Z) (t : bytes) :
  Forall u64 h -> rd_fields (length h) (hdr_bytes h ++ t) = Some (h, t).
Proof.
  induction h as [|x h IH]; intros HF.
  - reflexivity.
  - inversion HF; subst. cbn [length rd_fields hdr_bytes map concat].
    rewrite <- app_assoc. rewrite rd_le by (rewrite pow256_8; assumption).
    change (concat (map (le_bytes 8) h)) with (hdr_bytes h). rewrite IH by assumption. reflexivity.
Qed.

Lemma rd_fields_some (k : nat) (s r : bytes) (h : list Z) :
  rd_fields k s = Some (h, r) -> length h = k /\ Forall u64 h /\ (length r <= length s)%nat.
Proof.
  revert s h r; induction k as [|k IH]; intros s h r; cbn [rd_fields].
  - intros H; inversion H; subst. split; [reflexivity|split; [constructor|lia]].
  - destruct (rd 8 s) as [[v s']|] eqn:E; [|discriminate].
    destruct (rd_fields k s') as [[l s'']|] eqn:E2; [|discriminate].
    intros H; inversion H; subst. destruct (IH _ _ _ E2) as [Hl [HF Hlen]].
    pose proof (rd_u64 _ _ _ E). apply rd_some in E. destruct E as [_ [Hs _]].
    split; [cbn; lia|split; [constructor; assumption|lia]].
Qed.

Lemma hdr_bytes_length (h : list Z) : length (hdr_bytes h) = (8 * length h)%nat.
Proof.
  induction h as [|x h IH]; [reflexivity|].
  unfold hdr_bytes in *. cbn [map concat length]. rewrite app_length, le_bytes_length, IH. lia.
Qed.

Lemma pow64_pos : 0 < 2 ^ 64. Proof. reflexivity. Qed.

Lemma lprod_cons (f : Z) (t : list Z) : lprod (f :: t) = f * lprod t.
Proof. reflexivity. Qed.

Lemma lprod_nonneg (t : list Z) : Forall (fun f => 0 <= f) t -> 0 <= lprod t.
Proof. induction 1 as [|f t Hf _ IH]; [cbn; lia | rewrite lprod_cons; nia]. Qed.

Lemma lprod_ge1 (t : list Z) : Forall (fun f => 1 <= f) t -> 1 <= lprod t.
Proof. induction 1 as [|f t Hf _ IH]; [cbn; lia | rewrite lprod_cons; nia]. Qed.

Lemma fold_mul_true (t : list Z) (a : Z) : snd (fold_left mul_step t (a, true)) = true.
Proof.
  revert a; induction t as [|f t IH]; intros a; [reflexivity|].
  cbn [fold_left]. unfold mul_step at 2. cbn [fst snd orb]. apply IH.
Qed.

(* the accumulator is always below 2^64 after the first step; we carry that fact *)
Lemma fold_mul_exact (t : list Z) (a : Z) :
  0 <= a < 2 ^ 64 -> Forall (fun f => 0 <= f) t ->
  snd (fold_left mul_step t (a, false)) = false ->
  fst (fold_left mul_step t (a, false)) = a * lprod t /\ 0 <= a * lprod t < 2 ^ 64.
Proof.
  revert a; induction t as [|f t IH]; intros a Ha HF Hs.
  - cbn [fold_left fst lprod fold_right]. lia.
  - inversion HF as [|? ? Hf HF']; subst.
    cbn [fold_left] in *. unfold mul_step at 2 in Hs. unfold mul_step at 2. cbn [fst snd orb] in *.
    destruct (2 ^ 64 <=? a * f) eqn:E.
    + rewrite fold_mul_true in Hs. discriminate.
    + apply Z.leb_gt in E.
      assert (Hp : 0 <= a * f < 2 ^ 64) by nia.
      unfold wrapu in *. rewrite Z.mod_small in * by exact Hp.
      destruct (IH (a * f) Hp HF' Hs) as [H1 H2].
      rewrite lprod_cons, H1, Z.mul_assoc. split; [reflexivity | exact H2].
Qed.

Lemma chain_exact (fs : list Z) :
  Forall u64 fs -> fs <> [] -> snd (chain fs) = false ->
  fst (chain fs) = lprod fs /\ 0 <= lprod fs < 2 ^ 64.
Proof.
  intros HF Hne Hs. destruct fs as [|a t]; [congruence|].
  inversion HF as [|? ? Ha HF']; subst. unfold chain in *.
  assert (HF'' : Forall (fun f => 0 <= f) t).
  { eapply Forall_impl; [|exact HF']. unfold u64; intros; lia. }
  exact (fold_mul_exact t a Ha HF'' Hs).
Qed.

(* conversely: a product that stays below 2^64 at every step does not raise the flag *)
Lemma fold_mul_noovf (t : list Z) (a : Z) :
  0 <= a < 2 ^ 64 -> Forall (fun f => 1 <= f) t -> a * lprod t < 2 ^ 64 ->
  snd (fold_left mul_step t (a, false)) = false.
Proof.
  revert a; induction t as [|f t IH]; intros a Ha HF Hp.
  - reflexivity.
  - inversion HF as [|? ? Hf HF']; subst.
    rewrite lprod_cons in Hp. pose proof (lprod_ge1 t HF') as Hl.
    cbn [fold_left]. unfold mul_step at 2. cbn [fst snd orb].
    assert (Haf : 0 <= a * f < 2 ^ 64) by nia.
    replace (2 ^ 64 <=? a * f) with false by (symmetry; apply Z.leb_gt; lia).
    unfold wrapu. rewrite Z.mod_small by exact Haf.
    apply IH; [exact Haf | exact HF' | rewrite <- Z.mul_assoc; exact Hp].
Qed.

Lemma chain_noovf_pos (fs : list Z) :
  Forall (fun f => 1 <= f) fs -> lprod fs < 2 ^ 64 -> snd (chain fs) = false.
Proof.
  intros HF Hp. destruct fs as [|a t]; [reflexivity|].
  inversion HF as [|? ? Ha HF']; subst. unfold chain.
  rewrite lprod_cons in Hp. pose proof (lprod_ge1 t HF') as Hl.
  apply fold_mul_noovf; [nia|exact HF'|exact Hp].
Qed.

(* rx keeps the length of the receiving buffer *)
Lemma rx_length (partial : bool) (k : nat) (old s : bytes) :
  (k <= length old)%nat -> length (snd (fst (rx partial k old s))) = length old.
Proof.
  intros Hk. unfold rx. destruct (take k s) as [[a r]|] eqn:E; cbn [fst snd].
  - apply take_some in E. destruct E as [_ Hl]. rewrite app_length, skipn_length. lia.
  - apply take_none in E. destruct partial; [|reflexivity].
    rewrite app_length, skipn_length. lia.
Qed.

Lemma rx_ok (partial : bool) (k : nat) (old s d r : bytes) :
  rx partial k old s = (true, d, r) -> exists a, s = a ++ r /\ length a = k /\ d = a ++ skipn k old.
Proof.
  unfold rx. destruct (take k s) as [[a r']|] eqn:E; [|intros H; inversion H].
  intros H; inversion H; subst. apply take_some in E. destruct E as [Hs Hl]. exists a; auto.
Qed.

Lemma rx_app (partial : bool) (old a t : bytes) :
  rx partial (length a) old (a ++ t) = (true, a ++ skipn (length a) old, t).
Proof. unfold rx. rewrite take_app. reflexivity. Qed.

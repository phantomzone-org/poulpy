(* C18 — level 1: Distribution codec, scalar fields of the poulpy-core wrappers, wrapper readers
   (before the repairs: fields committed before the inner read; repaired, as in /repo: temporaries, committed after). *)
From PV Require Import Base.MachineInt Model.C18Serial Proofs.C18Bytes Proofs.C18Flat.
Open Scope Z_scope.

(* values the one-word format can represent: usize payloads below 2^56, f64 bit patterns whose 8 low mantissa
   bits are zero, no payload for ZERO / NONE *)
Definition dist_canonical (t p : Z) : Prop :=
  (dist_is_prob t = true /\ u64 p /\ p mod 256 = 0) \/
  (dist_is_fixed t = true /\ 0 <= p < 2 ^ 56) \/
  ((t = 5 \/ t = 6) /\ p = 0).

Lemma land_shiftl_small (t q : Z) : 0 <= q < 2 ^ 56 -> Z.land (Z.shiftl t 56) q = 0.
Proof.
  intros Hq.
  assert (Eq : q = Z.land q (Z.ones 56)) by (rewrite Z.land_ones by lia; rewrite Z.mod_small by lia; reflexivity).
  rewrite Eq, (Z.land_comm q), Z.land_assoc, Z.land_ones by lia.
  rewrite Z.shiftl_mul_pow2 by lia. rewrite Z_mod_mult. apply Z.land_0_l.
Qed.

Lemma lor_shiftl_small (t q : Z) : 0 <= q < 2 ^ 56 -> Z.lor (Z.shiftl t 56) q = t * 2 ^ 56 + q.
Proof.
  intros Hq. pose proof (land_shiftl_small t q Hq) as Hl.
  rewrite <- Z.lxor_lor by exact Hl. rewrite <- Z.add_nocarry_lxor by exact Hl.
  rewrite Z.shiftl_mul_pow2 by lia. reflexivity.
Qed.

Lemma split_word (t q : Z) : 0 <= q < 2 ^ 56 ->
  Z.shiftr (t * 2 ^ 56 + q) 56 = t /\ Z.land (t * 2 ^ 56 + q) (Z.ones 56) = q.
Proof.
  intros Hq. split.
  - rewrite Z.shiftr_div_pow2 by lia. rewrite Z.div_add_l by lia. rewrite Z.div_small by lia. lia.
  - rewrite Z.land_ones by lia. rewrite Z.add_comm, Z_mod_plus_full. apply Z.mod_small; lia.
Qed.

Lemma dist_tags_prob (t : Z) : dist_is_prob t = true -> t = 1 \/ t = 3.
Proof. unfold dist_is_prob. intros H. apply orb_true_iff in H. destruct H as [H|H]; apply Z.eqb_eq in H; auto. Qed.
Lemma dist_tags_fixed (t : Z) : dist_is_fixed t = true -> t = 0 \/ t = 2 \/ t = 4.
Proof.
  unfold dist_is_fixed. intros H. apply orb_true_iff in H. destruct H as [H|H].
  - apply orb_true_iff in H. destruct H as [H|H]; apply Z.eqb_eq in H; auto.
  - apply Z.eqb_eq in H; auto.
Qed.

Lemma dist_word_spec (t p : Z) : dist_canonical t p ->
  u64 (dist_word t p) /\ dist_decode (dist_word t p) = Some (t, p).
Proof.
  intros [(Ht & Hu & Hm)|[(Ht & Hp)|(Ht & ->)]].
  - (* probability: (tag << 56) | (bits >> 8) *)
    assert (Hq : 0 <= Z.shiftr p 8 < 2 ^ 56).
    { rewrite Z.shiftr_div_pow2 by lia. unfold u64 in Hu. change (2 ^ 8) with 256.
      split; [apply Z.div_pos; lia|apply Z.div_lt_upper_bound; lia]. }
    assert (Hback : Z.shiftl (Z.shiftr p 8) 8 = p).
    { rewrite Z.shiftl_mul_pow2, Z.shiftr_div_pow2 by lia. change (2 ^ 8) with 256.
      pose proof (Z.div_mod p 256 ltac:(lia)). lia. }
    unfold dist_word, dist_decode. rewrite Ht.
    rewrite lor_shiftl_small by exact Hq.
    destruct (split_word t (Z.shiftr p 8) Hq) as [S1 S2]. rewrite S1, S2, Ht, Hback.
    split; [|reflexivity]. destruct (dist_tags_prob t Ht) as [->| ->]; unfold u64; lia.
  - (* fixed weight: (tag << 56) | v *)
    unfold dist_word, dist_decode.
    assert (Hnp : dist_is_prob t = false) by (destruct (dist_tags_fixed t Ht) as [->|[->| ->]]; reflexivity).
    rewrite Hnp, Ht. rewrite lor_shiftl_small by exact Hp.
    destruct (split_word t p Hp) as [S1 S2]. rewrite S1, S2, Hnp, Ht.
    split; [|reflexivity]. destruct (dist_tags_fixed t Ht) as [->|[->| ->]]; unfold u64; lia.
  - destruct Ht as [-> | ->]; (split; [unfold u64; split; [vm_compute; discriminate|vm_compute; reflexivity]|vm_compute; reflexivity]).
Qed.

Lemma dist_roundtrip_refuted_big_payload :
  dist_decode (dist_word 0 (2 ^ 56)) = Some (1, 0) /\                  (* TernaryFixed(2^56) reads back as TernaryProb(0.0) *)
  dist_decode (dist_word 0 (7 * 2 ^ 56)) = None.                       (* TernaryFixed(7 * 2^56): "Invalid tag" *)
Proof. split; vm_compute; reflexivity. Qed.

Definition wf_fval (f : fval) : Prop :=
  match f with
  | VU32 v => u32 v
  | VU64 v => u64 v
  | VSeed b => length b = 32%nat
  | VSeeds l => Forall (fun b => length b = 32%nat) l /\ Z.of_nat (length l) < 2 ^ 32
  | VDist t p => dist_canonical t p
  end.

(* the seed vector is small enough for `vec![[0u8; 32]; n]` to be granted (needed by the reader before the repair) *)
Definition small_seeds (f : fval) : Prop :=
  match f with VSeeds l => 32 * Z.of_nat (length l) <= alloc_limit | _ => True end.

(* a receiver field that can take the value: same variant; a seed array has 32 bytes *)
Definition same_kind (a b : fval) : Prop :=
  match a, b with
  | VU32 _, VU32 _ | VU64 _, VU64 _ | VSeeds _, VSeeds _ | VDist _ _, VDist _ _ => True
  | VSeed x, VSeed _ => length x = 32%nat
  | _, _ => False
  end.

Definition field_fits (f0 f : field) : Prop := f_role f0 = f_role f /\ same_kind (f_val f0) (f_val f).

Lemma skipn_zero_seed : skipn 32 zero_seed = []. Proof. reflexivity. Qed.

Lemma read_seeds_app (partial : bool) (l : list bytes) (tl : bytes) :
  Forall (fun b => length b = 32%nat) l ->
  read_seeds partial (length l) (concat l ++ tl) = (true, l, tl).
Proof.
  induction 1 as [|b l Hb _ IH]; [reflexivity|].
  cbn [length read_seeds concat]. rewrite <- app_assoc. rewrite <- Hb at 1. rewrite rx_app.
  rewrite Hb, skipn_zero_seed, app_nil_r, IH. reflexivity.
Qed.

Lemma parse_seeds_app (l : list bytes) (tl : bytes) :
  Forall (fun b => length b = 32%nat) l ->
  parse_seeds (length l) (concat l ++ tl) = Some (l, tl).
Proof.
  induction 1 as [|b l Hb _ IH]; [reflexivity|].
  cbn [length parse_seeds concat]. rewrite <- app_assoc. rewrite (take_app_n 32) by exact Hb.
  rewrite IH. reflexivity.
Qed.

Lemma concat_seeds_length (l : list bytes) :
  Forall (fun b => length b = 32%nat) l -> length (concat l) = (32 * length l)%nat.
Proof.
  induction 1 as [|b l Hb _ IH]; [reflexivity|]. cbn [concat length]. rewrite app_length, Hb, IH. lia.
Qed.

Lemma read_fval_roundtrip (partial : bool) (f0 f : fval) (tl : bytes) :
  wf_fval f -> small_seeds f -> same_kind f0 f ->
  read_fval partial f0 (write_fval f ++ tl) = (Ok, f, tl).
Proof.
  intros Hwf Hsm Hk. destruct f as [v|v|b|l|t p]; destruct f0 as [v0|v0|b0|l0|t0 p0]; cbn [same_kind] in Hk; try contradiction;
    cbn [wf_fval small_seeds] in *; cbn [read_fval write_fval].
  - rewrite rd_le by (rewrite pow256_4; exact Hwf). reflexivity.
  - rewrite rd_le by (rewrite pow256_8; exact Hwf). reflexivity.
  - rewrite <- Hwf at 1. rewrite rx_app. rewrite Hwf.
    replace (skipn 32 b0) with (@nil Z) by (symmetry; apply skipn_all2; lia). rewrite app_nil_r. reflexivity.
  - destruct Hwf as [HF Hn]. rewrite <- app_assoc. rewrite rd_le by (rewrite pow256_4; lia).
    replace (alloc_limit <? 32 * Z.of_nat (length l)) with false by (symmetry; apply Z.ltb_ge; exact Hsm).
    rewrite Nat2Z.id, read_seeds_app by exact HF. reflexivity.
  - destruct (dist_word_spec t p Hwf) as [Hu Hd]. rewrite rd_le by (rewrite pow256_8; exact Hu). rewrite Hd. reflexivity.
Qed.

Lemma parse_fval_roundtrip (f0 f : fval) (tl : bytes) :
  wf_fval f -> same_kind f0 f -> parse_fval f0 (write_fval f ++ tl) = Some (f, tl).
Proof.
  intros Hwf Hk. destruct f as [v|v|b|l|t p]; destruct f0 as [v0|v0|b0|l0|t0 p0]; cbn [same_kind] in Hk; try contradiction;
    cbn [wf_fval] in *; cbn [parse_fval write_fval].
  - rewrite rd_le by (rewrite pow256_4; exact Hwf). reflexivity.
  - rewrite rd_le by (rewrite pow256_8; exact Hwf). reflexivity.
  - rewrite (take_app_n 32) by exact Hwf. reflexivity.
  - destruct Hwf as [HF Hn]. rewrite <- app_assoc. rewrite rd_le by (rewrite pow256_4; lia).
    replace (32 * Z.of_nat (length l) <=? blen (concat l ++ tl)) with true.
    2:{ symmetry. apply Z.leb_le. unfold blen. rewrite app_length, concat_seeds_length by exact HF. lia. }
    rewrite Nat2Z.id, parse_seeds_app by exact HF. reflexivity.
  - destruct (dist_word_spec t p Hwf) as [Hu Hd]. rewrite rd_le by (rewrite pow256_8; exact Hu). rewrite Hd. reflexivity.
Qed.

Definition wf_fields (fs : list field) : Prop := Forall (fun f => wf_fval (f_val f)) fs.
Definition small_fields (fs : list field) : Prop := Forall (fun f => small_seeds (f_val f)) fs.

Lemma field_eta (f : field) : {| f_role := f_role f; f_val := f_val f |} = f.
Proof. destruct f; reflexivity. Qed.

Lemma read_fields_roundtrip (partial : bool) (fs0 fs : list field) (tl : bytes) :
  wf_fields fs -> small_fields fs -> Forall2 field_fits fs0 fs ->
  read_fields partial fs0 (write_fields fs ++ tl) = (Ok, fs, tl).
Proof.
  intros Hwf Hsm HF2. revert Hwf Hsm. induction HF2 as [|f0 f fs0 fs [Hr Hk] _ IH]; intros Hwf Hsm.
  - reflexivity.
  - inversion Hwf as [|? ? Hw Hwf']; subst. inversion Hsm as [|? ? Hs Hsm']; subst.
    cbn [read_fields]. unfold write_fields in *. cbn [map concat]. rewrite <- app_assoc.
    rewrite read_fval_roundtrip by assumption. rewrite IH by assumption. rewrite Hr, field_eta. reflexivity.
Qed.

Lemma parse_fields_roundtrip (fs0 fs : list field) (tl : bytes) :
  wf_fields fs -> Forall2 field_fits fs0 fs ->
  parse_fields fs0 (write_fields fs ++ tl) = Some (fs, tl).
Proof.
  intros Hwf HF2. revert Hwf. induction HF2 as [|f0 f fs0 fs [Hr Hk] _ IH]; intros Hwf.
  - reflexivity.
  - inversion Hwf as [|? ? Hw Hwf']; subst.
    cbn [parse_fields]. unfold write_fields in *. cbn [map concat]. rewrite <- app_assoc.
    rewrite parse_fval_roundtrip by assumption. rewrite IH by assumption. rewrite Hr, field_eta. reflexivity.
Qed.

(* reading fields never changes their number, roles or variants *)
Definition kind_of (f : fval) : Z := match f with VU32 _ => 1 | VU64 _ => 2 | VSeed _ => 3 | VSeeds _ => 4 | VDist _ _ => 5 end.
Definition shape_of (fs : list field) : list (Z * Z) := map (fun f => (f_role f, kind_of (f_val f))) fs.

Lemma read_fval_kind (partial : bool) (f : fval) (s : bytes) :
  kind_of (snd (fst (read_fval partial f s))) = kind_of f.
Proof.
  destruct f; cbn [read_fval].
  - destruct (rd 4 s) as [[? ?]|]; reflexivity.
  - destruct (rd 8 s) as [[? ?]|]; reflexivity.
  - destruct (rx partial 32 b s) as [[? ?] ?]; reflexivity.
  - destruct (rd 4 s) as [[cnt s']|]; [|reflexivity].
    destruct (alloc_limit <? 32 * cnt); [reflexivity|].
    destruct (read_seeds partial (Z.to_nat cnt) s') as [[? ?] ?]; reflexivity.
  - destruct (rd 8 s) as [[w s']|]; [|reflexivity]. destruct (dist_decode w) as [[? ?]|]; reflexivity.
Qed.

Lemma read_fields_shape (partial : bool) (fs : list field) (s : bytes) :
  shape_of (snd (fst (read_fields partial fs s))) = shape_of fs.
Proof.
  revert s; induction fs as [|f t IH]; intros s; [reflexivity|].
  cbn [read_fields]. pose proof (read_fval_kind partial (f_val f) s) as Hk.
  destruct (read_fval partial (f_val f) s) as [[oc v'] s'] eqn:E. cbn [fst snd] in Hk.
  destruct oc; try (cbn [fst snd shape_of map f_role f_val]; rewrite Hk; reflexivity).
  specialize (IH s'). destruct (read_fields partial t s') as [[oc2 t'] s'']. cbn [fst snd] in *.
  cbn [shape_of map f_role f_val]. rewrite Hk. f_equal. exact IH.
Qed.

Lemma read_fields_outcome (partial : bool) (fs : list field) (s : bytes) :
  let o := fst (fst (read_fields partial fs s)) in o = Ok \/ o = Err \/ o = AbortAlloc.
Proof.
  revert s; induction fs as [|f t IH]; intros s; cbn zeta; [left; reflexivity|].
  cbn [read_fields].
  assert (Hv : let o := fst (fst (read_fval partial (f_val f) s)) in o = Ok \/ o = Err \/ o = AbortAlloc).
  { cbn zeta. destruct (f_val f); cbn [read_fval].
    - destruct (rd 4 s) as [[? ?]|]; auto.
    - destruct (rd 8 s) as [[? ?]|]; auto.
    - destruct (rx partial 32 b s) as [[[] ?] ?]; cbn [fst okb]; auto.
    - destruct (rd 4 s) as [[cnt s']|]; cbn [fst]; auto. destruct (alloc_limit <? 32 * cnt); cbn [fst]; auto.
      destruct (read_seeds partial (Z.to_nat cnt) s') as [[[] ?] ?]; cbn [fst okb]; auto.
    - destruct (rd 8 s) as [[w s']|]; cbn [fst]; auto. destruct (dist_decode w) as [[? ?]|]; cbn [fst]; auto. }
  cbn zeta in Hv. destruct (read_fval partial (f_val f) s) as [[oc v'] s']. cbn [fst] in Hv.
  destruct oc; cbn [fst]; auto; try (destruct Hv as [Hv|[Hv|Hv]]; discriminate Hv).
  specialize (IH s'). cbn zeta in IH. destruct (read_fields partial t s') as [[oc2 t'] s'']. exact IH.
Qed.

Definition wf_wobj (w : wobj) : Prop := wf_fields (w_fields w) /\ wf_flat (w_body w).
Definition inv_wobj (w : wobj) : Prop := inv_flat (w_body w).
Definition valid_wobj (w : wobj) : Prop := fields_valid (w_fields w) = true.

Definition wobj_fits (r x : wobj) : Prop :=
  Forall2 field_fits (w_fields r) (w_fields x) /\ fk (w_body r) = fk (w_body x) /\
  payload_len (w_body x) <= blen (fd (w_body r)).

(* metadata of a wrapper: its scalar fields and the header of the inner object *)
Definition same_meta_flat (a b : flat) : Prop := fk a = fk b /\ fh a = fh b /\ length (fd a) = length (fd b).
Definition same_meta_wobj (a b : wobj) : Prop := w_fields a = w_fields b /\ same_meta_flat (w_body a) (w_body b).

Lemma write_wobj_app (w : wobj) (tl : bytes) : write_wobj w ++ tl = write_fields (w_fields w) ++ (write_flat (w_body w) ++ tl).
Proof. unfold write_wobj. rewrite <- app_assoc. reflexivity. Qed.

(* round trip, the reader before the repair *)
Lemma read_wobj_roundtrip (dbg partial : bool) (r x : wobj) (tl : bytes) :
  wf_wobj x -> small_fields (w_fields x) -> wobj_fits r x ->
  read_wobj_with read_flat dbg partial r (write_wobj x ++ tl) =
    (Ok, {| w_fields := w_fields x; w_body := loaded (fh (w_body x)) (w_body r) (w_body x) |}, tl).
Proof.
  intros [Hwf Hwb] Hsm (HF2 & Hk & Hcap). unfold read_wobj_with. rewrite write_wobj_app.
  rewrite read_fields_roundtrip by assumption.
  rewrite read_flat_roundtrip by assumption. reflexivity.
Qed.

(* round trip, the repaired reader *)
Lemma read_wobj_fixed_roundtrip (dbg partial : bool) (r x : wobj) (tl : bytes) :
  wf_wobj x -> valid_wobj x -> wobj_fits r x ->
  (fk (w_body x) = KVec -> hd_ (fh (w_body x)) 2 <= hd_ (fh (w_body x)) 3) ->
  read_wobj_fixed_with read_flat_fixed dbg partial r (write_wobj x ++ tl) =
    (Ok, {| w_fields := w_fields x;
            w_body := loaded (clamp_hdr (fk (w_body x)) (fh (w_body x)) (blen (fd (w_body r)))) (w_body r) (w_body x) |}, tl).
Proof.
  intros [Hwf Hwb] Hv (HF2 & Hk & Hcap) Hsz. unfold read_wobj_fixed_with. rewrite write_wobj_app.
  rewrite parse_fields_roundtrip by assumption. unfold valid_wobj in Hv. rewrite Hv. cbn [negb].
  rewrite read_flat_fixed_roundtrip by assumption. reflexivity.
Qed.

(* the repaired wrapper reader: total, invariant, metadata *)
Lemma read_wobj_fixed_cases (dbg partial : bool) (r : wobj) (s : bytes) (o : outcome) (r' : wobj) (t : bytes) :
  read_wobj_fixed_with read_flat_fixed dbg partial r s = (o, r', t) ->
  (o = Err /\ w_fields r' = w_fields r /\ same_meta_flat (w_body r') (w_body r) /\
     (inv_flat (w_body r) -> inv_flat (w_body r'))) \/
  (o = Ok /\ fields_valid (w_fields r') = true /\ shape_of (w_fields r') = shape_of (w_fields r) /\
     fk (w_body r') = fk (w_body r) /\ length (fd (w_body r')) = length (fd (w_body r)) /\
     (inv_flat (w_body r) -> inv_flat (w_body r'))).
Proof.
  unfold read_wobj_fixed_with.
  destruct (parse_fields (w_fields r) s) as [[fs' s']|] eqn:E1.
  2:{ intros H; inversion H; subst. left. split; [reflexivity|]. split; [reflexivity|]. split; [unfold same_meta_flat; auto|auto]. }
  destruct (fields_valid fs') eqn:E2; cbn [negb].
  2:{ intros H; inversion H; subst. left. split; [reflexivity|]. split; [reflexivity|]. split; [unfold same_meta_flat; auto|auto]. }
  destruct (read_flat_fixed dbg partial (w_body r) s') as [[oc b'] s''] eqn:E3.
  pose proof (read_flat_fixed_preserves_inv _ _ _ _ _ _ _ E3) as Hinv.
  pose proof E3 as E3'. apply read_flat_fixed_cases in E3'.
  destruct E3' as [(-> & Hk & Hh & Hl)|(h & s1 & len & s2 & a & -> & _ & E5 & _ & _ & Hle & _ & _ & Hla & Hb)].
  - intros H; inversion H; subst. left. cbn [w_fields w_body]. split; [reflexivity|]. split; [reflexivity|]. split; [unfold same_meta_flat; auto|auto].
  - intros H; inversion H; subst. right. cbn [w_fields w_body fk fd].
    split; [reflexivity|]. split; [exact E2|]. split; [|split; [reflexivity|split; [|exact Hinv]]].
    + (* parse_fields keeps roles and variants *)
      clear -E1. revert s fs' s' E1. induction (w_fields r) as [|f t IH]; intros s fs' s' E1; cbn [parse_fields] in E1.
      * inversion E1; reflexivity.
      * destruct (parse_fval (f_val f) s) as [[v' s1]|] eqn:Ev; [|discriminate].
        destruct (parse_fields t s1) as [[t' s2]|] eqn:Et; [|discriminate].
        inversion E1; subst. cbn [shape_of map f_role f_val]. f_equal; [|eapply IH; exact Et].
        f_equal. destruct (f_val f); cbn [parse_fval] in Ev.
        -- destruct (rd 4 s) as [[? ?]|]; inversion Ev; reflexivity.
        -- destruct (rd 8 s) as [[? ?]|]; inversion Ev; reflexivity.
        -- destruct (take 32 s) as [[? ?]|]; inversion Ev; reflexivity.
        -- destruct (rd 4 s) as [[cnt sx]|]; [|discriminate]. destruct (32 * cnt <=? blen sx); [|discriminate].
           destruct (parse_seeds (Z.to_nat cnt) sx) as [[? ?]|]; inversion Ev; reflexivity.
        -- destruct (rd 8 s) as [[w sx]|]; [|discriminate]. destruct (dist_decode w) as [[? ?]|]; inversion Ev; reflexivity.
    + rewrite app_length, skipn_length. apply rd_u64 in E5. unfold u64, blen in *. lia.
Qed.

Lemma read_wobj_fixed_total (dbg partial : bool) (r : wobj) (s : bytes) :
  good (fst (fst (read_wobj_fixed_with read_flat_fixed dbg partial r s))).
Proof.
  destruct (read_wobj_fixed_with read_flat_fixed dbg partial r s) as [[o r'] t] eqn:E. cbn [fst].
  apply read_wobj_fixed_cases in E. destruct E as [(-> & _)|(-> & _)]; [right|left]; reflexivity.
Qed.

Lemma read_wobj_fixed_preserves_inv (dbg partial : bool) (r : wobj) (s : bytes) (o : outcome) (r' : wobj) (t : bytes) :
  read_wobj_fixed_with read_flat_fixed dbg partial r s = (o, r', t) ->
  inv_wobj r -> valid_wobj r -> inv_wobj r' /\ valid_wobj r'.
Proof.
  intros E Hi Hv. apply read_wobj_fixed_cases in E. unfold inv_wobj, valid_wobj in *.
  destruct E as [(_ & Hf & _ & Hinv)|(_ & Hval & _ & _ & _ & Hinv)].
  - rewrite Hf. auto.
  - auto.
Qed.

Lemma read_wobj_fixed_err_leaves_metadata (dbg partial : bool) (r : wobj) (s : bytes) (r' : wobj) (t : bytes) :
  read_wobj_fixed_with read_flat_fixed dbg partial r s = (Err, r', t) -> same_meta_wobj r' r.
Proof.
  intros E. apply read_wobj_fixed_cases in E.
  destruct E as [(_ & Hf & Hm & _)|(H & _)]; [split; assumption|discriminate H].
Qed.

(* the wrapper reader before the repair: what holds of it, and the refutations *)
Lemma read_wobj_body (dbg partial : bool) (r : wobj) (s : bytes) :
  let res := read_wobj_with read_flat dbg partial r s in
  shape_of (w_fields (snd (fst res))) = shape_of (w_fields r) /\
  fk (w_body (snd (fst res))) = fk (w_body r) /\
  length (fd (w_body (snd (fst res)))) = length (fd (w_body r)).
Proof.
  cbn zeta. unfold read_wobj_with.
  pose proof (read_fields_shape partial (w_fields r) s) as Hs.
  destruct (read_fields partial (w_fields r) s) as [[o1 fs'] s'] eqn:E1. cbn [fst snd] in Hs.
  destruct o1; try (cbn [fst snd w_fields w_body]; auto).
  pose proof (read_flat_length dbg partial (w_body r) s') as [Hl Hk].
  destruct (read_flat dbg partial (w_body r) s') as [[oc b'] s'']. cbn [fst snd w_fields w_body] in *. auto.
Qed.

(* the active part of the inner object stays inside its buffer after Ok and after Err *)
Lemma read_wobj_preserves_active (dbg partial : bool) (r : wobj) (s : bytes) (o : outcome) (r' : wobj) (t : bytes) :
  read_wobj_with read_flat dbg partial r s = (o, r', t) -> good o -> inv_active (w_body r) -> inv_active (w_body r').
Proof.
  unfold read_wobj_with. intros E Hg Hi.
  destruct (read_fields partial (w_fields r) s) as [[o1 fs'] s'] eqn:E1.
  destruct o1; try (inversion E; subst; exact Hi).
  destruct (read_flat dbg partial (w_body r) s') as [[oc b'] s''] eqn:E2.
  inversion E; subst. cbn [w_body]. eapply read_flat_preserves_active; eauto.
Qed.

(* GLWE-like receiver: base2k = 8, a 1 x 1 x 1 VecZnx *)
Definition w_glwe : wobj :=
  {| w_fields := [{| f_role := 1; f_val := VU32 8 |}];
     w_body := {| fk := KVec; fh := [1; 1; 1; 1]; fd := repeat 0 8%nat |} |}.
(* the stream ends after base2k = 9 *)
Lemma read_wobj_err_leaves_metadata_refuted :
  exists r', read_wobj_with read_flat false false w_glwe (le_bytes 4 9) = (Err, r', []) /\
             w_fields r' = [{| f_role := 1; f_val := VU32 9 |}] /\ w_fields r' <> w_fields w_glwe.
Proof. eexists. split; [vm_compute; reflexivity|]. split; [reflexivity|]. cbn. discriminate. Qed.

(* base2k = 0 is accepted *)
Lemma read_wobj_accepts_zero_base2k :
  exists r', read_wobj_with read_flat false false w_glwe
               (le_bytes 4 0 ++ le_bytes 8 1 ++ le_bytes 8 1 ++ le_bytes 8 1 ++ le_bytes 8 1 ++ le_bytes 8 8 ++ repeat 5 8%nat)
             = (Ok, r', []) /\ fields_valid (w_fields r') = false.
Proof. eexists. split; vm_compute; reflexivity. Qed.

(* GGLWECompressed-like receiver: k base2k dsize rank, seed vector, 1 x 1 x 1 x 1 x 1 MatZnx; the stream holds
   the four words and a seed count of 4097: `vec![[0u8; 32]; 4097]` exceeds the allocation limit *)
Definition w_gglwe_c : wobj :=
  {| w_fields := [{| f_role := 2; f_val := VU32 16 |}; {| f_role := 1; f_val := VU32 8 |}; {| f_role := 4; f_val := VU32 1 |};
                  {| f_role := 3; f_val := VU32 1 |}; {| f_role := 9; f_val := VSeeds [zero_seed] |}];
     w_body := {| fk := KMat; fh := [1; 1; 1; 1; 1]; fd := repeat 0 8%nat |} |}.
Lemma read_wobj_total_refuted_alloc :
  fst (fst (read_wobj_with read_flat false false w_gglwe_c
              (le_bytes 4 16 ++ le_bytes 4 8 ++ le_bytes 4 1 ++ le_bytes 4 1 ++ le_bytes 4 4097))) = AbortAlloc.
Proof. vm_compute. reflexivity. Qed.

(* Discharge of the normaliser hypotheses of C01 / C06 from C08's theorems, for the same-radix 64-bit case:
   radix domain {b}, 1 <= b <= 62, word width 64 (FFT64Ref / FFT64Avx; decryption into the ciphertext's radix).
   C08 states its value theorems at a scaling exponent P' >= (rsz + asz) * b; the hypotheses of C01 are stated for every
   P >= max(rsz, asz) * b: the two are related by the exact rescaling val(P + d) = 2^d * val(P) (C08CrossNegGeom). *)
From PV Require Import Base.MachineInt Model.Znx Model.Limbs Model.C08Oracle Model.EncModel
  Proofs.EncValue Proofs.C01Sk Proofs.C01Lwe Proofs.C08CrossNegGeom Props.C08.
Open Scope Z_scope.

Section Same.
Variable b : Z.
Hypothesis Hb : 1 <= b <= 62.

(* the value statement of C08_normalize_inter_value at offset 0, rescaled to any P >= max(rsz, asz) * b *)
Lemma inter_value_any_P (a r0 : list Z) : Forall (fun x => Z.abs x <= 2 ^ 62) a ->
  let out := normalize_inter 64 b 0 a r0 in
  length out = length r0 /\ Forall (in_range b) out /\
  forall P, zn (length r0) * b <= P -> zn (length a) * b <= P ->
    tor_abs P (val_scaled P b out - val_scaled P b a) <= 2 ^ (P - zn (length r0) * b) /\
    (zn (length a) * b <= zn (length r0) * b -> tor_abs P (val_scaled P b out - val_scaled P b a) = 0).
Proof.
  intros HF. cbv zeta.
  destruct (C08_normalize_inter_value b Hb 0 a r0 HF) as (L & Rg & _ & V).
  split; [exact L|]. split; [exact Rg|].
  intros P HP1 HP2.
  assert (P0 : 0 <= P) by (unfold zn in *; nia).
  destruct (Z.eq_dec P 0) as [->|HPne].
  - (* degenerate scale: both lists are empty *)
    assert (length r0 = O) by (unfold zn in *; nia). assert (length a = O) by (unfold zn in *; nia).
    destruct a; [|discriminate]. assert (Lo : length (normalize_inter 64 b 0 [] r0) = O) by lia.
    destruct (normalize_inter 64 b 0 [] r0); [|discriminate]. cbn. split; [lia|intros; reflexivity].
  - specialize (V (P + P) ltac:(unfold zn in *; nia)).
    apply (value_scale_down P P b b 0 (length r0) a _ ltac:(lia) P0 ltac:(lia) ltac:(lia) L HP1 ltac:(lia)) in V.
    cbv zeta in V. rewrite Z.add_0_r, Z.sub_0_r in V. exact V.
Qed.

Theorem normalize_value_ok_small_same :
  normalize_value_ok_dom (fun x => x = b) (fun rb ab => normalize 64 rb ab 0) (2 ^ 62).
Proof.
  intros rb ab a r0 out -> -> HF Hn. unfold normalize in Hn. rewrite Z.eqb_refl in Hn. injection Hn as <-.
  destruct (inter_value_any_P a r0 HF) as (L & Rg & V). split; [exact L|]. split; [intros _; exact Rg|exact V].
Qed.

Lemma map_wrap64_id (l : list Z) : Forall (in_range b) l -> map (wrap 64) l = l.
Proof.
  intros H. rewrite <- (map_id l) at 2. apply map_ext_in. intros x Hx. rewrite Forall_forall in H. specialize (H x Hx).
  apply wrap_id; [lia|]. unfold in_range in *.
  assert (2 ^ (b - 1) <= 2 ^ (64 - 1)) by (apply Z.pow_le_mono_r; lia). lia.
Qed.

(* FFT64 family: vec_znx_big_normalize is the same routine on the i64 accumulator *)
Theorem normalize_value_ok_big_same : normalize_value_ok_dom (fun x => x = b) (bnorm 64) (2 ^ (64 - 2)).
Proof.
  intros rb ab a r0 out -> -> HF Hn. unfold bnorm in Hn. cbn [Z.eqb Pos.eqb] in Hn.
  unfold normalize in Hn. rewrite Z.eqb_refl in Hn. injection Hn as <-.
  change (2 ^ (64 - 2)) with (2 ^ 62) in HF.
  destruct (inter_value_any_P a r0 HF) as (L & Rg & V).
  rewrite (map_wrap64_id _ Rg). split; [exact L|]. split; [intros _; exact Rg|exact V].
Qed.

Theorem normalize_assign_value_ok_same : normalize_assign_value_ok_dom (fun x => x = b).
Proof.
  intros b' r -> HF. cbv zeta.
  destruct (C08_normalize_assign_value b Hb r HF) as (L & Rg & V).
  split; [exact L|]. split; [exact Rg|].
  intros P HP.
  assert (P0 : 0 <= P) by (unfold zn in *; nia).
  destruct (Z.eq_dec P 0) as [->|HPne].
  - assert (length r = O) by (unfold zn in *; nia). destruct r; [|discriminate].
    assert (Lo : length (normalize_assign 64 b []) = O) by lia. destruct (normalize_assign 64 b []); [|discriminate]. reflexivity.
  - specialize (V (P + P) ltac:(unfold zn in *; nia)).
    rewrite (val_scaled_scale P P b _) in V by (rewrite ?L; lia).
    rewrite (val_scaled_scale P P b r) in V by lia.
    rewrite <- Z.mul_sub_distr_l, tor_abs_scale in V by lia.
    pose proof (pow2_pos P ltac:(lia)). nia.
Qed.

End Same.

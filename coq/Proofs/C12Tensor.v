(* C12 - glwe_tensor_relinearize and glwe_tensor_square_apply: the declared size suffices on ring degrees that are multiples of 8. *)
From PV Require Import Base.MachineInt Model.C12Scratch Gen.C12TmpBytes_gen Model.C12Trees
  Proofs.C12Arena Proofs.C12Hal Proofs.C12Core Proofs.C12KeySwitch Proofs.C12More Proofs.C12Conv Proofs.C12Ggsw.
Open Scope Z_scope.

Section Tensor.
  Variables fam n : Z.
  Hypothesis Hf : is_fam fam.
  Hypothesis Hn0 : 0 <= n.
  Hypothesis Hn8 : n mod 8 = 0.

  Lemma suffices_glwe_tensor_relinearize (res a tsk : infos) (tsk_size : Z) :
    wf_infos res -> wf_infos a -> wf_infos tsk -> 0 <= tsk_size <= i_size tsk ->
    run_takes (tree_glwe_tensor_relinearize fam n res a tsk tsk_size) (0, glwe_tensor_relinearize_tmp_bytes fam n res a tsk) <> None.
  Proof using Hf Hn0 Hn8.
    intros Hr Ha Ht Hts.
    assert (Htb : 1 <= i_base2k tsk) by (destruct Ht; lia).
    assert (Htr : 0 <= i_rank tsk) by (destruct Ht as (_&_&?&_); lia).
    assert (Hti : 0 <= i_rank_in tsk) by (destruct Ht as (_&_&_&?&_); lia).
    assert (Hmk : 0 <= i_size a * i_base2k a) by (destruct Ha as (?&?&_); nia).
    set (ads := div_ceil (i_size a * i_base2k a) (i_base2k tsk)).
    assert (Ha0 : 0 <= ads) by (apply div_ceil_nonneg; lia).
    pose proof (gglwe_product_spec fam n Hf Hn0 Hn8 tsk_size ads tsk Ht Ha0) as Bp.
    rewrite (product_res_indep fam n Hf Hn0 Hn8 tsk_size (i_size res)) in Bp.
    pose proof (budget_nonneg _ _ Bp).
    pose proof (budget_big_normalize fam n Hf Hn0 Hn8) as Bb. pose proof (budget_normalize fam n Hf Hn0 Hn8) as Bn.
    pose proof (nn_norm fam n Hf Hn0 Hn8). pose proof (nn_bnorm fam n Hf Hn0 Hn8).
    pose proof (al_dft fam n Hf Hn0 Hn8 (i_rank_in tsk) ads Hti Ha0) as HD1.
    pose proof (al_vec_znx fam n Hf Hn0 Hn8 1 ads ltac:(lia) Ha0) as HV.
    pose proof (al_dft fam n Hf Hn0 Hn8 (i_rank tsk + 1) tsk_size ltac:(lia) ltac:(lia)) as HD2.
    pose proof (dft_mono fam n Hf Hn0 Hn8 (i_rank tsk + 1) (i_size tsk) tsk_size ltac:(lia) ltac:(lia)) as HDm.
    apply budget_suffices; unfold tree_glwe_tensor_relinearize, glwe_tensor_relinearize_tmp_bytes; cbv zeta; fold ads.
    destruct (negb (i_base2k a =? i_base2k tsk)); cbn [budget persist].
    all: leaves.
    all: eapply budget_mono; [eassumption | lia].
  Qed.

  (* the convolution callees: their need grows with the number of limbs of the result *)
  Lemma cnv_prepare_self_spec (a : Z) : 0 <= a ->
    budget (t_cnv_prepare_self fam n a a) (api_cnv_prepare_self_tmp_bytes fam n a a).
  Proof using Hf Hn0 Hn8.
    intros Ha. pose proof (al_dft fam n Hf Hn0 Hn8 1 (Z.min a a) ltac:(lia) ltac:(lia)) as HD.
    unfold t_cnv_prepare_self. revert HD. autounfold with c12gen.
    destruct Hf as [-> | ->]; cbn [Z.eqb budget]; lia.
  Qed.

  Lemma cnv_apply_spec (off rs rs' a : Z) : 1 <= a -> 0 <= rs' <= rs ->
    budget (t_cnv_apply_dft fam rs' a a) (api_cnv_apply_dft_tmp_bytes fam n off rs a a).
  Proof using Hf Hn0 Hn8.
    intros Ha Hrs. unfold t_cnv_apply_dft, take_words. autounfold with c12gen.
    destruct Hf as [-> | ->]; cbn [Z.eqb budget]; lia.
  Qed.

  Lemma cnv_pairwise_spec (off rs rs' a : Z) : 1 <= a -> 0 <= rs' <= rs ->
    budget (t_cnv_pairwise_apply_dft fam rs' a a) (api_cnv_pairwise_apply_dft_tmp_bytes fam n rs off a a).
  Proof using Hf Hn0 Hn8.
    intros Ha Hrs. unfold t_cnv_pairwise_apply_dft, take_words. autounfold with c12gen.
    destruct Hf as [-> | ->]; cbn [Z.eqb budget].
    - lia.
    - repeat match goal with |- context [?x =? 0] => destruct (Z.eqb_spec x 0) end; cbn [orb]; lia.
  Qed.

  Lemma al_cnv_left (c s : Z) : 0 <= c -> 0 <= s ->
    0 <= hal_bytes_of_cnv_pvec_left fam n c s /\ hal_bytes_of_cnv_pvec_left fam n c s mod 64 = 0.
  Proof using Hf Hn0 Hn8. intros. autounfold with c12gen. unfold size_of_scalar_prep. assert (0 <= n * c * s) by nn. destruct Hf as [-> | ->]; cbn [Z.eqb]; lia. Qed.
  Lemma al_cnv_right (c s : Z) : 0 <= c -> 0 <= s ->
    0 <= hal_bytes_of_cnv_pvec_right fam n c s /\ hal_bytes_of_cnv_pvec_right fam n c s mod 64 = 0.
  Proof using Hf Hn0 Hn8. intros. autounfold with c12gen. unfold size_of_scalar_prep. assert (0 <= n * c * s) by nn. destruct Hf as [-> | ->]; cbn [Z.eqb]; lia. Qed.

  (* the number of limbs the operation takes for res_dft is at most the worst case the size query assumes *)
  Lemma limb_bound_le_worst (full full' rs rb ib off : Z) : 1 <= ib -> 0 <= rs * rb -> 0 <= full' <= full ->
    0 <= limb_bound_with_offset full' rs rb ib off <= normalize_input_limb_bound_worst_case full rs rb ib.
  Proof.
    intros Hib Hrs Hfull. unfold limb_bound_with_offset, normalize_input_limb_bound_worst_case, normalize_input_limb_bound.
    pose proof (Z.mod_pos_bound off ib ltac:(lia)) as Hm.
    pose proof (div_ceil_mono (rs * rb + (ib - 1)) (rs * rb + off mod ib) ib ltac:(lia) Hib).
    pose proof (div_ceil_nonneg (rs * rb + off mod ib) ib ltac:(lia) Hib). lia.
  Qed.

  Lemma suffices_glwe_tensor_square_apply (res a : infos) (cnv_offset : Z) :
    wf_infos res -> wf_infos a -> 1 <= i_size a -> 0 <= cnv_offset -> cnv_offset_hi cnv_offset (i_base2k a) <= 2 * i_size a ->
    run_takes (tree_glwe_tensor_square_apply fam n res a cnv_offset) (0, glwe_tensor_square_apply_tmp_bytes fam n res a) <> None.
  Proof using Hf Hn0 Hn8.
    intros Hr Ha Has Hc Hhi.
    assert (Hab : 1 <= i_base2k a) by (destruct Ha; lia).
    assert (Hrr : 0 <= i_rank res) by (destruct Hr as (_&_&?&_); lia).
    assert (Hrs : 0 <= i_size res) by (destruct Hr as (_&?&_); lia).
    assert (Hrb : 0 <= i_size res * i_base2k res) by (destruct Hr as (?&?&_); nia).
    assert (Hhi0 : 0 <= cnv_offset_hi cnv_offset (i_base2k a)) by (unfold cnv_offset_hi; destruct (cnv_offset <? i_base2k a); lia).
    set (W := normalize_input_limb_bound_worst_case (2 * i_size a) (i_size res) (i_base2k res) (i_base2k a)).
    set (dsz := limb_bound_with_offset (2 * i_size a - cnv_offset_hi cnv_offset (i_base2k a)) (i_size res) (i_base2k res) (i_base2k a)
                  (cnv_offset_lo cnv_offset (i_base2k a))).
    assert (Hd : 0 <= dsz <= W) by (apply limb_bound_le_worst; lia).
    pose proof (cnv_prepare_self_spec (i_size a) ltac:(lia)) as Bps. pose proof (budget_nonneg _ _ Bps).
    pose proof (cnv_apply_spec (i_size a) W dsz (i_size a) Has Hd) as Bap. pose proof (budget_nonneg _ _ Bap).
    pose proof (cnv_pairwise_spec (i_size a) W dsz (i_size a) Has Hd) as Bpw. pose proof (budget_nonneg _ _ Bpw).
    pose proof (budget_big_normalize fam n Hf Hn0 Hn8) as Bb. pose proof (nn_bnorm fam n Hf Hn0 Hn8).
    pose proof (al_cnv_left (i_rank res + 1) (i_size a) ltac:(lia) ltac:(lia)) as HL.
    pose proof (al_cnv_right (i_rank res + 1) (i_size a) ltac:(lia) ltac:(lia)) as HR.
    pose proof (al_vec_znx fam n Hf Hn0 Hn8 (i_rank res + 1) (i_size res) ltac:(lia) Hrs) as HV.
    pose proof (al_dft fam n Hf Hn0 Hn8 1 dsz ltac:(lia) ltac:(lia)) as HD.
    pose proof (dft_mono fam n Hf Hn0 Hn8 1 W dsz ltac:(lia) ltac:(lia)) as HDm.
    apply budget_suffices; unfold tree_glwe_tensor_square_apply, glwe_tensor_square_apply_tmp_bytes; cbv zeta; fold dsz; fold W.
    cbn [budget persist]. leaves.
    all: eapply budget_mono; [eassumption | lia].
  Qed.
End Tensor.

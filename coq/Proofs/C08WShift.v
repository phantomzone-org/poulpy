(* C08: closed forms (by index) of normalize_assign and of the left shifts at any word width w. *)
From PV Require Import Base.MachineInt Model.Znx Model.Limbs Model.C08Oracle
  Proofs.ZnxDigit Proofs.C08Steps Proofs.C08Chain Proofs.C08Value
  Proofs.C08WChain Proofs.C08WLoops Proofs.C08WNormalize.
Open Scope Z_scope.

Section Shift.
Variable w : Z.
Variable b : Z.
Hypothesis Hb : 1 <= b <= w - 2.

Let Hb1 : 1 <= b. Proof. lia. Qed.

(* the in-place first / middle / final loop of normalize_assign and lsh_assign *)

Definition ffm_loopW (lsh : Z) (m : nat) (r1 : list Z) : list Z :=
  fst (fold_left (fun (s : list Z * Z) t =>
    let '(r, c) := s in
    let j := (m - t - 1)%nat in
    if Nat.eqb j (m - 1) then let '(x, c') := first_step_assign w b lsh (nthZ r j) in (upd r j x, c')
    else if Nat.eqb j 0 then (upd r j (final_step_assign w b lsh (nthZ r j) c), c)
    else let '(x, c') := middle_step_assign w b lsh (nthZ r j) c in (upd r j x, c')) (seq 0 m) (r1, 0)).

Lemma ffm_loopW_spec (lsh : Z) (m : nat) (r1 : list Z) : 0 <= lsh < b -> hrlw w r1 ->
  let u := fun t : nat => nthZ r1 (m - t - 1) * 2 ^ lsh in
  length (ffm_loopW lsh m r1) = length r1 /\
  forall i, nthZ (ffm_loopW lsh m r1) i =
    if (Nat.ltb i m && Nat.ltb i (length r1))%bool then dig b u 0 (m - 1 - i) else nthZ r1 i.
Proof.
  intros Hl Hr u.
  assert (Hu : vboundW w b u) by (apply vboundW_limbs; auto).
  assert (H0 : Z.abs 0 <= 2 ^ (w - 2)) by (pose proof (HW_pos w b Hb); cbn [Z.abs]; lia).
  unfold ffm_loopW. match goal with |- context [fold_left ?f _ _] => set (body := f) end.
  destruct (dloopW_spec w b Hb body
    (fun t y c' =>
       if Nat.eqb (m - t - 1) (m - 1) then first_step_assign w b lsh y
       else if Nat.eqb (m - t - 1) 0 then (final_step_assign w b lsh y c', c')
       else middle_step_assign w b lsh y c')
    (fun t => (m - t - 1)%nat) (fun j d => d) u true m m r1 0 (le_n m) Hu H0) as (_ & D2 & D3).
  - intros r' c' t Ht. unfold body. cbv zeta.
    destruct (Nat.eqb (m - t - 1) (m - 1)); [destruct (first_step_assign w b lsh _); reflexivity|].
    destruct (Nat.eqb (m - t - 1) 0); [reflexivity|]. destruct (middle_step_assign w b lsh _ c'); reflexivity.
  - intros t Ht. lia.
  - intros t Ht Hc'. set (c' := car b u 0 t) in *.
    unfold final_step_assign, middle_step_assign.
    destruct (Nat.eqb_spec (m - t - 1) (m - 1)) as [E|E].
    + assert (t = 0%nat) by lia. subst t. unfold c'. cbn [car].
      rewrite (first_step_assign_ideal w b lsh Hb Hl) by apply Hr.
      cbn [fst snd]. unfold u. rewrite Z.add_0_r. split; [reflexivity|intros _; reflexivity].
    + destruct (Nat.eqb_spec (m - t - 1) 0) as [E0|E0]; cbn [fst snd].
      * rewrite (final_core_ideal w b lsh Hb Hl) by (auto; apply Hr). split; [reflexivity|].
        intros [Hn|Hn]; [lia|discriminate].
      * rewrite (mcW w b Hb) by (auto; apply Hr). cbn [fst snd].
        split; [reflexivity|intros _; reflexivity].
  - split; [exact D2|]. intros i. rewrite D3. natb; try reflexivity; lia.
Qed.

(* vec_znx_normalize_assign *)
Theorem normalize_assign_nthW (r0 : list Z) : hrlw w r0 ->
  let out := normalize_assign w b r0 in
  length out = length r0 /\
  forall i, (i < length r0)%nat ->
    nthZ out i = dgz b (vin r0 0) (zn (length r0) - 0 - 1 - zn i).
Proof.
  intros Hr. cbv zeta.
  change (normalize_assign w b r0) with (ffm_loopW 0 (length r0) r0).
  destruct (ffm_loopW_spec 0 (length r0) r0 ltac:(lia) Hr) as [L N].
  split; [exact L|]. intros i Hi. rewrite N.
  destruct (Nat.ltb_spec i (length r0)); [|lia]. cbn [andb].
  rewrite dgz_nonneg by (unfold zn; lia).
  replace (Z.to_nat (zn (length r0) - 0 - 1 - zn i)) with (length r0 - 1 - i)%nat by (unfold zn; lia).
  apply dig_ext. intros t Ht. symmetry. apply vin_at; lia.
Qed.

(* vec_znx_lsh_assign *)
Theorem lsh_assign_nthW (k : Z) (r0 : list Z) : 0 <= k -> hrlw w r0 ->
  let out := lsh_assign w b k r0 in
  length out = length r0 /\
  forall i, (i < length r0)%nat ->
    nthZ out i = dgz b (vin r0 (k mod b)) (zn (length r0) - k / b - 1 - zn i).
Proof.
  intros Hk Hr. cbv zeta. unfold lsh_assign.
  assert (Hl : 0 <= k mod b < b) by (apply Z.mod_pos_bound; lia).
  assert (Hq : 0 <= k / b) by (apply Z.div_pos; lia).
  set (lsh := k mod b) in *. set (q := k / b) in *. clearbody lsh q.
  set (sz := length r0). set (steps := Z.to_nat q).
  destruct (Nat.leb_spec sz steps) as [Hle|Hgt].
  - rewrite zeros_length. split; [reflexivity|]. intros i Hi. rewrite nthZ_zeros.
    rewrite dgz_neg; [reflexivity|]. unfold steps, zn in *. lia.
  - set (r1 := if Nat.eqb steps 0 then r0
               else map (fun j => if Nat.ltb j (sz - steps) then nthZ r0 (j + steps) else 0) (seq 0 sz)).
    assert (L1 : length r1 = sz).
    { unfold r1. destruct (Nat.eqb steps 0); [reflexivity|]. rewrite map_length, seq_length. reflexivity. }
    assert (N1 : forall j, nthZ r1 j = if Nat.ltb j (sz - steps) then nthZ r0 (j + steps) else 0).
    { intros j. unfold r1. destruct (Nat.eqb_spec steps 0) as [E|E].
      - rewrite E, Nat.sub_0_r, Nat.add_0_r. destruct (Nat.ltb_spec j sz); [reflexivity|].
        apply nthZ_overflow. fold sz. lia.
      - destruct (Nat.lt_ge_cases j sz) as [Hj|Hj].
        + rewrite nthZ_map_seq by exact Hj. reflexivity.
        + rewrite nthZ_overflow by (rewrite map_length, seq_length; exact Hj).
          destruct (Nat.ltb_spec j (sz - steps)); [lia|reflexivity]. }
    assert (Hr1 : hrlw w r1).
    { intros j. rewrite N1. destruct (Nat.ltb j (sz - steps)); [apply Hr|].
      pose proof (HW_pos w b Hb); cbn [Z.abs]; lia. }
    change (fst (fold_left _ (seq 0 (sz - steps)) (r1, 0))) with (ffm_loopW lsh (sz - steps) r1).
    destruct (ffm_loopW_spec lsh (sz - steps) r1 Hl Hr1) as [L N].
    split; [rewrite L; exact L1|]. intros i Hi. rewrite N, L1.
    destruct (Nat.ltb_spec i sz); [|lia]. rewrite Bool.andb_true_r.
    destruct (Nat.ltb_spec i (sz - steps)) as [Hi2|Hi2].
    + rewrite dgz_nonneg by (unfold steps, zn in *; lia).
      replace (Z.to_nat (zn sz - q - 1 - zn i)) with (sz - steps - 1 - i)%nat by (unfold steps, zn in *; lia).
      apply dig_ext. intros t Ht. rewrite N1.
      destruct (Nat.ltb_spec (sz - steps - t - 1) (sz - steps)); [|lia].
      symmetry. apply vin_at; fold sz; clear - Ht Hi2 Hgt; lia.
    + rewrite N1. destruct (Nat.ltb_spec i (sz - steps)); [lia|].
      rewrite dgz_neg; [reflexivity|]. unfold steps, zn in *. lia.
Qed.

(* the final / middle loop of lsh and lsh_sub *)

Definition fm_loopW (fs : Z -> Z -> Z -> Z) (mst : Z -> Z -> Z -> Z * Z) (a : list Z) (steps ms : nat)
    (st : list Z * Z) : list Z * Z :=
  fold_left (fun (s : list Z * Z) t =>
      let '(r, c) := s in
      let j := (ms - t - 1)%nat in
      if Nat.eqb j 0 then (upd r j (fs (nthZ r j) (nthZ a (j + steps)) c), c)
      else let '(x, c') := mst (nthZ r j) (nthZ a (j + steps)) c in (upd r j x, c')) (seq 0 ms) st.

Lemma fm_loopW_spec (fs : Z -> Z -> Z -> Z) (mst : Z -> Z -> Z -> Z * Z) (gg : Z -> Z -> Z)
    (lsh : Z) (a : list Z) (steps ms : nat) (r0 : list Z) (c0 : Z) :
  0 <= lsh < b -> hrlw w a -> Z.abs c0 <= 2 ^ (w - 2) ->
  (forall j x c, Z.abs x <= 2 ^ (w - 2) -> Z.abs c <= 2 ^ (w - 2) ->
     fs (nthZ r0 j) x c = gg (nthZ r0 j) (wrap b (x * 2 ^ lsh + c)) /\
     mst (nthZ r0 j) x c = (gg (nthZ r0 j) (wrap b (x * 2 ^ lsh + c)), bdiv b (x * 2 ^ lsh + c))) ->
  let u := fun t : nat => nthZ a (ms - t - 1 + steps) * 2 ^ lsh in
  let res := fst (fm_loopW fs mst a steps ms (r0, c0)) in
  length res = length r0 /\
  forall i, nthZ res i =
    if (Nat.ltb i ms && Nat.ltb i (length r0))%bool then gg (nthZ r0 i) (dig b u c0 (ms - 1 - i))
    else nthZ r0 i.
Proof.
  intros Hl Ha Hc0 Hspec u.
  assert (Hu : vboundW w b u) by (apply vboundW_limbs; auto).
  cbv zeta. unfold fm_loopW. match goal with |- context [fold_left ?f _ _] => set (body := f) end.
  destruct (dloopW_spec w b Hb body
    (fun t y c' =>
       if Nat.eqb (ms - t - 1) 0 then (fs y (nthZ a (ms - t - 1 + steps)) c', c')
       else mst y (nthZ a (ms - t - 1 + steps)) c')
    (fun t => (ms - t - 1)%nat) (fun t d => gg (nthZ r0 (ms - t - 1)) d) u true ms ms r0 c0 (le_n ms) Hu Hc0)
    as (_ & D2 & D3).
  - intros r' c' t Ht. unfold body. cbv zeta.
    destruct (Nat.eqb (ms - t - 1) 0); [reflexivity|]. destruct (mst _ _ c'); reflexivity.
  - intros t Ht. lia.
  - intros t Ht Hc'. set (c' := car b u c0 t) in *.
    destruct (Hspec (ms - t - 1)%nat (nthZ a (ms - t - 1 + steps)) c' (Ha _) Hc') as [S1 S2].
    destruct (Nat.eqb_spec (ms - t - 1) 0) as [E0|E0]; cbn [fst snd].
    + rewrite S1. split; [reflexivity|]. intros [Hn|Hn]; [lia|discriminate].
    + rewrite S2. cbn [fst snd]. split; [reflexivity|intros _; reflexivity].
  - split; [exact D2|]. intros i. rewrite D3. natb; try reflexivity; try lia.
    replace (ms - (ms - 1 - i) - 1)%nat with i by lia. reflexivity.
Qed.

(* the index arithmetic of lsh<ov> and lsh_sub *)
Lemma lsh_shape (rsz asz steps ms cstart : nat) :
  ms = Nat.min rsz (asz - steps) -> cstart = Nat.min (steps + ms) asz ->
  (ms <= rsz)%nat /\ ((0 < ms)%nat -> cstart = (steps + ms)%nat /\ (steps + ms <= asz)%nat) /\
  ((ms < rsz)%nat -> (asz <= steps + ms)%nat).
Proof. lia. Qed.

(* common closed form of lsh<ov> and lsh_sub: out_i = gg r0_i (window digit), zero-filled if requested *)
Lemma lsh_coreW (fs : Z -> Z -> Z -> Z) (mst : Z -> Z -> Z -> Z * Z) (gg : Z -> Z -> Z) (zfill : bool)
    (lsh q : Z) (a r0 : list Z) :
  0 <= lsh < b -> 0 <= q -> hrlw w a ->
  (forall j x c, Z.abs x <= 2 ^ (w - 2) -> Z.abs c <= 2 ^ (w - 2) ->
     fs (nthZ r0 j) x c = gg (nthZ r0 j) (wrap b (x * 2 ^ lsh + c)) /\
     mst (nthZ r0 j) x c = (gg (nthZ r0 j) (wrap b (x * 2 ^ lsh + c)), bdiv b (x * 2 ^ lsh + c))) ->
  (forall y, gg y 0 = if zfill then 0 else y) ->
  let rsz := length r0 in let asz := length a in
  let steps := Z.to_nat q in
  let ms := Nat.min rsz (asz - steps) in
  let cstart := Nat.min (steps + ms) asz in
  let c0 := carry_down w b lsh a asz cstart in
  let r := fst (fm_loopW fs mst a steps ms (r0, c0)) in
  let out := if zfill then zero_range r ms rsz else r in
  length out = length r0 /\
  forall i, (i < length r0)%nat ->
    nthZ out i = gg (nthZ r0 i) (dgz b (vin a lsh) (zn (length a) - q - 1 - zn i)).
Proof.
  intros Hl Hq Ha Hspec Hgg rsz asz steps ms cstart c0 r out.
  set (V := vin a lsh).
  destruct (lsh_shape rsz asz steps ms cstart eq_refl eq_refl) as (S1 & S2 & S3).
  assert (Hst : zn steps = q) by (apply Z2Nat.id; exact Hq).
  clearbody steps ms cstart.
  assert (Ec0 : c0 = car b V 0 (asz - cstart)).
  { unfold c0, carry_down. rewrite (carry_phase_carW w b Hb lsh a asz (asz - cstart) Hl Ha).
    apply (car_lowW b lsh a (asz - cstart)). unfold asz. lia. }
  assert (Hc0 : Z.abs c0 <= 2 ^ (w - 2)) by (rewrite Ec0; apply (car_vin_hrW w b Hb); auto).
  destruct (fm_loopW_spec fs mst gg lsh a steps ms r0 c0 Hl Ha Hc0 Hspec) as [L N].
  fold r in L, N. clear Hc0.
  assert (Hdig : forall i, (i < ms)%nat ->
    dig b (fun t : nat => nthZ a (ms - t - 1 + steps) * 2 ^ lsh) c0 (ms - 1 - i)
    = dgz b V (zn asz - q - 1 - zn i)).
  { intros i Hi. rewrite Ec0. destruct (S2 ltac:(lia)) as [Ecs Hle].
    rewrite (dig_piece b _ a lsh (asz - cstart) ms (ms - 1 - i)); [| |lia].
    - fold V. rewrite <- Hst. rewrite dgz_nonneg by (unfold zn; lia).
      f_equal. clear - Hi Ecs Hle. unfold zn. lia.
    - intros t Ht. symmetry. apply vin_at; fold asz; clear - Ht Ecs Hle; lia. }
  assert (Hout : length out = length r0 /\
    forall i, nthZ out i = if (Nat.leb ms i && Nat.ltb i rsz && zfill)%bool then 0 else nthZ r i).
  { unfold out. destruct zfill.
    - destruct (zero_range_spec r ms rsz) as [Z1 Z2]. split; [rewrite Z1; exact L|].
      intros i. rewrite Z2. rewrite Bool.andb_true_r. reflexivity.
    - split; [exact L|]. intros i. rewrite Bool.andb_false_r. reflexivity. }
  destruct Hout as [Lo No]. split; [exact Lo|].
  intros i Hi. rewrite No, N. fold rsz in Hi |- *.
  destruct (Nat.ltb_spec i rsz) as [_|]; [|lia].
  destruct (Nat.leb_spec ms i) as [Hge|Hlt].
  - destruct (Nat.ltb_spec i ms) as [|_]; [lia|]. cbn [andb].
    rewrite <- Hst, dgz_neg by (unfold zn; lia). rewrite Hgg.
    destruct zfill; reflexivity.
  - destruct (Nat.ltb_spec i ms) as [_|]; [|lia]. cbn [andb]. rewrite Hdig by lia. reflexivity.
Qed.

(* vec_znx_lsh<OVERWRITE> *)
Theorem lsh_nthW (ov : bool) (k : Z) (a r0 : list Z) : 0 <= k -> hrlw w a -> (ov = false -> hrlw w r0) ->
  let out := lsh w ov b k a r0 in
  length out = length r0 /\
  forall i, (i < length r0)%nat ->
    nthZ out i = (if ov then 0 else nthZ r0 i)
                 + dgz b (vin a (k mod b)) (zn (length a) - k / b - 1 - zn i).
Proof.
  intros Hk Ha Hr. cbv zeta. unfold lsh.
  assert (Hl : 0 <= k mod b < b) by (apply Z.mod_pos_bound; lia).
  assert (Hq : 0 <= k / b) by (apply Z.div_pos; lia).
  set (lsh := k mod b) in *. set (q := k / b) in *. clearbody lsh q.
  destruct (Nat.leb_spec (Nat.max (length r0) (length a)) (Z.to_nat q)) as [Hle|Hgt].
  - split; [destruct ov; [apply zeros_length|reflexivity]|].
    intros i Hi. rewrite dgz_neg by (unfold zn; lia).
    destruct ov; [rewrite nthZ_zeros|]; lia.
  - pose proof (lsh_coreW (final_step w ov b lsh) (middle_step w ov b lsh)
      (fun y d => (if ov then 0 else y) + d) ov lsh q a r0 Hl Hq Ha) as HC.
    cbv zeta in HC. unfold fm_loopW in HC.
    destruct (fold_left _ (seq 0 (Nat.min (length r0) (length a - Z.to_nat q))) _) as [r c].
    cbn [fst] in HC. apply HC.
    + intros j x c' Hx Hc'.
      rewrite (final_step_ideal w b lsh Hb Hl), (middle_step_ideal w b lsh Hb Hl);
        auto; intros E; apply Hr; exact E.
    + intros y. destruct ov; lia.
Qed.

(* vec_znx_lsh_sub *)
Theorem lsh_sub_nthW (k : Z) (a r0 : list Z) : 0 <= k -> hrlw w a -> hrlw w r0 ->
  let out := lsh_sub w b k a r0 in
  length out = length r0 /\
  forall i, (i < length r0)%nat ->
    nthZ out i = nthZ r0 i - dgz b (vin a (k mod b)) (zn (length a) - k / b - 1 - zn i).
Proof.
  intros Hk Ha Hr. cbv zeta. unfold lsh_sub.
  assert (Hl : 0 <= k mod b < b) by (apply Z.mod_pos_bound; lia).
  assert (Hq : 0 <= k / b) by (apply Z.div_pos; lia).
  set (lsh := k mod b) in *. set (q := k / b) in *. clearbody lsh q.
  destruct (Nat.leb_spec (Nat.max (length r0) (length a)) (Z.to_nat q)) as [Hle|Hgt].
  - split; [reflexivity|].
    intros i Hi. rewrite dgz_neg by (unfold zn; lia). lia.
  - pose proof (lsh_coreW (final_step_sub w b lsh) (middle_step_sub w b lsh)
      (fun y d => y - d) false lsh q a r0 Hl Hq Ha) as HC.
    cbv zeta in HC. unfold fm_loopW in HC. apply HC.
    + intros j x c' Hx Hc'.
      rewrite (final_step_sub_ideal w b lsh Hb Hl), (middle_step_sub_ideal w b lsh Hb Hl);
        auto; apply Hr.
    + intros y. lia.
Qed.

End Shift.

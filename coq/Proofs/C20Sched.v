(* C20 — every interleaving of the small-step system ends with the same outputs as the sequential run.
   Invariant argument by induction on schedules: a step of thread t writes one slot that no pending item of
   another thread will write (disjoint writes), reads only the immutable inputs baked into g and its private
   scratch, and the value written does not depend on the scratch contents (hypothesis Hg: C11/C12). *)
From PV Require Import Base.MachineInt Model.C20Threads Proofs.C20Partition.
From Coq Require Import Arith PeanoNat Permutation.
Local Open Scope nat_scope.

Lemma set_nth_perm {X : Type} (p : list (list X)) : forall t x r,
  nth_error p t = Some (x :: r) -> Permutation (concat p) (x :: concat (set_nth t r p)).
Proof.
  induction p as [|l p IH]; intros t x r H.
  - destruct t; discriminate.
  - destruct t as [|t]; cbn [nth_error] in H.
    + inversion H; subst. cbn [set_nth concat app]. apply Permutation_refl.
    + cbn [set_nth concat]. specialize (IH t x r H).
      eapply Permutation_trans; [apply Permutation_app_head; exact IH|].
      apply Permutation_sym. apply Permutation_middle.
Qed.

Lemma set_nth_nth {X : Type} (p : list (list X)) : forall t0 t r,
  t0 < length p -> nth t (set_nth t0 r p) [] = if t =? t0 then r else nth t p [].
Proof.
  induction p as [|l p IH]; intros t0 t r Hlt; cbn [length] in Hlt; [lia|].
  destruct t0 as [|t0]; cbn [set_nth].
  - destruct t; reflexivity.
  - destruct t as [|t]; [reflexivity|]. cbn [nth]. rewrite IH by lia. reflexivity.
Qed.

Lemma set_nth_length {X : Type} (p : list X) : forall t x, length (set_nth t x p) = length p.
Proof.
  induction p as [|l p IH]; intros t x; [destruct t; reflexivity|].
  destruct t; cbn [set_nth length]; auto.
Qed.

Lemma zero_range_spec {V : Type} (zero : V) (len : nat) : forall from (m : nat -> V) j,
  zero_range V zero from len m j = if (from <=? j) && (j <? from + len) then zero else m j.
Proof.
  unfold zero_range. induction len as [|len IH]; intros from m j; cbn [seq fold_left].
  - destruct (Nat.leb_spec from j), (Nat.ltb_spec j (from + 0)); cbn [andb]; try reflexivity. lia.
  - rewrite IH. unfold upd.
    destruct (Nat.leb_spec (S from) j), (Nat.ltb_spec j (S from + len)), (Nat.leb_spec from j), (Nat.ltb_spec j (from + S len)),
      (Nat.eqb_spec j from); cbn [andb]; try reflexivity; lia.
Qed.

Section Exists.
Variables V Sc : Type.
Variable g : nat -> Sc -> V * Sc.
Notation state := (state V Sc).
Notation step := (step V Sc g).
Notation exec := (exec V Sc g).
Notation finished := (finished V Sc).

Lemma first_nonempty_none (p : list (list item)) :
  first_nonempty p = None -> forallb (fun l => match l with [] => true | _ => false end) p = true.
Proof.
  induction p as [|l p IH]; intros H; [reflexivity|]. cbn [first_nonempty] in H.
  destruct l; [|discriminate]. cbn [forallb andb].
  destruct (first_nonempty p); [discriminate|]. auto.
Qed.

Lemma first_nonempty_some (p : list (list item)) : forall t,
  first_nonempty p = Some t -> exists x r, nth_error p t = Some (x :: r).
Proof.
  induction p as [|l p IH]; intros t H; [discriminate|]. cbn [first_nonempty] in H.
  destruct l as [|x r].
  - destruct (first_nonempty p) as [t'|]; [|discriminate]. inversion H; subst.
    cbn [nth_error]. apply IH. reflexivity.
  - inversion H; subst. exists x, r. reflexivity.
Qed.

(* a thread with a pending item can step; the step removes that item *)
Lemma step_live (st : state) (t : nat) (x : item) (r : list item) :
  nth_error (pend V Sc st) t = Some (x :: r) ->
  exists st1, step t st = Some st1 /\ pend V Sc st1 = set_nth t r (pend V Sc st) /\ S (total (pend V Sc st1)) = total (pend V Sc st).
Proof.
  intros En. unfold C20Threads.step. rewrite En. eexists. split; [reflexivity|]. cbn [pend]. split; [reflexivity|].
  pose proof (Permutation_length (set_nth_perm _ _ _ _ En)) as Hl. cbn [length] in Hl. unfold total. lia.
Qed.

Lemma auto_sched_complete (fuel : nat) : forall st : state,
  total (pend V Sc st) <= fuel ->
  exists st', exec (auto_sched V Sc g fuel st) st = Some st' /\ finished st' = true.
Proof.
  induction fuel as [|fuel IH]; intros st Ht; cbn [auto_sched].
  all: destruct (first_nonempty (pend V Sc st)) as [t|] eqn:Ef;
    [|exists st; split; [reflexivity | apply first_nonempty_none; exact Ef]].
  all: destruct (first_nonempty_some _ _ Ef) as (x & r & En); destruct (step_live st t x r En) as (st1 & Hs & _ & Hl).
  - lia.
  - rewrite Hs. destruct (IH st1 ltac:(lia)) as (st' & He & Hf).
    exists st'. split; [|exact Hf]. cbn [C20Threads.exec]. rewrite Hs. exact He.
Qed.

Lemma run_exists (init : nat -> V) (w : list (list item)) (scr0 : nat -> Sc) :
  exists sched st, run_mt V Sc g (Some w) init scr0 sched = Some st.
Proof.
  destruct (auto_sched_complete (total w) (init_state V Sc w init scr0) (le_n _)) as (st' & He & Hf).
  exists (auto_sched V Sc g (total w) (init_state V Sc w init scr0)), st'.
  unfold run_mt. rewrite He, Hf. reflexivity.
Qed.

End Exists.

Lemma nodup_fst_unique (l : list item) : NoDup (map fst l) ->
  forall s i i', In (s, i) l -> In (s, i') l -> i = i'.
Proof.
  induction l as [|[s0 i0] l IH]; intros Hnd s i i' H1 H2; [contradiction|].
  cbn [map fst] in Hnd. inversion Hnd as [|? ? Hnot Hnd']; subst.
  destruct H1 as [E1|H1]; destruct H2 as [E2|H2].
  - congruence.
  - inversion E1; subst. exfalso. apply Hnot. apply in_map_iff. exists (s, i'). split; auto.
  - inversion E2; subst. exfalso. apply Hnot. apply in_map_iff. exists (s, i). split; auto.
  - eapply IH; eauto.
Qed.

(* Any work lists w whose items write pairwise distinct slots; the shared inputs (module, prepared keys, read-only
   ciphertexts) are data inside g, never state. *)
Section Sched.
Variables V Sc : Type.
Variable g : nat -> Sc -> V * Sc.
Variable f : nat -> V.
(* the result of an item does not depend on what the scratch contains (C11/C12) *)
Hypothesis Hg : forall i s, fst (g i s) = f i.

Notation state := (state V Sc).
Notation step := (step V Sc g).
Notation exec := (exec V Sc g).
Notation finished := (finished V Sc).

Variable w : list (list item).
Hypothesis Hnd : NoDup (map fst (concat w)).
Variable init : nat -> V.

(* what stays true along every execution: executed and pending items together are the items of w, thread by thread in
   program order; a slot none of whose writers is pending holds the result of its item, a slot nobody writes is untouched *)
Record Inv (st : state) : Prop := {
  inv_trace : Permutation (map snd (trace V Sc st) ++ concat (pend V Sc st)) (concat w);
  inv_outs : forall slot idx, In (slot, idx) (concat w) -> ~ In slot (map fst (concat (pend V Sc st))) ->
               outs V Sc st slot = f idx;
  inv_frame : forall j, ~ In j (map fst (concat w)) -> outs V Sc st j = init j;
  inv_len : length (pend V Sc st) = length w;
  inv_order : forall t, map snd (filter (fun e => fst e =? t) (trace V Sc st)) ++ nth t (pend V Sc st) [] = nth t w []
}.

Lemma step_inv (t : nat) (st st' : state) : step t st = Some st' -> Inv st -> Inv st'.
Proof.
  intros Hs [I1 I2 I3 I4 I5]. unfold C20Threads.step in Hs.
  destruct (nth_error (pend V Sc st) t) as [[|it rest]|] eqn:En; try discriminate.
  inversion Hs; subst st'; clear Hs.
  pose proof (set_nth_perm _ _ _ _ En) as Hp.
  assert (Hlt : t < length (pend V Sc st)) by (apply nth_error_Some; congruence).
  assert (HitW : In it (concat w)).
  { eapply Permutation_in; [exact I1|]. apply in_or_app. right.
    eapply Permutation_in; [apply Permutation_sym; exact Hp | left; reflexivity]. }
  constructor; cbn [pend outs trace scr].
  - rewrite map_app. cbn [map snd]. rewrite <- app_assoc. cbn [app].
    eapply Permutation_trans; [|exact I1].
    apply Permutation_app_head. apply Permutation_sym. exact Hp.
  - intros slot idx HinW Hnot. unfold upd. destruct (Nat.eqb_spec slot (fst it)) as [Ej|Ej].
    + rewrite Hg. f_equal. destruct it as [s0 i0]. cbn [fst snd] in *. subst s0.
      eapply nodup_fst_unique; eauto.
    + apply I2; [exact HinW|]. intros Hin. apply Hnot.
      apply in_map_iff in Hin. destruct Hin as (it' & Hf & Hin').
      pose proof (Permutation_in _ Hp Hin') as Hin2. destruct Hin2 as [<-|Hin2]; [congruence|].
      apply in_map_iff. exists it'. split; auto.
  - intros j Hj. unfold upd. destruct (Nat.eqb_spec j (fst it)) as [Ej|Ej]; [|apply I3; exact Hj].
    exfalso. apply Hj. subst j. apply in_map. exact HitW.
  - rewrite set_nth_length. exact I4.
  - intros t'. rewrite filter_app, map_app. cbn [filter fst].
    rewrite set_nth_nth by exact Hlt. rewrite (Nat.eqb_sym t t').
    destruct (Nat.eqb_spec t' t) as [Et|Et].
    + subst t'. cbn [map snd]. rewrite <- app_assoc. cbn [app].
      rewrite <- (I5 t). f_equal. symmetry. apply nth_error_nth. exact En.
    + cbn [map]. rewrite app_nil_r. apply I5.
Qed.

Lemma exec_inv (sched : list nat) : forall st st', exec sched st = Some st' -> Inv st -> Inv st'.
Proof.
  induction sched as [|t sched IH]; intros st st' He Hi; cbn [C20Threads.exec] in He.
  - inversion He; subst; exact Hi.
  - destruct (step t st) as [st1|] eqn:Es; [|discriminate].
    eapply IH; eauto. eapply step_inv; eauto.
Qed.

Lemma finished_nth (st : state) : finished st = true -> forall t, nth t (pend V Sc st) [] = [].
Proof.
  unfold C20Threads.finished. induction (pend V Sc st) as [|l p IH]; intros H t; [destruct t; reflexivity|].
  cbn [forallb] in H. apply andb_prop in H. destruct H as [H1 H2].
  destruct l; [|discriminate]. destruct t; cbn [nth]; auto.
Qed.

Lemma finished_concat (st : state) : finished st = true -> concat (pend V Sc st) = [].
Proof.
  intros H. pose proof (finished_nth st H) as Hn. induction (pend V Sc st) as [|l p IH]; [reflexivity|].
  cbn [concat]. rewrite (Hn 0 : l = []). apply IH. intros t. exact (Hn (S t)).
Qed.

(* every complete run, whatever the schedule: each slot holds the result of its item, the others are untouched, every
   item was executed once, by its thread, in that thread's program order *)
Lemma run_closed (scr0 : nat -> Sc) (sched : list nat) (st : state) :
  run_mt V Sc g (Some w) init scr0 sched = Some st ->
  (forall slot idx, In (slot, idx) (concat w) -> outs V Sc st slot = f idx) /\
  (forall j, ~ In j (map fst (concat w)) -> outs V Sc st j = init j) /\
  Permutation (map snd (trace V Sc st)) (concat w) /\
  (forall t, map snd (filter (fun e => fst e =? t) (trace V Sc st)) = nth t w []).
Proof.
  intros Hr. unfold run_mt in Hr.
  destruct (exec sched (init_state V Sc w init scr0)) as [st1|] eqn:He; [|discriminate].
  destruct (finished st1) eqn:Hf; [|discriminate]. inversion Hr; subst st1; clear Hr.
  assert (Hi : Inv (init_state V Sc w init scr0)).
  { constructor; cbn [init_state pend outs trace map app]; auto.
    intros slot idx Hin Hnot. exfalso. apply Hnot. apply in_map_iff. exists (slot, idx). split; auto. }
  destruct (exec_inv _ _ _ He Hi) as [I1 I2 I3 _ I5]. rewrite (finished_concat _ Hf) in *.
  split; [|split; [|split]].
  - intros slot idx Hin. apply (I2 slot idx Hin). intros [].
  - exact I3.
  - rewrite app_nil_r in I1. exact I1.
  - intros t. rewrite <- (I5 t), (finished_nth _ Hf), app_nil_r. reflexivity.
Qed.

End Sched.

(* the work lists of both call sites: thread i owns chunk i of base .. base+n-1 and item j writes slot j *)
Lemma run_chunks (V Sc : Type) (g : nat -> Sc -> V * Sc) (f : nat -> V) (Hg : forall i s, fst (g i s) = f i)
      (base n : nat) (cs : list (list nat)) (init : nat -> V) (scr0 : nat -> Sc) (sched : list nat) (st : state V Sc) :
  concat cs = seq base n ->
  run_mt V Sc g (Some (map (map dup) cs)) init scr0 sched = Some st ->
  (forall j, outs V Sc st j = if (base <=? j) && (j <? base + n) then f j else init j) /\
  Permutation (map snd (trace V Sc st)) (map dup (seq base n)) /\
  (forall t, map snd (filter (fun e => fst e =? t) (trace V Sc st)) = map dup (nth t cs [])).
Proof.
  intros Hc Hr.
  assert (Hw : concat (map (map dup) cs) = map dup (seq base n)) by (rewrite <- concat_map, Hc; reflexivity).
  assert (Hfst : map fst (map dup (seq base n)) = seq base n) by (rewrite map_map; apply map_id).
  destruct (run_closed V Sc g f Hg _ ltac:(rewrite Hw, Hfst; apply seq_NoDup) init scr0 sched st Hr) as (Ho & Hfr & Hp & Ht).
  rewrite Hw in *. rewrite Hfst in Hfr. split; [|split; [exact Hp|]].
  - intros j. destruct (Nat.leb_spec base j), (Nat.ltb_spec j (base + n)); cbn [andb];
      try (apply Hfr; rewrite in_seq; lia).
    apply Ho. apply (in_map dup). apply in_seq. lia.
  - intros t. rewrite Ht. change (@nil item) with (map dup []). apply map_nth.
Qed.

Section EntryPlain.
Variables V Sc : Type.
Variable g : nat -> Sc -> V * Sc.
Variable zero : V.

(* complete executions exist under the guard (so the statements of section Entry are not vacuous), for every thread count *)
Lemma eval_schedule_exists (threads out_len output_size : nat) (init : nat -> V) (scr0 : nat -> Sc) :
  1 <= threads -> 1 <= output_size <= out_len ->
  exists sched o, eval_mt V Sc g zero threads out_len output_size init scr0 sched = Some o.
Proof.
  intros Ht Hn. unfold eval_mt.
  destruct (out_len <? output_size) eqn:El; [apply Nat.ltb_lt in El; lia|].
  rewrite eval_work_closed by lia.
  match goal with |- context [run_mt V Sc g (Some ?w) _ _ _] =>
    destruct (run_exists V Sc g init w scr0) as (sched & st & Hr) end.
  exists sched. rewrite Hr. eexists; reflexivity.
Qed.

Lemma prepare_schedule_exists (threads bits start count : nat) (init : nat -> V) (scr0 : nat -> Sc) :
  1 <= threads -> 1 <= count -> start + count <= bits ->
  exists sched o, prepare_mt V Sc g zero threads bits start count init scr0 sched = Some o.
Proof.
  intros Ht Hn Hb. unfold prepare_mt.
  rewrite prepare_work_closed by lia.
  match goal with |- context [run_mt V Sc g (Some ?w) _ _ _] =>
    destruct (run_exists V Sc g init w scr0) as (sched & st & Hr) end.
  exists sched. rewrite Hr. eexists; reflexivity.
Qed.

End EntryPlain.

Section Entry.
Variables V Sc : Type.
Variable g : nat -> Sc -> V * Sc.
Variable f : nat -> V.
Hypothesis Hg : forall i s, fst (g i s) = f i.
Variable zero : V.

(* C20_tail_zeroed (eval): closed form of the outputs of ANY complete run: item results in the active range,
   zeros up to out_len, untouched beyond *)
Lemma eval_mt_closed (threads out_len output_size : nat) (init : nat -> V) (scr0 : nat -> Sc) (sched : list nat) o :
  eval_mt V Sc g zero threads out_len output_size init scr0 sched = Some o ->
  1 <= threads /\ 1 <= output_size <= out_len /\
  forall j, o j = if j <? output_size then f j else if j <? out_len then zero else init j.
Proof.
  intros H. unfold eval_mt in H.
  destruct (Nat.ltb_spec out_len output_size) as [|El]; [discriminate|].
  destruct (eval_work threads output_size) as [w|] eqn:Ew; [|discriminate].
  destruct (eval_work_some _ _ _ Ew) as (Ht & Hn & ->).
  destruct (run_mt V Sc g _ init scr0 sched) as [st|] eqn:Hr; [|discriminate].
  inversion H; subst o; clear H.
  destruct (run_chunks V Sc g f Hg 0 output_size _ init scr0 sched st (chunks_mut_concat _ _ 0 Ht Hn) Hr) as (Ho & _ & _).
  split; [lia|]. split; [lia|]. intros j. rewrite zero_range_spec, Ho. cbn [Nat.leb Nat.add andb].
  destruct (Nat.ltb_spec j output_size), (Nat.leb_spec output_size j), (Nat.ltb_spec j out_len),
    (Nat.ltb_spec j (output_size + (out_len - output_size))); cbn [andb]; try reflexivity; lia.
Qed.

(* C20_tail_zeroed (prepare) *)
Lemma prepare_mt_closed (threads bits start count : nat) (init : nat -> V) (scr0 : nat -> Sc) (sched : list nat) o :
  prepare_mt V Sc g zero threads bits start count init scr0 sched = Some o ->
  1 <= threads /\ 1 <= count /\ start + count <= bits /\
  forall j, o j = if (start <=? j) && (j <? start + count) then f j else if j <? bits then zero else init j.
Proof.
  intros H. unfold prepare_mt in H.
  destruct (prepare_work threads bits start count) as [w|] eqn:Ew; [|discriminate].
  destruct (prepare_work_some _ _ _ _ _ Ew) as (Ht & Hn & Hb & ->).
  destruct (run_mt V Sc g _ init scr0 sched) as [st|] eqn:Hr; [|discriminate].
  inversion H; subst o; clear H.
  destruct (run_chunks V Sc g f Hg start count _ init scr0 sched st (chunks_mut_concat _ _ start Ht Hn) Hr) as (Ho & _ & _).
  split; [lia|]. split; [lia|]. split; [lia|]. intros j. rewrite !zero_range_spec, Ho.
  destruct (Nat.leb_spec start j), (Nat.ltb_spec j (start + count)), (Nat.ltb_spec j bits), (Nat.leb_spec (start + count) j),
    (Nat.ltb_spec j (start + count + (bits - (start + count)))), (Nat.leb_spec 0 j), (Nat.ltb_spec j (0 + start));
    cbn [andb]; try reflexivity; lia.
Qed.

(* no work item is skipped or executed twice; each thread executes its chunk in program order *)
Lemma chunks_each_item_once (base n : nat) (cs : list (list nat)) (init : nat -> V) (scr0 : nat -> Sc) (sched : list nat) st :
  concat cs = seq base n ->
  run_mt V Sc g (Some (map (map dup) cs)) init scr0 sched = Some st ->
  Permutation (map snd (trace V Sc st)) (map dup (seq base n)) /\
  NoDup (map snd (trace V Sc st)) /\
  length (trace V Sc st) = n /\
  forall t, map snd (filter (fun e => fst e =? t) (trace V Sc st)) = map dup (nth t cs []).
Proof.
  intros Hc Hr. destruct (run_chunks V Sc g f Hg base n cs init scr0 sched st Hc Hr) as (_ & Hp & Ho).
  split; [exact Hp|]. split; [|split; [|exact Ho]].
  - eapply Permutation_NoDup; [apply Permutation_sym; exact Hp|].
    apply FinFun.Injective_map_NoDup; [|apply seq_NoDup].
    intros a b Hab. inversion Hab; reflexivity.
  - pose proof (Permutation_length Hp) as Hl. rewrite !map_length, seq_length in Hl. exact Hl.
Qed.

Lemma eval_each_item_once (threads output_size : nat) (init : nat -> V) (scr0 : nat -> Sc) (sched : list nat) st :
  run_mt V Sc g (eval_work threads output_size) init scr0 sched = Some st ->
  Permutation (map snd (trace V Sc st)) (map (fun j => (j, j)) (seq 0 output_size)) /\
  NoDup (map snd (trace V Sc st)) /\
  length (trace V Sc st) = output_size /\
  exists cs, chunks output_size threads = Some cs /\
             forall t, map snd (filter (fun e => fst e =? t) (trace V Sc st)) = map (fun j => (j, j)) (nth t cs []).
Proof.
  intros Hr. unfold chunks.
  destruct (eval_work threads output_size) as [w|] eqn:Ew; [|discriminate].
  destruct (eval_work_some _ _ _ Ew) as (Ht & Hn & ->).
  destruct (chunks_each_item_once 0 output_size _ init scr0 sched st (chunks_mut_concat _ _ 0 Ht Hn) Hr) as (A & B & C & D).
  cbn [option_map]. rewrite map_map_fst_dup. repeat split; try assumption. eexists; split; [reflexivity | exact D].
Qed.

Lemma prepare_each_item_once (threads bits start count : nat) (init : nat -> V) (scr0 : nat -> Sc) (sched : list nat) st :
  run_mt V Sc g (prepare_work threads bits start count) init scr0 sched = Some st ->
  Permutation (map snd (trace V Sc st)) (map (fun j => (j, j)) (seq start count)) /\
  NoDup (map snd (trace V Sc st)) /\
  length (trace V Sc st) = count /\
  exists cs, chunks_prepare threads bits start count = Some cs /\
             forall t, map snd (filter (fun e => fst e =? t) (trace V Sc st)) = map (fun j => (j, j)) (nth t cs []).
Proof.
  intros Hr. unfold chunks_prepare.
  destruct (prepare_work threads bits start count) as [w|] eqn:Ew; [|discriminate].
  destruct (prepare_work_some _ _ _ _ _ Ew) as (Ht & Hn & Hb & ->).
  destruct (chunks_each_item_once start count _ init scr0 sched st (chunks_mut_concat _ _ start Ht Hn) Hr) as (A & B & C & D).
  cbn [option_map]. rewrite map_map_fst_dup. repeat split; try assumption. eexists; split; [reflexivity | exact D].
Qed.

End Entry.

(* C01, public-key GLWE: public key generation, glwe_encrypt_pk, glwe_decrypt.
   decrypt = m + u*e_pk + e_0 + sum_i s_i*e_i (+ one unit of rounding): the mask terms s_i*(u*a_i) and u*(s_i*a_i) cancel by
   commutativity / associativity of the negacyclic product (C07). *)
From PV Require Import Base.MachineInt Model.Znx Model.Limbs Model.Flat Model.DftAbs Model.C08Oracle Model.EncModel
  Proofs.C07Dft Proofs.C07Ring Proofs.EncValue Proofs.EncLists Proofs.EncBilinear Proofs.C01Sk Proofs.C01Glwe Proofs.ListFacts.
Open Scope Z_scope.

Lemma lvsum_map_nth {T} (P b : Z) (size : nat) (g : T -> list Z) (l : list T) (d : T) :
  lvsum P b size (map g l) = sumz (fun i => lval P b size (g (nth i l d))) (length l).
Proof.
  induction l as [|x l IH]; [reflexivity|].
  cbn [map length]. unfold lvsum in *. cbn [fold_right]. rewrite IH. rewrite sumz_shift. reflexivity.
Qed.

(* s * (u * A) = u * (s * A) *)
Lemma pmul_swap (s u A : list Z) : length u = length s -> length A = length s -> pmul s (pmul u A) = pmul u (pmul s A).
Proof.
  intros Hu HA.
  rewrite <- (pmul_assoc s u A) by lia. rewrite (pmul_comm s u) by lia.
  rewrite (pmul_assoc u s A) by lia. reflexivity.
Qed.

Lemma sumz_congr (F G H : nat -> Z) (w M : Z) (r : nat) :
  (forall i, (i < r)%nat -> exists z, F i = G i + w * H i + M * z) ->
  exists z, sumz F r = sumz G r + w * sumz H r + M * z.
Proof.
  induction r as [|r IH]; intros T.
  - exists 0. cbn [sumz]. lia.
  - destruct IH as [z Hz]; [intros i Hi; apply T; lia|]. destruct (T r ltac:(lia)) as [z' Hz'].
    exists (z + z'). cbn [sumz]. rewrite Hz, Hz'. lia.
Qed.

(* The ring-level content of the public-key round trip, modulo M = 2^P, on value polynomials: if (B, A_1..A_r) is an
   encryption of zero under s with error epk at weight w', and C_0 = u*B + w e_0 + m, C_i = u*A_i + w e_i, then the
   phase of C under s is m + w' u*epk + w (e_0 + sum_i s_i*e_i). *)
Lemma pk_phase_algebra (n rank : nat) (M w w' : Z) (u epk Bv : list Z) (sk es : list poly) (Av Cv : nat -> list Z)
      (m : Z) (k : nat) : (k < n)%nat -> length u = n -> length epk = n -> length Bv = n ->
  (forall i, (i < rank)%nat ->
     length (nth i sk []) = n /\ length (Av i) = n /\ length (Cv (S i)) = n /\ length (nth (S i) es []) = n) ->
  (forall t, (t < n)%nat -> exists q,
     nthZ Bv t = - sumz (fun i => nthZ (pmul (nth i sk []) (Av i)) t) rank + w' * nthZ epk t + M * q) ->
  (exists q, nthZ (Cv O) k = nthZ (pmul u Bv) k + w * nthZ (nth 0 es []) k + m + M * q) ->
  (forall i t, (i < rank)%nat -> (t < n)%nat -> exists q,
     nthZ (Cv (S i)) t = nthZ (pmul u (Av i)) t + w * nthZ (nth (S i) es []) t + M * q) ->
  exists z, nthZ (Cv O) k + sumz (fun i => nthZ (pmul (nth i sk []) (Cv (S i))) k) rank
            = m + w' * nthZ (pmul u epk) k + w * nthZ (nth 0 es []) k
              + w * sumz (fun i => nthZ (pmul (nth i sk []) (nth (S i) es [])) k) rank + M * z.
Proof.
  intros Hk Lu Lepk LB Hlen HB [q0 H0] HC.
  (* s_i * C_i = u * (s_i * A_i) + w s_i * e_i *)
  assert (T1 : forall i, (i < rank)%nat -> exists z, nthZ (pmul (nth i sk []) (Cv (S i))) k
             = nthZ (pmul u (pmul (nth i sk []) (Av i))) k + w * nthZ (pmul (nth i sk []) (nth (S i) es [])) k + M * z).
  { intros i Hi. destruct (Hlen i Hi) as (Ls & LA & LC & Le).
    destruct (pmul_cong (nth i sk []) (Cv (S i)) (fun t => nthZ (pmul u (Av i)) t + w * nthZ (nth (S i) es []) t) M k)
      as [z Hz]; [lia|lia|rewrite Ls; intros t Ht; apply HC; assumption|].
    exists z. rewrite Hz, Ls, bil_add, bil_scale.
    rewrite <- (pmul_swap (nth i sk []) u (Av i)) by lia.
    rewrite !pmul_bil by (rewrite ?pmul_length; lia). rewrite Ls. reflexivity. }
  destruct (sumz_congr _ _ _ w M rank T1) as [z1 Hz1].
  (* u * B = - sum_i u * (s_i * A_i) + w' u * epk *)
  destruct (pmul_cong u Bv (fun t => - sumz (fun i => nthZ (pmul (nth i sk []) (Av i)) t) rank + w' * nthZ epk t) M k)
    as [z0 Hz0]; [lia|lia|rewrite Lu; exact HB|].
  rewrite Lu, bil_add, bil_opp, bil_scale in Hz0.
  rewrite (bil_sumz n u (fun i t => nthZ (pmul (nth i sk []) (Av i)) t) rank k) in Hz0.
  rewrite (sumz_ext (fun i => bil n u (nthZ (pmul (nth i sk []) (Av i))) k)
                    (fun i => nthZ (pmul u (pmul (nth i sk []) (Av i))) k)) in Hz0.
  - rewrite <- Lu, <- pmul_bil in Hz0 by lia. exists (q0 + z0 + z1). lia.
  - intros i Hi. destruct (Hlen i Hi) as (Ls & LA & _). rewrite pmul_bil by (rewrite ?pmul_length; lia). rewrite Lu. reflexivity.
Qed.

Lemma sumz_abs_le (F : nat -> Z) (c : Z) (r : nat) : (forall i, (i < r)%nat -> Z.abs (F i) <= c) -> Z.abs (sumz F r) <= zn r * c.
Proof.
  induction r as [|r IH]; intros H; cbn [sumz]; [unfold zn; cbn; lia|].
  specialize (IH ltac:(intros; apply H; lia)). specialize (H r ltac:(lia)). unfold zn in *. nia.
Qed.

Lemma abs_scaled_le (x c w : Z) : 0 <= w -> Z.abs x <= c -> Z.abs (x * w) <= c * w.
Proof. intros Hw H. rewrite Z.abs_mul, (Z.abs_eq w) by exact Hw. apply Z.mul_le_mono_nonneg_r; assumption. Qed.

(* the phase sum over the mask columns, on value polynomials *)
Lemma lvsum_prods_at (P b : Z) (n size rank : nat) (sk : list poly) (cols : list ccol) (k : nat) : (k < n)%nat ->
  length sk = rank -> length cols = rank ->
  (forall i, (i < rank)%nat -> length (nth i sk []) = n /\ length (nth i cols []) = n) ->
  lvsum P b size (prods_at n size sk cols k)
  = sumz (fun i => nthZ (pmul (nth i sk []) (vpoly P b n size (nth i cols []))) k) rank.
Proof.
  intros Hk Ls Lc Hlen. unfold prods_at.
  rewrite (lvsum_map_nth P b size _ (combine sk cols) (([] : poly), ([] : ccol))).
  rewrite combine_length, Ls, Lc, Nat.min_id.
  apply sumz_ext. intros i Hi. rewrite combine_nth by lia. cbn [fst snd].
  destruct (Hlen i Hi) as [L1 L2]. apply svp_value; assumption.
Qed.

(* pk_phase_algebra read on the columns: `bodyp :: a` is the public key, `ct` the ciphertext, m the value of the plaintext,
   w' and w the weights of the target limbs of the two noise precisions *)
Lemma pk_phase (P b : Z) (n size rank : nat) (w w' : Z) (sk : list poly) (u epk : poly) (es : list poly)
      (bodyp : ccol) (a ct : list ccol) (m : Z) (k : nat) : (k < n)%nat ->
  length sk = rank -> length a = rank -> length ct = S rank -> length u = n -> length epk = n -> length bodyp = n ->
  (forall i, (i < rank)%nat -> length (nth i sk []) = n /\ length (nth i a []) = n /\ length (nth (S i) es []) = n) ->
  (forall i, (i < S rank)%nat -> length (nth i ct []) = n) ->
  (forall t, (t < n)%nat -> exists q,
     lval P b size (coef bodyp t) + lvsum P b size (prods_at n size sk a t) = nthZ epk t * w' + q * 2 ^ P) ->
  (exists q, lval P b size (coef (nth 0 ct []) k)
             = m + lval P b size (coef (svp u n size bodyp) k) + nthZ (nth 0 es []) k * w + q * 2 ^ P) ->
  (forall i t, (i < rank)%nat -> (t < n)%nat -> exists q,
     lval P b size (coef (nth (S i) ct []) t)
     = lval P b size (coef (svp u n size (nth i a [])) t) + nthZ (nth (S i) es []) t * w + q * 2 ^ P) ->
  exists z, lval P b size (coef (hd [] ct) k) + lvsum P b size (prods_at n size sk (tl ct) k)
            = m + (nthZ (pmul u epk) k * w' + nthZ (nth 0 es []) k * w
                   + sumz (fun i => nthZ (pmul (nth i sk []) (nth (S i) es [])) k) rank * w) + z * 2 ^ P.
Proof.
  intros Hk Ls La Lct Lu Lepk Lb Hlen Hct HPK [q0 H0] HCi.
  destruct ct as [|c0 ct']; [discriminate Lct|]. injection Lct as Lct'. cbn [hd tl nth] in *.
  assert (Hlen' : forall i, (i < rank)%nat -> length (nth i sk []) = n /\ length (nth i ct' []) = n).
  { intros i Hi. split; [apply (Hlen i Hi)|]. apply (Hct (S i)). lia. }
  destruct (pk_phase_algebra n rank (2 ^ P) w w' u epk (vpoly P b n size bodyp) sk es
              (fun i => vpoly P b n size (nth i a [])) (fun i => vpoly P b n size (nth i (c0 :: ct') [])) m k
              Hk Lu Lepk (vpoly_length _ _ _ _ _)) as [z Hz]; cbn beta; cbn [nth].
  - intros i Hi. destruct (Hlen i Hi) as (L1 & L2 & L3). rewrite !vpoly_length. auto.
  - intros t Ht. destruct (HPK t Ht) as [q Hq]. exists q. rewrite nth_vpoly by exact Ht.
    rewrite (lvsum_prods_at P b n size rank sk a t Ht Ls La) in Hq by (intros i Hi; split; apply (Hlen i Hi)). lia.
  - exists q0. rewrite nth_vpoly by exact Hk. rewrite H0, (svp_value P b n size u bodyp k Lu Lb Hk). lia.
  - intros i t Hi Ht. destruct (HCi i t Hi Ht) as [q Hq]. exists q. rewrite nth_vpoly by exact Ht.
    rewrite Hq, (svp_value P b n size u (nth i a []) t Lu) by (try apply (Hlen i Hi); exact Ht). lia.
  - exists z. cbn beta in Hz. cbn [nth] in Hz. rewrite nth_vpoly in Hz by exact Hk.
    rewrite (lvsum_prods_at P b n size rank sk ct' k Hk Ls Lct' Hlen'). lia.
Qed.

Section Pk.
Variables wb b pb : Z.
Variable D : Z -> Prop.
Variables n size psize rank : nat.
Variables nk nkp : Z.
Hypothesis normalize_value_ok_small : normalize_value_ok_dom D (fun rb ab => normalize 64 rb ab 0) (2 ^ 62).
Hypothesis normalize_value_ok_big : normalize_value_ok_dom D (bnorm wb) (2 ^ (wb - 2)).
Hypothesis Hwb : 2 <= wb.
Hypothesis Hb : D b.
Hypothesis Hpb : D pb.
Hypothesis Hb_pos : 1 <= b.
Variables Sn U E Ep M : Z.
Hypothesis HS : 0 <= Sn.
Hypothesis HU : 0 <= U.

(* the error of a public-key ciphertext at coefficient k, scaled by 2^P *)
Definition pk_error (P : Z) (sk : list poly) (u epk : poly) (es : list poly) (k : nat) : Z :=
  nthZ (pmul u epk) k * wt P b (target_limb nkp b)
  + nthZ (nth 0 es []) k * wt P b (target_limb nk b)
  + sumz (fun i => nthZ (pmul (nth i sk []) (nth (S i) es [])) k) rank * wt P b (target_limb nk b).

(* column i of glwe_encrypt_pk_internal: u * pk_i + e_i (+ the plaintext on column 0), exactly *)
Lemma enc_pk_column (pt : ccol) (u : poly) (pk : list ccol) (es : list poly) (ct : list ccol) (i : nat) :
  length pk = length es -> (i < length pk)%nat -> norm1 u <= U ->
  (forall j, bnd (2 ^ (b - 1)) (limb_poly (nth i pk []) j)) ->
  (forall t, (t < n)%nat -> Z.abs (nthZ (nth i es []) t) <= E) ->
  (forall t, (t < n)%nat -> bnd M (coef pt t)) -> 0 <= M ->
  U * 2 ^ (b - 1) + E + M <= 2 ^ (wb - 2) ->
  enc_pk wb b n size size nk (Some pt) u pk es = Some ct ->
  length (nth i ct []) = n /\
  forall t, (t < n)%nat ->
    length (coef (nth i ct []) t) = size /\ Forall (in_range b) (coef (nth i ct []) t) /\
    forall P, zn size * b <= P -> 1 <= P ->
      exists q, lval P b size (coef (nth i ct []) t)
                = (match i with O => lval P b size (coef pt t) | _ => 0 end)
                  + lval P b size (coef (svp u n size (nth i pk [])) t) + nthZ (nth i es []) t * wt P b (target_limb nk b) + q * 2 ^ P.
Proof.
  intros XX Hi Hu Bpki HE Hm HM H3 Hct.
  pose proof (pow2_pos (b - 1) ltac:(lia)) as Hp1.
  unfold enc_pk in Hct.
  destruct (Nat.leb size (target_limb nk b)) eqn:Hl; [discriminate|]. apply Nat.leb_gt in Hl.
  destruct (sequence_indexed_nth _ (length pk) (combine pk es) ct ltac:(rewrite combine_length; lia) Hct) as [_ Hcol].
  specialize (Hcol i ([], []) [] Hi). rewrite combine_nth in Hcol by exact XX. cbn [fst snd] in Hcol.
  destruct (cmap_opt_nth _ _ _ Hcol) as [Lc Hc]. split; [exact Lc|].
  intros t Ht. specialize (Hc t Ht). cbn beta in Hc.
  destruct (svp_coef_bnd b U n size u (nth i pk []) t ltac:(lia) Ht Hu Bpki) as [LX BX].
  set (m := match i with O => Some (coef pt t) | _ => None end).
  assert (Hc' : pk_coeff wb b size (target_limb nk b) (coef (svp u n size (nth i pk [])) t) (nthZ (nth i es []) t) m
                = Some (coef (nth i ct []) t)) by (destruct i; exact Hc).
  assert (Hm' : forall p, m = Some p -> bnd M p).
  { intros p Hp. destruct i; [|discriminate]. injection Hp as <-. apply Hm. exact Ht. }
  assert (HBp : 0 <= U * 2 ^ (b - 1)) by nia.
  destruct (pk_coeff_value wb b D size normalize_value_ok_big Hwb Hb (target_limb nk b) (U * 2 ^ (b - 1)) E M _ _ m _
              Hl HBp LX BX (HE t Ht) Hm' HM H3 Hc') as (L & Rg & V).
  split; [exact L|]. split; [exact Rg|]. intros P HP HP1. destruct (V P HP HP1) as [q Hq]. exists q.
  unfold m in Hq. destruct i; cbn [optval] in Hq; lia.
Qed.

Theorem pk_roundtrip (pt : ccol) (sk : list poly) (us : nat -> Z) (epk u : poly) (es : list poly)
        (pk ct : list ccol) (d : ccol) :
  length sk = rank -> length es = S rank ->
  Forall (fun s => length s = n /\ norm1 s <= Sn) sk -> length u = n -> norm1 u <= U ->
  length epk = n -> Forall (fun e => length e = n) es ->
  (forall k, (k < n)%nat -> Z.abs (nthZ epk k) <= Ep) ->
  (forall i k, (k < n)%nat -> Z.abs (nthZ (nth i es []) k) <= E) ->
  (forall k, (k < n)%nat -> bnd M (coef pt k)) -> 0 <= M ->
  zn rank * 2 ^ (b - 1) + Ep <= 2 ^ 62 ->
  Sn * 2 ^ (b - 1) <= 2 ^ (wb - 2) ->
  U * 2 ^ (b - 1) + E + M <= 2 ^ (wb - 2) ->
  zn rank * (Sn * 2 ^ (b - 1)) + 2 ^ (b - 1) <= 2 ^ (wb - 2) ->
  enc_sk wb b n size rank nkp None sk us epk = Some pk ->
  enc_pk wb b n size size nk (Some pt) u pk es = Some ct ->
  dec_glwe wb b pb n size psize sk ct = Some d ->
  forall k, (k < n)%nat -> length (coef d k) = psize /\
    forall P, zn size * b <= P -> zn psize * pb <= P -> 1 <= P ->
    (exists q, lval P b size (coef (hd [] ct) k) + lvsum P b size (prods_at n size sk (tl ct) k)
               = lval P b size (coef pt k) + pk_error P sk u epk es k + q * 2 ^ P) /\
    tor_abs P (val_scaled P pb (coef d k) - val_scaled P b (firstn size (coef pt k)) - pk_error P sk u epk es k)
      <= 2 ^ (P - zn psize * pb).
Proof using normalize_value_ok_small normalize_value_ok_big Hwb Hb Hpb Hb_pos HS HU.
  intros Lsk Les Hsk Lu Hu Lepk Hes Hepk HE Hm HM H1 H2 H3 H4 Hpk Hct Hdec k Hk.
  pose proof (pow2_pos (b - 1) ltac:(lia)) as Hp1.
  assert (Hsk' : Forall (fun s => norm1 s <= Sn) sk) by (eapply Forall_impl; [|exact Hsk]; intros ? [_ ?]; assumption).
  (* the public key: an encryption of zero *)
  unfold enc_sk in Hpk. set (a := glwe_mask b n size rank us) in *.
  destruct (enc_sk_body wb b n size nkp None sk a epk) as [bodyp|] eqn:Hbodyp; [|discriminate].
  injection Hpk as <-.
  destruct (enc_sk_body_shape _ _ _ _ _ _ _ _ _ _ Hbodyp) as [_ Lbodyp].
  assert (La : length a = rank) by (unfold a; apply glwe_mask_length).
  assert (PKV : forall t, (t < n)%nat ->
            length (coef bodyp t) = size /\ Forall (in_range b) (coef bodyp t) /\
            forall P, zn size * b <= P -> 1 <= P ->
              exists q, lval P b size (coef bodyp t) + lvsum P b size (prods_at n size sk a t)
                        = nthZ epk t * wt P b (target_limb nkp b) + q * 2 ^ P).
  { intros t Ht.
    eapply (enc_sk_body_phase wb b D n size rank nkp) with (S := Sn) (E := Ep) (M := 0) (pt0 := None); try eassumption.
    - apply Hepk. exact Ht.
    - discriminate.
    - lia.
    - lia. }
  (* every column of pk has n coefficients with balanced digits *)
  assert (PKcol : forall i, (i < S rank)%nat ->
            length (nth i (bodyp :: a) []) = n /\ forall j, bnd (2 ^ (b - 1)) (limb_poly (nth i (bodyp :: a) []) j)).
  { intros i Hi. destruct i as [|i]; cbn [nth].
    - split; [exact Lbodyp|]. intros j. apply (in_range_bnd_limb b n bodyp j); [lia| |exact Lbodyp].
      intros t Ht. apply (PKV t Ht).
    - unfold a, glwe_mask. rewrite nth_map_seq by lia. split; [apply mask_col_length|].
      intros j. apply limb_poly_mask_bnd. lia. }
  (* the ciphertext: column i is u * pk_i + e_i (+ pt) *)
  assert (Lpk : length (bodyp :: a) = S rank) by (cbn [length]; lia).
  assert (CTV := fun i (Hi : (i < S rank)%nat) =>
            enc_pk_column pt u (bodyp :: a) es ct i ltac:(lia) ltac:(lia) Hu (proj2 (PKcol i Hi)) (HE i) Hm HM H3 Hct).
  assert (Lct : length ct = S rank).
  { unfold enc_pk in Hct. destruct (Nat.leb size (target_limb nk b)); [discriminate|].
    destruct (sequence_nth _ _ _ Hct) as [L _]. rewrite L, !combine_length, seq_length. lia. }
  destruct ct as [|c0 ct']; [discriminate Lct|]. cbn [hd tl] in *.
  destruct (CTV O ltac:(lia)) as [Lc0 Vc0].
  edestruct (dec_glwe_value wb b pb D n size psize rank) with (S := Sn) (ct := c0 :: ct') (k := k) as (Ld & Vd); try eassumption.
  { lia. }
  { rewrite Forall_forall. intros c Hc j. destruct (In_nth _ _ [] Hc) as [i [Hi <-]].
    assert (Hi' : (S i < S rank)%nat) by (rewrite <- Lct; apply le_n_S; exact Hi).
    destruct (CTV (S i) Hi') as [Lc Vc].
    apply (in_range_bnd_limb b n _ j); [lia| |exact Lc]. intros t Ht. apply (Vc t Ht). }
  { apply (Vc0 k Hk). }
  { apply (Vc0 k Hk). }
  split; [exact Ld|].
  intros P HP HPp HP1.
  assert (Hlen : forall i, (i < rank)%nat ->
            length (nth i sk []) = n /\ length (nth i a []) = n /\ length (nth (S i) es []) = n).
  { intros i Hi. rewrite Forall_forall in Hsk, Hes. split; [|split].
    - apply (Hsk (nth i sk [])). apply nth_In. rewrite Lsk. exact Hi.
    - apply (PKcol (S i)). apply le_n_S. exact Hi.
    - apply Hes. apply nth_In. rewrite Les. apply le_n_S. exact Hi. }
  destruct (pk_phase P b n size rank (wt P b (target_limb nk b)) (wt P b (target_limb nkp b)) sk u epk es bodyp a (c0 :: ct')
              (lval P b size (coef pt k)) k Hk Lsk La Lct Lu Lepk Lbodyp Hlen) as [z Hz].
  - intros i Hi. apply (CTV i Hi).
  - intros t Ht. destruct (PKV t Ht) as (_ & _ & V). exact (V P HP HP1).
  - destruct (Vc0 k Hk) as (_ & _ & V). exact (V P HP HP1).
  - intros i t Hi Ht. destruct (CTV (S i) (le_n_S _ _ Hi)) as [_ Vc]. destruct (Vc t Ht) as (_ & _ & V). exact (V P HP HP1).
  - split; [exists z; exact Hz|].
    rewrite lval_firstn. refine (roundtrip_of_phase P _ _ _ _ z _ HP1 _ (Vd P HP HPp)). rewrite Z.add_comm. exact Hz.
Qed.

(* |error| <= bound * (|u|_1 * 2^.. + (1 + sum_i |s_i|_1) * 2^..): the worst case implied by the truncation bound *)
Theorem pk_error_bound (P : Z) (sk : list poly) (u epk : poly) (es : list poly) (k : nat) :
  length sk = rank -> Forall (fun s => length s = n /\ norm1 s <= Sn) sk -> norm1 u <= U ->
  Forall (fun x => Z.abs x <= Ep) epk -> 0 <= Ep -> 0 <= E ->
  (forall i, Forall (fun x => Z.abs x <= E) (nth i es [])) ->
  Z.abs (pk_error P sk u epk es k)
  <= (U * Ep) * wt P b (target_limb nkp b) + (E + zn rank * (Sn * E)) * wt P b (target_limb nk b).
Proof using Type.
  intros Lsk Hsk Hu Hepk HEp HE0 Hes. unfold pk_error.
  assert (W : forall j, 0 <= wt P b j) by (intros j; apply Z.pow_nonneg; discriminate).
  pose proof (abs_scaled_le _ _ _ (W (target_limb nkp b))
                (pmul_nth_bound_le u epk k Ep U (bnd_of_Forall Ep epk HEp Hepk) HEp Hu)) as A1.
  pose proof (abs_scaled_le _ _ _ (W (target_limb nk b)) (bnd_of_Forall E _ HE0 (Hes O) k)) as A2.
  assert (A3 : Z.abs (sumz (fun i => nthZ (pmul (nth i sk []) (nth (S i) es [])) k) rank) <= zn rank * (Sn * E)).
  { apply sumz_abs_le. intros i Hi. apply pmul_nth_bound_le; [apply bnd_of_Forall; [exact HE0|apply Hes]|exact HE0|].
    rewrite Forall_forall in Hsk. apply (Hsk (nth i sk [])). apply nth_In. rewrite Lsk. exact Hi. }
  apply (abs_scaled_le _ _ _ (W (target_limb nk b))) in A3.
  clear - A1 A2 A3. lia.
Qed.

End Pk.

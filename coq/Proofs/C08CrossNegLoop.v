(* C08, cross-radix normalisation with a negative offset: the outer loop.  Every a-digit but the
   last is repacked as for offsets >= 0; the last one (a-limb 0) ends with the hand-over of the a-carry to the
   res-carry; the top phase then spreads that carry over the res limbs above the stream. *)
From PV Require Import Base.MachineInt Model.Znx Model.Limbs Model.C08Oracle
  Proofs.ZnxDigit Proofs.C08Steps Proofs.C08Chain Proofs.C08Loops Proofs.C08Value Proofs.C08Normalize Proofs.C08CrossInner Proofs.C08CrossGeom Proofs.C08CrossOuter
  Proofs.C08WChain Proofs.C08WLoops Proofs.C08WCrossInner Proofs.C08WCrossOuter
  Proofs.C08CrossNegKernels Proofs.C08CrossNegInner Proofs.C08CrossNegGeom.
Open Scope Z_scope.

Section NegLoop.
Variable wd : Z.
Variables rb ab : Z.
Hypothesis Hwd : 5 <= wd.
Hypothesis Hrb : 1 <= rb <= wd - 2.
Hypothesis Hab : 1 <= ab <= wd - 2.
Variable a : list Z.
Variable lsh : Z.
Variable rsz : nat.
Variables z g lo : Z.
Hypothesis Hz : 0 <= z.
Hypothesis Hg : 0 <= g.
Hypothesis Hlo : lo < 0.
Hypothesis Hgeo : (zn (length a) - lo) * ab = zn rsz * rb + g - z.

Let Hab1 : 1 <= ab. Proof. lia. Qed.

Local Notation Lval := (C08CrossOuter.Lval ab a lsh).
Local Notation dropok := (C08CrossOuter.dropok lsh g).
Local Notation Final := (C08CrossOuter.Final rb ab a lsh rsz z g).
Local Notation OuterI := (OuterW wd rb ab a lsh rsz z g).
Local Notation EntryI := (EntryW wd rb ab a lsh rsz z g).
Local Notation Vres := (C08CrossInner.Vres rb rsz).
Local Notation Fpos := (C08CrossInner.Fpos rb rsz).

(* a digit that is not the last: the top of the stream lies below the top of res, so the loop cannot break *)
Lemma entry_step_neg (t : nat) (s : cstate) (fuel : nat) :
  EntryI t s -> (S t < length a)%nat -> ab <= Z.of_nat fuel ->
  let r := cross_inner wd fuel rb ab (length a - 1 - t) s in
  snd r = InnerDone /\ OuterI (S t) (fst r).
Proof.
  intros HE Ht Hfuel.
  destruct (entry_stepW wd rb ab Hrb Hab a lsh rsz z g lo Hz Hg Hgeo t s fuel HE ltac:(lia) ltac:(lia) Hfuel)
    as (C1 & C2 & C3).
  cbv zeta in *. destruct (snd (cross_inner wd fuel rb ab (length a - 1 - t) s)).
  - split; [reflexivity|]. apply C2. reflexivity.
  - destruct (C3 eq_refl) as [Hfull _]. unfold zn in Hfull. lia.
  - contradiction.
Qed.

(* what the loop leaves behind after the hand-over *)
Definition Last (s : cstate) : Prop :=
  length (c_res s) = rsz /\ (c_rlimb s < rsz)%nat /\
  zn (c_rlimb s) * rb <= - lo * ab < (zn (c_rlimb s) + 1) * rb /\
  (forall i, (i < c_rlimb s)%nat -> nthZ (c_res s) i = 0) /\
  Z.abs (c_rcarry s) <= 2 ^ (wd - 2) + 1 /\
  exists drop, dropok drop /\
    2 ^ z * Lval (length a) = 2 ^ z * drop + 2 ^ g * (Vres (c_res s) + 2 ^ ((zn rsz - zn (c_rlimb s)) * rb) * c_rcarry s).

(* the last digit *)
Lemma last_step (t : nat) (s : cstate) (fuel : nat) :
  EntryI t s -> S t = length a -> ab <= Z.of_nat fuel ->
  let r := cross_inner wd fuel rb ab 0 s in
  snd r = OuterBreak /\ Last (fst r).
Proof.
  intros (Sh & Hr & Hat & Hn & Hc & Hrc & HF & drop & X & low & Hdrop & EV & HX & EX & Hlow) Ht Hfuel.
  cbv zeta.
  assert (HF0 : 0 <= Fpos s).
  { apply (Fpos_nonnegW wd rb Hrb); [apply Sh|clear - Hr; lia]. }
  assert (HE : 0 < - lo * ab) by (apply Z.mul_pos_pos; [clear - Hlo; lia|clear - Hab1; lia]).
  assert (EtA : zn t + 1 = zn (length a)) by (unfold zn; clear - Ht; lia).
  assert (Hpre : pre0 wd rb ab rsz (- lo * ab) s).
  { unfold pre0. split; [exact Sh|]. split; [exact Hr|]. split; [exact Hat|]. split; [exact Hn|].
    split; [exact Hc|]. split; [exact Hrc|]. split.
    { rewrite EtA in HF. clear - HF Hgeo. lia. }
    exists X, low. split; [exact HX|]. split; [exact EX|].
    set (e := ab - c_atake s) in *. assert (He : 0 <= e) by (unfold e; clear - Hat; lia).
    destruct (Z.eq_dec e 0) as [E0|E0].
    - rewrite E0 in *. change (2 ^ 0) with 1 in *. clear - Hlow. lia.
    - pose proof (pow2_split e ltac:(clear - He E0; lia)) as Hs.
      pose proof (pow2_pos (e - 1) ltac:(clear - He E0; lia)) as Hp. clear - Hlow Hs Hp. lia. }
  pose proof (cross_inner_last wd rb ab Hrb Hab rsz (- lo * ab) HE fuel s Hpre ltac:(clear - Hat Hfuel; lia))
    as (P1 & P2 & P3 & P4 & P5 & P6 & P7).
  set (s' := fst (cross_inner wd fuel rb ab 0 s)) in *.
  set (o := snd (cross_inner wd fuel rb ab 0 s)) in *.
  clearbody s' o. clear Hpre.
  split; [exact P1|]. unfold Last.
  split; [exact P2|]. split; [exact P3|]. split; [exact P4|]. split; [exact P5|]. split; [exact P7|].
  exists drop. split; [exact Hdrop|].
  rewrite <- Ht, EV. rewrite P6.
  assert (Hat0 : 0 <= c_atake s) by (clear - Hat; lia).
  assert (EgF : 2 ^ (g + Fpos s) = 2 ^ g * 2 ^ Fpos s) by (apply pow2_add; assumption).
  assert (ET : 2 ^ (z + (zn t + 1) * ab) = 2 ^ g * 2 ^ (Fpos s + c_atake s)).
  { rewrite <- pow2_add by (clear - Hg HF0 Hat0; lia). f_equal. clear - HF. lia. }
  rewrite ET, EgF. ring.
Qed.

(* the top phase turns the hand-over state into the final invariant *)
Lemma last_final (s : cstate) (out : list Z) : Last s ->
  out = fst (top_phase wd false rb 0 (c_rlimb s) (c_res s, c_rcarry s)) ->
  Final out.
Proof.
  intros (L & Hre & Hpos & Hz0 & Hc & drop & Hdrop & EV) ->.
  destruct (top_zero wd rb Hwd Hrb (c_rlimb s) (c_res s) (c_rcarry s) Hz0 Hc) as [T1 T2]. cbv zeta in T1, T2.
  set (out := fst (top_phase wd false rb 0 (c_rlimb s) (c_res s, c_rcarry s))) in *.
  pose proof (Vres_top rb rsz (c_rlimb s) (c_res s) out (c_rcarry s) ltac:(clear - Hrb; lia) ltac:(clear - Hre; lia) L
                ltac:(rewrite T1; exact L) Hz0 T2) as HV.
  unfold Final. split; [rewrite T1; exact L|].
  exists drop, (car rb zseq (c_rcarry s) (c_rlimb s)). split; [exact Hdrop|].
  rewrite EV, HV.
  set (re := zn (c_rlimb s)) in *.
  assert (Hre0 : 0 <= re) by (unfold re, zn; lia).
  assert (HreR : re < zn rsz) by (unfold re, zn; clear - Hre; lia).
  assert (H1 : 0 <= (zn rsz - re) * rb) by (apply Z.mul_nonneg_nonneg; [clear - HreR; lia|clear - Hrb; lia]).
  assert (H2 : 0 <= re * rb) by (apply Z.mul_nonneg_nonneg; [exact Hre0|clear - Hrb; lia]).
  assert (E1 : 2 ^ (g + zn rsz * rb) = 2 ^ g * (2 ^ ((zn rsz - re) * rb) * 2 ^ (re * rb))).
  { rewrite <- pow2_add by assumption. rewrite <- pow2_add by (clear - Hg H1 H2; lia). f_equal. ring. }
  rewrite E1. ring.
Qed.

End NegLoop.

(* Value-level lemmas shared by the C01 / C06 / C19 proofs: sums, the value of a limb list on the torus as a
   scaled integer, congruence modulo 2^P, limb-wise operations when no word wraps. *)
From PV Require Import Base.MachineInt Model.Znx Model.Limbs Model.C08Oracle Model.EncModel Proofs.ListFacts.
Open Scope Z_scope.

Fixpoint sumz (f : nat -> Z) (n : nat) : Z := match n with O => 0 | S m => sumz f m + f m end.

Lemma sumz_ext f g n : (forall j, (j < n)%nat -> f j = g j) -> sumz f n = sumz g n.
Proof. induction n; intros H; cbn [sumz]; [reflexivity|]. rewrite IHn, H by (intros; try apply H; lia). reflexivity. Qed.
Lemma sumz_add f g n : sumz (fun j => f j + g j) n = sumz f n + sumz g n.
Proof. induction n; cbn [sumz]; lia. Qed.
Lemma sumz_sub f g n : sumz (fun j => f j - g j) n = sumz f n - sumz g n.
Proof. induction n; cbn [sumz]; lia. Qed.
Lemma sumz_zero n : sumz (fun _ => 0) n = 0.
Proof. induction n; cbn [sumz]; lia. Qed.
Lemma sumz_zero' f n : (forall j, (j < n)%nat -> f j = 0) -> sumz f n = 0.
Proof. intros H. rewrite (sumz_ext f (fun _ => 0)) by exact H. apply sumz_zero. Qed.
Lemma sumz_shift f n : sumz f (S n) = f O + sumz (fun j => f (S j)) n.
Proof. induction n; [cbn [sumz]; lia|]. cbn [sumz] in *. lia. Qed.
Lemma sumz_single (c : Z) (w : nat -> Z) (ell n : nat) : (ell < n)%nat ->
  sumz (fun j => (if Nat.eqb j ell then c else 0) * w j) n = c * w ell.
Proof.
  induction n; intros H; [lia|]. cbn [sumz].
  destruct (Nat.eq_dec ell n) as [->|Hne].
  - rewrite Nat.eqb_refl. rewrite sumz_zero'; [lia|].
    intros j Hj. destruct (Nat.eqb_spec j n); [lia|]. lia.
  - rewrite IHn by lia. destruct (Nat.eqb_spec n ell); [lia|]. lia.
Qed.
Lemma sumz_le_split f n m : (m <= n)%nat -> (forall j, (m <= j < n)%nat -> f j = 0) -> sumz f n = sumz f m.
Proof.
  induction n; intros Hm H.
  - replace m with O by lia. reflexivity.
  - destruct (Nat.eq_dec m (S n)) as [->|]; [reflexivity|].
    cbn [sumz]. rewrite H by lia. rewrite IHn by (try lia; intros; apply H; lia). lia.
Qed.

Definition wt (P b : Z) (j : nat) : Z := 2 ^ (P - (zn j + 1) * b).
(* value of the first n limbs of l (missing limbs are 0), scaled by 2^P *)
Definition lval (P b : Z) (n : nat) (l : list Z) : Z := sumz (fun j => nthZ l j * wt P b j) n.

Lemma val_scaled_aux (P b : Z) (l : list Z) : forall (acc : Z) (i : nat),
  fold_left (fun (s : Z * Z) x => (fst s + x * 2 ^ (P - (snd s + 1) * b), snd s + 1)) l (acc, zn i)
  = (acc + sumz (fun j => nthZ l j * wt P b (i + j)) (length l), zn (i + length l)).
Proof.
  induction l as [|x t IH]; intros acc i.
  - cbn [fold_left length sumz]. unfold zn. f_equal; lia.
  - cbn [fold_left fst snd]. replace (zn i + 1) with (zn (S i)) by (unfold zn; lia).
    rewrite IH. cbn [length]. rewrite sumz_shift. f_equal.
    + unfold nthZ at 2. cbn [nth]. unfold wt at 2. replace (zn (i + 0) + 1) with (zn (S i)) by (unfold zn; lia).
      replace (zn (S i)) with (zn i + 1) by (unfold zn; lia).
      assert (E : sumz (fun j => nthZ t j * wt P b (S i + j)) (length t) =
                  sumz (fun j => nthZ (x :: t) (S j) * wt P b (i + S j)) (length t)).
      { apply sumz_ext. intros j _. unfold nthZ. cbn [nth]. replace (S i + j)%nat with (i + S j)%nat by lia. reflexivity. }
      rewrite E. lia.
    + f_equal. lia.
Qed.

Lemma val_scaled_lval (P b : Z) (l : list Z) : val_scaled P b l = lval P b (length l) l.
Proof.
  unfold val_scaled, lval. change 0 with (zn O) at 2. rewrite val_scaled_aux. cbn [fst]. reflexivity.
Qed.

Lemma lval_more (P b : Z) (n : nat) (l : list Z) : (length l <= n)%nat -> lval P b n l = lval P b (length l) l.
Proof. intros H. unfold lval. apply sumz_le_split; [lia|]. intros j Hj. rewrite nthZ_overflow by lia. lia. Qed.

(* the value of a plaintext as far as it fits into n limbs *)
Lemma lval_firstn (P b : Z) (n : nat) (l : list Z) : val_scaled P b (firstn n l) = lval P b n l.
Proof.
  rewrite val_scaled_lval. rewrite firstn_length.
  unfold lval. rewrite (sumz_le_split (fun j => nthZ l j * wt P b j) n (Nat.min n (length l))); [|lia|].
  - apply sumz_ext. intros j Hj. rewrite nthZ_firstn by lia. reflexivity.
  - intros j Hj. rewrite nthZ_overflow by lia. lia.
Qed.

Lemma lmk_length sz f : length (lmk sz f) = sz.
Proof. apply map_seq_length. Qed.
Lemma nth_lmk sz f j : (j < sz)%nat -> nthZ (lmk sz f) j = f j.
Proof. apply nthZ_map_seq. Qed.
Lemma lval_lmk P b sz f : lval P b sz (lmk sz f) = sumz (fun j => f j * wt P b j) sz.
Proof. unfold lval. apply sumz_ext. intros j Hj. rewrite nth_lmk by lia. reflexivity. Qed.
Lemma lval_zeros P b n k : lval P b n (zeros k) = 0.
Proof. unfold lval. apply sumz_zero'. intros. rewrite nthZ_zeros. lia. Qed.

Definition optval (P b : Z) (n : nat) (m : option (list Z)) : Z := match m with Some p => lval P b n p | None => 0 end.

Lemma tor_abs_shift (P x q : Z) : 1 <= P -> tor_abs P (x + q * 2 ^ P) = tor_abs P x.
Proof.
  intros HP. unfold tor_abs. f_equal. apply wrap_eq_mod; [lia|].
  apply Z_mod_plus_full.
Qed.
Lemma tor_abs_zero_cong (P z : Z) : 1 <= P -> tor_abs P z = 0 -> exists q, z = q * 2 ^ P.
Proof.
  intros HP H. unfold tor_abs in H. destruct (wrap_exists P z HP) as [q Hq].
  exists q. lia.
Qed.
Lemma tor_abs_multiple (P q : Z) : 1 <= P -> tor_abs P (q * 2 ^ P) = 0.
Proof.
  intros HP. replace (q * 2 ^ P) with (0 + q * 2 ^ P) by lia. rewrite tor_abs_shift by lia.
  unfold tor_abs. rewrite wrap_id; [reflexivity|lia|]. unfold in_range.
  pose proof (pow2_pos (P - 1) ltac:(lia)). lia.
Qed.

(* The last step of every round trip: the decrypted limbs are within B of the phase, and the phase is message + error
   modulo 2^P. *)
Lemma roundtrip_of_phase (P v phase m err q B : Z) : 1 <= P -> phase = m + err + q * 2 ^ P ->
  tor_abs P (v - phase) <= B -> tor_abs P (v - m - err) <= B.
Proof.
  intros HP -> H. replace (v - m - err) with (v - (m + err + q * 2 ^ P) + q * 2 ^ P) by ring.
  rewrite tor_abs_shift by exact HP. exact H.
Qed.

Definition bnd (B : Z) (l : list Z) : Prop := forall j, Z.abs (nthZ l j) <= B.

Lemma bnd_of_Forall B l : 0 <= B -> Forall (fun x => Z.abs x <= B) l -> bnd B l.
Proof.
  intros HB HF j. destruct (Nat.lt_ge_cases j (length l)).
  - rewrite Forall_forall in HF. apply HF. unfold nthZ. apply nth_In. lia.
  - rewrite nthZ_overflow by lia. lia.
Qed.
Lemma Forall_of_bnd B l : bnd B l -> Forall (fun x => Z.abs x <= B) l.
Proof.
  intros H. rewrite Forall_forall. intros x Hx. destruct (In_nth l x 0 Hx) as [j [Hj <-]]. apply (H j).
Qed.
Lemma bnd_in_range b l : 1 <= b -> Forall (in_range b) l -> bnd (2 ^ (b - 1)) l.
Proof.
  intros Hb HF. apply bnd_of_Forall; [pose proof (pow2_pos (b - 1) ltac:(lia)); lia|].
  eapply Forall_impl; [|exact HF]. unfold in_range. intros; lia.
Qed.
Lemma bnd_weaken B B' l : B <= B' -> bnd B l -> bnd B' l.
Proof. intros H Hb j. specialize (Hb j). lia. Qed.
Lemma bnd_zeros k : bnd 0 (zeros k).
Proof. intros j. rewrite nthZ_zeros. lia. Qed.

Lemma wrap_small (w x : Z) : 1 <= w -> Z.abs x <= 2 ^ (w - 1) - 1 -> wrap w x = x.
Proof. intros Hw H. apply wrap_id; [lia|]. unfold in_range. lia. Qed.

Section NoWrap.
Variable w : Z.
Hypothesis Hw : 1 <= w.

Lemma l_sub_assign_value (size : nat) (a r : list Z) (A R : Z) : length r = size -> length a = size ->
  bnd A a -> bnd R r -> A + R <= 2 ^ (w - 1) - 1 ->
  length (l_sub_assign w a r) = size /\ bnd (A + R) (l_sub_assign w a r) /\
  forall P b, lval P b size (l_sub_assign w a r) = lval P b size r - lval P b size a.
Proof.
  intros Lr La Ha Hr HB. unfold l_sub_assign. rewrite Lr, La.
  assert (E : forall j, (j < size)%nat ->
              nthZ (lmk size (fun j => if Nat.ltb j size then wsub w (nthZ r j) (nthZ a j) else nthZ r j)) j
              = nthZ r j - nthZ a j).
  { intros j H. rewrite nth_lmk by lia. destruct (Nat.ltb_spec j size); [|lia].
    unfold wsub. apply wrap_small; [lia|]. specialize (Ha j). specialize (Hr j). lia. }
  split; [apply lmk_length|]. split.
  - intros j. destruct (Nat.lt_ge_cases j size).
    + rewrite E by lia. specialize (Ha j). specialize (Hr j). lia.
    + rewrite nthZ_overflow by (rewrite lmk_length; lia). specialize (Ha j). specialize (Hr j). lia.
  - intros P b. unfold lval. rewrite <- sumz_sub. apply sumz_ext. intros j Hj. rewrite E by lia. ring.
Qed.

(* the added list may be shorter or longer than the accumulator *)
Lemma l_add_assign_value (size : nat) (a r : list Z) (A R : Z) : length r = size -> bnd A a -> bnd R r ->
  A + R <= 2 ^ (w - 1) - 1 ->
  length (l_add_assign w a r) = size /\ bnd (A + R) (l_add_assign w a r) /\
  forall P b, lval P b size (l_add_assign w a r) = lval P b size r + lval P b size a.
Proof.
  intros Lr Ha Hr HB. unfold l_add_assign. rewrite Lr.
  assert (E : forall j, (j < size)%nat ->
              nthZ (lmk size (fun j => if Nat.ltb j (length a) then wadd w (nthZ r j) (nthZ a j) else nthZ r j)) j
              = nthZ r j + nthZ a j).
  { intros j H. rewrite nth_lmk by lia. destruct (Nat.ltb_spec j (length a)).
    - unfold wadd. apply wrap_small; [lia|]. specialize (Ha j). specialize (Hr j). lia.
    - rewrite (nthZ_overflow a) by lia. lia. }
  split; [apply lmk_length|]. split.
  - intros j. destruct (Nat.lt_ge_cases j size).
    + rewrite E by lia. specialize (Ha j). specialize (Hr j). lia.
    + rewrite nthZ_overflow by (rewrite lmk_length; lia). specialize (Ha j). specialize (Hr j). lia.
  - intros P b. unfold lval. rewrite <- sumz_add. apply sumz_ext. intros j Hj. rewrite E by lia. ring.
Qed.

(* the optional plaintext of an encryption routine *)
Lemma add_opt_value (size : nat) (m : option (list Z)) (r : list Z) (M R : Z) : length r = size ->
  (forall p, m = Some p -> bnd M p) -> 0 <= M -> bnd R r -> M + R <= 2 ^ (w - 1) - 1 ->
  let r' := match m with Some p => l_add_assign w p r | None => r end in
  length r' = size /\ bnd (M + R) r' /\ forall P b, lval P b size r' = lval P b size r + optval P b size m.
Proof.
  intros Hl Hm HM Hr HB. destruct m as [p|]; cbv zeta; cbn [optval].
  - apply l_add_assign_value; [exact Hl|apply Hm; reflexivity|exact Hr|exact HB].
  - split; [exact Hl|]. split; [eapply bnd_weaken; [|exact Hr]; lia|]. intros; lia.
Qed.

Lemma l_add_at_value (size ell : nat) (e : Z) (r : list Z) (E R : Z) : length r = size -> (ell < size)%nat ->
  Z.abs e <= E -> bnd R r -> E + R <= 2 ^ (w - 1) - 1 ->
  length (l_add_at w ell e r) = size /\ bnd (E + R) (l_add_at w ell e r) /\
  forall P b, lval P b size (l_add_at w ell e r) = lval P b size r + e * wt P b ell.
Proof.
  intros Hl Hell He Hr HB. unfold l_add_at. rewrite Hl.
  assert (Eq : forall j, (j < size)%nat ->
              nthZ (lmk size (fun j => if Nat.eqb j ell then wadd w (nthZ r j) e else nthZ r j)) j
              = nthZ r j + (if Nat.eqb j ell then e else 0)).
  { intros j H. rewrite nth_lmk by lia. destruct (Nat.eqb j ell); [|lia].
    unfold wadd. apply wrap_small; [lia|]. specialize (Hr j). lia. }
  split; [apply lmk_length|]. split.
  - intros j. destruct (Nat.lt_ge_cases j size).
    + rewrite Eq by lia. specialize (Hr j). destruct (Nat.eqb j ell); lia.
    + rewrite nthZ_overflow by (rewrite lmk_length; lia). specialize (Hr j). lia.
  - intros P b. unfold lval. rewrite <- (sumz_single e (wt P b) ell size Hell), <- sumz_add.
    apply sumz_ext. intros j Hj. rewrite Eq by lia. lia.
Qed.

End NoWrap.

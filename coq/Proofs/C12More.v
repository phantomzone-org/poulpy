(* C12 - glwe_automorphism_add (and _sub / _sub_negate, same takes), vmp_apply_dft, glwe_trace / glwe_trace_assign and
   glwe_mul_const. *)
From PV Require Import Base.MachineInt Model.C12Scratch Gen.C12TmpBytes_gen Model.C12Trees
  Proofs.C12Arena Proofs.C12Hal Proofs.C12Core Proofs.C12KeySwitch.
Open Scope Z_scope.

Section More.
  Variables fam n : Z.
  Hypothesis Hf : is_fam fam.
  Hypothesis Hn0 : 0 <= n.
  Hypothesis Hn8 : n mod 8 = 0.

  (* vmp_apply_dft (hal_impl_family_common!): a VecZnxDft temporary, then vmp_apply_dft_to_dft *)
  Lemma suffices_vmp_apply_dft (res_size a_size rows cols_in cols_out size : Z) :
    0 <= a_size -> 0 <= rows -> 0 <= cols_in ->
    run_takes (t_vmp_apply_dft fam n a_size rows cols_in)
              (0, halimpl_vmp_apply_dft_tmp_bytes fam n res_size a_size rows cols_in cols_out size) <> None.
  Proof using Hf Hn0 Hn8.
    intros Ha Hr Hc.
    pose proof (budget_vmp fam n Hf Hn0 Hn8 res_size (Z.min a_size rows) rows cols_in cols_out size ltac:(lia) Hr Hc) as Bv.
    pose proof (al_dft fam n Hf Hn0 Hn8 cols_in (Z.min a_size rows) Hc ltac:(lia)) as HD. pose proof (budget_nonneg _ _ Bv).
    apply budget_suffices; unfold t_vmp_apply_dft, halimpl_vmp_apply_dft_tmp_bytes, hal_bytes_of_vec_znx_dft in *; cbv zeta; cbn [budget persist].
    leaves. eapply budget_mono; [exact Bv | lia].
  Qed.

  (* the key-switch scratch is at least the DFT copy of the input *)
  Lemma ks_internal_lower (r a key : infos) : wf_infos key -> 0 <= i_size a -> 0 <= i_rank a ->
    hal_bytes_of_vec_znx_dft fam n (i_rank a) (i_size a) <= glwe_keyswitch_internal_tmp_bytes fam n r a key.
  Proof using Hf Hn0 Hn8.
    intros (Hb & Hsz & Hr & Hri & Hdn & Hds) Ha Hra.
    unfold glwe_keyswitch_internal_tmp_bytes, gglwe_product_dft_tmp_bytes. cbv zeta.
    replace (i_rank a + 1 - 1) with (i_rank a) by lia.
    destruct (Z.eqb_spec (i_dsize key) 1).
    - pose proof (nn_vmp fam n Hf Hn0 Hn8 (i_size r) (i_size a) (i_dnum key) (i_rank_in key) (i_rank key + 1) (i_size key) Ha Hdn Hri). lia.
    - set (a' := Z.min (div_ceil (i_size a) (i_dsize key)) (i_dnum key)).
      assert (0 <= a') by (unfold a'; pose proof (div_ceil_nonneg (i_size a) (i_dsize key) Ha ltac:(lia)); lia).
      pose proof (nn_vmp fam n Hf Hn0 Hn8 (i_size r) a' (i_dnum key) (i_rank_in key) (i_rank key + 1) (i_size key) ltac:(lia) Hdn Hri).
      pose proof (al_dft fam n Hf Hn0 Hn8 (i_rank_in key) a' Hri ltac:(lia)).
      pose proof (al_dft fam n Hf Hn0 Hn8 (i_rank key + 1) (i_size key) ltac:(lia) Hsz). lia.
  Qed.

  (* glwe_automorphism_add / _sub / _sub_negate: key-switch into res_dft, then vec_znx_big_automorphism_assign and
     vec_znx_big_normalize per column, in the cross-radix branch beside the re-normalised copy of the input *)
  Lemma automorphism_add_spec (res a key : infos) :
    wf_infos res -> wf_infos a -> wf_infos key -> i_n a = n -> i_rank a = i_rank_in key ->
    budget (tree_glwe_automorphism_add fam n res a key) (glwe_automorphism_tmp_bytes fam n res a key).
  Proof using Hf Hn0 Hn8.
    intros Hres Ha Hk Hna Hrk.
    assert (Hrr : 0 <= i_rank res) by (destruct Hres as (_&_&?&_); lia).
    assert (Has : 0 <= i_size a) by (destruct Ha as (_&?&_); lia).
    assert (Hks : 0 <= i_size key) by (destruct Hk as (_&?&_); lia).
    pose proof (budget_big_normalize fam n Hf Hn0 Hn8) as Bb.
    pose proof (nn_norm fam n Hf Hn0 Hn8). pose proof (nn_bnorm fam n Hf Hn0 Hn8).
    (* the automorphism on the big accumulator needs no more than its normalisation *)
    assert (Ba : budget (t_big_automorphism_assign fam n) (hal_vec_znx_big_normalize_tmp_bytes fam n)).
    { eapply budget_mono; [apply (budget_big_automorphism_assign fam n Hf Hn0 Hn8)|].
      autounfold with c12gen. destruct Hf as [-> | ->]; cbn [Z.eqb]; lia. }
    pose proof (al_dft fam n Hf Hn0 Hn8 (i_rank res + 1) (i_size key) ltac:(lia) Hks) as HD0.
    pose proof (glwe_normalize_spec fam n Hf Hn0 Hn8 (i_rank a + 1)) as Bgn.
    unfold tree_glwe_automorphism_add, glwe_automorphism_tmp_bytes, glwe_keyswitch_tmp_bytes; cbv zeta.
    destruct (Z.eqb_spec (i_base2k a) (i_base2k key)) as [E|E]; cbn [negb].
    - pose proof (ks_internal_spec fam n Hf Hn0 Hn8 a key Hk Has Hrk) as Bi.
      rewrite (ks_internal_res_indep fam n Hf Hn0 Hn8 res key a key).
      pose proof (budget_nonneg _ _ Bi). cbn [budget persist]. leaves.
      all: eapply budget_mono; [eassumption | lia].
    - destruct (conv_layout_facts fam n Hf Hn0 Hn8 a key Ha Hk Hna) as (Hcs & Hcr & Hcb & Hc0 & Hc64).
      fold (conv_layout a key).
      pose proof (ks_internal_spec fam n Hf Hn0 Hn8 (conv_layout a key) key Hk Hcs ltac:(lia)) as Bi.
      rewrite (ks_internal_res_indep fam n Hf Hn0 Hn8 res key (conv_layout a key) key).
      pose proof (budget_nonneg _ _ Bi). rewrite Hcb. unfold t_take_glwe. cbn [budget persist]. leaves.
      all: eapply budget_mono; [eassumption | lia].
  Qed.

  Lemma suffices_glwe_automorphism_add (res a key : infos) :
    wf_infos res -> wf_infos a -> wf_infos key -> i_n a = n -> i_rank a = i_rank_in key ->
    run_takes (tree_glwe_automorphism_add fam n res a key) (0, glwe_automorphism_tmp_bytes fam n res a key) <> None.
  Proof using Hf Hn0 Hn8. intros. apply budget_suffices, automorphism_add_spec; assumption. Qed.

  Lemma rsh_spec (res : infos) : budget (tree_glwe_rsh fam n res) (glwe_shift_tmp_bytes fam n).
  Proof using Hf Hn0 Hn8.
    pose proof (budget_rsh fam n Hf Hn0 Hn8) as Br. pose proof (budget_nonneg _ _ Br).
    unfold tree_glwe_rsh, glwe_shift_tmp_bytes. cbn [budget persist]. split; [lia|]. eapply budget_mono; [exact Br | lia].
  Qed.

  Lemma trace_assign_same_spec (res key : infos) (steps : Z) :
    wf_infos res -> wf_infos key -> i_n res = n -> i_rank res = i_rank_in key ->
    budget (t_glwe_trace_assign_same fam n res key steps) (glwe_trace_assign_same_radix_tmp_bytes fam n res key).
  Proof using Hf Hn0 Hn8.
    intros Hres Hk Hn Hrk.
    pose proof (rsh_spec res) as Br. pose proof (automorphism_add_spec res res key Hres Hres Hk Hn Hrk) as Ba.
    pose proof (budget_nonneg _ _ Br). pose proof (budget_nonneg _ _ Ba).
    unfold t_glwe_trace_assign_same, glwe_trace_assign_same_radix_tmp_bytes. cbn [budget persist]. leaves.
    all: eapply budget_mono; [eassumption | lia].
  Qed.

  (* a temporary GLWE in the radix of the keys *)
  Lemma key_radix_layout_facts (nn k rank : Z) (key : infos) : wf_infos key -> nn = n -> 0 <= k -> 0 <= rank ->
    let c := mk_glwe_layout nn (i_base2k key) k rank in
    wf_infos c /\ i_n c = n /\ i_rank c = rank /\ i_base2k c = i_base2k key /\
    GLWE_bytes_of_from_infos c = VecZnx_bytes_of (i_n c) (i_rank c + 1) (i_size c) /\
    0 <= VecZnx_bytes_of (i_n c) (i_rank c + 1) (i_size c) /\ VecZnx_bytes_of (i_n c) (i_rank c + 1) (i_size c) mod 64 = 0.
  Proof using Hf Hn0 Hn8.
    intros (Hkb & _) -> Hk Hr c.
    assert (Hs : 0 <= i_size c) by (unfold c, mk_glwe_layout; cbn [i_size]; apply div_ceil_nonneg; lia).
    split; [unfold wf_infos, c, mk_glwe_layout in *; cbn [i_base2k i_size i_rank i_rank_in i_dnum i_dsize] in *; lia|].
    split; [reflexivity|]. split; [reflexivity|]. split; [reflexivity|]. split.
    - unfold GLWE_bytes_of_from_infos, GLWE_bytes_of, i_max_k. f_equal.
      replace (i_base2k c) with (i_base2k key) by reflexivity. apply div_ceil_mul; lia.
    - change (i_n c) with n. change (i_rank c) with rank. apply (al_vec_znx fam n Hf Hn0 Hn8); lia.
  Qed.

  Lemma trace_spec (res a key : infos) (steps : Z) :
    wf_infos res -> wf_infos a -> wf_infos key -> i_n res = n -> i_rank res = i_rank_in key ->
    budget (tree_glwe_trace fam n res a key steps) (glwe_trace_tmp_bytes fam n res a key).
  Proof using Hf Hn0 Hn8.
    intros Hres Ha Hk Hn Hrk.
    assert (Hmk : 0 <= Z.max (i_max_k a) (i_max_k res)).
    { destruct Hres as (?&?&_). unfold i_max_k. assert (0 <= i_size res * i_base2k res) by nia. lia. }
    assert (Hrr : 0 <= i_rank res) by (destruct Hres as (_&_&?&_); lia).
    destruct (key_radix_layout_facts (i_n res) (Z.max (i_max_k a) (i_max_k res)) (i_rank res) key Hk Hn Hmk Hrr)
      as (Wt & Nt & Rt & Bt & Hcb & Hc0 & Hc64).
    fold (tmp_layout res a key) in *.
    pose proof (trace_assign_same_spec (tmp_layout res a key) key steps Wt Hk Nt ltac:(lia)) as Bs.
    pose proof (glwe_normalize_spec fam n Hf Hn0 Hn8 (i_rank res + 1)) as Bgn.
    pose proof (budget_nonneg _ _ Bs). pose proof (budget_nonneg _ _ Bgn).
    unfold tree_glwe_trace, glwe_trace_tmp_bytes, t_take_glwe; cbv zeta; fold (tmp_layout res a key); rewrite Hcb.
    destruct (negb (i_base2k a =? i_base2k key)); destruct (negb (i_base2k res =? i_base2k key)); cbn [budget persist].
    all: leaves.
    all: eapply budget_mono; [eassumption | lia].
  Qed.

  Lemma suffices_glwe_trace (res a key : infos) (steps : Z) :
    wf_infos res -> wf_infos a -> wf_infos key -> i_n res = n -> i_rank res = i_rank_in key ->
    run_takes (tree_glwe_trace fam n res a key steps) (0, glwe_trace_tmp_bytes fam n res a key) <> None.
  Proof using Hf Hn0 Hn8. intros. apply budget_suffices, trace_spec; assumption. Qed.

  (* the formula reads only n, base2k, size and rank of a GLWE description *)
  Lemma same_radix_bytes_ext (r r' key : infos) :
    i_n r = i_n r' -> i_base2k r = i_base2k r' -> i_size r = i_size r' -> i_rank r = i_rank r' ->
    glwe_trace_assign_same_radix_tmp_bytes fam n r key = glwe_trace_assign_same_radix_tmp_bytes fam n r' key.
  Proof using Hf Hn0 Hn8.
    intros H1 H2 H3 H4.
    unfold glwe_trace_assign_same_radix_tmp_bytes, glwe_automorphism_tmp_bytes, glwe_keyswitch_tmp_bytes,
      glwe_keyswitch_internal_tmp_bytes, GLWE_bytes_of_from_infos, GLWE_bytes_of, i_max_k. cbv zeta.
    rewrite H1, H2, H3, H4. reflexivity.
  Qed.

  Lemma suffices_glwe_trace_assign (res key : infos) (steps : Z) :
    wf_infos res -> wf_infos key -> i_n res = n -> i_rank res = i_rank_in key ->
    run_takes (tree_glwe_trace_assign fam n res key steps) (0, glwe_trace_tmp_bytes fam n res res key) <> None.
  Proof using Hf Hn0 Hn8.
    intros Hres Hk Hn Hrk.
    assert (Hmk : 0 <= i_max_k res).
    { destruct Hres as (?&?&_). unfold i_max_k. nia. }
    assert (Hrr : 0 <= i_rank res) by (destruct Hres as (_&_&?&_); lia).
    destruct (key_radix_layout_facts (i_n res) (i_max_k res) (i_rank res) key Hk Hn Hmk Hrr) as (Wt & Nt & Rt & Bt & Hcb & Hc0 & Hc64).
    fold (conv_layout res key) in *.
    pose proof (glwe_normalize_spec fam n Hf Hn0 Hn8 (i_rank res + 1)) as Bgn. pose proof (budget_nonneg _ _ Bgn).
    assert (Htl : mk_glwe_layout (i_n res) (i_base2k key) (Z.max (i_max_k res) (i_max_k res)) (i_rank res) = conv_layout res key)
      by (unfold conv_layout; rewrite Z.max_id; reflexivity).
    apply budget_suffices. unfold tree_glwe_trace_assign, glwe_trace_tmp_bytes; cbv zeta. rewrite Htl, Hcb.
    destruct (Z.eqb_spec (i_base2k res) (i_base2k key)) as [E|E]; cbn [negb].
    - (* same radix: the formula still contains a temporary that is not needed *)
      pose proof (trace_assign_same_spec res key steps Hres Hk Hn Hrk) as Bs.
      assert (Heq : glwe_trace_assign_same_radix_tmp_bytes fam n (conv_layout res key) key = glwe_trace_assign_same_radix_tmp_bytes fam n res key).
      { apply same_radix_bytes_ext; try reflexivity.
        - cbn [conv_layout mk_glwe_layout i_base2k]. congruence.
        - unfold conv_layout, mk_glwe_layout, i_max_k; cbn [i_size]. rewrite <- E. apply div_ceil_mul. destruct Hres as (?&_). lia. }
      eapply budget_mono; [exact Bs | lia].
    - pose proof (trace_assign_same_spec (conv_layout res key) key steps Wt Hk Nt ltac:(lia)) as Bs. pose proof (budget_nonneg _ _ Bs).
      unfold t_take_glwe. cbn [budget persist]. leaves.
      all: eapply budget_mono; [eassumption | lia].
  Qed.

  Lemma suffices_glwe_mul_const (res a : infos) (b_len cnv_offset : Z) :
    wf_infos res -> wf_infos a -> 1 <= i_size a -> 1 <= b_len -> 0 <= cnv_offset ->
    (if cnv_offset <? i_base2k a then 0 else Z.max 0 (cnv_offset / i_base2k a - 1)) <= i_size a + b_len ->
    run_takes (tree_glwe_mul_const fam n res a b_len cnv_offset) (0, glwe_mul_const_tmp_bytes fam n res a b_len) <> None.
  Proof using Hf Hn0 Hn8.
    intros Hres Ha Has Hb Hc Hhi.
    assert (Hrr : 0 <= i_rank res) by (destruct Hres as (_&_&?&_); lia).
    set (hi := if cnv_offset <? i_base2k a then 0 else Z.max 0 (cnv_offset / i_base2k a - 1)) in *.
    assert (Hhi0 : 0 <= hi) by (unfold hi; destruct (cnv_offset <? i_base2k a); lia).
    set (rds := i_size a + b_len - hi).
    pose proof (budget_big_normalize fam n Hf Hn0 Hn8) as Bb. pose proof (nn_bnorm fam n Hf Hn0 Hn8).
    pose proof (al_big fam n Hf Hn0 Hn8 1 rds ltac:(lia) ltac:(unfold rds; lia)) as HB.
    pose proof (big_mono fam n Hf Hn0 Hn8 1 (i_size a + b_len) rds ltac:(lia) ltac:(unfold rds; lia)) as HBm.
    assert (Bc : budget (t_cnv_by_const_apply fam rds (i_size a) b_len)
                   (api_cnv_by_const_apply_tmp_bytes fam n (Z.max (i_size a) b_len) (i_size a + b_len) (i_size a) b_len)).
    { unfold t_cnv_by_const_apply, take_words. autounfold with c12gen.
      destruct Hf as [-> | ->]; cbn [Z.eqb budget]; unfold rds; lia. }
    pose proof (budget_nonneg _ _ Bc).
    apply budget_suffices; unfold tree_glwe_mul_const, glwe_mul_const_tmp_bytes; cbv zeta; fold hi; fold rds; cbn [budget persist].
    leaves.
    all: eapply budget_mono; [eassumption | lia].
  Qed.
End More.

Definition inf0 (n b2k size rank : Z) : infos := mkInfos n b2k size rank rank 0 1.

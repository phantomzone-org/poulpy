(* C08 encoding, flat layer: the encoders rewrite the active limbs of ONE column (the coefficient form: ONE coefficient of
   them) and nothing else; reading the column back gives the per-coefficient encodings. *)
From PV Require Import Base.MachineInt Model.Znx Model.Limbs Model.Flat Model.C08Encode Proofs.C11Frame Proofs.C11Read.
From Coq Require Import Arith PeanoNat.
Open Scope nat_scope.

Lemma e_in_col_eq n cols size col idx : e_in_col n cols size col idx = in_col n cols size col idx.
Proof. reflexivity. Qed.

Lemma e_ok_facts s buf : e_ok s buf = true ->
  s_col s < s_cols s /\ s_size s <= s_max s /\ length buf = s_n s * s_cols s * s_max s /\ 1 <= s_n s /\ 1 <= s_size s.
Proof.
  unfold e_ok. intros H. apply andb_prop in H as [H H3]. apply andb_prop in H as [H1 H2].
  apply shape_ok_facts in H1 as (A & B & C). apply Nat.leb_le in H2, H3. auto.
Qed.

Lemma limb_bound n cols max col j : col < cols -> j < max -> n * (j * cols + col) + n <= n * cols * max.
Proof. intros Hc Hj. assert (j * cols + col + 1 <= cols * max) by nia. nia. Qed.

Theorem enc_vec_flat_frame coef allow0 b k s buf data buf' :
  enc_vec_flat coef allow0 b k s buf data = Some buf' ->
  length buf' = length buf /\
  forall idx d, e_in_col (s_n s) (s_cols s) (s_size s) (s_col s) idx = false -> nth idx buf' d = nth idx buf d.
Proof.
  unfold enc_vec_flat. destruct (_ && _ && _ && _)%bool eqn:Hc; [|discriminate].
  intros H; inversion H; subst buf'; clear H.
  apply andb_prop in Hc as [Hc _]. apply andb_prop in Hc as [Hc _]. apply andb_prop in Hc as [Hc _].
  apply e_ok_facts in Hc as (A & B & C & D & E).
  apply write_col_frame; try lia.
  - rewrite untranspose_length. lia.
  - rewrite C. nia.
Qed.

(* a run of single-word writes at pairwise distinct in-bounds offsets *)
Lemma word_writes (off : nat -> nat) (x : nat -> Z) (m : nat) (buf : list Z) :
  (forall j, j < m -> off j < length buf) ->
  (forall i j, i < m -> j < m -> i <> j -> off i <> off j) ->
  let r := fold_left (fun d j => write_at d (off j) [x j]) (seq 0 m) buf in
  length r = length buf /\
  (forall pos d, (forall j, j < m -> pos <> off j) -> nth pos r d = nth pos buf d) /\
  (forall j d, j < m -> nth (off j) r d = x j).
Proof.
  intros Hb Hinj. cbv zeta. induction m as [|m IH].
  - cbn [seq fold_left]. split; [reflexivity|]. split; [reflexivity|]. intros; lia.
  - rewrite seq_S, fold_left_app. cbn [fold_left Nat.add].
    destruct IH as (L & U & W); [intros; apply Hb; lia | intros; apply Hinj; lia |].
    set (r := fold_left (fun d j => write_at d (off j) [x j]) (seq 0 m) buf) in *.
    assert (Hin : off m + length [x m] <= length r) by (cbn [length]; rewrite L; specialize (Hb m); lia).
    split; [rewrite write_at_length by exact Hin; exact L|]. split.
    + intros pos d Hp. rewrite write_at_nth_outside; [|exact Hin|cbn [length]; specialize (Hp m); lia].
      apply U. intros; apply Hp; lia.
    + intros j d Hj. destruct (Nat.eq_dec j m) as [->|Hne].
      * rewrite <- (Nat.add_0_r (off m)) at 1. apply (write_at_nth_inside r [x m]); [exact Hin|cbn [length]; lia].
      * rewrite write_at_nth_outside; [|exact Hin|cbn [length]; specialize (Hinj j m); lia].
        apply W. lia.
Qed.

Lemma e_off_mod s j idx : idx < s_n s -> e_off s j idx mod s_n s = idx.
Proof.
  intros H. unfold e_off. rewrite Nat.add_comm, Nat.mul_comm, Nat.mod_add by lia. apply Nat.mod_small. exact H.
Qed.

Theorem enc_coeff_flat_frame b k s buf idx v buf' :
  enc_coeff_flat b k s buf idx v = Some buf' ->
  length buf' = length buf /\
  (forall pos d, (forall j, j < s_size s -> pos <> e_off s j idx) -> nth pos buf' d = nth pos buf d) /\
  (forall j, j < s_size s -> nth (e_off s j idx) buf' 0%Z = nthZ (enc_i64 b k (s_size s) v) j).
Proof.
  unfold enc_coeff_flat. destruct (_ && _ && _ && _)%bool eqn:Hc; [|discriminate].
  intros H; inversion H; subst buf'; clear H.
  apply andb_prop in Hc as [Hc _]. apply andb_prop in Hc as [Hc _]. apply andb_prop in Hc as [Hc Hi].
  apply Nat.ltb_lt in Hi. apply e_ok_facts in Hc as (A & B & C & D & E).
  pose proof (word_writes (fun j => e_off s j idx) (fun j => nthZ (enc_i64 b k (s_size s) v) j) (s_size s) buf) as W.
  cbv zeta in W. destruct W as (L & U & Wr).
  - intros j Hj. unfold e_off. rewrite C.
    pose proof (limb_bound (s_n s) (s_cols s) (s_max s) (s_col s) j A ltac:(lia)). lia.
  - intros i j Hi' Hj Hne. unfold e_off.
    destruct (Nat.lt_ge_cases i j) as [Hlt|Hge].
    + assert (i * s_cols s + s_cols s <= j * s_cols s) by nia. nia.
    + assert (j * s_cols s + s_cols s <= i * s_cols s) by nia. nia.
  - split; [exact L|]. split; [exact U|]. intros j Hj. apply Wr. exact Hj.
Qed.

(* in words: outside the column, or at another coefficient index, nothing changes *)
Corollary enc_coeff_flat_others b k s buf idx v buf' :
  enc_coeff_flat b k s buf idx v = Some buf' ->
  forall pos d, e_in_col (s_n s) (s_cols s) (s_size s) (s_col s) pos = false \/ pos mod s_n s <> idx ->
  nth pos buf' d = nth pos buf d.
Proof.
  intros H pos d Hout. pose proof H as H0.
  apply enc_coeff_flat_frame in H as (_ & U & _). apply U. intros j Hj Heq.
  unfold enc_coeff_flat in H0. destruct (_ && _ && _ && _)%bool eqn:Hc; [|discriminate].
  apply andb_prop in Hc as [Hc _]. apply andb_prop in Hc as [Hc _]. apply andb_prop in Hc as [Hc Hi].
  apply Nat.ltb_lt in Hi. apply e_ok_facts in Hc as (A & B & C & D & E).
  destruct Hout as [Ho|Ho].
  - rewrite e_in_col_eq in Ho.
    rewrite (in_col_of_range (s_n s) (s_cols s) (s_size s) (s_col s) j pos) in Ho; [discriminate|lia|exact A|exact Hj|].
    subst pos. unfold e_off. lia.
  - apply Ho. subst pos. apply e_off_mod. exact Hi.
Qed.

Lemma map_nth_seq {A} (l : list A) (d : A) : map (fun i => nth i l d) (seq 0 (length l)) = l.
Proof.
  induction l as [|x t IH]; [reflexivity|]. cbn [length seq map nth]. f_equal.
  rewrite <- seq_shift, map_map. exact IH.
Qed.

Lemma nthZ_map_default (f : list Z -> Z) (cs : list (list Z)) (i : nat) : f [] = 0%Z ->
  nthZ (map f cs) i = f (nth i cs []).
Proof. intros H. unfold nthZ. rewrite <- H. apply map_nth. Qed.

Lemma transpose_untranspose n size (cs : list (list Z)) :
  length cs = n -> (forall c, In c cs -> length c = size) -> transpose n (untranspose size cs) = cs.
Proof.
  intros Hn Hc. unfold transpose, untranspose.
  etransitivity; [|apply (map_nth_seq cs [])]. rewrite Hn. apply map_ext_in.
  intros i Hi. apply in_seq in Hi. rewrite map_map.
  assert (Hci : length (nth i cs []) = size) by (apply Hc; apply nth_In; lia).
  etransitivity; [|apply (map_nth_seq (nth i cs []) 0%Z)]. rewrite Hci. apply map_ext.
  intros j. rewrite (nthZ_map_default (fun c => nthZ c j)); [reflexivity|].
  unfold nthZ. destruct j; reflexivity.
Qed.

(* after encode_vec_*, the active limbs of the column, read per coefficient, are the per-coefficient encodings *)
Theorem enc_vec_flat_coeffs coef allow0 b k s buf data buf' :
  enc_vec_flat coef allow0 b k s buf data = Some buf' ->
  (forall v, In v data -> length (coef (s_size s) v) = s_size s) ->
  e_coeffs s buf' = map (coef (s_size s)) data.
Proof.
  unfold enc_vec_flat. destruct (_ && _ && _ && _)%bool eqn:Hc; [|discriminate].
  intros H Hlen; inversion H; subst buf'; clear H.
  apply andb_prop in Hc as [Hc _]. apply andb_prop in Hc as [Hc _]. apply andb_prop in Hc as [Hc Hd].
  apply Nat.eqb_eq in Hd. apply e_ok_facts in Hc as (A & B & C & D & E).
  unfold e_coeffs. rewrite (write_col_read (s_n s) (s_cols s) (s_size s)); try lia.
  - apply transpose_untranspose; [rewrite map_length; exact Hd|].
    intros c Hin. apply in_map_iff in Hin as (v & <- & Hv). apply Hlen. exact Hv.
  - apply untranspose_length.
  - apply Forall_forall. intros l Hin. unfold untranspose in Hin. apply in_map_iff in Hin as (j & <- & _).
    rewrite !map_length. exact Hd.
  - rewrite C. nia.
Qed.

(* reading one coefficient of the column *)
Lemma e_coeffs_nth s buf idx : idx < s_n s -> s_col s < s_cols s -> s_size s <= s_max s ->
  length buf = s_n s * s_cols s * s_max s ->
  nth idx (e_coeffs s buf) [] = map (fun j => nth (e_off s j idx) buf 0%Z) (seq 0 (s_size s)).
Proof.
  intros Hi Hc Hs Hl. unfold e_coeffs, transpose.
  rewrite (nth_indep _ [] ((fun i => map (fun l => nthZ l i) (col_limbs (s_n s) (s_cols s) (s_size s) buf (s_col s))) 0))
    by (rewrite map_length, seq_length; exact Hi).
  rewrite (map_nth (fun i => map (fun l => nthZ l i) (col_limbs (s_n s) (s_cols s) (s_size s) buf (s_col s)))).
  rewrite seq_nth by exact Hi. cbn [Nat.add].
  unfold col_limbs. rewrite map_map. apply map_ext_in. intros j Hj. apply in_seq in Hj.
  unfold nthZ, limb_at, e_off. rewrite nth_firstn_lt' by exact Hi. rewrite nth_skipn'. reflexivity.
Qed.

Theorem enc_coeff_flat_coeff b k s buf idx v buf' :
  enc_coeff_flat b k s buf idx v = Some buf' ->
  length (enc_i64 b k (s_size s) v) = s_size s ->
  nth idx (e_coeffs s buf') [] = enc_i64 b k (s_size s) v.
Proof.
  intros H Hlen. pose proof H as H0. apply enc_coeff_flat_frame in H as (L & _ & W).
  unfold enc_coeff_flat in H0. destruct (_ && _ && _ && _)%bool eqn:Hc; [|discriminate].
  apply andb_prop in Hc as [Hc _]. apply andb_prop in Hc as [Hc _]. apply andb_prop in Hc as [Hc Hi].
  apply Nat.ltb_lt in Hi. apply e_ok_facts in Hc as (A & B & C & D & E).
  rewrite e_coeffs_nth; [|exact Hi|exact A|exact B|rewrite L; exact C].
  etransitivity; [|apply (map_nth_seq (enc_i64 b k (s_size s) v) 0%Z)]. rewrite Hlen.
  apply map_ext_in. intros j Hj. apply in_seq in Hj. apply W. lia.
Qed.

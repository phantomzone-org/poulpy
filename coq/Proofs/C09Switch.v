(* C09 items 6-7: ring-degree switching (embed / subsample), ring splitting and merging. *)
From PV Require Import Base.MachineInt Model.Znx Model.Limbs Model.Ring Model.Poly
  Proofs.C09Lists Proofs.C09Ring.
Open Scope Z_scope.

Theorem switch_ring_same n_out (r0 a : list Z) :
  length a = n_out -> znx_switch_ring n_out r0 a = a.
Proof. intros H. unfold znx_switch_ring. rewrite H, Nat.eqb_refl. reflexivity. Qed.

Theorem switch_ring_subsample n_out (r0 a : list Z) :
  (n_out < length a)%nat -> znx_switch_ring n_out r0 a = subsample n_out a.
Proof.
  intros H. unfold znx_switch_ring, subsample.
  destruct (Nat.eqb_spec (length a) n_out); [lia|].
  destruct (Nat.ltb_spec n_out (length a)); [reflexivity|lia].
Qed.

Theorem switch_ring_embed n_out (r0 a : list Z) :
  (length a < n_out)%nat -> znx_switch_ring n_out r0 a = embed n_out a.
Proof.
  intros H. unfold znx_switch_ring, embed.
  destruct (Nat.eqb_spec (length a) n_out); [lia|].
  destruct (Nat.ltb_spec n_out (length a)); [lia|reflexivity].
Qed.

(* at equal degree both spec maps are the identity, so the three cases are two *)
Lemma embed_same (a : list Z) : (0 < length a)%nat -> embed (length a) a = a.
Proof.
  intros H. unfold embed. rewrite Nat.div_same by lia.
  apply nthZ_ext; [apply map_seq_length|].
  intros i Hi. rewrite map_seq_length in Hi. rewrite nthZ_map_seq by auto.
  rewrite Nat.mod_1_r, Nat.div_1_r. reflexivity.
Qed.

Lemma subsample_same (a : list Z) : (0 < length a)%nat -> subsample (length a) a = a.
Proof.
  intros H. unfold subsample. rewrite Nat.div_same by lia.
  apply nthZ_ext; [apply map_seq_length|].
  intros i Hi. rewrite map_seq_length in Hi. rewrite nthZ_map_seq by auto.
  rewrite Nat.mul_1_r. reflexivity.
Qed.

Theorem switch_ring_spec n_out (r0 a : list Z) :
  (0 < length a)%nat ->
  znx_switch_ring n_out r0 a = if Nat.leb (length a) n_out then embed n_out a else subsample n_out a.
Proof.
  intros Ha. destruct (Nat.leb_spec (length a) n_out) as [Hle|Hgt].
  - destruct (Nat.eq_dec (length a) n_out) as [He|Hne].
    + rewrite switch_ring_same by auto. subst n_out. symmetry; apply embed_same; auto.
    + apply switch_ring_embed; lia.
  - apply switch_ring_subsample; auto.
Qed.

Lemma embed_length n a : length (embed n a) = n.
Proof. unfold embed. apply map_seq_length. Qed.
Lemma subsample_length m a : length (subsample m a) = m.
Proof. unfold subsample. apply map_seq_length. Qed.

Lemma lnth_build rsz f j : (j < rsz)%nat -> lnth (build rsz f) j = f j.
Proof. intros Hj. unfold lnth, build. apply nth_map_seq; auto. Qed.

Lemma build_length rsz f : length (build rsz f) = rsz.
Proof. unfold build. apply map_seq_length. Qed.

Lemma limbs_ext (l1 l2 : limbs) :
  length l1 = length l2 -> (forall j, (j < length l1)%nat -> lnth l1 j = lnth l2 j) -> l1 = l2.
Proof. intros Hl H. apply (nth_ext l1 l2 [] [] Hl). exact H. Qed.

Lemma build_lnth (a : limbs) : build (length a) (fun j => lnth a j) = a.
Proof.
  apply limbs_ext; [apply build_length|].
  intros j Hj. rewrite build_length in Hj. apply lnth_build; auto.
Qed.

Lemma lnth_overflow (l : limbs) j : (length l <= j)%nat -> lnth l j = [].
Proof. apply nth_overflow. Qed.

(* one limb of one part: coefficients i, i+gap, i+2gap, ... *)
Lemma split_limb w (gap n_s i : nat) (r l : list Z) :
  (0 < n_s)%nat -> (i < gap)%nat -> length l = (gap * n_s)%nat ->
  znx_switch_ring n_s r (if Nat.eqb i 0 then l else znx_rotate w (- Z.of_nat i) l)
  = map (fun t => nthZ l (t * gap + i)) (seq 0 n_s).
Proof.
  intros Hn Hi Hl.
  set (b := if Nat.eqb i 0 then l else znx_rotate w (- Z.of_nat i) l).
  assert (Hlb : length b = (gap * n_s)%nat).
  { unfold b. destruct (Nat.eqb i 0); [auto | rewrite rotate_length; auto]. }
  assert (Hb : forall u, (u + i < gap * n_s)%nat -> nthZ b u = nthZ l (u + i)).
  { intros u Hu. unfold b. destruct (Nat.eqb_spec i 0) as [->|Hne].
    - rewrite Nat.add_0_r. reflexivity.
    - rewrite rotate_nth by lia.
      replace (Z.of_nat u - - Z.of_nat i) with (Z.of_nat (u + i)) by lia.
      apply ext_small. lia. }
  destruct (Nat.eq_dec gap 1) as [Hg1|Hg1].
  - subst gap. assert (i = 0%nat) by lia. subst i.
    rewrite switch_ring_same by lia.
    apply nthZ_ext; [rewrite map_seq_length; lia|].
    intros t Ht. rewrite nthZ_map_seq by lia.
    rewrite Hb by lia. f_equal. lia.
  - rewrite switch_ring_subsample by nia.
    unfold subsample. rewrite Hlb. rewrite Nat.div_mul by lia.
    apply map_seq_ext. intros t Ht. apply Hb. nia.
Qed.

(* the same, against the spec-level image used by the oracle *)
Lemma split_limb_spec w (gap n_s i : nat) (r l : list Z) :
  (0 < n_s)%nat -> (i < gap)%nat -> length l = (gap * n_s)%nat ->
  znx_switch_ring n_s r (if Nat.eqb i 0 then l else znx_rotate w (- Z.of_nat i) l)
  = subsample n_s (monomial_mul w (- Z.of_nat i) l).
Proof.
  intros Hn Hi Hl. rewrite (split_limb w gap) by auto.
  unfold subsample. rewrite monomial_mul_length, Hl, Nat.div_mul by lia.
  apply map_seq_ext. intros t Ht.
  rewrite monomial_mul_nth by nia.
  replace (Z.of_nat (t * gap) - - Z.of_nat i) with (Z.of_nat (t * gap + i)) by lia.
  symmetry. apply ext_small. nia.
Qed.

Lemma zeros_as_map n : zeros n = map (fun _ => 0) (seq 0 n).
Proof.
  apply nthZ_ext; [unfold zeros; rewrite repeat_length, map_seq_length; reflexivity|].
  intros i Hi. unfold zeros in *. rewrite repeat_length in Hi.
  rewrite nthZ_map_seq by auto. unfold nthZ. apply nth_repeat.
Qed.

Theorem merge_is_interleave n (parts : list limbs) (r0 : limbs) :
  vec_merge_rings n parts r0
  = build (length r0) (fun j => interleave n (map (fun p => lnth p j) parts)).
Proof.
  unfold vec_merge_rings, build, interleave. cbv zeta.
  apply map_seq_ext. intros j Hj. rewrite map_length.
  apply map_seq_ext. intros u Hu.
  set (i := (u mod length parts)%nat).
  assert (Hm : nth i (map (fun p => lnth p j) parts) [] = lnth (nth i parts []) j).
  { assert (H0 : lnth [] j = []) by (destruct j; reflexivity).
    rewrite <- H0 at 1. apply (map_nth (fun p => lnth p j)). }
  rewrite Hm.
  destruct (Nat.ltb_spec j (length (nth i parts []))); [reflexivity|].
  rewrite lnth_overflow by auto. symmetry; apply nthZ_overflow; cbn [length]; lia.
Qed.

Theorem split_merge_general w (gap n_s : nat) (a : limbs) (rs : list limbs) (r0 : limbs) :
  (0 < gap)%nat -> (0 < n_s)%nat ->
  (forall j, (j < length a)%nat -> length (lnth a j) = (gap * n_s)%nat) ->
  (forall i, (i < gap)%nat -> (length a <= length (nth i rs []))%nat) ->
  vec_merge_rings (gap * n_s)
     (map (fun i => vec_split_part w n_s i a (nth i rs [])) (seq 0 gap)) r0
  = build (length r0) (fun j => if Nat.ltb j (length a) then lnth a j else zlimb (gap * n_s)).
Proof.
  intros Hg Hn Hla Hrs.
  unfold vec_merge_rings, build. cbv zeta. rewrite map_seq_length.
  apply map_seq_ext. intros j Hj.
  assert (Hpart : forall i, (i < gap)%nat ->
     nth i (map (fun i => vec_split_part w n_s i a (nth i rs [])) (seq 0 gap)) []
     = vec_split_part w n_s i a (nth i rs []))
    by (intros i Hi; apply (nth_map_seq (fun i => vec_split_part w n_s i a (nth i rs []))); auto).
  destruct (Nat.ltb_spec j (length a)) as [Hja|Hja].
  - rewrite (list_as_map_seq (lnth a j)) at 1. rewrite Hla by auto.
    apply map_seq_ext. intros u Hu.
    assert (Hi : (u mod gap < gap)%nat) by (apply Nat.mod_upper_bound; lia).
    rewrite Hpart by auto. unfold vec_split_part at 1. rewrite build_length.
    specialize (Hrs _ Hi).
    destruct (Nat.ltb_spec j (length (nth (u mod gap) rs []))); [|lia].
    unfold vec_split_part. rewrite lnth_build by lia.
    destruct (Nat.ltb_spec j (length a)); [|lia].
    rewrite (split_limb w gap) by auto.
    assert (Ht : (u / gap < n_s)%nat) by (apply Nat.div_lt_upper_bound; lia).
    rewrite nthZ_map_seq by auto.
    f_equal. pose proof (Nat.div_mod u gap ltac:(lia)). lia.
  - unfold zlimb. rewrite zeros_as_map.
    apply map_seq_ext. intros u Hu.
    assert (Hi : (u mod gap < gap)%nat) by (apply Nat.mod_upper_bound; lia).
    rewrite Hpart by auto. unfold vec_split_part at 1. rewrite build_length.
    destruct (Nat.ltb_spec j (length (nth (u mod gap) rs []))); [|reflexivity].
    unfold vec_split_part. rewrite lnth_build by lia.
    destruct (Nat.ltb_spec j (length a)); [lia|].
    apply nthZ_zeros.
Qed.

Theorem split_merge_roundtrip w (gap n_s : nat) (a : limbs) (rs : list limbs) (r0 : limbs) :
  (0 < gap)%nat -> (0 < n_s)%nat ->
  (forall j, (j < length a)%nat -> length (lnth a j) = (gap * n_s)%nat) ->
  (forall i, (i < gap)%nat -> (length a <= length (nth i rs []))%nat) ->
  length r0 = length a ->
  vec_merge_rings (gap * n_s)
     (map (fun i => vec_split_part w n_s i a (nth i rs [])) (seq 0 gap)) r0 = a.
Proof.
  intros Hg Hn Hla Hrs Hl. rewrite split_merge_general by auto.
  rewrite Hl. transitivity (build (length a) (fun j => lnth a j)); [|apply build_lnth].
  unfold build. apply map_seq_ext. intros j Hj.
  destruct (Nat.ltb_spec j (length a)); [reflexivity|lia].
Qed.


(* C16 — value semantics over the exact phase model.

   A ciphertext with metadata (log_delta, log_budget) whose phase (decryption without noise) is the torus element p
   stands for the message  value = p * 2^log_budget.  The GLWE layer is taken in its exact form (C02 / C08): a left
   shift by s bits multiplies the phase by 2^s, add / sub / negate act on phases, a tensor product with convolution
   offset c yields the product of the phases times 2^c, a right shift by s divides by 2^s.  Truncation to the
   destination's last limb, noise and wrap-around are outside this file: they are what the envelope of
   Model/C16Oracle.v measures.  What is proved here is that the *shift amounts* the CKKS layer hands to the GLWE layer
   (the log of `meta_step`) are exactly the ones that make the resulting metadata tell the truth about the value. *)
From Coq Require Import QArith Qpower ZifyBool.
From PV Require Import Base.MachineInt Model.C16Meta Model.C16Spec.
Open Scope Z_scope.

Definition two : Q := 2 # 1.
Definition valQ (p : Q) (l : Z) : Q := (p * two ^ l)%Q.

Lemma two_nz : ~ (two == 0)%Q.
Proof. unfold two, Qeq; cbn; lia. Qed.

(* shifting the phase by s bits while the budget drops by s keeps the value *)
Lemma valQ_shift (p : Q) (s l l' : Z) : s + l' = l -> (valQ (p * two ^ s) l' == valQ p l)%Q.
Proof.
  intros <-. unfold valQ. rewrite (Qpower_plus two s l' two_nz). ring.
Qed.

(* ... and a gain of g bits in the exponents is a factor 2^g of the value *)
Lemma valQ_shift_gain (p : Q) (s l l' g : Z) : s + l' = l + g -> (valQ (p * two ^ s) l' == valQ p l * two ^ g)%Q.
Proof.
  intros E. rewrite (valQ_shift p s (l + g) l' E). unfold valQ. rewrite (Qpower_plus two l g two_nz). ring.
Qed.

(* a tensor product with convolution offset c: the phases multiply *)
Lemma valQ_prod (p q : Q) (c l' la lb : Z) :
  c + l' = la + lb -> (valQ (p * q * two ^ c) l' == valQ p la * valQ q lb)%Q.
Proof.
  intros E. rewrite (valQ_shift (p * q) c (la + lb) l' E). unfold valQ. rewrite (Qpower_plus two la lb two_nz). ring.
Qed.

Lemma valQ_plus (p q : Q) (l : Z) : (valQ (p + q) l == valQ p l + valQ q l)%Q.
Proof. unfold valQ. ring. Qed.
Lemma valQ_minus (p q : Q) (l : Z) : (valQ (p - q) l == valQ p l - valQ q l)%Q.
Proof. unfold valQ. ring. Qed.

Ltac run :=
  cbv beta iota zeta delta [meta_step meta_m new_size lin_into lin_assign neg_into unary_into mulpow2_into divpow2_into
    rescale_into rescale_assign divpow2_assign rotate_into negb mul_into mul_assign square_into square_assign mulptz_into mulptz_assign
    ptznx_into ptznx_assign ensure_plaintext_alignment apply_params_asserting mul_ct_params mul_pt_params
    offset_unary offset_binary ssub eff maxk compact
    bind ret fail panic get set_meta set_lb set_ld shift csub usub uadd passert fst snd app];
  repeat (match goal with
          | |- context [if ?c then _ else _] => let E := fresh "E" in destruct c eqn:E
          end; cbv beta iota zeta delta [app]).

Ltac done_inv H := try discriminate H; injection H as <- <- <-.

(* unary forms written into another ciphertext: one shift s with  s + log_budget' = log_budget(src) + gain *)
Definition unary_gain (o : op) : option Z :=
  match o with
  | ONegInto | OConjInto | ORotateInto _ | ORescaleInto _ => Some 0
  | OMulPow2Into bits => Some bits
  | ODivPow2Into bits => Some (- bits)
  | _ => None
  end.

Lemma unary_into_shift (chk : bool) (B : Z) (o : op) (d a b : ct) (g : Z) (m : meta) (sz : Z) (sh : list Z) :
  unary_gain o = Some g -> 0 <= lb (cm a) < two63 -> 0 <= ld (cm a) ->
  meta_step chk B o d a b = Done m sz sh ->
  fold_right Z.add 0 sh + lb m = lb (cm a) + g.
Proof.
  intros Hg Hl Hd. unfold two63 in Hl. destruct o; cbn in Hg; try discriminate Hg; inversion Hg; subst g; clear Hg;
  destruct d as [[dl db] ds], a as [[al ab] asz]; cbn [cm csize ld lb] in *; try destruct key.
  all: run; intros H; done_inv H; cbn [cm csize ld lb fold_right] in *;
       unfold two64 in *; lia.
Qed.

(* in-place forms: rescale_assign shifts the destination itself, mul_pow2_assign too (budget unchanged: value * 2^bits) *)
Lemma rescale_assign_shift (chk : bool) (B k : Z) (d a b : ct) (m : meta) (sz : Z) (sh : list Z) :
  meta_step chk B (ORescaleAssign k) d a b = Done m sz sh -> sh = [k] /\ k + lb m = lb (cm d) /\ ld m = ld (cm d).
Proof.
  destruct d as [[dl db] ds]. run; intros H; done_inv H; cbn [cm ld lb]; repeat split; lia.
Qed.

Lemma mulpow2_assign_shift (chk : bool) (B bits : Z) (d a b : ct) (m : meta) (sz : Z) (sh : list Z) :
  meta_step chk B (OMulPow2Assign bits) d a b = Done m sz sh -> sh = [bits] /\ m = cm d.
Proof. destruct d as [[dl db] ds]. run; intros H; done_inv H; split; reflexivity. Qed.

(* add / sub of two ciphertexts: shifts (sa, sb) applied to a and b *)
Definition lin_roles (a b : ct) (sh : list Z) : Z * Z :=
  match sh with
  | [s1; s2] => if lb (cm a) <=? lb (cm b) then (s1, s2) else (s2, s1)
  | _ => (0, 0)
  end.

Lemma lin_into_shifts (chk : bool) (B : Z) (d a b : ct) (m : meta) (sz : Z) (sh : list Z) :
  meta_step chk B OLinInto d a b = Done m sz sh ->
  fst (lin_roles a b sh) + lb m = lb (cm a) /\ snd (lin_roles a b sh) + lb m = lb (cm b) /\
  ld m = Z.min (ld (cm a)) (ld (cm b)).
Proof.
  destruct d as [[dl db] ds], a as [[al ab] asz], b as [[bl bb] bs]. cbn [cm csize ld lb].
  run; intros H; done_inv H; unfold lin_roles; cbn [cm csize ld lb fst snd];
    repeat match goal with |- context [if ?c then _ else _] => destruct c eqn:? end; cbn [fst snd cm csize ld lb] in *; unfold two64 in *; lia.
Qed.

(* in place: one of the two is shifted *)
Definition lin_assign_roles (d a : ct) (sh : list Z) : Z * Z :=
  match sh with
  | [s] => if lb (cm d) <? lb (cm a) then (0, s) else (s, 0)
  | _ => (0, 0)
  end.

Lemma lin_assign_shifts (chk : bool) (B : Z) (d a b : ct) (m : meta) (sz : Z) (sh : list Z) :
  meta_step chk B OLinAssign d a b = Done m sz sh ->
  fst (lin_assign_roles d a sh) + lb m = lb (cm d) /\ snd (lin_assign_roles d a sh) + lb m = lb (cm a).
Proof.
  destruct d as [[dl db] ds], a as [[al ab] asz]. cbn [cm csize ld lb].
  run; intros H; done_inv H; unfold lin_assign_roles; cbn [cm csize ld lb fst snd];
    repeat match goal with |- context [if ?c then _ else _] => destruct c eqn:? end; cbn [fst snd cm csize ld lb] in *; unfold two64 in *; lia.
Qed.

(* products: the convolution offset c with  c + log_budget' = log_budget(x) + log_budget(y) *)
Lemma mul_into_offset (chk : bool) (B : Z) (d a b : ct) (m : meta) (sz : Z) (sh : list Z) :
  meta_step chk B OMulInto d a b = Done m sz sh ->
  fold_right Z.add 0 sh + lb m = lb (cm a) + lb (cm b) /\ ld m = Z.min (ld (cm a)) (ld (cm b)).
Proof.
  destruct d as [[dl db] ds], a as [[al ab] asz], b as [[bl bb] bs]. cbn [cm csize ld lb].
  run; intros H; done_inv H; cbn [cm csize ld lb fold_right]; lia.
Qed.

Lemma square_into_offset (chk : bool) (B : Z) (d a b : ct) (m : meta) (sz : Z) (sh : list Z) :
  meta_step chk B OSquareInto d a b = Done m sz sh ->
  fold_right Z.add 0 sh + lb m = 2 * lb (cm a) /\ ld m = ld (cm a).
Proof.
  destruct d as [[dl db] ds], a as [[al ab] asz]. cbn [cm csize ld lb].
  run; intros H; done_inv H; cbn [cm csize ld lb fold_right]; lia.
Qed.

(* ct x vector plaintext: the plaintext's phase is  value_p * 2^(log_delta_p - max_k_p) *)
Lemma mulptz_into_offset (chk : bool) (B : Z) (d a b : ct) (p : ptz) (m : meta) (sz : Z) (sh : list Z) :
  meta_step chk B (OMulPtZnxInto p) d a b = Done m sz sh ->
  fold_right Z.add 0 sh + lb m = lb (cm a) + (pmaxk p - ld (pm p)) /\ ld m = ld (cm a).
Proof.
  destruct d as [[dl db] ds], a as [[al ab] asz], p as [[pl pb] pk pbk]. cbn [cm csize ld lb pm pmaxk pb2k].
  run; intros H; done_inv H; cbn [cm csize ld lb fold_right]; lia.
Qed.

(* ct + vector plaintext in place: the plaintext is shifted right by s with  log_budget - s = max_k_p - log_delta_p *)
Lemma ptznx_assign_shift (chk : bool) (B : Z) (d a b : ct) (p : ptz) (m : meta) (sz : Z) (sh : list Z) :
  meta_step chk B (OPtZnxAssign p) d a b = Done m sz sh ->
  m = cm d /\ lb m - fold_right Z.add 0 sh = pmaxk p - ld (pm p).
Proof.
  destruct d as [[dl db] ds], p as [[pl pb] pk pbk]. cbn [cm csize ld lb pm pmaxk pb2k].
  run; intros H; done_inv H; cbn [cm csize ld lb fold_right]; unfold two64 in *; split; try reflexivity; lia.
Qed.

(* the fused path of ckks_dot_product_ct (>= 2 terms, one log_delta per list): all products are formed from the
   inputs rescaled to the smallest budget of their list, with one convolution offset c such that
   c + log_budget' = min log_budget(a-list) + min log_budget(b-list)   (repaired in 18a4236) *)
Lemma dot_ct_fused_offset (chk : bool) (B : Z) (d x0 y0 : ct) (q : ct * ct) (rest : list (ct * ct)) (xs ys : list ct)
      (m : meta) (sz : Z) (sh : list Z) :
  combine xs ys = (x0, y0) :: q :: rest ->
  (zlen xs =? 0) || negb (zlen xs =? zlen ys) = false ->
  forallb (fun c => ld_of c =? ld_of x0) xs && forallb (fun c => ld_of c =? ld_of y0) ys = true ->
  comp_step chk B CDotCt d xs ys = Done m sz sh ->
  fold_right Z.add 0 sh + lb m = min_over lb_of xs + min_over lb_of ys /\ ld m = Z.min (ld_of x0) (ld_of y0).
Proof.
  intros Hc Hlen Hu. unfold comp_step, comp_m, dot_ct. rewrite Hlen, Hc, Hu. cbn [negb].
  destruct d as [[dl db] ds]. unfold ld_of.
  cbv beta iota zeta delta [acc_fits ssub eff maxk bind ret fail panic set_lb set_ld shift csub csize app].
  repeat (match goal with
          | |- context [if ?c then _ else _] => let E := fresh "E" in destruct c eqn:E
          end; cbv beta iota zeta delta [app]).
  all: intros H; try discriminate H; injection H as <- <- <-; cbn [ld lb fold_right]; split; lia.
Qed.

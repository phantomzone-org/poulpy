(* C14: the three CGGI accumulator loops over ABSTRACT ciphertexts.  The external product enters only through its phase
   equation (named hypothesis external_product_phase, the shape of C04_external_product_phase: phase(acc [x] BRK_i) =
   s_i * phase(acc) + e + M * I with |e|_inf <= B, M = 2^P); the conclusion carries the accumulated error explicitly:
   phase(acc_final) = X^(sum a_i s_i) * phase(acc_0) + E + M * J. *)
From PV Require Import Base.MachineInt Model.Znx Model.Limbs Model.Ring Model.Poly Model.C14Lut Model.C14Spec Model.C14Blind.
From PV Require Import Proofs.C09Lists Proofs.C09Ring Proofs.C14Rotate Proofs.C14Poly Proofs.C14Approx Proofs.C14Blind.
Open Scope Z_scope.

(* the noise-free value of one term (X^p - 1) * (s * phi) *)
Lemma nf_term_zero (n : nat) (p : Z) (phi : poly) : length phi = n -> xp_minus_one p (pscale 0 phi) = zeros n.
Proof. intros H. pext n. lia. Qed.

Lemma nth_repeat_g {A} (x d : A) e c : (c < e)%nat -> nth c (repeat x e) d = x.
Proof. revert c; induction e as [|e IH]; intros [|c] H; cbn [repeat nth]; try lia; auto. apply IH. lia. Qed.
Lemma nth_map_both {A} (f g : A -> poly) (l : list A) c : (c < length l)%nat ->
  exists x, nth c (map f l) [] = f x /\ nth c (map g l) [] = g x.
Proof.
  revert c; induction l as [|h t IH]; intros [|c] H; cbn [length] in H; try lia.
  - exists h. split; reflexivity.
  - cbn [map nth]. apply IH. lia.
Qed.

Section Standard.
Variable ct : Type.                       (* GLWE ciphertexts *)
Variable phase : ct -> poly.              (* exact phase (decryption before rounding), an integer polynomial *)
Variable N : nat.
Variables M B : Z.                        (* M = 2^P, the torus modulus at the working precision; B bounds the error of one product *)
Variable extprod : ct -> nat -> ct.       (* acc [x] BRK_i *)
Variable mulxp : Z -> ct -> ct.           (* glwe_mul_xp_minus_one_assign *)
Variable ctadd : ct -> ct -> ct.          (* glwe_add_assign *)
Variable s : nat -> Z.                    (* the LWE secret *)
Hypothesis phase_length : forall c, length (phase c) = N.
Hypothesis s_binary : forall i, s i = 0 \/ s i = 1.
Hypothesis external_product_phase : forall acc i, approx N M B (phase (extprod acc i)) (pscale (s i) (phase acc)).
Hypothesis phase_mul_xp_minus_one : forall a c, phase (mulxp a c) = xp_minus_one a (phase c).
Hypothesis phase_add : forall c d, phase (ctadd c d) = padd (phase c) (phase d).

Fixpoint std_loop (i : nat) (av : list Z) (acc : ct) : ct :=
  match av with
  | [] => acc
  | a :: t => std_loop (S i) t (ctadd acc (mulxp a (extprod acc i)))
  end.
Fixpoint expo (i : nat) (av : list Z) : Z :=
  match av with [] => 0 | a :: t => a * s i + expo (S i) t end.

Theorem standard_phase (av : list Z) : forall (i : nat) (acc : ct),
  approx N M (2 * B * Z.of_nat (length av)) (phase (std_loop i av acc)) (zrot (expo i av) (phase acc)).
Proof.
  induction av as [|a t IH]; intros i acc.
  - cbn [std_loop expo length]. rewrite zrot_0. apply approx_refl; [apply phase_length | lia].
  - cbn [std_loop expo].
    set (acc1 := ctadd acc (mulxp a (extprod acc i))).
    pose proof (phase_length acc) as Hla.
    assert (H1 : approx N M (2 * B) (phase acc1) (zrot (a * s i) (phase acc))).
    { unfold acc1. rewrite phase_add, phase_mul_xp_minus_one.
      replace (zrot (a * s i) (phase acc)) with (padd (phase acc) (xp_minus_one a (pscale (s i) (phase acc)))).
      - replace (2 * B) with (0 + 2 * B) by ring.
        apply approx_padd; [apply approx_refl; auto; lia | apply approx_xp_minus_one, external_product_phase].
      - destruct (s_binary i) as [Hs|Hs]; rewrite Hs; pext N; lia. }
    replace (2 * B * Z.of_nat (length (a :: t))) with (2 * B * Z.of_nat (length t) + 2 * B) by (cbn [length]; lia).
    rewrite (Z.add_comm (a * s i)). eapply approx_zrot_trans; [exact H1 | exact (IH (S i) acc1)].
Qed.

End Standard.

Section Block.
Variable ct : Type.
Variable phase : ct -> poly.
Variable N : nat.
Variables M B Bn : Z.      (* Bn bounds what the end-of-block vec_znx_big_normalize adds (truncation to the size of the result) *)
Variable extprod : ct -> nat -> ct.                (* the vmp product DFT(acc) x BRK_i, as a ciphertext *)
Variable blockupd : ct -> nat -> list Z -> ct.     (* one iteration of the outer loop: block starting at LWE index i, mask values blk *)
Variable s : nat -> Z.
Hypothesis HN : (0 < N)%nat.
Hypothesis HB : 0 <= B.
Hypothesis phase_length : forall c, length (phase c) = N.
Hypothesis s_binary : forall i, s i = 0 \/ s i = 1.
Hypothesis external_product_phase : forall acc i, approx N M B (phase (extprod acc i)) (pscale (s i) (phase acc)).

Definition idx (blk : list Z) : list (nat * Z) := combine (seq 0 (length blk)) blk.
(* acc_add_dft = sum_j DFT(X^{ai_pos}) * vmp_res_j - vmp_res_j, every product taken from the accumulator at the start of the block *)
Definition blk_terms (acc : ct) (i : nat) (blk : list Z) : list poly :=
  map (fun q : nat * Z => xp_minus_one ((snd q + 2 * Z.of_nat N) mod (2 * Z.of_nat N)) (phase (extprod acc (i + fst q)))) (idx blk).
(* idft, add acc, normalise: linear up to Bn and multiples of M (C07 exact products, C08 normalisation) *)
Hypothesis block_update_phase : forall acc i blk,
  approx N M Bn (phase (blockupd acc i blk)) (padd (phase acc) (psum N (blk_terms acc i blk))).

Fixpoint blk_loop (i : nat) (blks : list (list Z)) (acc : ct) : ct :=
  match blks with [] => acc | blk :: t => blk_loop (i + length blk) t (blockupd acc i blk) end.
Definition blk_pairs (i : nat) (blk : list Z) : list (Z * Z) := map (fun q : nat * Z => (snd q, s (i + fst q))) (idx blk).
Fixpoint blk_ok (i : nat) (blks : list (list Z)) : Prop :=
  match blks with [] => True | blk :: t => at_most_one (blk_pairs i blk) /\ blk_ok (i + length blk) t end.
Fixpoint blk_expo (i : nat) (blks : list (list Z)) : Z :=
  match blks with [] => 0 | blk :: t => dotp (blk_pairs i blk) + blk_expo (i + length blk) t end.
Fixpoint blk_bound (blks : list (list Z)) : Z :=
  match blks with [] => 0 | blk :: t => 2 * B * Z.of_nat (length blk) + Bn + blk_bound t end.

Lemma idx_length blk : length (idx blk) = length blk.
Proof. unfold idx. rewrite combine_length, seq_length. lia. Qed.

Lemma block_step (acc : ct) (i : nat) (blk : list Z) : at_most_one (blk_pairs i blk) ->
  approx N M (2 * B * Z.of_nat (length blk) + Bn) (phase (blockupd acc i blk)) (zrot (dotp (blk_pairs i blk)) (phase acc)).
Proof.
  intros Hamo. pose proof (phase_length acc) as Hla.
  set (two_n := 2 * Z.of_nat N).
  set (nf := fun q : nat * Z => xp_minus_one ((snd q + two_n) mod two_n) (pscale (s (i + fst q)) (phase acc))).
  assert (H1 : approx N M (2 * B * Z.of_nat (length blk)) (psum N (blk_terms acc i blk)) (psum N (map nf (idx blk)))).
  { replace (length blk) with (length (blk_terms acc i blk)) by (unfold blk_terms; rewrite map_length; apply idx_length).
    apply approx_psum; [lia|]. unfold blk_terms. apply Forall2_map_in. intros q _.
    apply approx_xp_minus_one, external_product_phase. }
  assert (H2 : padd (phase acc) (psum N (map nf (idx blk))) = zrot (dotp (blk_pairs i blk)) (phase acc)).
  { rewrite <- (cggi_block_step_rot N (blk_pairs i blk) (phase acc) HN Hla Hamo).
    unfold cggi_block_step. cbv zeta. f_equal. f_equal. unfold blk_pairs. rewrite map_map.
    apply map_ext. intros q. cbn [fst snd]. unfold nf. fold two_n.
    destruct (s_binary (i + fst q)) as [Hs|Hs]; rewrite Hs; cbn [Z.eqb]; [apply nf_term_zero; auto | reflexivity]. }
  pose proof (approx_padd N M 0 _ _ _ _ _ (approx_refl N M 0 (phase acc) Hla ltac:(lia)) H1) as H3.
  rewrite H2 in H3.
  pose proof (approx_trans N M _ _ _ _ _ (block_update_phase acc i blk) H3) as H4.
  eapply approx_weaken; [|exact H4]. lia.
Qed.

Theorem block_phase (blks : list (list Z)) : forall (i : nat) (acc : ct), blk_ok i blks ->
  approx N M (blk_bound blks) (phase (blk_loop i blks acc)) (zrot (blk_expo i blks) (phase acc)).
Proof.
  induction blks as [|blk t IH]; intros i acc Hok.
  - cbn [blk_loop blk_expo blk_bound]. rewrite zrot_0. apply approx_refl; [apply phase_length | lia].
  - destruct Hok as [Hamo Hrest]. cbn [blk_loop blk_expo blk_bound].
    rewrite (Z.add_comm (dotp (blk_pairs i blk))).
    eapply approx_weaken; [|eapply approx_zrot_trans; [exact (block_step acc i blk Hamo) | exact (IH _ _ Hrest)]]. lia.
Qed.

End Block.

(* component-wise approximation of vectors of polynomials *)
Definition approxv (e L : nat) (M B : Z) (xs ys : list poly) : Prop :=
  length xs = e /\ length ys = e /\ forall c, (c < e)%nat -> approx L M B (pnth xs c) (pnth ys c).

Lemma approxv_refl e L M B xs : length xs = e -> shaped L xs -> 0 <= B -> approxv e L M B xs xs.
Proof.
  intros He Hs HB. split; [auto|]. split; [auto|]. intros c Hc. apply approx_refl; auto.
  apply shaped_nth; auto. lia.
Qed.
Lemma approxv_weaken e L M B B' xs ys : B <= B' -> approxv e L M B xs ys -> approxv e L M B' xs ys.
Proof. intros H (H1 & H2 & H3). split; [auto|]. split; [auto|]. intros c Hc. eapply approx_weaken; eauto. Qed.

Lemma pnth_map2_padd (xs ys : list poly) c : length xs = length ys -> (c < length xs)%nat ->
  pnth (map2 padd xs ys) c = padd (pnth xs c) (pnth ys c).
Proof.
  intros Hl Hc. unfold pnth, map2.
  set (h := fun p : poly * poly => padd (fst p) (snd p)).
  rewrite (nth_indep _ [] (h ([], []))) by (rewrite map_length, combine_length; lia).
  rewrite (map_nth h). rewrite combine_nth by exact Hl. reflexivity.
Qed.

Lemma approxv_padd e L M B1 B2 xs ys xs' ys' :
  approxv e L M B1 xs ys -> approxv e L M B2 xs' ys' -> approxv e L M (B1 + B2) (map2 padd xs xs') (map2 padd ys ys').
Proof.
  intros (H1 & H2 & H3) (H1' & H2' & H3'). split; [rewrite map2_length; lia|]. split; [rewrite map2_length; lia|].
  intros c Hc. rewrite !pnth_map2_padd by lia. apply approx_padd; auto.
Qed.
(* adding a vector that is approximately zero *)
Lemma approxv_padd_zero e L M B1 B2 cs cs' xs :
  approxv e L M B1 cs cs' -> approxv e L M B2 xs (repeat (zeros L) e) -> approxv e L M (B1 + B2) (map2 padd cs xs) cs'.
Proof.
  intros (H1 & H2 & H3) (H1' & H2' & H3'). split; [rewrite map2_length; lia|]. split; [auto|].
  intros c Hc. rewrite pnth_map2_padd by lia. apply approx_padd_zero; auto.
  specialize (H3' c Hc). unfold pnth in H3' at 2. rewrite nth_repeat_g in H3' by auto. exact H3'.
Qed.

Lemma pnth_map_seq (g : nat -> poly) e c : (c < e)%nat -> pnth (map g (seq 0 e)) c = g c.
Proof. intros H. unfold pnth. apply nth_map_seq. exact H. Qed.

Lemma ext_contrib_length n a s acc : length (ext_contrib n a s acc) = length acc.
Proof. unfold ext_contrib. cbv zeta. apply map_seq_length. Qed.

Lemma pnth_map (g : poly -> poly) (l : list poly) c : (c < length l)%nat -> pnth (map g l) c = g (pnth l c).
Proof. intros Hc. unfold pnth. rewrite (nth_indep _ [] (g [])) by (rewrite map_length; auto). apply map_nth. Qed.

(* the contribution of one LWE coefficient is linear in the products: approximations go through, with a factor 2 *)
Lemma approxv_ext_contrib e n M B a (vs us : list poly) : (0 < e)%nat -> 0 <= B ->
  approxv e n M B vs us -> approxv e n M (2 * B) (ext_contrib n a 1 vs) (ext_contrib n a 1 us).
Proof.
  intros He HB (H1 & H2 & H3). split; [rewrite ext_contrib_length; auto|]. split; [rewrite ext_contrib_length; auto|].
  intros c Hc. unfold ext_contrib. cbv zeta. rewrite H1, H2.
  rewrite !pnth_map_seq by auto.
  set (E := Z.of_nat e). set (t := 2 * Z.of_nat n * E). set (a_pos := (a + t) mod t).
  assert (Hlo : 0 <= a_pos mod E < E) by (apply Z.mod_pos_bound; unfold E; lia).
  rewrite !map_pscale_1.
  replace (2 * B) with (B + B) by ring.
  destruct (Z.eqb_spec (a_pos mod E) 0).
  - destruct (Z.eqb_spec (a_pos / E) 0).
    + apply approx_refl; [apply zeros_length | lia].
    + apply approx_psub; [apply approx_zrot|]; apply H3; auto.
  - destruct (Z.ltb_spec (Z.of_nat c) (a_pos mod E)).
    + apply approx_psub; [apply approx_zrot|]; apply H3; unfold E in *; lia.
    + apply approx_psub; [apply approx_zrot|]; apply H3; unfold E in *; lia.
Qed.

Lemma ext_contrib_scale n a s (phis : list poly) : ext_contrib n a 1 (map (pscale s) phis) = ext_contrib n a s phis.
Proof.
  unfold ext_contrib. cbv zeta. rewrite map_length, map_pscale_1. reflexivity.
Qed.

(* with s = 0 every component of the contribution is zero *)
Lemma xp_minus_one_zeros p n : psub (zrot p (zeros n)) (zeros n) = zeros n.
Proof. pext n. lia. Qed.

Lemma ext_contrib_zero e n a (phis : list poly) c : length phis = e -> shaped n phis -> (c < e)%nat ->
  pnth (ext_contrib n a 0 phis) c = zeros n.
Proof.
  intros He Hs Hc.
  unfold ext_contrib. cbv zeta. rewrite He. rewrite pnth_map_seq by auto.
  set (E := Z.of_nat e). set (a_pos := (a + 2 * Z.of_nat n * E) mod (2 * Z.of_nat n * E)).
  assert (Hlo : 0 <= a_pos mod E < E) by (apply Z.mod_pos_bound; unfold E; lia).
  assert (Hz : forall j, (j < e)%nat -> pnth (map (pscale 0) phis) j = zeros n).
  { intros j Hj. rewrite pnth_map, pscale_0, (shaped_nth n phis j Hs) by lia. reflexivity. }
  destruct (Z.eqb_spec (a_pos mod E) 0); [destruct (Z.eqb_spec (a_pos / E) 0); [reflexivity|]|destruct (Z.ltb_spec (Z.of_nat c) (a_pos mod E))];
    rewrite !Hz by (unfold E in *; lia); apply xp_minus_one_zeros.
Qed.

(* component-wise approximation is approximation of the big-ring polynomials *)
Lemma fin_choice2 (e : nat) (P : nat -> poly -> poly -> Prop) :
  (forall c, (c < e)%nat -> exists E J, P c E J) ->
  exists Es Js, length Es = e /\ length Js = e /\ forall c, (c < e)%nat -> P c (pnth Es c) (pnth Js c).
Proof.
  induction e as [|e IH]; intros H.
  - exists [], []. repeat split; auto. intros; lia.
  - destruct (IH ltac:(intros c Hc; apply H; lia)) as (Es & Js & HE & HJ & HP).
    destruct (H e ltac:(lia)) as (E & J & HEJ).
    exists (Es ++ [E]), (Js ++ [J]). split; [rewrite app_length; cbn; lia|]. split; [rewrite app_length; cbn; lia|].
    intros c Hc. unfold pnth. destruct (Nat.eq_dec c e) as [->|Hne].
    + rewrite !app_nth2 by lia. rewrite HE, HJ, Nat.sub_diag. exact HEJ.
    + rewrite !app_nth1 by lia. apply HP. lia.
Qed.

Lemma zbig_nth n (xs : list poly) u : (u < n * length xs)%nat ->
  nthZ (zbig n xs) u = nthZ (pnth xs (u mod length xs)) (u / length xs).
Proof. intros Hu. unfold zbig. apply interleave_nth. exact Hu. Qed.
Lemma zbig_length n xs : length (zbig n xs) = (n * length xs)%nat.
Proof. apply interleave_length. Qed.

Lemma approxv_zbig e n M B xs ys : (0 < e)%nat -> approxv e n M B xs ys -> approx (n * e) M B (zbig n xs) (zbig n ys).
Proof.
  intros He (H1 & H2 & H3).
  destruct (fin_choice2 e (fun c E J => length E = n /\ length J = n /\ bounded B E /\
                                         pnth xs c = padd (padd (pnth ys c) E) (pscale M J))) as (Es & Js & HE & HJ & HP).
  { intros c Hc. destruct (H3 c Hc) as (_ & _ & E & J & Ha & Hb & Hc' & Hd). exists E, J. auto. }
  split; [rewrite zbig_length, H1; reflexivity|]. split; [rewrite zbig_length, H2; reflexivity|].
  exists (zbig n Es), (zbig n Js). split; [rewrite zbig_length, HE; reflexivity|]. split; [rewrite zbig_length, HJ; reflexivity|].
  split.
  - apply bounded_nth. intros u Hu. rewrite zbig_length, HE in Hu. rewrite zbig_nth by (rewrite HE; auto). rewrite HE.
    assert (Hc : (u mod e < e)%nat) by (apply Nat.mod_upper_bound; lia).
    destruct (HP _ Hc) as (Ha & _ & Hb & _). apply bounded_at; auto. rewrite Ha. apply Nat.div_lt_upper_bound; lia.
  - apply nthZ_ext; [rewrite !len_padd, pscale_length, !zbig_length; lia|].
    intros u Hu. rewrite zbig_length, H1 in Hu.
    assert (Hc : (u mod e < e)%nat) by (apply Nat.mod_upper_bound; lia).
    assert (Hd : (u / e < n)%nat) by (apply Nat.div_lt_upper_bound; lia).
    destruct (HP _ Hc) as (Ha & Hb & _ & Heq).
    pose proof (approx_len_r n M B _ _ (H3 _ Hc)) as Hy.
    rewrite padd_nth by (rewrite ?len_padd, ?pscale_length, !zbig_length; lia).
    rewrite padd_nth by (rewrite !zbig_length; lia).
    rewrite pscale_nth by (rewrite zbig_length; lia).
    rewrite !zbig_nth by lia. rewrite H1, H2, HE, HJ. rewrite Heq.
    rewrite padd_nth by (rewrite ?len_padd, ?pscale_length; lia).
    rewrite padd_nth by lia. rewrite pscale_nth by lia. reflexivity.
Qed.

Section Extended.
Variable ct : Type.
Variable phase : ct -> poly.
Variables N e : nat.                     (* ring degree, extension factor *)
Variables M B Bn : Z.
Variable extprod : ct -> nat -> ct.
Variable eblockupd : list ct -> nat -> list Z -> list ct.   (* one block on the ext accumulators *)
Variable s : nat -> Z.
Hypothesis HN : (0 < N)%nat.
Hypothesis He : (0 < e)%nat.
Hypothesis HB : 0 <= B.
Hypothesis phase_length : forall c, length (phase c) = N.
Hypothesis s_binary : forall i, s i = 0 \/ s i = 1.
Hypothesis external_product_phase : forall acc i, approx N M B (phase (extprod acc i)) (pscale (s i) (phase acc)).

Definition phases (accs : list ct) : list poly := map phase accs.
(* acc_add_dft[.] accumulates, for each LWE coefficient of the block, the ext contributions computed from the products
   vmp_res[j] = acc[j] (at the start of the block) x BRK; then idft + acc + normalise, component by component *)
Definition ext_target (accs : list ct) (i : nat) (blk : list Z) : list poly :=
  fold_left (fun (cur : list poly) (q : nat * Z) =>
               map2 padd cur (ext_contrib N (snd q) 1 (map (fun c => phase (extprod c (i + fst q))) accs)))
            (combine (seq 0 (length blk)) blk) (phases accs).
Hypothesis ext_block_update_phase : forall accs i blk, length accs = e ->
  approxv e N M Bn (phases (eblockupd accs i blk)) (ext_target accs i blk).

Fixpoint eblk_loop (i : nat) (blks : list (list Z)) (accs : list ct) : list ct :=
  match blks with [] => accs | blk :: t => eblk_loop (i + length blk) t (eblockupd accs i blk) end.
Definition eblk_pairs (i : nat) (blk : list Z) : list (Z * Z) :=
  map (fun q : nat * Z => (snd q, s (i + fst q))) (combine (seq 0 (length blk)) blk).
Fixpoint eblk_ok (i : nat) (blks : list (list Z)) : Prop :=
  match blks with [] => True | blk :: t => at_most_one (eblk_pairs i blk) /\ eblk_ok (i + length blk) t end.
Fixpoint eblk_expo (i : nat) (blks : list (list Z)) : Z :=
  match blks with [] => 0 | blk :: t => dotp (eblk_pairs i blk) + eblk_expo (i + length blk) t end.
Fixpoint eblk_bound (blks : list (list Z)) : Z :=
  match blks with [] => 0 | blk :: t => 2 * B * Z.of_nat (length blk) + Bn + eblk_bound t end.

Lemma phases_shape accs : length accs = e -> length (phases accs) = e /\ shaped N (phases accs).
Proof.
  intros Hl. unfold phases. split; [rewrite map_length; auto|].
  apply Forall_forall. intros p Hp. apply in_map_iff in Hp. destruct Hp as [c [<- _]]. apply phase_length.
Qed.

(* the fold of the target against the noise-free fold (ext_block_step), coefficient by coefficient *)
Lemma target_fold (accs : list ct) (i : nat) : length accs = e ->
  forall (l : list (nat * Z)) (cur cur' : list poly) (Bc : Z), 0 <= Bc ->
  approxv e N M Bc cur cur' ->
  approxv e N M (Bc + 2 * B * Z.of_nat (length l))
    (fold_left (fun (cur : list poly) (q : nat * Z) =>
                  map2 padd cur (ext_contrib N (snd q) 1 (map (fun c => phase (extprod c (i + fst q))) accs))) l cur)
    (fold_left (fun (cur : list poly) (q : Z * Z) =>
                  if snd q =? 0 then cur else map2 padd cur (ext_contrib N (fst q) (snd q) (phases accs)))
               (map (fun q : nat * Z => (snd q, s (i + fst q))) l) cur').
Proof.
  intros Hl. destruct (phases_shape accs Hl) as [Hpl Hps].
  induction l as [|q l IH]; intros cur cur' Bc HBc Hcur; cbn [fold_left map length].
  - replace (Bc + 2 * B * Z.of_nat 0) with Bc by lia. exact Hcur.
  - cbn [fst snd].
    (* the products of this coefficient approximate s * phases *)
    assert (Hprod : approxv e N M B (map (fun c => phase (extprod c (i + fst q))) accs) (map (pscale (s (i + fst q))) (phases accs))).
    { split; [rewrite map_length; auto|]. split; [rewrite map_length; auto|].
      intros c Hc. unfold phases. rewrite map_map. unfold pnth.
      destruct (nth_map_both (fun c0 => phase (extprod c0 (i + fst q))) (fun c0 => pscale (s (i + fst q)) (phase c0)) accs c ltac:(lia)) as (x & Hx1 & Hx2).
      rewrite Hx1, Hx2. apply external_product_phase. }
    pose proof (approxv_ext_contrib e N M B (snd q) _ _ He HB Hprod) as Hcon. rewrite ext_contrib_scale in Hcon.
    replace (Bc + 2 * B * Z.of_nat (S (length l))) with ((Bc + 2 * B) + 2 * B * Z.of_nat (length l)) by lia.
    apply IH; [lia|].
    destruct (s_binary (i + fst q)) as [Hs|Hs]; rewrite Hs in *; cbn [Z.eqb].
    + apply approxv_padd_zero; [exact Hcur|].
      destruct Hcon as (Ha & Hb & Hc). split; [auto|]. split; [apply repeat_length|]. intros c Hcc.
      unfold pnth at 2. rewrite nth_repeat_g by auto.
      rewrite <- (ext_contrib_zero e N (snd q) (phases accs) c Hpl Hps Hcc). apply Hc; auto.
    + apply approxv_padd; [exact Hcur | exact Hcon].
Qed.

Lemma ext_block_phase (accs : list ct) (i : nat) (blk : list Z) : length accs = e -> at_most_one (eblk_pairs i blk) ->
  length (eblockupd accs i blk) = e /\
  approx (N * e) M (2 * B * Z.of_nat (length blk) + Bn)
    (zbig N (phases (eblockupd accs i blk))) (zrot (dotp (eblk_pairs i blk)) (zbig N (phases accs))).
Proof.
  intros Hl Hamo. destruct (phases_shape accs Hl) as [Hpl Hps].
  pose proof (ext_block_update_phase accs i blk Hl) as Hupd.
  split; [destruct Hupd as (H & _); unfold phases in H; rewrite map_length in H; exact H|].
  pose proof (target_fold accs i Hl (combine (seq 0 (length blk)) blk) (phases accs) (phases accs) 0 ltac:(lia)
                (approxv_refl e N M 0 _ Hpl Hps ltac:(lia))) as Hfold.
  fold (ext_target accs i blk) in Hfold. fold (eblk_pairs i blk) in Hfold.
  change (fold_left _ (eblk_pairs i blk) (phases accs)) with (ext_block_step N (eblk_pairs i blk) (phases accs)) in Hfold.
  rewrite combine_length, seq_length, Nat.min_id in Hfold.
  (* component-wise, then in the big ring *)
  assert (Hv : approxv e N M (Bn + (0 + 2 * B * Z.of_nat (length blk))) (phases (eblockupd accs i blk))
                 (ext_block_step N (eblk_pairs i blk) (phases accs))).
  { destruct Hupd as (Ha & Hb & Hc). destruct Hfold as (Ha' & Hb' & Hc').
    split; [auto|]. split; [auto|]. intros c Hcc. eapply approx_trans; [apply Hc | apply Hc']; auto. }
  pose proof (approxv_zbig e N M _ _ _ He Hv) as Hbig.
  destruct (ext_block_step_rot N (eblk_pairs i blk) (phases accs) HN ltac:(rewrite Hpl; auto) Hps Hamo) as (_ & _ & Hrot).
  rewrite Hrot in Hbig. eapply approx_weaken; [|exact Hbig]. lia.
Qed.

Theorem extended_phase (blks : list (list Z)) : forall (i : nat) (accs : list ct), length accs = e -> eblk_ok i blks ->
  approx (N * e) M (eblk_bound blks) (zbig N (phases (eblk_loop i blks accs))) (zrot (eblk_expo i blks) (zbig N (phases accs))).
Proof.
  induction blks as [|blk t IH]; intros i accs Hl Hok.
  - cbn [eblk_loop eblk_expo eblk_bound]. rewrite zrot_0. apply approx_refl; [|lia].
    rewrite zbig_length. destruct (phases_shape accs Hl) as [H _]. rewrite H. reflexivity.
  - destruct Hok as [Hamo Hrest]. cbn [eblk_loop eblk_expo eblk_bound].
    destruct (ext_block_phase accs i blk Hl Hamo) as [Hl1 H1].
    rewrite (Z.add_comm (dotp (eblk_pairs i blk))).
    eapply approx_weaken; [|eapply approx_zrot_trans; [exact H1 | exact (IH _ _ Hl1 Hrest)]]. lia.
Qed.

End Extended.

(* noise-free toy ciphertexts (Props/C14.v: C14_abstract_hypotheses_satisfiable): a ciphertext is its own phase, cut or padded to N
   coefficients *)
Definition toy_phase (N : nat) (c : poly) : poly := firstn N (c ++ zeros N).
Lemma toy_phase_length N c : length (toy_phase N c) = N.
Proof. unfold toy_phase. rewrite firstn_length, app_length, zeros_length. lia. Qed.
Lemma toy_phase_id N c : length c = N -> toy_phase N c = c.
Proof. intros H. unfold toy_phase. rewrite firstn_app, H, Nat.sub_diag. cbn [firstn]. rewrite app_nil_r. rewrite <- H. apply firstn_all. Qed.

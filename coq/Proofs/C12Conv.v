(* C12 - LWE <-> GLWE conversions, lwe_keyswitch and glwe_pack: the declared size suffices (under the stated side conditions). *)
From PV Require Import Base.MachineInt Model.C12Scratch Gen.C12TmpBytes_gen Model.C12Trees
  Proofs.C12Arena Proofs.C12Hal Proofs.C12Core Proofs.C12KeySwitch Proofs.C12More.
Open Scope Z_scope.

Lemma glwe_bytes_eq (l : infos) : wf_infos l ->
GLWE_bytes_of_from_infos l = VecZnx_bytes_of (i_n l) (i_rank l + 1) (i_size l).
Proof. intros (Hb & Hs & _). unfold GLWE_bytes_of_from_infos, GLWE_bytes_of, i_max_k. f_equal. apply div_ceil_mul; lia. Qed.

Section Conv.
  Variables fam n : Z.
  Hypothesis Hf : is_fam fam.
  Hypothesis Hn0 : 0 <= n.
  Hypothesis Hn8 : n mod 8 = 0.

  (* monotonicity of the key-switch size queries in the number of limbs / columns of the input *)
  Lemma dft_mono2 (c c' s s' : Z) : 0 <= c' <= c -> 0 <= s' <= s ->
    hal_bytes_of_vec_znx_dft fam n c' s' <= hal_bytes_of_vec_znx_dft fam n c s.
  Proof using Hf Hn0 Hn8.
    intros Hc Hs. autounfold with c12gen.
    assert (n * c' * s' <= n * c * s).
    { apply Z.mul_le_mono_nonneg; [nn | apply Z.mul_le_mono_nonneg_l; lia | lia | lia]. }
    destruct Hf as [-> | ->]; cbn [Z.eqb]; lia.
  Qed.

  Lemma vec_znx_mono (c s s' : Z) : 0 <= c -> s' <= s -> VecZnx_bytes_of n c s' <= VecZnx_bytes_of n c s.
  Proof using Hf Hn0 Hn8.
    intros. unfold VecZnx_bytes_of. assert (n * c * s' <= n * c * s) by (apply Z.mul_le_mono_nonneg_l; [nn|lia]). lia.
  Qed.

  Lemma product_mono (rs rs' s s' : Z) (key : infos) : wf_infos key -> 0 <= s' <= s ->
    gglwe_product_dft_tmp_bytes fam n rs' s' key <= gglwe_product_dft_tmp_bytes fam n rs s key.
  Proof using Hf Hn0 Hn8.
    intros (Hb & Hsz & Hr & Hri & Hdn & Hds) Hs.
    unfold gglwe_product_dft_tmp_bytes. cbv zeta.
    destruct (Z.eqb_spec (i_dsize key) 1) as [E|E].
    - rewrite (vmp_bytes_res_indep fam n Hf Hn0 Hn8 rs' rs). apply vmp_bytes_mono; auto; lia.
    - pose proof (div_ceil_mono s s' (i_dsize key) ltac:(lia) Hds) as Hd.
      pose proof (div_ceil_nonneg s' (i_dsize key) ltac:(lia) Hds) as Hd0.
      set (x' := Z.min (div_ceil s' (i_dsize key)) (i_dnum key)). set (x := Z.min (div_ceil s (i_dsize key)) (i_dnum key)).
      assert (Hx : 0 <= x' <= x) by (unfold x, x'; lia).
      pose proof (dft_mono fam n Hf Hn0 Hn8 (i_rank_in key) x x' Hri ltac:(lia)).
      rewrite (vmp_bytes_res_indep fam n Hf Hn0 Hn8 rs' rs).
      pose proof (vmp_bytes_mono fam n rs x x' (i_dnum key) (i_rank_in key) (i_rank key + 1) (i_size key) Hf ltac:(lia) Hri). lia.
  Qed.

  Lemma ks_internal_mono (r r' a a' key : infos) : wf_infos key ->
    0 <= i_rank a' <= i_rank a -> 0 <= i_size a' <= i_size a ->
    glwe_keyswitch_internal_tmp_bytes fam n r' a' key <= glwe_keyswitch_internal_tmp_bytes fam n r a key.
  Proof using Hf Hn0 Hn8.
    intros Hk Hr Hs. unfold glwe_keyswitch_internal_tmp_bytes. cbv zeta.
    pose proof (product_mono (i_size r) (i_size r') (i_size a) (i_size a') key Hk Hs).
    pose proof (dft_mono2 (i_rank a + 1 - 1) (i_rank a' + 1 - 1) (i_size a) (i_size a') ltac:(lia) Hs). lia.
  Qed.

  Lemma nn_ks_internal (r a key : infos) : wf_infos key -> 0 <= i_size a -> 0 <= i_rank a ->
    0 <= glwe_keyswitch_internal_tmp_bytes fam n r a key.
  Proof using Hf Hn0 Hn8.
    intros Hk Hs Hr. pose proof (ks_internal_lower fam n Hf Hn0 Hn8 r a key Hk Hs Hr).
    pose proof (al_dft fam n Hf Hn0 Hn8 (i_rank a) (i_size a) Hr Hs). lia.
  Qed.

  (* same radix on both sides, fewer limbs: the declared size shrinks (the result enters only through its rank) *)
  Lemma ks_tmp_mono (res res' a a' key : infos) : wf_infos key -> wf_infos a -> wf_infos a' ->
    i_rank res' = i_rank res -> i_n a = n -> i_n a' = n -> i_base2k a' = i_base2k a -> i_rank a' = i_rank a -> i_size a' <= i_size a ->
    glwe_keyswitch_tmp_bytes fam n res' a' key <= glwe_keyswitch_tmp_bytes fam n res a key.
  Proof using Hf Hn0 Hn8.
    intros Hk Ha Ha' Hrr Hn Hn' Hb Hr Hs.
    destruct Ha as (Hab & Has & Har & _). destruct Ha' as (Hab' & Has' & Har' & _).
    assert (Hkb : 1 <= i_base2k key) by (destruct Hk; lia).
    unfold glwe_keyswitch_tmp_bytes. cbv zeta. rewrite Hrr, Hb.
    destruct (negb (i_base2k a =? i_base2k key)).
    - set (c := mk_glwe_layout (i_n a) (i_base2k key) (i_max_k a) (i_rank a)).
      set (c' := mk_glwe_layout (i_n a') (i_base2k key) (i_max_k a') (i_rank a')).
      assert (Hcs : 0 <= i_size c' <= i_size c).
      { unfold c, c', mk_glwe_layout, i_max_k; cbn [i_size]. rewrite Hb. split.
        - apply div_ceil_nonneg; [nia|lia].
        - apply div_ceil_mono; [|lia]. apply Z.mul_le_mono_nonneg_r; lia. }
      assert (Hcr : i_rank c' = i_rank c) by (unfold c, c'; cbn [mk_glwe_layout i_rank]; lia).
      pose proof (ks_internal_mono res res' c c' key Hk ltac:(rewrite Hcr; unfold c; cbn [mk_glwe_layout i_rank]; lia) Hcs).
      assert (GLWE_bytes_of_from_infos c' <= GLWE_bytes_of_from_infos c).
      { unfold GLWE_bytes_of_from_infos, GLWE_bytes_of. rewrite Hcr.
        replace (i_n c') with n by (unfold c'; cbn [mk_glwe_layout i_n]; lia).
        replace (i_n c) with n by (unfold c; cbn [mk_glwe_layout i_n]; lia).
        replace (i_base2k c') with (i_base2k c) by reflexivity.
        assert (E : forall x, i_base2k x = i_base2k key -> 0 <= i_size x -> div_ceil (i_max_k x) (i_base2k x) = i_size x)
          by (intros x Hx Hx0; unfold i_max_k; apply div_ceil_mul; lia).
        rewrite (E c eq_refl ltac:(lia)). replace (i_base2k c) with (i_base2k c') by reflexivity.
        rewrite (E c' eq_refl ltac:(lia)).
        apply vec_znx_mono; [unfold c; cbn [mk_glwe_layout i_rank]; lia | lia]. }
      lia.
    - pose proof (ks_internal_mono res res' a a' key Hk ltac:(lia) ltac:(lia)). lia.
  Qed.
  (* a' already has the radix of the key: the declared size is at most the one of any a with at least as many columns whose
     precision, counted in limbs of the key's radix, is at least the one of a' *)
  Lemma ks_tmp_key_radix_le (res a a' key : infos) : wf_infos key -> wf_infos a -> wf_infos a' -> i_n a = n ->
    i_base2k a' = i_base2k key -> i_rank a' <= i_rank a -> i_size a' <= div_ceil (i_max_k a) (i_base2k key) ->
    glwe_keyswitch_tmp_bytes fam n res a' key <= glwe_keyswitch_tmp_bytes fam n res a key.
  Proof using Hf Hn0 Hn8.
    intros Hk Ha Ha' Hn Hb Hr Hs.
    destruct Ha as (Hab & Has & Har & _). destruct Ha' as (Hab' & Has' & Har' & _).
    assert (Hkb : 1 <= i_base2k key) by (destruct Hk; lia).
    unfold glwe_keyswitch_tmp_bytes. cbv zeta. rewrite Hb, Z.eqb_refl. cbn [negb].
    destruct (Z.eqb_spec (i_base2k a) (i_base2k key)) as [E|E]; cbn [negb].
    - assert (div_ceil (i_max_k a) (i_base2k key) = i_size a) by (unfold i_max_k; rewrite <- E; apply div_ceil_mul; lia).
      pose proof (ks_internal_mono res res a a' key Hk ltac:(lia) ltac:(lia)). lia.
    - set (c := mk_glwe_layout (i_n a) (i_base2k key) (i_max_k a) (i_rank a)).
      pose proof (ks_internal_mono res res c a' key Hk ltac:(unfold c, mk_glwe_layout; cbn [i_rank]; lia)
                    ltac:(unfold c, mk_glwe_layout; cbn [i_size]; lia)).
      assert (Hcs : 0 <= i_size c).
      { unfold c, mk_glwe_layout; cbn [i_size]. apply div_ceil_nonneg; [unfold i_max_k; nia | lia]. }
      assert (Wc : wf_infos c).
      { unfold wf_infos. unfold c at 1 3 4 5 6, mk_glwe_layout; cbn [i_base2k i_rank i_rank_in i_dnum i_dsize]. lia. }
      assert (0 <= GLWE_bytes_of_from_infos c).
      { rewrite (glwe_bytes_eq c Wc). change (i_n c) with (i_n a). change (i_rank c) with (i_rank a). rewrite Hn.
        apply (al_vec_znx fam n Hf Hn0 Hn8); lia. }
      lia.
  Qed.

  Lemma glwe1_facts (b2k k : Z) : 1 <= b2k -> 0 <= k ->
    let t := glwe1 n b2k k in
    wf_infos t /\ i_n t = n /\ i_rank t = 1 /\ i_base2k t = b2k /\ i_size t = div_ceil k b2k /\
    0 <= VecZnx_bytes_of (i_n t) (i_rank t + 1) (i_size t) /\ VecZnx_bytes_of (i_n t) (i_rank t + 1) (i_size t) mod 64 = 0.
  Proof using Hf Hn0 Hn8.
    intros Hb Hk t. pose proof (div_ceil_nonneg k b2k Hk Hb) as Hs.
    split; [unfold wf_infos, t, glwe1, mk_glwe_layout; cbn [i_base2k i_size i_rank i_rank_in i_dnum i_dsize]; lia|].
    repeat (split; [reflexivity|]).
    unfold t, glwe1, mk_glwe_layout; cbn [i_n i_rank i_size]. apply (al_vec_znx fam n Hf Hn0 Hn8); lia.
  Qed.

  Lemma rotate_assign_spec (res : infos) : budget (tree_glwe_rotate_assign fam n res) (glwe_rotate_tmp_bytes fam n).
  Proof using Hf Hn0 Hn8.
    pose proof (budget_rotate_assign fam n Hf Hn0 Hn8) as Br. pose proof (budget_nonneg _ _ Br).
    unfold tree_glwe_rotate_assign, glwe_rotate_tmp_bytes. cbn [budget persist]. split; [lia|]. eapply budget_mono; [exact Br | lia].
  Qed.

  (* lwe_from_glwe (both branches: a_idx = 0 and a_idx > 0) *)
  Lemma suffices_lwe_from_glwe (lwe a key : infos) :
    wf_infos lwe -> wf_infos a -> wf_infos key -> i_n a = n -> i_rank a = i_rank_in key ->
    run_takes (tree_lwe_from_glwe fam n lwe a key) (0, lwe_from_glwe_tmp_bytes fam n lwe a key) <> None.
  Proof using Hf Hn0 Hn8.
    intros Hl Ha Hk Hn Hrk.
    assert (Hlb : 1 <= i_base2k lwe) by (destruct Hl; lia).
    assert (Hmk : 0 <= i_max_k lwe) by (destruct Hl as (?&?&_); unfold i_max_k; nia).
    destruct (glwe1_facts (i_base2k lwe) (i_max_k lwe) Hlb Hmk) as (Wt & Nt & Rt & Bt & St & T0 & T64).
    set (t := glwe1 n (i_base2k lwe) (i_max_k lwe)) in *.
    pose proof (keyswitch_spec fam n Hf Hn0 Hn8 t a key Wt Ha Hk Hn Hrk) as Bk. pose proof (budget_nonneg _ _ Bk).
    pose proof (glwe_bytes_eq a Ha) as Eb.
    destruct (al_vec_znx fam n Hf Hn0 Hn8 (i_rank a + 1) (i_size a)) as [A0 A64]; [destruct Ha as (_&_&?&_); lia | destruct Ha as (_&?&_); lia |].
    apply budget_suffices; unfold tree_lwe_from_glwe, lwe_from_glwe_tmp_bytes, t_take_glwe, GLWE_bytes_of; cbv zeta;
      fold (glwe1 n (i_base2k lwe) (i_max_k lwe)); fold t; rewrite Eb, Hn, Nt, Rt, St in *.
    cbn [budget persist]. leaves.
    all: eapply budget_mono; [exact Bk | lia].
  Qed.

  (* lwe_keyswitch: the two rank-1 containers are sized for the larger precision, the calls use the actual ones *)
  Lemma lwe_keyswitch_spec (res a key : infos) :
    wf_infos res -> wf_infos a -> wf_infos key -> i_rank_in key = 1 ->
    budget (tree_lwe_keyswitch fam n res a key) (lwe_keyswitch_tmp_bytes fam n res a key).
  Proof using Hf Hn0 Hn8.
    intros Hr Ha Hk Hrk.
    assert (Hrb : 1 <= i_base2k res) by (destruct Hr; lia). assert (Hab : 1 <= i_base2k a) by (destruct Ha; lia).
    assert (Hmr : 0 <= i_max_k res) by (destruct Hr as (?&?&_); unfold i_max_k; nia).
    assert (Hma : 0 <= i_max_k a) by (destruct Ha as (?&?&_); unfold i_max_k; nia).
    set (mk := Z.max (i_max_k a) (i_max_k res)).
    destruct (glwe1_facts (i_base2k a) (i_max_k a) Hab Hma) as (Wi & Ni & Ri & Bi & Si & I0 & I64).
    destruct (glwe1_facts (i_base2k res) (i_max_k res) Hrb Hmr) as (Wo & No & Ro & Bo & So & O0 & O64).
    destruct (glwe1_facts (i_base2k a) mk Hab ltac:(unfold mk; lia)) as (WI & NI & RI & BI & SI & II0 & _).
    destruct (glwe1_facts (i_base2k res) mk Hrb ltac:(unfold mk; lia)) as (WO & NO & RO & BO & SO & OO0 & _).
    set (tin := glwe1 n (i_base2k a) (i_max_k a)) in *. set (tout := glwe1 n (i_base2k res) (i_max_k res)) in *.
    set (TI := glwe1 n (i_base2k a) mk) in *. set (TO := glwe1 n (i_base2k res) mk) in *.
    pose proof (keyswitch_spec fam n Hf Hn0 Hn8 tout tin key Wo Wi Hk Ni ltac:(lia)) as Bk. pose proof (budget_nonneg _ _ Bk).
    assert (Hsi : i_size tin <= i_size TI) by (rewrite Si, SI; apply div_ceil_mono; unfold mk; lia).
    assert (Hso : i_size tout <= i_size TO) by (rewrite So, SO; apply div_ceil_mono; unfold mk; lia).
    pose proof (ks_tmp_mono TO tout TI tin key Hk WI Wi ltac:(lia) NI Ni ltac:(lia) ltac:(lia) Hsi) as Hmono.
    pose proof (vec_znx_mono 2 (i_size TI) (i_size tin) ltac:(lia) Hsi).
    pose proof (vec_znx_mono 2 (i_size TO) (i_size tout) ltac:(lia) Hso).
    unfold tree_lwe_keyswitch, lwe_keyswitch_tmp_bytes, t_take_glwe; cbv zeta;
      fold mk; fold (glwe1 n (i_base2k a) mk); fold (glwe1 n (i_base2k res) mk); fold tin; fold tout; fold TI; fold TO;
      rewrite (glwe_bytes_eq TI WI), (glwe_bytes_eq TO WO); rewrite Ni, Ri, No, Ro, NI, RI, NO, RO in *.
    change (1 + 1) with 2 in *. cbn [budget persist]. leaves.
    eapply budget_mono; [exact Bk | lia].
  Qed.

  Lemma suffices_lwe_keyswitch (res a key : infos) :
    wf_infos res -> wf_infos a -> wf_infos key -> i_rank_in key = 1 ->
    run_takes (tree_lwe_keyswitch fam n res a key) (0, lwe_keyswitch_tmp_bytes fam n res a key) <> None.
  Proof using Hf Hn0 Hn8. intros. apply budget_suffices, lwe_keyswitch_spec; assumption. Qed.

  (* glwe_from_lwe (since 584fd63 the inner key-switch is sized on the temporary it acts on) *)
  Lemma suffices_glwe_from_lwe (res lwe key : infos) :
    wf_infos res -> wf_infos lwe -> wf_infos key -> i_rank_in key = 1 ->
    run_takes (tree_glwe_from_lwe fam n res lwe key) (0, glwe_from_lwe_tmp_bytes fam n res lwe key) <> None.
  Proof using Hf Hn0 Hn8.
    intros Hr Hl Hk Hrk.
    assert (Hkb : 1 <= i_base2k key) by (destruct Hk; lia).
    assert (Hml : 0 <= i_max_k lwe) by (destruct Hl as (?&?&_); unfold i_max_k; nia).
    assert (Hls : 0 <= i_size lwe) by (destruct Hl as (_&?&_); lia).
    destruct (glwe1_facts (i_base2k key) (i_max_k lwe) Hkb Hml) as (Wt & Nt & Rt & Bt & St & T0 & T64).
    set (t := glwe1 n (i_base2k key) (i_max_k lwe)) in *.
    pose proof (keyswitch_spec fam n Hf Hn0 Hn8 res t key Hr Wt Hk Nt ltac:(lia)) as Bk. pose proof (budget_nonneg _ _ Bk).
    pose proof (budget_normalize fam n Hf Hn0 Hn8) as Bn. pose proof (nn_norm fam n Hf Hn0 Hn8).
    destruct (al_vec_znx fam n Hf Hn0 Hn8 1 (i_size lwe) ltac:(lia) Hls) as [C0 C64].
    pose proof (vec_znx_mono 2 (div_ceil (Z.max (i_max_k lwe) (i_max_k res)) (i_base2k key)) (i_size t) ltac:(lia)
                  ltac:(rewrite St; apply div_ceil_mono; lia)).
    apply budget_suffices; unfold tree_glwe_from_lwe, glwe_from_lwe_tmp_bytes, t_take_glwe, GLWE_bytes_of; cbv zeta;
      fold (glwe1 n (i_base2k key) (i_max_k lwe)); fold t; rewrite Nt, Rt in *; change (1 + 1) with 2 in *.
    destruct (i_base2k lwe =? i_base2k key); cbn [budget persist].
    all: leaves.
    all: eapply budget_mono; [eassumption | lia].
  Qed.

  (* glwe_pack: what the run needs is what the (crate-internal) per-input query declares, beside the entry assertion *)
  Lemma pack_spec (res a key : infos) (iters steps : Z) :
    wf_infos res -> wf_infos a -> wf_infos key -> i_n res = n -> i_n a = n -> i_rank res = i_rank_in key -> i_rank a = i_rank_in key ->
    budget (tree_glwe_pack fam n res a key iters steps)
           (Z.max (glwe_pack_tmp_bytes fam n res key) (glwe_pack_tmp_bytes_for_input fam n res a key)).
  Proof using Hf Hn0 Hn8.
    intros Hr Ha Hk Hn Hna Hrk Hrka.
    pose proof (rotate_assign_spec a) as Bro. pose proof (rsh_spec fam n Hf Hn0 Hn8 a) as Brs.
    pose proof (glwe_normalize_spec fam n Hf Hn0 Hn8 (i_rank a + 1)) as Bgn.
    pose proof (automorphism_spec fam n Hf Hn0 Hn8 a a key Ha Ha Hk Hna Hrka) as Bau.
    pose proof (automorphism_add_spec fam n Hf Hn0 Hn8 a a key Ha Ha Hk Hna Hrka) as Bad.
    pose proof (trace_spec fam n Hf Hn0 Hn8 res a key steps Hr Ha Hk Hn Hrk) as Btr.
    pose proof (budget_nonneg _ _ (trace_spec fam n Hf Hn0 Hn8 res res key steps Hr Hr Hk Hn Hrk)).
    pose proof (budget_nonneg _ _ Bro). pose proof (budget_nonneg _ _ Btr).
    destruct (al_vec_znx fam n Hf Hn0 Hn8 (i_rank a + 1) (i_size a)) as [A0 A64];
      [destruct Ha as (_&_&?&_); lia | destruct Ha as (_&?&_); lia |].
    rewrite <- Hna in A0, A64 at 1.
    assert (HF : 0 <= glwe_pack_tmp_bytes fam n res key) by (unfold glwe_pack_tmp_bytes, glwe_pack_tmp_bytes_for_input; cbv zeta; lia).
    unfold tree_glwe_pack, t_pack_both, t_pack_lo, t_pack_hi, t_take_glwe.
    set (F := glwe_pack_tmp_bytes fam n res key) in *. clearbody F. unfold glwe_pack_tmp_bytes_for_input; cbv zeta.
    rewrite (glwe_bytes_eq a Ha).
    set (X := Z.max (Z.max (Z.max (glwe_rotate_tmp_bytes fam n) (glwe_shift_tmp_bytes fam n)) (glwe_normalize_tmp_bytes fam n))
                    (glwe_automorphism_tmp_bytes fam n a a key)).
    assert (HX : glwe_rotate_tmp_bytes fam n <= X /\ glwe_shift_tmp_bytes fam n <= X /\ glwe_normalize_tmp_bytes fam n <= X /\
                 glwe_automorphism_tmp_bytes fam n a a key <= X) by (unfold X; lia).
    clearbody X. cbn [seq_scoped fold_right budget persist]. leaves.
    all: eapply budget_mono; [eassumption | lia].
  Qed.

  (* inputs that have the layout of the result: glwe_pack_tmp_bytes(res, key) *)
  Lemma suffices_glwe_pack (res key : infos) (iters steps : Z) :
    wf_infos res -> wf_infos key -> i_n res = n -> i_rank res = i_rank_in key ->
    run_takes (tree_glwe_pack fam n res res key iters steps) (0, glwe_pack_tmp_bytes fam n res key) <> None.
  Proof using Hf Hn0 Hn8.
    intros Hr Hk Hn Hrk. apply budget_suffices.
    eapply budget_mono; [exact (pack_spec res res key iters steps Hr Hr Hk Hn Hn Hrk Hrk) | unfold glwe_pack_tmp_bytes; lia].
  Qed.

  (* the per-input requirement is covered by the PUBLIC query evaluated on the result and on the input layout *)
  Lemma pack_for_input_le_max (res a key : infos) : i_n a = i_n res -> i_rank a = i_rank res ->
    glwe_pack_tmp_bytes_for_input fam n res a key <= Z.max (glwe_pack_tmp_bytes fam n res key) (glwe_pack_tmp_bytes fam n a key).
  Proof using Hf Hn0 Hn8.
    intros Hn Hr.
    (* the temporary of the trace is sized on the more precise of the two layouts *)
    assert (E : glwe_trace_tmp_bytes fam n res a key = glwe_trace_tmp_bytes fam n res res key \/
                glwe_trace_tmp_bytes fam n res a key = glwe_trace_tmp_bytes fam n a a key).
    { unfold glwe_trace_tmp_bytes. cbv zeta. rewrite Hn, Hr.
      destruct (Z.max_spec (i_max_k a) (i_max_k res)) as [[_ ->] | [_ ->]]; rewrite !Z.max_id; [left | right]; reflexivity. }
    unfold glwe_pack_tmp_bytes, glwe_pack_tmp_bytes_for_input. cbv zeta. destruct E as [-> | ->]; lia.
  Qed.

  (* inputs of any layout: the maximum of the public query over the layouts involved *)
  Lemma suffices_glwe_pack_inputs (res a key : infos) (iters steps : Z) :
    wf_infos res -> wf_infos a -> wf_infos key -> i_n res = n -> i_n a = n -> i_rank res = i_rank_in key -> i_rank a = i_rank_in key ->
    run_takes (tree_glwe_pack fam n res a key iters steps)
              (0, Z.max (glwe_pack_tmp_bytes fam n res key) (glwe_pack_tmp_bytes fam n a key)) <> None.
  Proof using Hf Hn0 Hn8.
    intros Hr Ha Hk Hn Hna Hrk Hrka. pose proof (pack_for_input_le_max res a key ltac:(lia) ltac:(lia)).
    apply budget_suffices. eapply budget_mono; [exact (pack_spec res a key iters steps Hr Ha Hk Hn Hna Hrk Hrka) | lia].
  Qed.
End Conv.

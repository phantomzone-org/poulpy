(* C15 — the hypotheses of C15_word_op_correct and C15_circuit_bootstrap_cells are satisfiable: the noise-free ideal
   scheme (a ciphertext IS its ideal plaintext, a GGSW IS its bit / its rows) satisfies every one of them; the
   theorems are applied to it in Props/C15.v. *)
From Coq Require Import ZArith List Bool Lia.
From PV Require Import Gen.C15_gen Model.C13Bdd Model.C15Uint Model.C15Cbt Model.C15Word
  Proofs.C13Circuits Proofs.C15Layout Proofs.C15Surgery Proofs.C15WordProof Proofs.C15CbtProof.
Import ListNotations.
Open Scope Z_scope.

Section IdealWord.
  Variable logn : Z.
  Let T := std_wty 2.
  Definition i_cmux (t f : poly) (s : bool) : poly := if s then t else f.
  Definition i_get_lwe (c : poly) (i : Z) : Z := get_bit_lwe T logn i c.
  Definition i_cbt (l : Z) : bool := l =? 1.
  Definition i_pack (cts : list poly) : poly := match pack T logn cts with Some q => q | None => p_zero end.
  Definition always {X} (_ : X) : Prop := True.

  Lemma Forall2_eq {A} (l l' : list A) : Forall2 eq l l' -> l = l'.
  Proof. induction 1; subst; auto. Qed.
  Lemma Forall_always {X} (l : list X) : Forall always l.
  Proof. apply Forall_forall. intros; exact I. Qed.

  (* the five named hypotheses of C15_word_op_correct about cmux, extraction, bootstrapping, packing and decryption hold
     for the ideal scheme (the two about ct_zero / ct_one hold by reflexivity) *)
  Lemma ideal_word_hyps :
    (forall t f s (bt bf b : bool),
       t = p_const (if bt then 1 else 0) -> f = p_const (if bf then 1 else 0) -> s = b -> always (i_cmux t f s) ->
       i_cmux t f s = p_const (if (if b then bt else bf) then 1 else 0)) /\
    (forall c q i, c = q -> 0 <= i < 32 -> always (i_get_lwe c i) -> i_get_lwe c i = get_bit_lwe T logn i q) /\
    (forall l m b, l = m -> cb_bit m = Some b -> always (i_cbt l) -> i_cbt l = b) /\
    (forall cts qs q, Forall2 eq cts qs -> pack T logn qs = Some q -> always (i_pack cts) -> i_pack cts = q) /\
    (forall c q, c = q -> always c -> p_dec T logn c = p_dec T logn q).
  Proof.
    repeat split.
    - intros t f s bt bf b -> -> -> _. destruct b; reflexivity.
    - intros c q i -> _ _. reflexivity.
    - intros l m b -> Hb _. unfold cb_bit, i_cbt in *.
      destruct (Z.eqb_spec m 0) as [->|]; [injection Hb as <-; reflexivity|].
      destruct (Z.eqb_spec m 1); [injection Hb as <-; reflexivity | discriminate].
    - intros cts qs q H Hp _. apply Forall2_eq in H. subst. unfold i_pack. now rewrite Hp.
    - intros c q -> _. reflexivity.
  Qed.
End IdealWord.

Section IdealCbt.
  Variables (logn base2k dnum bb : Z) (expo : bool) (ld lgo : Z).
  Let n := 2 ^ logn.
  Definition j_blind_rotate (m : Z) : poly := br_acc logn base2k dnum bb expo ld m.
  Definition j_post (c : poly) : poly := match post_process logn dnum ld lgo c with Some q => q | None => p_zero end.
  Definition j_expand (rows : list poly) : list poly := rows.
  Definition j_cell (g : list poly) (row col : Z) (mp : poly) : Prop :=
    exists c, nth_error g (Z.to_nat row) = Some c /\ forall j, 0 <= j < n -> row_decoded base2k dnum bb row c j = mp j.
End IdealCbt.

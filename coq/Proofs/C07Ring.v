(* C07: Z[X]/(X^n+1) algebra of the exact model (pmul = negacyclic product): coefficient formula, ring laws. *)
From PV Require Import Base.MachineInt Model.Znx Model.Limbs Model.Ring Model.DftAbs Proofs.C07Dft.
From PV Require Export Proofs.PolyFacts.
Open Scope Z_scope.

Definition zsum (f : nat -> Z) (n : nat) : Z := fold_left (fun acc i => acc + f i) (seq 0 n) 0.

Lemma fold_add_shift (f : nat -> Z) l acc : fold_left (fun a i => a + f i) l acc = acc + fold_left (fun a i => a + f i) l 0.
Proof.
  revert acc; induction l as [|x l IH]; intros acc; cbn [fold_left]; [lia|].
  rewrite IH, (IH (0 + f x)). lia.
Qed.

Lemma zsum_0 f : zsum f 0 = 0.
Proof. reflexivity. Qed.

Lemma zsum_S f n : zsum f (S n) = zsum f n + f n.
Proof.
  unfold zsum. rewrite seq_S, fold_left_app. cbn [fold_left Nat.add]. reflexivity.
Qed.

Lemma zsum_ext f g n : (forall i, (i < n)%nat -> f i = g i) -> zsum f n = zsum g n.
Proof.
  induction n as [|n IH]; intros H; [reflexivity|].
  rewrite !zsum_S, IH, H by auto with arith. reflexivity.
Qed.

Lemma zsum_zero n : zsum (fun _ => 0) n = 0.
Proof. induction n as [|n IH]; [reflexivity|rewrite zsum_S, IH; reflexivity]. Qed.

Lemma zsum_app f n m : zsum f (n + m) = zsum f n + zsum (fun i => f (n + i)%nat) m.
Proof.
  induction m as [|m IH]; [rewrite Nat.add_0_r, zsum_0; ring|].
  rewrite Nat.add_succ_r, !zsum_S, IH. ring.
Qed.

Lemma zsum_const c n : zsum (fun _ => c) n = Z.of_nat n * c.
Proof. induction n as [|n IH]; [rewrite zsum_0; ring|rewrite zsum_S, IH, Nat2Z.inj_succ; ring]. Qed.

Lemma zsum_add f g n : zsum (fun i => f i + g i) n = zsum f n + zsum g n.
Proof. induction n as [|n IH]; [reflexivity|rewrite !zsum_S, IH; ring]. Qed.

Lemma zsum_sub f g n : zsum (fun i => f i - g i) n = zsum f n - zsum g n.
Proof. induction n as [|n IH]; [reflexivity|rewrite !zsum_S, IH; ring]. Qed.

Lemma zsum_opp f n : zsum (fun i => - f i) n = - zsum f n.
Proof. induction n as [|n IH]; [reflexivity|rewrite !zsum_S, IH; ring]. Qed.

Lemma zsum_mul_l c f n : zsum (fun i => c * f i) n = c * zsum f n.
Proof. induction n as [|n IH]; [cbn; ring|rewrite !zsum_S, IH; ring]. Qed.

Lemma zsum_mul_r c f n : zsum (fun i => f i * c) n = zsum f n * c.
Proof. induction n as [|n IH]; [cbn; ring|rewrite !zsum_S, IH; ring]. Qed.

Lemma zsum_swap (f : nat -> nat -> Z) n m :
  zsum (fun i => zsum (fun j => f i j) m) n = zsum (fun j => zsum (fun i => f i j) n) m.
Proof.
  induction n as [|n IH].
  - cbn [zsum seq fold_left]. symmetry; apply zsum_zero.
  - rewrite zsum_S, IH, <- zsum_add. apply zsum_ext; intros j _. rewrite zsum_S; reflexivity.
Qed.

(* a sum whose terms vanish except at one index *)
Lemma zsum_single (g : nat -> Z) j0 n :
  (j0 < n)%nat -> zsum (fun j => if Nat.eqb j j0 then g j else 0) n = g j0.
Proof.
  induction n as [|n IH]; intros H; [lia|].
  rewrite zsum_S. destruct (Nat.eq_dec j0 n) as [->|Hne].
  - rewrite Nat.eqb_refl.
    rewrite (zsum_ext _ (fun _ => 0)), zsum_zero; [lia|].
    intros i Hi. destruct (Nat.eqb_spec i n); [lia|reflexivity].
  - rewrite IH by lia. destruct (Nat.eqb_spec n j0); [lia|lia].
Qed.

Lemma zsum_none (g : nat -> Z) n : (forall j, (j < n)%nat -> g j = 0) -> zsum g n = 0.
Proof. intros H. rewrite (zsum_ext _ (fun _ => 0)) by auto. apply zsum_zero. Qed.

Definition ext' (a : list Z) (k : Z) : Z :=
  let n := Z.of_nat (length a) in
  let q := k / n in let r := k mod n in
  if Z.even q then nthZ a (Z.to_nat r) else - nthZ a (Z.to_nat r).

Definition monomial_mul' (p : Z) (a : list Z) : list Z :=
  map (fun i => ext' a (Z.of_nat i - p)) (seq 0 (length a)).

Lemma ext'_lo a (i k : nat) : (i <= k)%nat -> (k < length a)%nat ->
  ext' a (Z.of_nat k - Z.of_nat i) = nthZ a (k - i).
Proof.
  intros H1 H2. unfold ext'. cbv zeta.
  rewrite Z.div_small, Z.mod_small by lia. cbn [Z.even].
  f_equal. lia.
Qed.

Lemma ext'_hi a (i k : nat) : (k < i)%nat -> (i < length a)%nat ->
  ext' a (Z.of_nat k - Z.of_nat i) = - nthZ a (length a + k - i).
Proof.
  intros H1 H2. unfold ext'. cbv zeta.
  set (n := Z.of_nat (length a)).
  assert (Hq : (Z.of_nat k - Z.of_nat i) / n = -1).
  { symmetry. apply (Z.div_unique _ _ _ (Z.of_nat k - Z.of_nat i + n)); lia. }
  assert (Hr : (Z.of_nat k - Z.of_nat i) mod n = Z.of_nat k - Z.of_nat i + n).
  { symmetry. apply (Z.mod_unique _ _ (-1)); lia. }
  rewrite Hq, Hr. cbn [Z.even]. do 2 f_equal. lia.
Qed.

Lemma fold_cond_eq (c : nat -> bool) (x y : nat -> Z) l acc :
  fold_left (fun acc i => if c i then acc + x i else acc - y i) l acc =
  fold_left (fun acc i => acc + (if c i then x i else - y i)) l acc.
Proof.
  revert acc; induction l as [|h l IH]; intros acc; cbn [fold_left]; [reflexivity|].
  rewrite IH. f_equal. destruct (c h); lia.
Qed.

Lemma nth_map_seq (f : nat -> Z) n k : (k < n)%nat -> nth k (map f (seq 0 n)) 0 = f k.
Proof.
  intros H. rewrite (nth_indep _ 0 (f 0%nat)) by (rewrite map_length, seq_length; exact H).
  rewrite map_nth, seq_nth by exact H. reflexivity.
Qed.

Theorem pmul_spec (a b : list Z) (k : nat) :
  length b = length a -> (k < length a)%nat ->
  nth k (pmul a b) 0 = zsum (fun i => nthZ a i * ext' b (Z.of_nat k - Z.of_nat i)) (length a).
Proof.
  intros Hl Hk. unfold pmul. cbv zeta.
  rewrite nth_map_seq by exact Hk.
  rewrite (fold_cond_eq (fun i => Nat.leb i k)).
  unfold zsum. 
  assert (G : forall l acc, (forall i, In i l -> (i < length a)%nat) ->
     fold_left (fun acc i => acc + (if Nat.leb i k then nthZ a i * nthZ b (k - i) else - (nthZ a i * nthZ b (length a + k - i)))) l acc
     = fold_left (fun acc i => acc + nthZ a i * ext' b (Z.of_nat k - Z.of_nat i)) l acc).
  { induction l as [|h l IH]; intros acc Hin; cbn [fold_left]; [reflexivity|].
    rewrite IH by (intros; apply Hin; right; assumption). f_equal. f_equal.
    assert (Hh : (h < length a)%nat) by (apply Hin; left; reflexivity).
    destruct (Nat.leb_spec h k).
    - rewrite ext'_lo by lia. reflexivity.
    - rewrite ext'_hi by lia. rewrite Hl. ring. }
  apply G. intros i Hi. apply in_seq in Hi. lia.
Qed.

Definition delta (n i j k : nat) : Z :=
  if Nat.eqb (i + j) k then 1 else if Nat.eqb (i + j) (k + n) then -1 else 0.

Lemma delta_comm n i j k : delta n i j k = delta n j i k.
Proof. unfold delta. rewrite (Nat.add_comm i j). reflexivity. Qed.

(* sum over the third index: exactly one non-zero term *)
Lemma delta_sum_k n i j (g : nat -> Z) : (i < n)%nat -> (j < n)%nat ->
  zsum (fun m => delta n i j m * g m) n = if Nat.ltb (i + j) n then g (i + j)%nat else - g (i + j - n)%nat.
Proof.
  intros Hi Hj. destruct (Nat.ltb_spec (i + j) n) as [H|H].
  - rewrite <- (zsum_single g (i + j) n H). apply zsum_ext; intros m Hm. unfold delta.
    destruct (Nat.eqb_spec m (i + j)); destruct (Nat.eqb_spec (i + j) m); try lia.
    destruct (Nat.eqb_spec (i + j) (m + n)); lia.
  - rewrite <- (zsum_single g (i + j - n) n) by lia. rewrite <- zsum_opp.
    apply zsum_ext; intros m Hm. unfold delta.
    destruct (Nat.eqb_spec m (i + j - n)); destruct (Nat.eqb_spec (i + j) m);
      destruct (Nat.eqb_spec (i + j) (m + n)); lia.
Qed.

(* sum over the second index *)
Lemma delta_sum_j n i k (g : nat -> Z) : (i < n)%nat -> (k < n)%nat ->
  zsum (fun j => g j * delta n i j k) n = if Nat.leb i k then g (k - i)%nat else - g (n + k - i)%nat.
Proof.
  intros Hi Hk. destruct (Nat.leb_spec i k) as [H|H].
  - rewrite <- (zsum_single g (k - i) n) by lia. apply zsum_ext; intros j Hj. unfold delta.
    destruct (Nat.eqb_spec j (k - i)); destruct (Nat.eqb_spec (i + j) k);
      destruct (Nat.eqb_spec (i + j) (k + n)); lia.
  - rewrite <- (zsum_single g (n + k - i) n) by lia. rewrite <- zsum_opp.
    apply zsum_ext; intros j Hj. unfold delta.
    destruct (Nat.eqb_spec j (n + k - i)); destruct (Nat.eqb_spec (i + j) k);
      destruct (Nat.eqb_spec (i + j) (k + n)); lia.
Qed.

Lemma ext'_delta b (i k : nat) : (i < length b)%nat -> (k < length b)%nat ->
  ext' b (Z.of_nat k - Z.of_nat i) = zsum (fun j => nthZ b j * delta (length b) i j k) (length b).
Proof.
  intros Hi Hk. rewrite delta_sum_j by assumption.
  destruct (Nat.leb_spec i k); [apply ext'_lo|apply ext'_hi]; lia.
Qed.

Lemma pmul_delta (a b : list Z) (k : nat) : length b = length a -> (k < length a)%nat ->
  nth k (pmul a b) 0 =
  zsum (fun i => zsum (fun j => nthZ a i * nthZ b j * delta (length a) i j k) (length a)) (length a).
Proof.
  intros Hl Hk. rewrite pmul_spec by assumption.
  apply zsum_ext; intros i Hi.
  rewrite ext'_delta by lia. rewrite Hl, <- zsum_mul_l.
  apply zsum_ext; intros j _. ring.
Qed.

Theorem pmul_comm a b : length b = length a -> pmul a b = pmul b a.
Proof.
  intros Hl. apply list_eq_nth; [rewrite !pmul_length; lia|].
  rewrite pmul_length. intros k Hk.
  rewrite !pmul_delta by lia. rewrite Hl, zsum_swap.
  apply zsum_ext; intros i _. apply zsum_ext; intros j _.
  rewrite (delta_comm _ j i). ring.
Qed.

Lemma ext'_padd b c k : length c = length b -> ext' (padd b c) k = ext' b k + ext' c k.
Proof.
  intros Hl. unfold ext'. cbv zeta. rewrite padd_length, Hl, Nat.min_id.
  unfold nthZ. rewrite nth_padd by assumption. destruct (Z.even _); ring.
Qed.
Lemma ext'_psub b c k : length c = length b -> ext' (psub b c) k = ext' b k - ext' c k.
Proof.
  intros Hl. unfold ext'. cbv zeta. rewrite psub_length, Hl, Nat.min_id.
  unfold nthZ. rewrite nth_psub by assumption. destruct (Z.even _); ring.
Qed.
Lemma ext'_pneg b k : ext' (pneg b) k = - ext' b k.
Proof. unfold ext'. cbv zeta. rewrite pneg_length. unfold nthZ. rewrite nth_pneg. destruct (Z.even _); ring. Qed.

Theorem pmul_padd_distr_l a b c : length b = length a -> length c = length a ->
  pmul a (padd b c) = padd (pmul a b) (pmul a c).
Proof.
  intros Hb Hc. apply list_eq_nth; [rewrite padd_length, !pmul_length; lia|].
  rewrite pmul_length. intros k Hk.
  rewrite nth_padd by (rewrite !pmul_length; reflexivity).
  rewrite !pmul_spec by (try rewrite padd_length; lia).
  rewrite <- zsum_add. apply zsum_ext; intros i _. rewrite ext'_padd by lia. ring.
Qed.

Theorem pmul_psub_distr_l a b c : length b = length a -> length c = length a ->
  pmul a (psub b c) = psub (pmul a b) (pmul a c).
Proof.
  intros Hb Hc. apply list_eq_nth; [rewrite psub_length, !pmul_length; lia|].
  rewrite pmul_length. intros k Hk.
  rewrite nth_psub by (rewrite !pmul_length; reflexivity).
  rewrite !pmul_spec by (try rewrite psub_length; lia).
  rewrite <- zsum_sub. apply zsum_ext; intros i _. rewrite ext'_psub by lia. ring.
Qed.

Theorem pmul_padd_distr_r a b c : length b = length a -> length c = length a ->
  pmul (padd a b) c = padd (pmul a c) (pmul b c).
Proof.
  intros Hb Hc.
  rewrite (pmul_comm (padd a b) c) by (rewrite padd_length; lia).
  rewrite pmul_padd_distr_l by lia.
  rewrite (pmul_comm c a), (pmul_comm c b) by lia. reflexivity.
Qed.

Theorem pmul_psub_distr_r a b c : length b = length a -> length c = length a ->
  pmul (psub a b) c = psub (pmul a c) (pmul b c).
Proof.
  intros Hb Hc.
  rewrite (pmul_comm (psub a b) c) by (rewrite psub_length; lia).
  rewrite pmul_psub_distr_l by lia.
  rewrite (pmul_comm c a), (pmul_comm c b) by lia. reflexivity.
Qed.

Theorem pmul_pzero_r a : pmul a (pzero (length a)) = pzero (length a).
Proof. apply PolyFacts.pmul_pzero_r. Qed.

Theorem pmul_pzero_l a : pmul (pzero (length a)) a = pzero (length a).
Proof. apply PolyFacts.pmul_pzero_l. Qed.

(* X^p as a coefficient list *)
Definition xpow (n p : nat) : list Z := map (fun i => if Nat.eqb i p then 1 else 0) (seq 0 n).
Definition pone (n : nat) : list Z := 1 :: zeros (n - 1).

Lemma xpow_length n p : length (xpow n p) = n.
Proof. unfold xpow. rewrite map_length, seq_length. reflexivity. Qed.

Lemma nth_xpow n p i : (i < n)%nat -> nthZ (xpow n p) i = if Nat.eqb i p then 1 else 0.
Proof. intros H. unfold nthZ, xpow. rewrite nth_map_seq by exact H. reflexivity. Qed.

Theorem pmul_monomial a p : (p < length a)%nat -> pmul (xpow (length a) p) a = monomial_mul' (Z.of_nat p) a.
Proof.
  intros Hp. apply list_eq_nth.
  { rewrite pmul_length, xpow_length. unfold monomial_mul'. rewrite map_length, seq_length. reflexivity. }
  rewrite pmul_length, xpow_length. intros k Hk.
  rewrite pmul_spec by (rewrite xpow_length; lia). rewrite xpow_length.
  unfold monomial_mul'. rewrite nth_map_seq by exact Hk.
  rewrite <- (zsum_single (fun i => ext' a (Z.of_nat k - Z.of_nat i)) p (length a) Hp).
  apply zsum_ext; intros i Hi. rewrite nth_xpow by exact Hi.
  destruct (Nat.eqb i p); ring.
Qed.

Lemma pone_xpow n : (1 <= n)%nat -> pone n = xpow n 0.
Proof.
  intros Hn. apply list_eq_nth.
  { unfold pone, zeros. cbn [length]. rewrite repeat_length, xpow_length. lia. }
  intros k Hk. unfold pone in *. cbn [length] in Hk. unfold zeros in Hk. rewrite repeat_length in Hk.
  fold (nthZ (xpow n 0) k). rewrite nth_xpow by lia.
  destruct k as [|k]; [reflexivity|]. cbn [nth Nat.eqb]. apply nth_pzero.
Qed.

Lemma monomial_mul'_0 a : monomial_mul' 0 a = a.
Proof.
  apply list_eq_nth; [unfold monomial_mul'; rewrite map_length, seq_length; reflexivity|].
  unfold monomial_mul'. rewrite map_length, seq_length. intros k Hk.
  rewrite nth_map_seq by exact Hk.
  replace (Z.of_nat k - 0) with (Z.of_nat k - Z.of_nat 0) by lia.
  rewrite ext'_lo by lia. unfold nthZ. f_equal. lia.
Qed.

Theorem pmul_one_l a : (1 <= length a)%nat -> pmul (pone (length a)) a = a.
Proof.
  intros Hn. rewrite pone_xpow by exact Hn. rewrite (pmul_monomial a 0) by lia. apply monomial_mul'_0.
Qed.

Theorem pmul_one_r a : (1 <= length a)%nat -> pmul a (pone (length a)) = a.
Proof.
  intros Hn. rewrite pmul_comm; [apply pmul_one_l; exact Hn|].
  rewrite pone_xpow by exact Hn. apply xpow_length.
Qed.

Theorem pairwise_identity ai aj bi bj : length aj = length ai -> length bi = length ai -> length bj = length ai ->
  psub (psub (pmul (padd ai aj) (padd bi bj)) (pmul ai bi)) (pmul aj bj) = padd (pmul ai bj) (pmul aj bi).
Proof.
  intros H1 H2 H3.
  rewrite pmul_padd_distr_r by (try rewrite padd_length; lia).
  rewrite !pmul_padd_distr_l by lia.
  apply list_eq_nth.
  { rewrite !psub_length, !padd_length, !pmul_length. lia. }
  intros k _.
  repeat first [ rewrite nth_psub by (rewrite ?psub_length, ?padd_length, ?pmul_length; lia)
               | rewrite nth_padd by (rewrite ?psub_length, ?padd_length, ?pmul_length; lia) ].
  ring.
Qed.

Lemma zsum_ext2 (f g : nat -> nat -> Z) n m :
  (forall i j, (i < n)%nat -> (j < m)%nat -> f i j = g i j) ->
  zsum (fun i => zsum (fun j => f i j) m) n = zsum (fun i => zsum (fun j => g i j) m) n.
Proof. intros H. apply zsum_ext; intros i Hi. apply zsum_ext; intros j Hj. auto. Qed.

Lemma sum4_rot (F : nat -> nat -> nat -> nat -> Z) n :
  zsum (fun m => zsum (fun l => zsum (fun i => zsum (fun j => F m l i j) n) n) n) n =
  zsum (fun i => zsum (fun j => zsum (fun l => zsum (fun m => F m l i j) n) n) n) n.
Proof.
  rewrite zsum_swap.                                   (* l m i j *)
  rewrite (zsum_ext _ (fun l => zsum (fun i => zsum (fun m => zsum (fun j => F m l i j) n) n) n))
    by (intros; apply zsum_swap).                      (* l i m j *)
  rewrite zsum_swap.                                   (* i l m j *)
  rewrite (zsum_ext _ (fun i => zsum (fun l => zsum (fun j => zsum (fun m => F m l i j) n) n) n))
    by (intros; apply zsum_ext; intros; apply zsum_swap).   (* i l j m *)
  apply zsum_ext; intros i _. apply zsum_swap.         (* i j l m *)
Qed.

Lemma sum3_rot (F : nat -> nat -> nat -> Z) n :
  zsum (fun m => zsum (fun j => zsum (fun l => F m j l) n) n) n =
  zsum (fun j => zsum (fun l => zsum (fun m => F m j l) n) n) n.
Proof.
  rewrite zsum_swap. apply zsum_ext; intros j _. apply zsum_swap.
Qed.

Lemma delta_assoc n i j l k : (i < n)%nat -> (j < n)%nat -> (l < n)%nat -> (k < n)%nat ->
  zsum (fun m => delta n i j m * delta n m l k) n = zsum (fun m => delta n j l m * delta n i m k) n.
Proof.
  intros Hi Hj Hl Hk.
  rewrite (delta_sum_k n i j (fun m => delta n m l k)) by assumption.
  rewrite (delta_sum_k n j l (fun m => delta n i m k)) by assumption.
  unfold delta.
  destruct (Nat.ltb_spec (i + j) n); destruct (Nat.ltb_spec (j + l) n);
  repeat match goal with |- context [Nat.eqb ?x ?y] => destruct (Nat.eqb_spec x y) end; lia.
Qed.

Theorem pmul_assoc a b c : length b = length a -> length c = length a ->
  pmul (pmul a b) c = pmul a (pmul b c).
Proof.
  intros Hb Hc. set (n := length a).
  apply list_eq_nth; [rewrite !pmul_length; reflexivity|].
  rewrite !pmul_length. fold n. intros k Hk.
  rewrite (pmul_delta (pmul a b) c) by (rewrite ?pmul_length; lia).
  rewrite (pmul_delta a (pmul b c)) by (rewrite ?pmul_length; lia).
  rewrite pmul_length. fold n.
  (* left: sum_m sum_l (ab)_m c_l d(m,l,k) *)
  transitivity (zsum (fun i => zsum (fun j => zsum (fun l => zsum (fun m =>
       nthZ a i * nthZ b j * nthZ c l * (delta n i j m * delta n m l k)) n) n) n) n).
  - rewrite <- (sum4_rot (fun m l i j => nthZ a i * nthZ b j * nthZ c l * (delta n i j m * delta n m l k))).
    apply zsum_ext2; intros m l Hm Hl.
    change (nthZ (pmul a b) m) with (nth m (pmul a b) 0). rewrite (pmul_delta a b m) by (fold n; lia). fold n.
    rewrite <- !zsum_mul_r. apply zsum_ext; intros i _.
    rewrite <- !zsum_mul_r. apply zsum_ext; intros j _. ring.
  - transitivity (zsum (fun i => zsum (fun j => zsum (fun l => zsum (fun m =>
       nthZ a i * nthZ b j * nthZ c l * (delta n j l m * delta n i m k)) n) n) n) n).
    + apply zsum_ext; intros i Hi. apply zsum_ext; intros j Hj. apply zsum_ext; intros l Hl.
      rewrite !zsum_mul_l. f_equal. apply delta_assoc; assumption.
    + apply zsum_ext; intros i Hi.
      rewrite <- (sum3_rot (fun m j l => nthZ a i * nthZ b j * nthZ c l * (delta n j l m * delta n i m k))).
      apply zsum_ext; intros m Hm.
      change (nthZ (pmul b c) m) with (nth m (pmul b c) 0). rewrite (pmul_delta b c m) by (rewrite Hb; fold n; lia). rewrite Hb. fold n.
      rewrite <- zsum_mul_l, <- zsum_mul_r. apply zsum_ext; intros j _.
      rewrite <- zsum_mul_l, <- zsum_mul_r. apply zsum_ext; intros l _. ring.
Qed.

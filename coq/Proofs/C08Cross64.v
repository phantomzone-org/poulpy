(* C08, cross-radix normalisation: the inner loop and one outer iteration at width 64, with offset >= 0. *)
From PV Require Import Base.MachineInt Model.Znx Model.Limbs Model.C08Oracle
  Proofs.ZnxDigit Proofs.C08Steps Proofs.C08Chain Proofs.C08Loops Proofs.C08Value Proofs.C08Normalize Proofs.C08CrossInner Proofs.C08CrossGeom Proofs.C08CrossOuter
  Proofs.C08WChain Proofs.C08WLoops Proofs.C08WCrossInner Proofs.C08WCrossOuter.
Open Scope Z_scope.

Theorem cross_inner_spec (rb ab : Z) : 1 <= rb <= 62 -> 1 <= ab <= 62 ->
  forall (rsz a_limb fuel : nat) (s : cstate),
  pre rb ab rsz a_limb s -> c_atake s <= Z.of_nat fuel ->
  post rb rsz s (fst (cross_inner 64 fuel rb ab a_limb s)) (snd (cross_inner 64 fuel rb ab a_limb s)).
Proof.
  intros Hrb Hab rsz a_limb fuel s Hpre Hf.
  exact (cross_inner_specW 64 rb ab Hrb Hab rsz a_limb fuel s Hpre Hf).
Qed.

Theorem entry_step (rb ab : Z) : 1 <= rb <= 62 -> 1 <= ab <= 62 ->
  forall (a : list Z) (lsh : Z) (rsz : nat) (z g lo : Z),
  0 <= z -> 0 <= g -> z = 0 \/ g = 0 -> 0 <= lo < zn (length a) ->
  (zn (length a) - lo) * ab = zn rsz * rb + g - z ->
  forall (t : nat) (s : cstate) (fuel : nat),
  Entry rb ab a lsh rsz z g t s -> (t < length a)%nat -> zn t + 1 <= zn (length a) - lo -> ab <= Z.of_nat fuel ->
  let r := cross_inner 64 fuel rb ab (length a - 1 - t) s in
  snd r <> Fuel /\ (snd r = InnerDone -> Outer rb ab a lsh rsz z g (S t) (fst r)) /\
  (snd r = OuterBreak -> Final rb ab a lsh rsz z g (c_res (fst r))).
Proof.
  intros Hrb Hab a lsh rsz z g lo Hz Hg Hzg Hlo Hgeo t s fuel HE Ht Htl Hfuel.
  destruct (entry_stepW 64 rb ab Hrb Hab a lsh rsz z g lo Hz Hg Hgeo t s fuel HE Ht) as (C1 & C2 & C3);
    [unfold zn in *; lia|exact Hfuel|].
  split; [exact C1|]. split; [exact C2|]. intros Ho. apply C3; exact Ho.
Qed.

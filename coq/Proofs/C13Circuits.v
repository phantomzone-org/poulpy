(* C13 — the generated tables pass the reflective checker (vm_compute), hence, by check_sound,
   eval_strict_refines and the spec_<op>_correct lemmas, each compiled circuit computes its word operation
   for all 2^64 input pairs.  Also: the well-formedness facts of the property as Props. *)
From Coq Require Import ZArith List Bool Arith Lia.
From PV Require Import Model.C13Bdd Proofs.C13Eval Proofs.C13Check Proofs.C13Spec Gen.C13Circuits_gen.
Import ListNotations.

(** * the circuits of the property *)
Definition circuit_add (i : nat) : circuit := circuit_at add_tab i.
Definition circuit_sub (i : nat) : circuit := circuit_at sub_tab i.
Definition circuit_sll (i : nat) : circuit := circuit_at sll_tab i.
Definition circuit_srl (i : nat) : circuit := circuit_at srl_tab i.
Definition circuit_sra (i : nat) : circuit := circuit_at sra_tab i.
Definition circuit_slt (i : nat) : circuit := circuit_at slt_tab i.
Definition circuit_sltu (i : nat) : circuit := circuit_at sltu_tab i.
Definition circuit_and (i : nat) : circuit := circuit_at and_tab i.
Definition circuit_or (i : nat) : circuit := circuit_at or_tab i.
Definition circuit_xor (i : nat) : circuit := circuit_at xor_tab i.
Definition circuit_identity (i : nat) : circuit := circuit_at identity_tab i.

(** * reflection: the checker accepts every generated table *)
Lemma add_checked : check_family A_add add_hint add_tab = true. Proof. vm_compute. reflexivity. Qed.
Lemma sub_checked : check_family A_sub sub_hint sub_tab = true. Proof. vm_compute. reflexivity. Qed.
Lemma sll_checked : check_family A_sll sll_hint sll_tab = true. Proof. vm_compute. reflexivity. Qed.
Lemma srl_checked : check_family A_srl srl_hint srl_tab = true. Proof. vm_compute. reflexivity. Qed.
Lemma sra_checked : check_family A_sra sra_hint sra_tab = true. Proof. vm_compute. reflexivity. Qed.
Lemma slt_checked : check_family A_slt slt_hint slt_tab = true. Proof. vm_compute. reflexivity. Qed.
Lemma sltu_checked : check_family A_sltu sltu_hint sltu_tab = true. Proof. vm_compute. reflexivity. Qed.
Lemma and_checked : check_family A_and and_hint and_tab = true. Proof. vm_compute. reflexivity. Qed.
Lemma or_checked : check_family A_or or_hint or_tab = true. Proof. vm_compute. reflexivity. Qed.
Lemma xor_checked : check_family A_xor xor_hint xor_tab = true. Proof. vm_compute. reflexivity. Qed.
Lemma identity_checked : check_family A_identity identity_hint identity_tab = true. Proof. vm_compute. reflexivity. Qed.

(** * circuit = word operation, for all inputs *)
Open Scope Z_scope.

Lemma family_correct (A : nat -> automaton) hints tab (op : Z -> Z -> Z) :
  (forall i, automaton_ok (A i)) ->
  check_family A hints tab = true ->
  (forall a b i, 0 <= a < 2 ^ 32 -> 0 <= b < 2 ^ 32 -> (i < 32)%nat -> run (A i) (env_of a b) = Z.testbit (op a b) (Z.of_nat i)) ->
  forall a b, 0 <= a < 2 ^ 32 -> 0 <= b < 2 ^ 32 -> forall i, (i < 32)%nat ->
  eval_stale (circuit_at tab i) (env_of a b) = Z.testbit (op a b) (Z.of_nat i).
Proof.
  intros Aok Hc Hspec a b Ha Hb i Hi.
  apply eval_strict_refines.
  rewrite (check_family_sound A hints tab Aok Hc i Hi). f_equal. apply Hspec; assumption.
Qed.

(* the strict evaluator never fails on a checked family: no node ever reads an undefined / out-of-range slot *)
Lemma family_strict_total (A : nat -> automaton) hints tab :
  (forall i, automaton_ok (A i)) -> check_family A hints tab = true ->
  forall i, (i < 32)%nat -> forall e, exists v, eval_strict (circuit_at tab i) e = Some v.
Proof. intros Aok Hc i Hi e. eexists. apply (check_family_sound A hints tab Aok Hc i Hi). Qed.

Lemma circuit_add_correct : forall a b, 0 <= a < 2 ^ 32 -> 0 <= b < 2 ^ 32 -> forall i, (i < 32)%nat ->
  eval_stale (circuit_add i) (env_of a b) = Z.testbit (op_add a b) (Z.of_nat i).
Proof. apply (family_correct A_add add_hint); [intro; apply A_carry_ok | exact add_checked |]. intros; apply spec_add_correct; assumption. Qed.

Lemma circuit_sub_correct : forall a b, 0 <= a < 2 ^ 32 -> 0 <= b < 2 ^ 32 -> forall i, (i < 32)%nat ->
  eval_stale (circuit_sub i) (env_of a b) = Z.testbit (op_sub a b) (Z.of_nat i).
Proof. apply (family_correct A_sub sub_hint); [intro; apply A_carry_ok | exact sub_checked |]. intros; apply spec_sub_correct; assumption. Qed.

Lemma circuit_sll_correct : forall a b, 0 <= a < 2 ^ 32 -> 0 <= b < 2 ^ 32 -> forall i, (i < 32)%nat ->
  eval_stale (circuit_sll i) (env_of a b) = Z.testbit (op_sll a b) (Z.of_nat i).
Proof. apply (family_correct A_sll sll_hint); [intro; apply A_shift_ok | exact sll_checked |]. intros; apply spec_sll_correct; lia. Qed.

Lemma circuit_srl_correct : forall a b, 0 <= a < 2 ^ 32 -> 0 <= b < 2 ^ 32 -> forall i, (i < 32)%nat ->
  eval_stale (circuit_srl i) (env_of a b) = Z.testbit (op_srl a b) (Z.of_nat i).
Proof. apply (family_correct A_srl srl_hint); [intro; apply A_shift_ok | exact srl_checked |]. intros; apply spec_srl_correct; lia. Qed.

Lemma circuit_sra_correct : forall a b, 0 <= a < 2 ^ 32 -> 0 <= b < 2 ^ 32 -> forall i, (i < 32)%nat ->
  eval_stale (circuit_sra i) (env_of a b) = Z.testbit (op_sra a b) (Z.of_nat i).
Proof. apply (family_correct A_sra sra_hint); [intro; apply A_shift_ok | exact sra_checked |]. intros; apply spec_sra_correct; lia. Qed.

Lemma circuit_slt_correct : forall a b, 0 <= a < 2 ^ 32 -> 0 <= b < 2 ^ 32 -> forall i, (i < 32)%nat ->
  eval_stale (circuit_slt i) (env_of a b) = Z.testbit (op_slt a b) (Z.of_nat i).
Proof. apply (family_correct A_slt slt_hint); [intro; apply A_cmp_ok | exact slt_checked |]. intros; apply spec_slt_correct; assumption. Qed.

Lemma circuit_sltu_correct : forall a b, 0 <= a < 2 ^ 32 -> 0 <= b < 2 ^ 32 -> forall i, (i < 32)%nat ->
  eval_stale (circuit_sltu i) (env_of a b) = Z.testbit (op_sltu a b) (Z.of_nat i).
Proof. apply (family_correct A_sltu sltu_hint); [intro; apply A_cmp_ok | exact sltu_checked |]. intros; apply spec_sltu_correct; assumption. Qed.

Lemma circuit_and_correct : forall a b, 0 <= a < 2 ^ 32 -> 0 <= b < 2 ^ 32 -> forall i, (i < 32)%nat ->
  eval_stale (circuit_and i) (env_of a b) = Z.testbit (op_and a b) (Z.of_nat i).
Proof. apply (family_correct A_and and_hint); [intro; apply A_bit_ok | exact and_checked |]. intros; apply spec_and_correct; assumption. Qed.

Lemma circuit_or_correct : forall a b, 0 <= a < 2 ^ 32 -> 0 <= b < 2 ^ 32 -> forall i, (i < 32)%nat ->
  eval_stale (circuit_or i) (env_of a b) = Z.testbit (op_or a b) (Z.of_nat i).
Proof. apply (family_correct A_or or_hint); [intro; apply A_bit_ok | exact or_checked |]. intros; apply spec_or_correct; assumption. Qed.

Lemma circuit_xor_correct : forall a b, 0 <= a < 2 ^ 32 -> 0 <= b < 2 ^ 32 -> forall i, (i < 32)%nat ->
  eval_stale (circuit_xor i) (env_of a b) = Z.testbit (op_xor a b) (Z.of_nat i).
Proof. apply (family_correct A_xor xor_hint); [intro; apply A_bit_ok | exact xor_checked |]. intros; apply spec_xor_correct; assumption. Qed.

Lemma circuit_identity_correct : forall a b, 0 <= a < 2 ^ 32 -> 0 <= b < 2 ^ 32 -> forall i, (i < 32)%nat ->
  eval_stale (circuit_identity i) (env_of a b) = Z.testbit (op_identity a b) (Z.of_nat i).
Proof. apply (family_correct A_identity identity_hint); [intro; apply A_identity_ok | exact identity_checked |]. intros; apply spec_identity_correct; assumption. Qed.

Close Scope Z_scope.

(** * well-formedness of the tables, as Props *)

(* one table: positive declared width; length a positive multiple of it; every level has exactly that many
   nodes (the declared width covers every level); every input-bit index below the family's INPUT_BITS and
   every slot index below the width; the last chunk is [Cmux; Nonode; ...]; and no node of any level reads a
   slot the previous level left undefined (the strict evaluator, which treats that as an error, never fails) *)
Definition WellFormed (nin : nat) (c : circuit) : Prop :=
  c_nin c = nin /\
  0 < c_width c /\
  length (c_nodes c) mod c_width c = 0 /\ 0 < length (c_nodes c) /\
  (forall v hi lo, In (Cmux v hi lo) (c_nodes c) -> v < nin /\ hi < c_width c /\ lo < c_width c) /\
  (exists lv, levels_of c = Some lv /\ (forall L, In L lv -> length L = c_width c) /\
              exists v hi lo tl, last lv [] = Cmux v hi lo :: tl /\ Forall (fun nd => nd = Nonode) tl) /\
  (forall e, exists r, eval_strict c e = Some r).

(* a family: as many tables as declared output bits (at most 32: the remaining bits are the evaluator's zero),
   INPUT_BITS within what the input helper exposes (so get_bit never panics), every table well-formed *)
Definition FamilyWellFormed (nin nout helper_bits : nat) (tab : list circuit) : Prop :=
  length tab = nout /\ nout <= 32 /\ nin <= helper_bits /\
  forall i c, nth_error tab i = Some c -> WellFormed nin c /\ exec_safe helper_bits c = true.

Lemma last_shape_spec L : last_shape L = true ->
  exists v hi lo tl, L = Cmux v hi lo :: tl /\ Forall (fun nd => nd = Nonode) tl.
Proof.
  destruct L as [|[v hi lo| |] tl]; cbn [last_shape]; try discriminate.
  intros H. exists v, hi, lo, tl. split; [reflexivity|].
  apply Forall_forall. intros nd Hnd. rewrite forallb_forall in H. specialize (H nd Hnd).
  destruct nd; try discriminate. reflexivity.
Qed.

Lemma table_wf_spec c : table_wf c = true ->
  0 < c_width c /\
  length (c_nodes c) mod c_width c = 0 /\ 0 < length (c_nodes c) /\
  (forall v hi lo, In (Cmux v hi lo) (c_nodes c) -> v < c_nin c /\ hi < c_width c /\ lo < c_width c) /\
  (exists lv, levels_of c = Some lv /\ (forall L, In L lv -> length L = c_width c) /\
              exists v hi lo tl, last lv [] = Cmux v hi lo :: tl /\ Forall (fun nd => nd = Nonode) tl).
Proof.
  unfold table_wf. intros H.
  apply andb_true_iff in H as [H Hlv].
  apply andb_true_iff in H as [H Hrange].
  apply andb_true_iff in H as [H Hpos].
  apply andb_true_iff in H as [Hw Hmod].
  apply Nat.ltb_lt in Hw. apply Nat.eqb_eq in Hmod. apply Nat.ltb_lt in Hpos.
  split; [exact Hw|]. split; [exact Hmod|]. split; [exact Hpos|]. split.
  - intros v hi lo Hin. rewrite forallb_forall in Hrange. specialize (Hrange _ Hin).
    cbn [node_in_range] in Hrange.
    apply andb_true_iff in Hrange as [Hr Hlo]. apply andb_true_iff in Hr as [Hv Hhi].
    apply Nat.ltb_lt in Hv. apply Nat.ltb_lt in Hhi. apply Nat.ltb_lt in Hlo. auto.
  - destruct (levels_of c) as [lv|]; [|discriminate]. exists lv. split; [reflexivity|].
    apply andb_true_iff in Hlv as [Hlen Hlast]. split.
    + intros L HL. rewrite forallb_forall in Hlen. apply Nat.eqb_eq. apply Hlen; exact HL.
    + apply last_shape_spec; exact Hlast.
Qed.

Lemma family_wf_spec (A : nat -> automaton) hints nin nout hb tab :
  (forall i, automaton_ok (A i)) -> check_family A hints tab = true ->
  family_wf nin nout hb tab = true -> FamilyWellFormed nin nout hb tab.
Proof.
  intros Aok Hc H. unfold family_wf in H.
  apply andb_true_iff in H as [H Hall].
  apply andb_true_iff in H as [H Hnin].
  apply andb_true_iff in H as [Hlen Hnout].
  apply Nat.eqb_eq in Hlen. apply Nat.leb_le in Hnout. apply Nat.leb_le in Hnin.
  unfold FamilyWellFormed. split; [exact Hlen|]. split; [exact Hnout|]. split; [exact Hnin|].
  intros i c Hic.
  assert (Hin : In c tab) by (eapply nth_error_In; exact Hic).
  rewrite forallb_forall in Hall. specialize (Hall c Hin).
  apply andb_true_iff in Hall as [Hall Hsafe].
  apply andb_true_iff in Hall as [Hall Hwf].
  apply andb_true_iff in Hall as [Hcn Htab].
  apply Nat.eqb_eq in Hcn. split; [|exact Hsafe].
  destruct (table_wf_spec c Htab) as (W1 & W2 & W3 & W4 & W5).
  unfold WellFormed. rewrite Hcn in W4.
  split; [exact Hcn|]. split; [exact W1|]. split; [exact W2|]. split; [exact W3|].
  split; [exact W4|]. split; [exact W5|].
  intros e.
  assert (Hi : i < 32).
  { assert (i < length tab) by (apply nth_error_Some; congruence). lia. }
  assert (Hc_i : circuit_at tab i = c) by (unfold circuit_at; apply nth_error_nth; exact Hic).
  rewrite <- Hc_i. apply (family_strict_total A hints tab Aok Hc i Hi).
Qed.

Lemma add_wf : family_wf add_nin add_nout 64 add_tab = true. Proof. vm_compute. reflexivity. Qed.
Lemma sub_wf : family_wf sub_nin sub_nout 64 sub_tab = true. Proof. vm_compute. reflexivity. Qed.
Lemma sll_wf : family_wf sll_nin sll_nout 64 sll_tab = true. Proof. vm_compute. reflexivity. Qed.
Lemma srl_wf : family_wf srl_nin srl_nout 64 srl_tab = true. Proof. vm_compute. reflexivity. Qed.
Lemma sra_wf : family_wf sra_nin sra_nout 64 sra_tab = true. Proof. vm_compute. reflexivity. Qed.
Lemma slt_wf : family_wf slt_nin slt_nout 64 slt_tab = true. Proof. vm_compute. reflexivity. Qed.
Lemma sltu_wf : family_wf sltu_nin sltu_nout 64 sltu_tab = true. Proof. vm_compute. reflexivity. Qed.
Lemma and_wf : family_wf and_nin and_nout 64 and_tab = true. Proof. vm_compute. reflexivity. Qed.
Lemma or_wf : family_wf or_nin or_nout 64 or_tab = true. Proof. vm_compute. reflexivity. Qed.
Lemma xor_wf : family_wf xor_nin xor_nout 64 xor_tab = true. Proof. vm_compute. reflexivity. Qed.
(* identity is a one-word circuit: its input helper is the FheUintPrepared itself, 32 bits *)
Lemma identity_wf : family_wf identity_nin identity_nout 32 identity_tab = true. Proof. vm_compute. reflexivity. Qed.

Lemma wellformed_add : FamilyWellFormed add_nin add_nout 64 add_tab.
Proof. exact (family_wf_spec A_add add_hint _ _ _ _ (fun i => A_carry_ok false i) add_checked add_wf). Qed.
Lemma wellformed_sub : FamilyWellFormed sub_nin sub_nout 64 sub_tab.
Proof. exact (family_wf_spec A_sub sub_hint _ _ _ _ (fun i => A_carry_ok true i) sub_checked sub_wf). Qed.
Lemma wellformed_sll : FamilyWellFormed sll_nin sll_nout 64 sll_tab.
Proof. exact (family_wf_spec A_sll sll_hint _ _ _ _ (fun i => A_shift_ok Ksll i) sll_checked sll_wf). Qed.
Lemma wellformed_srl : FamilyWellFormed srl_nin srl_nout 64 srl_tab.
Proof. exact (family_wf_spec A_srl srl_hint _ _ _ _ (fun i => A_shift_ok Ksrl i) srl_checked srl_wf). Qed.
Lemma wellformed_sra : FamilyWellFormed sra_nin sra_nout 64 sra_tab.
Proof. exact (family_wf_spec A_sra sra_hint _ _ _ _ (fun i => A_shift_ok Ksra i) sra_checked sra_wf). Qed.
Lemma wellformed_slt : FamilyWellFormed slt_nin slt_nout 64 slt_tab.
Proof. exact (family_wf_spec A_slt slt_hint _ _ _ _ (fun i => A_cmp_ok true i) slt_checked slt_wf). Qed.
Lemma wellformed_sltu : FamilyWellFormed sltu_nin sltu_nout 64 sltu_tab.
Proof. exact (family_wf_spec A_sltu sltu_hint _ _ _ _ (fun i => A_cmp_ok false i) sltu_checked sltu_wf). Qed.
Lemma wellformed_and : FamilyWellFormed and_nin and_nout 64 and_tab.
Proof. exact (family_wf_spec A_and and_hint _ _ _ _ (fun i => A_bit_ok andb i) and_checked and_wf). Qed.
Lemma wellformed_or : FamilyWellFormed or_nin or_nout 64 or_tab.
Proof. exact (family_wf_spec A_or or_hint _ _ _ _ (fun i => A_bit_ok orb i) or_checked or_wf). Qed.
Lemma wellformed_xor : FamilyWellFormed xor_nin xor_nout 64 xor_tab.
Proof. exact (family_wf_spec A_xor xor_hint _ _ _ _ (fun i => A_bit_ok xorb i) xor_checked xor_wf). Qed.
Lemma wellformed_identity : FamilyWellFormed identity_nin identity_nout 32 identity_tab.
Proof. exact (family_wf_spec A_identity identity_hint _ _ _ _ A_identity_ok identity_checked identity_wf). Qed.

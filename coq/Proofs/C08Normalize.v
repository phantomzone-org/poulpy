(* C08 at w = 64: vec_znx_normalize_inter_base2k of the i64 routines (gap cap 64, which saturates for
   every radix), as instances of Proofs/C08WNormalize.v. *)
From PV Require Import Base.MachineInt Model.Znx Model.Limbs Model.C08Oracle Proofs.C08Chain Proofs.C08Value.
From PV Require Export Proofs.C08WNormalize.
Open Scope Z_scope.

Section Inter.
Variable b : Z.
Hypothesis Hb : 1 <= b <= 62.

Theorem normalize_inter_value (off : Z) (a r0 : list Z) :
  Forall (fun x => Z.abs x <= 2 ^ 62) a ->
  let out := normalize_inter 64 b off a r0 in
  length out = length r0 /\
  Forall (in_range b) out /\
  out = normalize_inter 64 b off a (zeros (length r0)) /\
  forall P, zn (length r0) * b + zn (length a) * b + Z.abs off <= P ->
    let D := tor_abs P (val_scaled P b out - val_scaled (P + off) b a) in
    D <= 2 ^ (P - zn (length r0) * b) /\
    (zn (length a) * b - off <= zn (length r0) * b -> D = 0).
Proof. intros HF. apply (normalize_inter_value_w 64 b off a r0 ltac:(lia)); [left; lia|exact HF]. Qed.

End Inter.

(* C06: structure of the randomness of fresh ciphertexts. *)
From PV Require Import Base.MachineInt Model.Znx Model.Limbs Model.Flat Model.DftAbs Model.EncModel
  Proofs.EncValue Proofs.EncLists.
Open Scope Z_scope.

(* "the set P has exactly N elements": a bijection between P and [0, N) *)
Definition has_card (P : Z -> Prop) (N : Z) : Prop :=
  exists (f g : Z -> Z),
    (forall q, 0 <= q < N -> P (f q)) /\ (forall u, P u -> 0 <= g u < N) /\
    (forall q, 0 <= q < N -> g (f q) = q) /\ (forall u, P u -> f (g u) = u).

Theorem uniform_digit_equidistributed (b d : Z) : 1 <= b <= 63 -> - 2 ^ (b - 1) <= d < 2 ^ (b - 1) ->
  has_card (fun u => 0 <= u < 2 ^ 64 /\ uniform_digit b u = d) (2 ^ (64 - b)).
Proof.
  intros Hb Hd.
  pose proof (pow2_pos b ltac:(lia)) as Hp. pose proof (pow2_split b ltac:(lia)) as Hs.
  pose proof (pow2_pos (64 - b) ltac:(lia)) as Hq.
  assert (H64 : 2 ^ 64 = 2 ^ (64 - b) * 2 ^ b) by (rewrite <- Z.pow_add_r by lia; f_equal; lia).
  set (r := d + 2 ^ (b - 1)). assert (Hr : 0 <= r < 2 ^ b) by (unfold r; lia).
  exists (fun q => q * 2 ^ b + r), (fun u => u / 2 ^ b).
  split; [|split; [|split]].
  - intros q Hq'. split; [nia|]. rewrite uniform_digit_mod by lia.
    rewrite Z.add_comm, Z_mod_plus_full. rewrite Z.mod_small by lia. unfold r. lia.
  - intros u [Hu _]. split; [apply Z.div_pos; lia|]. apply Z.div_lt_upper_bound; [lia|]. lia.
  - intros q Hq'. rewrite Z.add_comm, Z.div_add by lia. rewrite Z.div_small by lia. lia.
  - intros u [Hu Hdg]. rewrite uniform_digit_mod in Hdg by lia.
    pose proof (Z.div_mod u (2 ^ b) ltac:(lia)). unfold r. lia.
Qed.

(* next_u64n(2^b, 2^b - 1): the first masked word is always below the bound, the rejection loop never iterates *)
Theorem next_u64n_pow2_no_reject (b u : Z) : 0 <= b -> 0 <= Z.land u (2 ^ b - 1) < 2 ^ b.
Proof.
  intros Hb. rewrite land_low_mask by exact Hb. apply Z.mod_pos_bound. apply pow2_pos. exact Hb.
Qed.

(* the mask is a function of the mask stream and the shape *)
Lemma enc_sk_mask (wb b : Z) (n size rank : nat) (nk : Z) (pt : option (ccol * nat)) (sk : list poly) (us : nat -> Z)
      (e : poly) (ct : list ccol) :
  enc_sk wb b n size rank nk pt sk us e = Some ct -> tl ct = glwe_mask b n size rank us.
Proof. unfold enc_sk. destruct (enc_sk_body _ _ _ _ _ _ _ _ _); [|discriminate]. intros H. inversion H. reflexivity. Qed.

Theorem mask_depends_only_on_mask_seed (wb b : Z) (n size rank : nat) (us : nat -> Z)
        (nk nk' : Z) (pt pt' : option (ccol * nat)) (sk sk' : list poly) (e e' : poly) (ct ct' : list ccol) :
  enc_sk wb b n size rank nk pt sk us e = Some ct ->
  enc_sk wb b n size rank nk' pt' sk' us e' = Some ct' ->
  tl ct = glwe_mask b n size rank us /\ tl ct' = tl ct.
Proof. intros H1 H2. apply enc_sk_mask in H1. apply enc_sk_mask in H2. split; congruence. Qed.

(* only the first rank*size*n words of the stream are looked at *)
Theorem mask_consumption (b : Z) (n size rank : nat) (us us' : nat -> Z) :
  (forall i, (i < rank * size * n)%nat -> us i = us' i) -> glwe_mask b n size rank us = glwe_mask b n size rank us'.
Proof.
  intros H. unfold glwe_mask. apply map_ext_in. intros c Hc. apply in_seq in Hc.
  unfold mask_col. apply map_ext_in. intros k Hk. apply in_seq in Hk.
  apply map_ext_in. intros j Hj. apply in_seq in Hj.
  unfold mask_digit. f_equal. apply H.
  assert (A1 : (j * n + k < size * n)%nat).
  { assert ((j + 1) * n <= size * n)%nat by (apply Nat.mul_le_mono_r; lia). lia. }
  assert (A2 : ((c + 1) * (size * n) <= rank * (size * n))%nat) by (apply Nat.mul_le_mono_r; lia).
  lia.
Qed.

(* determinism: the ciphertext is a function of (plaintext, secret, the consumed prefix of the mask stream, errors) *)
Theorem determinism (wb b : Z) (n size rank : nat) (nk : Z) (pt : option (ccol * nat)) (sk : list poly) (us us' : nat -> Z)
        (e : poly) :
  (forall i, (i < rank * size * n)%nat -> us i = us' i) ->
  enc_sk wb b n size rank nk pt sk us e = enc_sk wb b n size rank nk pt sk us' e.
Proof. intros H. unfold enc_sk. rewrite (mask_consumption b n size rank us us' H). reflexivity. Qed.

(* another error stream changes only the body, coefficient by coefficient *)
Theorem body_changes_only (wb b : Z) (n size rank : nat) (nk : Z) (pt : option (ccol * nat)) (sk : list poly) (us : nat -> Z)
        (e e' : poly) (ct ct' : list ccol) :
  enc_sk wb b n size rank nk pt sk us e = Some ct ->
  enc_sk wb b n size rank nk pt sk us e' = Some ct' ->
  tl ct' = tl ct /\
  forall k, (k < n)%nat -> nthZ e k = nthZ e' k -> coef (hd [] ct') k = coef (hd [] ct) k.
Proof.
  intros H1 H2. split.
  - apply enc_sk_mask in H1. apply enc_sk_mask in H2. congruence.
  - intros k Hk He. unfold enc_sk in H1, H2.
    destruct (enc_sk_body wb b n size nk pt sk (glwe_mask b n size rank us) e) as [body|] eqn:B1; [|discriminate].
    destruct (enc_sk_body wb b n size nk pt sk (glwe_mask b n size rank us) e') as [body'|] eqn:B2; [|discriminate].
    inversion H1; inversion H2; subst. cbn [hd].
    unfold enc_sk_body in B1, B2.
    destruct (Nat.leb size (target_limb nk b)); [discriminate|].
    destruct (sequence _) as [terms|]; [|discriminate].
    destruct (cmap_opt_nth _ _ _ B1) as [_ N1]. destruct (cmap_opt_nth _ _ _ B2) as [_ N2].
    specialize (N1 k Hk). specialize (N2 k Hk). cbn beta in N1, N2. rewrite <- He in N2. congruence.
Qed.

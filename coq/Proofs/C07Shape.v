(* C07: shape theorems of the DFT-domain operations (limb selection, limb-wise add/sub, svp, vmp). *)
From PV Require Import Base.MachineInt Model.Znx Model.Limbs Model.Ring Model.DftAbs Proofs.C07Dft Proofs.C07Ring.
Open Scope Z_scope.

Lemma lim_mk rsz f j : (j < rsz)%nat -> lim (mk rsz f) j = f j.
Proof.
  intros H. unfold lim, mk.
  rewrite (nth_map' f (seq 0 rsz) j [] 0%nat) by (rewrite seq_length; exact H).
  rewrite seq_nth by exact H. reflexivity.
Qed.

Lemma lim_mk_beyond rsz f j : (rsz <= j)%nat -> lim (mk rsz f) j = [].
Proof. intros H. unfold lim. apply nth_overflow. rewrite mk_length. exact H. Qed.

(* limb j of a vector, missing limbs read as the zero polynomial *)
Definition limz (n : nat) (a : plimbs) (j : nat) : list Z := if Nat.ltb j (length a) then lim a j else pzero n.
Definition wf (n : nat) (a : plimbs) : Prop := forall j, (j < length a)%nat -> length (lim a j) = n.

Lemma limz_length n a j : wf n a -> length (limz n a j) = n.
Proof. intros H. unfold limz. destruct (Nat.ltb_spec j (length a)); [apply H; assumption|apply pzero_length]. Qed.

Theorem dft_select_spec n rsz step offset a j : (j < rsz)%nat ->
  lim (dft_select n rsz step offset a) j =
  if Nat.ltb j (Nat.min rsz (ceil_div (length a) step)) && Nat.ltb (offset + j * step) (length a)
  then lim a (offset + j * step) else pzero n.
Proof.
  intros H. unfold dft_select. cbv zeta. rewrite lim_mk by exact H.
  destruct (Nat.ltb j _); cbn [andb]; reflexivity.
Qed.

Lemma ceil_div_lt a b j : (1 <= b)%nat -> (j * b < a)%nat -> (j < ceil_div a b)%nat.
Proof.
  intros Hb H. unfold ceil_div.
  assert (Hle : (b * S j <= a + b - 1)%nat) by (rewrite Nat.mul_succ_r; lia).
  apply Nat.div_le_lower_bound in Hle; lia.
Qed.

(* the cut-off at ceil(asz/step) never removes a limb that exists: natural statement *)
Theorem dft_select_natural n rsz step offset a j : (1 <= step)%nat -> (j < rsz)%nat ->
  lim (dft_select n rsz step offset a) j = limz n a (offset + j * step).
Proof.
  intros Hs H. rewrite dft_select_spec by exact H. unfold limz.
  destruct (Nat.ltb_spec (offset + j * step) (length a)) as [Hl|Hl]; [|rewrite Bool.andb_false_r; reflexivity].
  assert (j < ceil_div (length a) step)%nat by (apply ceil_div_lt; lia).
  destruct (Nat.ltb_spec j (Nat.min rsz (ceil_div (length a) step))); [reflexivity|lia].
Qed.

(* the three-way case split shared by dft_add and dft_sub: op on the common limbs, the longer operand alone beyond
   them (through g when it is b), zero after both; g is what op does to a missing left operand *)
Lemma limbwise_cases n (op : list Z -> list Z -> list Z) (g : list Z -> list Z) a b j : wf n a -> wf n b ->
  (forall l, length l = n -> op (pzero n) l = g l) -> (forall l, length l = n -> op l (pzero n) = l) ->
  (if Nat.ltb j (Nat.min (length a) (length b)) then op (lim a j) (lim b j)
   else if Nat.ltb j (Nat.max (length a) (length b)) then (if Nat.leb (length a) (length b) then g (lim b j) else lim a j)
   else pzero n) = op (limz n a j) (limz n b j).
Proof.
  intros Ha Hb Hl Hr. unfold limz.
  destruct (Nat.ltb_spec j (length a)); destruct (Nat.ltb_spec j (length b));
    destruct (Nat.ltb_spec j (Nat.min (length a) (length b))); try lia; try reflexivity;
    destruct (Nat.ltb_spec j (Nat.max (length a) (length b))); try lia.
  - destruct (Nat.leb_spec (length a) (length b)); [lia|]. symmetry. apply Hr, Ha; assumption.
  - destruct (Nat.leb_spec (length a) (length b)); [|lia]. symmetry. apply Hl, Hb; assumption.
  - symmetry. apply Hr, pzero_length.
Qed.

Theorem dft_add_limbwise n rsz a b j : wf n a -> wf n b -> (j < rsz)%nat ->
  lim (dft_add n rsz a b) j = padd (limz n a j) (limz n b j).
Proof.
  intros Ha Hb H. unfold dft_add. cbv zeta. rewrite lim_mk by exact H.
  exact (limbwise_cases n padd (fun l => l) a b j Ha Hb (padd_pzero_l n) (padd_pzero_r n)).
Qed.

Theorem dft_sub_limbwise n rsz a b j : wf n a -> wf n b -> (j < rsz)%nat ->
  lim (dft_sub n rsz a b) j = psub (limz n a j) (limz n b j).
Proof.
  intros Ha Hb H. unfold dft_sub. cbv zeta. rewrite lim_mk by exact H.
  exact (limbwise_cases n psub pneg a b j Ha Hb (psub_pzero_l n) (psub_pzero_r n)).
Qed.

(* coefficient view: limb j, coefficient k *)
Corollary dft_add_coeff n rsz a b j k : wf n a -> wf n b -> (j < rsz)%nat ->
  nth k (lim (dft_add n rsz a b) j) 0 = nth k (limz n a j) 0 + nth k (limz n b j) 0.
Proof. intros Ha Hb H. rewrite dft_add_limbwise by assumption. apply nth_padd. rewrite !limz_length by assumption. reflexivity. Qed.
Corollary dft_sub_coeff n rsz a b j k : wf n a -> wf n b -> (j < rsz)%nat ->
  nth k (lim (dft_sub n rsz a b) j) 0 = nth k (limz n a j) 0 - nth k (limz n b j) 0.
Proof. intros Ha Hb H. rewrite dft_sub_limbwise by assumption. apply nth_psub. rewrite !limz_length by assumption. reflexivity. Qed.

Theorem svp_is_product n rsz s b j : (j < rsz)%nat ->
  lim (svp_apply n rsz s b) j = if Nat.ltb j (length b) then pmul s (lim b j) else pzero n.
Proof. intros H. unfold svp_apply. apply lim_mk; exact H. Qed.

Theorem svp_assign_is_product s r0 j : (j < length r0)%nat -> lim (svp_apply_assign s r0) j = pmul s (lim r0 j).
Proof. intros H. unfold svp_apply_assign, lim. apply nth_map'; exact H. Qed.

Definition psum (n : nat) (f : nat -> list Z) (m : nat) : list Z :=
  fold_left (fun acc q => padd acc (f q)) (seq 0 m) (pzero n).

(* same body as PolyFacts.psum, whose lemmas apply up to conversion *)
Lemma psum_S n f m : psum n f (S m) = padd (psum n f m) (f m).
Proof. exact (PolyFacts.psum_S n f m). Qed.

Lemma psum_length n f m : (forall q, (q < m)%nat -> length (f q) = n) -> length (psum n f m) = n.
Proof. exact (PolyFacts.psum_length n f m). Qed.

Lemma psum_coeff n f m k : (forall q, (q < m)%nat -> length (f q) = n) ->
  nth k (psum n f m) 0 = zsum (fun q => nth k (f q) 0) m.
Proof. exact (PolyFacts.psum_coeff n f m k). Qed.

Section Vmp.
Variables (n rcols rsz acols asz rows msize limb_offset : nat).
Variables (aflat : nat -> list Z) (mflat : nat -> nat -> list Z).
Let nrows := (acols * rows)%nat.
Let ncols := (rcols * msize)%nat.
Let row_max := Nat.min nrows (acols * asz).
Let off := (limb_offset * rcols)%nat.
Let col_max := Nat.min ncols (rcols * rsz + off).

Theorem vmp_is_sum_of_row_products c :
  vmp n rcols rsz acols asz rows msize limb_offset aflat mflat c =
  if Nat.ltb c (col_max - off)
  then psum n (fun q => pmul (aflat q) (mflat q (c + off)%nat)) row_max
  else pzero n.
Proof.
  unfold vmp. cbv zeta. fold nrows ncols off. fold row_max col_max.
  destruct (Nat.leb_spec col_max off) as [H|H].
  - destruct (Nat.ltb_spec c (col_max - off)); [lia|reflexivity].
  - reflexivity.
Qed.

Corollary vmp_outside c : (col_max - off <= c)%nat ->
  vmp n rcols rsz acols asz rows msize limb_offset aflat mflat c = pzero n.
Proof. intros H. rewrite vmp_is_sum_of_row_products. destruct (Nat.ltb_spec c (col_max - off)); [lia|reflexivity]. Qed.
End Vmp.

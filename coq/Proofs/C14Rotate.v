(* C14: lookup_table_rotate is multiplication by Y^k in the big ring Z[Y]/(Y^(n*ext)+1) under interleaving. *)
From PV Require Import Base.MachineInt Model.Znx Model.Limbs Model.Ring Model.Poly Model.C14Lut Model.C14Spec.
From PV Require Import Proofs.C09Lists Proofs.C09Ring.
From PV Require Export Proofs.ListFacts.
Open Scope Z_scope.

Lemma interleave_length n parts : length (interleave n parts) = n.
Proof. unfold interleave. apply map_seq_length. Qed.

Lemma interleave_nth n parts u :
  (u < n)%nat -> nthZ (interleave n parts) u = nthZ (nth (u mod length parts) parts []) (u / length parts).
Proof. intros Hu. unfold interleave. rewrite nthZ_map_seq by auto. reflexivity. Qed.

Lemma nat_divmod_lin (c e r : nat) : (r < e)%nat -> ((c * e + r) mod e = r /\ (c * e + r) / e = c)%nat.
Proof.
  intros Hr. split.
  - rewrite Nat.add_comm, Nat.mod_add by lia. apply Nat.mod_small; auto.
  - rewrite Nat.div_add_l by lia. rewrite Nat.div_small by auto. lia.
Qed.

(* the negacyclic extension of an interleaving, at exponent q*e + r, is the extension of part r at exponent q *)
Lemma ext_interleave w (n : nat) (parts : list (list Z)) (q : Z) (r : nat) :
  (0 < n)%nat -> (r < length parts)%nat -> Forall (fun p => length p = n) parts ->
  ext w (interleave (n * length parts) parts) (q * Z.of_nat (length parts) + Z.of_nat r)
  = ext w (nth r parts []) q.
Proof.
  intros Hn Hr Hall.
  set (e := length parts) in *.
  assert (Hlen : length (nth r parts []) = n).
  { rewrite Forall_forall in Hall. apply Hall. apply nth_In. exact Hr. }
  destruct (exp_decomp (Z.of_nat n) q ltac:(lia)) as [q1 [c [Hq Hc]]].
  rewrite (ext_at_nat w (nth r parts []) q q1 c) by (rewrite Hlen; lia).
  rewrite (ext_at_nat w (interleave (n * e) parts) _ q1 (c * e + r)).
  - rewrite interleave_nth by nia. fold e.
    destruct (nat_divmod_lin c e r Hr) as [Hm Hd]. rewrite Hm, Hd. reflexivity.
  - rewrite interleave_length. rewrite Hq. rewrite !Nat2Z.inj_add, !Nat2Z.inj_mul. ring.
  - rewrite interleave_length. nia.
Qed.

Lemma deinterleave_interleave (n : nat) (parts : list (list Z)) :
  (0 < length parts)%nat -> Forall (fun p => length p = n) parts ->
  deinterleave (length parts) (interleave (n * length parts) parts) = parts.
Proof.
  intros He Hall. unfold deinterleave. rewrite interleave_length.
  set (e := length parts) in *.
  replace ((n * e) / e)%nat with n by (rewrite Nat.div_mul; lia).
  apply (nth_ext _ _ [] []).
  - rewrite map_seq_length. reflexivity.
  - intros i Hi. rewrite map_seq_length in Hi.
    rewrite nth_map_seq by auto.
    assert (Hlen : length (nth i parts []) = n).
    { rewrite Forall_forall in Hall. apply Hall. apply nth_In. exact Hi. }
    apply nthZ_ext.
    + rewrite map_seq_length. auto.
    + intros t Ht. rewrite map_seq_length in Ht.
      rewrite nthZ_map_seq by auto.
      rewrite interleave_nth by nia. fold e.
      destruct (nat_divmod_lin t e i Hi) as [Hm Hd]. rewrite Hm, Hd. reflexivity.
Qed.

Lemma interleave_deinterleave (n e : nat) (a : list Z) :
  (0 < e)%nat -> length a = (n * e)%nat ->
  interleave (n * e) (deinterleave e a) = a.
Proof.
  intros He Hl. apply nthZ_ext.
  - rewrite interleave_length; auto.
  - intros u Hu. rewrite interleave_length in Hu.
    rewrite interleave_nth by auto.
    unfold deinterleave at 1. rewrite map_seq_length.
    unfold deinterleave. rewrite Hl. replace ((n * e) / e)%nat with n by (rewrite Nat.div_mul; lia).
    pose proof (Nat.mod_upper_bound u e ltac:(lia)) as Hm.
    pose proof (Nat.div_mod u e ltac:(lia)) as Hdm.
    rewrite nth_map_seq by auto.
    assert (Hd : (u / e < n)%nat) by (apply Nat.div_lt_upper_bound; lia).
    rewrite map_seq_length.
    rewrite nthZ_map_seq by auto.
    f_equal. lia.
Qed.

Lemma deinterleave_shape (n e : nat) (a : list Z) :
  (0 < e)%nat -> length a = (n * e)%nat ->
  length (deinterleave e a) = e /\ Forall (fun p => length p = n) (deinterleave e a).
Proof.
  intros He Hl. unfold deinterleave. split; [apply map_seq_length|].
  apply Forall_forall. intros p Hp. apply in_map_iff in Hp. destruct Hp as [i [<- _]].
  rewrite map_seq_length, Hl. rewrite Nat.div_mul by lia. reflexivity.
Qed.

Lemma pow2_divides (a b : Z) : 0 <= a <= b -> exists c, 2 ^ b = c * 2 ^ a /\ 0 < c.
Proof.
  intros H. exists (2 ^ (b - a)). split; [|apply pow2_pos; lia].
  rewrite <- Z.pow_add_r by lia. f_equal. lia.
Qed.

(* when T divides 2^64, the i64 wrapping add, the truncating remainder and the reinterpretation as u64 each move the
   index by a multiple of T *)
Lemma kpos_shift (n : nat) (e k c : Z) :
  let T := 2 * Z.of_nat n * e in
  0 < T -> 2 ^ 64 = c * T -> exists q, lut_kpos n e k = k + q * T.
Proof.
  intros T HT Hc. unfold lut_kpos, wadd, wrapu. fold T.
  destruct (wrap_exists 64 (k + T) ltac:(lia)) as [q1 ->].
  set (x := k + T - q1 * 2 ^ 64).
  rewrite (Z.mod_eq (Z.rem x T)) by (apply Z.pow_nonzero; lia).
  exists (1 - q1 * c - Z.quot x T - Z.rem x T / 2 ^ 64 * c).
  pose proof (Z.quot_rem' x T) as Hx.
  generalize dependent (Z.rem x T). intros r. generalize (r / 2 ^ 64), (Z.quot x T). intros d y Hx.
  unfold x in Hx. rewrite Hc in *. clearbody T. lia.
Qed.

Lemma kpos_nonneg (n : nat) (e k : Z) : 0 <= lut_kpos n e k.
Proof. unfold lut_kpos, wrapu. apply Z.mod_pos_bound. apply pow2_pos. lia. Qed.

(* no wrap-around at all when -T <= k and k + T fits: the code's own normalisation *)
Lemma kpos_small (n : nat) (e k : Z) :
  let T := 2 * Z.of_nat n * e in
  0 < T -> - T <= k -> k + T < 2 ^ 63 ->
  lut_kpos n e k = k mod T.
Proof.
  intros T HT Hlo Hhi. unfold lut_kpos. fold T.
  unfold wadd. rewrite wrap_id by (unfold in_range; replace (64 - 1) with 63 by lia; lia).
  rewrite Z.rem_mod_nonneg by lia.
  pose proof (Z.mod_pos_bound (k + T) T HT).
  pose proof (Z.mod_le (k + T) T ltac:(lia) HT).
  unfold wrapu. rewrite Z.mod_small by (pose proof (pow2_pos 63 ltac:(lia)); replace (2 ^ 64) with (2 * 2 ^ 63) by reflexivity; lia).
  replace (k + T) with (k + 1 * T) by ring. apply Z.mod_add. lia.
Qed.

Lemma lnth_vec_rotate_assign w p (pl : limbs) l :
  lnth (vec_rotate_assign w p pl) l = if Nat.ltb l (length pl) then znx_rotate w p (lnth pl l) else [].
Proof.
  unfold vec_rotate_assign, vec_unary_assign, lnth.
  destruct (Nat.ltb_spec l (length pl)).
  - rewrite (nth_indep _ [] (znx_rotate w p [])) by (rewrite map_length; auto).
    apply map_nth.
  - apply nth_overflow. rewrite map_length. auto.
Qed.

Lemma lut_wf_nth n size data i :
  lut_wf n size data -> (i < length data)%nat ->
  length (nth i data []) = size /\ forall l, (l < size)%nat -> length (lnth (nth i data []) l) = n.
Proof.
  intros Hwf Hi. unfold lut_wf in Hwf. rewrite Forall_forall in Hwf.
  destruct (Hwf (nth i data []) (nth_In _ _ Hi)) as [H1 H2]. split; auto.
  intros l Hl. rewrite Forall_forall in H2. apply H2. unfold lnth. apply nth_In. lia.
Qed.

Lemma vec_rotate_assign_wf w p n size (pl : limbs) :
  length pl = size /\ Forall (fun limb : list Z => length limb = n) pl ->
  length (vec_rotate_assign w p pl) = size /\
  Forall (fun limb : list Z => length limb = n) (vec_rotate_assign w p pl).
Proof.
  intros [H1 H2]. unfold vec_rotate_assign, vec_unary_assign. split; [rewrite map_length; exact H1|].
  apply Forall_map. revert H2. apply Forall_impl. intros limb Hl. rewrite rotate_length. exact Hl.
Qed.

Lemma lut_big_nth n data l u : (u < n * length data)%nat ->
  nthZ (lut_big n data l) u = nthZ (lnth (nth (u mod length data) data []) l) (u / length data).
Proof.
  intros Hu. unfold lut_big. rewrite interleave_nth, map_length by exact Hu.
  rewrite (nth_indep _ [] (lnth [] l)), (map_nth (fun p : limbs => lnth p l)); [reflexivity|].
  rewrite map_length. apply Nat.mod_upper_bound. intros H0. rewrite H0, Nat.mul_0_r in Hu. lia.
Qed.

(* the extension of limb l of the big-ring table, at exponent q*ext + r, is that of polynomial r at exponent q *)
Lemma ext_lut_big w n size data l (q : Z) (r : nat) :
  (0 < n)%nat -> lut_wf n size data -> (l < size)%nat -> (r < length data)%nat ->
  ext w (lut_big n data l) (q * Z.of_nat (length data) + Z.of_nat r) = ext w (lnth (nth r data []) l) q.
Proof.
  intros Hn Hwf Hl Hr. unfold lut_big.
  pose proof (ext_interleave w n (map (fun p : limbs => lnth p l) data) q r Hn) as HX.
  rewrite map_length in HX. rewrite HX.
  - rewrite (nth_indep _ [] (lnth [] l)) by (rewrite map_length; exact Hr).
    rewrite (map_nth (fun p : limbs => lnth p l)). reflexivity.
  - exact Hr.
  - apply Forall_map, Forall_forall. intros pl Hin.
    destruct (In_nth _ _ [] Hin) as [j [Hj <-]]. apply (lut_wf_nth n size data j Hwf Hj). exact Hl.
Qed.

Section Rotate.
Variables (n size : nat) (data : lut) (k : Z).
Let e := length data.
Let E := Z.of_nat e.
Let T := 2 * Z.of_nat n * E.
Hypothesis Hn : (0 < n)%nat.
Hypothesis He : (0 < e)%nat.
Hypothesis Hwf : lut_wf n size data.

Let kpos := lut_kpos n E k.
Let khi := kpos / E.
Let klo := kpos mod E.

Lemma klo_bound : 0 <= klo < E.
Proof. apply Z.mod_pos_bound. unfold E. lia. Qed.
Lemma kpos_split : kpos = khi * E + klo.
Proof. unfold khi, klo. pose proof (Z.div_mod kpos E ltac:(unfold E; lia)). lia. Qed.

Let r1 : lut := map (fun q : nat * limbs =>
                   let i := Z.of_nat (fst q) in
                   let p := if i <? E - klo then wrap 64 khi else wadd 64 (wrap 64 khi) 1 in
                   vec_rotate_assign 64 p (snd q))
                (combine (seq 0 (length data)) data).

Lemma r1_length : length r1 = e.
Proof. unfold r1. rewrite map_length, combine_length, seq_length. fold e. lia. Qed.

Lemma r1_nth j : (j < e)%nat ->
  nth j r1 [] = vec_rotate_assign 64 (if Z.of_nat j <? E - klo then wrap 64 khi else wadd 64 (wrap 64 khi) 1) (nth j data []).
Proof.
  intros Hj. unfold r1.
  set (g := fun q : nat * limbs => _).
  rewrite (nth_indep _ [] (g (0%nat, []))) by (rewrite map_length, combine_length, seq_length; fold e; lia).
  rewrite map_nth. rewrite combine_nth by (rewrite seq_length; reflexivity).
  rewrite seq_nth by (fold e; lia). reflexivity.
Qed.

Lemma rotate_unfold :
  lookup_table_rotate n k data = skipn (Z.to_nat (E - klo)) r1 ++ firstn (Z.to_nat (E - klo)) r1.
Proof. reflexivity. Qed.

Lemma rot_length : length (lookup_table_rotate n k data) = e.
Proof.
  rewrite rotate_unfold, app_length, skipn_length, firstn_length, r1_length.
  pose proof klo_bound. unfold E in *. lia.
Qed.

(* polynomial i of the rotated table is polynomial j of the original one times X^p, where
   i - k_pos = j - p * ext, up to the 64-bit wrap of p *)
Lemma rot_nth i : (i < e)%nat ->
  exists (j : nat) (p q : Z), (j < e)%nat /\
    Z.of_nat i - kpos = Z.of_nat j - (p + q * 2 ^ 64) * E /\
    nth i (lookup_table_rotate n k data) [] = vec_rotate_assign 64 p (nth j data []).
Proof.
  intros Hi. rewrite rotate_unfold. pose proof klo_bound as Hk. pose proof kpos_split as Hsp.
  destruct (wrap_exists 64 khi ltac:(lia)) as [q1 Hq1].
  destruct (Z.ltb_spec (Z.of_nat i) klo) as [Hlt|Hge].
  - destruct (wrap_exists 64 (wrap 64 khi + 1) ltac:(lia)) as [q2 Hq2].
    exists (Z.to_nat (E - klo) + i)%nat, (wadd 64 (wrap 64 khi) 1), (q1 + q2).
    split; [unfold E in *; lia|]. split; [unfold wadd; unfold E in *; lia|].
    rewrite app_nth1 by (rewrite skipn_length, r1_length; unfold E in *; lia).
    rewrite nth_skipn, r1_nth by (unfold E in *; lia).
    destruct (Z.ltb_spec (Z.of_nat (Z.to_nat (E - klo) + i)) (E - klo)); [lia | reflexivity].
  - exists (i - Z.to_nat klo)%nat, (wrap 64 khi), q1.
    split; [lia|]. split; [unfold E in *; lia|].
    rewrite app_nth2 by (rewrite skipn_length, r1_length; unfold E in *; lia).
    rewrite skipn_length, r1_length.
    rewrite nth_firstn_lt by (unfold E in *; lia).
    replace (i - (e - Z.to_nat (E - klo)))%nat with (i - Z.to_nat klo)%nat by (unfold E in *; lia).
    rewrite r1_nth by lia.
    destruct (Z.ltb_spec (Z.of_nat (i - Z.to_nat klo)) (E - klo)); [reflexivity | unfold E in *; lia].
Qed.

Lemma rot_wf : lut_wf n size (lookup_table_rotate n k data).
Proof.
  unfold lut_wf. apply Forall_forall. intros pl Hin.
  destruct (In_nth _ _ [] Hin) as [i [Hi <-]].
  destruct (rot_nth i) as (j & p & q & Hj & _ & Hr); [rewrite <- rot_length; exact Hi|].
  pose proof (vec_rotate_assign_wf 64 p n size (nth j data [])) as HW. rewrite <- Hr in HW. apply HW.
  unfold lut_wf in Hwf. rewrite Forall_forall in Hwf. apply Hwf, nth_In, Hj.
Qed.

(* 2N*ext divides 2^64 (N and ext powers of two, 2N*ext <= 2^64): what makes the `as usize` wrap harmless *)
Variable c : Z.
Hypothesis Hc : 2 ^ 64 = c * T.

Lemma rot_coeff (l u : nat) : (l < size)%nat -> (u < n * e)%nat ->
  nthZ (lut_big n (lookup_table_rotate n k data) l) u = ext 64 (lut_big n data l) (Z.of_nat u - k).
Proof.
  intros Hl Hu.
  set (i := (u mod e)%nat). set (t := (u / e)%nat).
  assert (Hi : (i < e)%nat) by (apply Nat.mod_upper_bound; lia).
  assert (Ht : (t < n)%nat) by (apply Nat.div_lt_upper_bound; lia).
  assert (Hut : Z.of_nat u = Z.of_nat t * E + Z.of_nat i)
    by (pose proof (Nat.div_mod u e ltac:(lia)); unfold t, i, E; lia).
  (* left: coefficient t of polynomial i of the rotated table, which is X^p times polynomial j of the original one *)
  rewrite lut_big_nth, rot_length by (rewrite rot_length; exact Hu). fold i t.
  destruct (rot_nth i Hi) as (j & p & q & Hj & Hij & ->).
  destruct (lut_wf_nth n size data j Hwf Hj) as [Hs1 Hs2].
  rewrite lnth_vec_rotate_assign, Hs1. destruct (Nat.ltb_spec l size); [|lia].
  rewrite rotate_nth by (rewrite Hs2; auto).
  (* right: u - k = (t - p) * ext + j up to multiples of 2N * ext, that is of 2N in the exponent of polynomial j *)
  assert (HT : 0 < T) by (unfold T, E; nia).
  destruct (kpos_shift n E k c HT Hc) as [q0 Hq0]. fold kpos in Hq0.
  replace (Z.of_nat u - k) with ((Z.of_nat t - p + (q0 - q * c * E) * (2 * Z.of_nat n)) * E + Z.of_nat j)
    by (rewrite Hc in Hij; unfold T in *; lia).
  unfold E, e. rewrite (ext_lut_big 64 n size) by auto.
  pose proof (ext_period 64 (lnth (nth j data []) l) (Z.of_nat t - p) (q0 - q * c * Z.of_nat (length data))) as HP.
  rewrite Hs2 in HP by auto. symmetry. apply HP. lia.
Qed.

Theorem rotate_is_big_ring_rotation_gen (l : nat) : (l < size)%nat ->
  lut_big n (lookup_table_rotate n k data) l = monomial_mul 64 k (lut_big n data l).
Proof.
  intros Hl. apply nthZ_ext.
  - rewrite monomial_mul_length. unfold lut_big. rewrite !interleave_length, rot_length. reflexivity.
  - intros u Hu. unfold lut_big in Hu at 1. rewrite interleave_length, rot_length in Hu.
    rewrite rot_coeff by auto.
    rewrite monomial_mul_nth by (unfold lut_big; rewrite interleave_length; auto). reflexivity.
Qed.

End Rotate.

Lemma pow2_T_val (m x : nat) : 2 * Z.of_nat (2 ^ m) * Z.of_nat (2 ^ x) = 2 ^ (Z.of_nat m + Z.of_nat x + 1).
Proof.
  rewrite !Nat2Z.inj_pow. cbn [Z.of_nat Pos.of_succ_nat Pos.succ].
  rewrite !Z.pow_add_r by lia. ring.
Qed.

Lemma pow2_T_gen (m x : nat) : (m + x + 1 <= 64)%nat ->
  exists c, 2 ^ 64 = c * (2 * Z.of_nat (2 ^ m) * Z.of_nat (2 ^ x)).
Proof.
  intros H. exists (2 ^ (64 - (Z.of_nat m + Z.of_nat x + 1))).
  rewrite pow2_T_val, <- Z.pow_add_r by lia. f_equal. lia.
Qed.

Theorem lut_rotate_is_big_ring_rotation (m x size : nat) (data : lut) (k : Z) :
  (m + x + 1 <= 62)%nat -> length data = (2 ^ x)%nat -> lut_wf (2 ^ m) size data ->
  length (lookup_table_rotate (2 ^ m) k data) = length data /\
  lut_wf (2 ^ m) size (lookup_table_rotate (2 ^ m) k data) /\
  forall l, (l < size)%nat ->
    lut_big (2 ^ m) (lookup_table_rotate (2 ^ m) k data) l = monomial_mul 64 k (lut_big (2 ^ m) data l).
Proof.
  intros Hmx Hlen Hwf.
  assert (Hn : (0 < 2 ^ m)%nat) by (pose proof (Nat.pow_nonzero 2 m ltac:(lia)); lia).
  assert (He : (0 < length data)%nat) by (rewrite Hlen; pose proof (Nat.pow_nonzero 2 x ltac:(lia)); lia).
  destruct (pow2_T_gen m x ltac:(lia)) as [c Hc]. rewrite <- Hlen in Hc.
  split; [apply rot_length; auto|]. split; [apply rot_wf; auto|].
  intros l Hl. apply (rotate_is_big_ring_rotation_gen (2 ^ m) size data k Hn He Hwf c Hc l Hl).
Qed.

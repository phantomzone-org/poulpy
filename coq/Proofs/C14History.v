(* C14: configuration histories of a LookupTable: the direction is the one requested last, the table the one set last. *)
From PV Require Import Base.MachineInt Model.Znx Model.Limbs Model.Ring Model.C14Lut.
Open Scope Z_scope.

Section History.
Variables (n ext : nat) (b klut : Z).

Lemma run_events_dir (evs : list levent) : forall st st',
  run_events n ext b klut evs st = Some st' -> st_left st' = last_dir evs (st_left st).
Proof.
  induction evs as [|ev t IH]; intros st st' H; cbn [run_events] in H.
  - injection H as <-. reflexivity.
  - destruct (apply_event n ext b klut st ev) as [st1|] eqn:E; [|discriminate].
    rewrite (IH _ _ H). unfold last_dir. cbn [fold_left]. f_equal.
    destruct ev as [l|k f]; cbn [apply_event] in E.
    + injection E as <-. reflexivity.
    + destruct (lookup_table_set n ext b klut k f) as [[d dr]|]; [|discriminate]. injection E as <-. reflexivity.
Qed.

(* what the state holds, given the table set last (o) and the initial contents (d0, dr0) *)
Definition holds (d0 : lut) (dr0 : Z) (st : lstate) (o : option (Z * list Z)) : Prop :=
  match o with
  | Some kf => lookup_table_set n ext b klut (fst kf) (snd kf) = Some (st_data st, st_drift st)
  | None => st_data st = d0 /\ st_drift st = dr0
  end.

Lemma run_events_table (d0 : lut) (dr0 : Z) (evs : list levent) : forall st st' o,
  holds d0 dr0 st o -> run_events n ext b klut evs st = Some st' -> holds d0 dr0 st' (last_set evs o).
Proof.
  induction evs as [|ev t IH]; intros st st' o Ho H; cbn [run_events] in H.
  - injection H as <-. exact Ho.
  - destruct (apply_event n ext b klut st ev) as [st1|] eqn:E; [|discriminate].
    unfold last_set. cbn [fold_left]. apply (IH st1 st' _); [|exact H].
    destruct ev as [l|k f]; cbn [apply_event] in E.
    + injection E as <-. destruct o; exact Ho.
    + destruct (lookup_table_set n ext b klut k f) as [[d dr]|] eqn:Es; [|discriminate]. injection E as <-.
      cbn [holds fst snd st_data st_drift]. exact Es.
Qed.

End History.

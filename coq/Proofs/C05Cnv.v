(* C05 part 1 — proofs about the HAL convolution model (Model/C05Cnv.v): the computed window equals the explicit sum
   over index pairs, preparation, the pairwise trick, and the sum and mask lemmas that Props/C05.v uses for offsets past
   the end, family independence, constants, the (hi, lo) offset split and the top-limb mask. *)
From PV Require Import Base.MachineInt Model.Znx Model.Limbs Model.Ring Model.DftAbs Model.C05Cnv Model.C05Spec Model.C05Core.
From PV Require Import Proofs.C07Dft Proofs.C07Ring Proofs.PolyFacts.
Open Scope Z_scope.

Definition wfl (n : nat) (a : plimbs) : Prop := forall j, (j < length a)%nat -> length (lim a j) = n.

Lemma lim_mk' rsz f j : (j < rsz)%nat -> lim (mk rsz f) j = f j.
Proof.
  intros H. unfold lim, mk.
  rewrite (nth_indep _ [] (f 0%nat)) by (rewrite map_length, seq_length; exact H).
  rewrite map_nth, seq_nth by exact H. reflexivity.
Qed.

Lemma psumf_S n f m : psumf n f (S m) = padd (psumf n f m) (f m).
Proof. apply psum_S. Qed.

Lemma psumf_length n f m : (forall q, (q < m)%nat -> length (f q) = n) -> length (psumf n f m) = n.
Proof. apply psum_length. Qed.

Lemma psumf_coeff n f m k : (forall q, (q < m)%nat -> length (f q) = n) ->
  nth k (psumf n f m) 0 = zsum (fun q => nth k (f q) 0) m.
Proof. apply psum_coeff. Qed.

Lemma psumf_ext n f g m : (forall q, (q < m)%nat -> f q = g q) -> psumf n f m = psumf n g m.
Proof. apply psum_ext. Qed.

Lemma psumf_zero n m : psumf n (fun _ => pzero n) m = pzero n.
Proof. apply psum_pzero. Qed.

(* fold over a shifted range *)
Lemma seq_as_map lo len : seq lo len = map (Nat.add lo) (seq 0 len).
Proof.
  revert lo; induction len as [|len IH]; intros lo; [reflexivity|].
  cbn [seq map]. rewrite Nat.add_0_r. f_equal.
  rewrite IH, <- seq_shift, map_map. apply map_ext. intros t. lia.
Qed.

Lemma fold_left_map' {A B C} (f : A -> B -> A) (g : C -> B) l a :
  fold_left f (map g l) a = fold_left (fun a x => f a (g x)) l a.
Proof. revert a; induction l as [|x l IH]; intros a; [reflexivity|]. cbn [map fold_left]. apply IH. Qed.

Lemma fold_range_psumf n (g : nat -> list Z) lo len :
  fold_left (fun acc j => padd acc (g j)) (seq lo len) (pzero n) = psumf n (fun t => g (lo + t)%nat) len.
Proof. unfold psumf. rewrite (seq_as_map lo len), fold_left_map'. reflexivity. Qed.

Lemma zsum_window (g : nat -> Z) lo hi m :
  zsum (fun j => if Nat.leb lo j && Nat.ltb j hi then g j else 0) m = zsum (fun t => g (lo + t)%nat) (Nat.min hi m - lo).
Proof.
  induction m as [|m IH].
  - rewrite Nat.min_0_r. reflexivity.
  - rewrite zsum_S, IH.
    destruct (Nat.leb_spec lo m) as [H1|H1]; destruct (Nat.ltb_spec m hi) as [H2|H2]; cbn [andb].
    + replace (Nat.min hi (S m) - lo)%nat with (S (Nat.min hi m - lo)) by lia.
      rewrite zsum_S. f_equal. f_equal. lia.
    + replace (Nat.min hi (S m)) with (Nat.min hi m) by lia. lia.
    + replace (Nat.min hi (S m) - lo)%nat with 0%nat by lia. replace (Nat.min hi m - lo)%nat with 0%nat by lia. lia.
    + replace (Nat.min hi (S m) - lo)%nat with 0%nat by lia. replace (Nat.min hi m - lo)%nat with 0%nat by lia. lia.
Qed.

(* of the terms on the anti-diagonal i + s = K at most one lies in the range of the sum *)
Lemma zsum_diag (g : nat -> Z) s K m :
  zsum (fun i => if Nat.eqb (i + s) K then g i else 0) m = if Nat.leb s K && Nat.ltb (K - s) m then g (K - s)%nat else 0.
Proof.
  induction m as [|m IH]; [rewrite andb_false_r; reflexivity|].
  rewrite zsum_S, IH. destruct (Nat.eqb_spec (m + s) K) as [E|E].
  - replace (K - s)%nat with m by lia.
    destruct (Nat.leb_spec s K); destruct (Nat.ltb_spec m m); destruct (Nat.ltb_spec m (S m)); cbn [andb]; lia.
  - destruct (Nat.leb_spec s K); destruct (Nat.ltb_spec (K - s) m); destruct (Nat.ltb_spec (K - s) (S m)); cbn [andb]; lia.
Qed.

Section Coeff.
Variables (n : nat) (a b : plimbs).
Hypothesis wa : wfl n a.
Hypothesis wb : wfl n b.

Lemma term_length i j K : (i < length a)%nat ->
  length (if Nat.eqb (i + j) K then pmul (lim a i) (lim b j) else pzero n) = n.
Proof. intros Hi. destruct (Nat.eqb (i + j) K); [rewrite pmul_length; apply wa; exact Hi|apply pzero_length]. Qed.

Lemma bivariate_length K : length (bivariate_coeff n a b K) = n.
Proof.
  unfold bivariate_coeff. apply psumf_length. intros i Hi. apply psumf_length. intros j _. apply term_length; exact Hi.
Qed.

Lemma bivariate_nth K c :
  nth c (bivariate_coeff n a b K) 0 =
  zsum (fun i => zsum (fun j => if Nat.eqb (i + j) K then nth c (pmul (lim a i) (lim b j)) 0 else 0) (length b)) (length a).
Proof.
  unfold bivariate_coeff.
  rewrite psumf_coeff by (intros i Hi; apply psumf_length; intros j _; apply term_length; exact Hi).
  apply zsum_ext; intros i Hi.
  rewrite psumf_coeff by (intros j _; apply term_length; exact Hi).
  apply zsum_ext; intros j _.
  destruct (Nat.eqb (i + j) K); [reflexivity|apply nth_pzero].
Qed.

Lemma bivariate_zero K : (length a + length b - 1 <= K)%nat -> bivariate_coeff n a b K = pzero n.
Proof.
  intros H. apply list_eq_nth; [rewrite bivariate_length, pzero_length; reflexivity|].
  intros c _. rewrite bivariate_nth, nth_pzero.
  apply zsum_none; intros i Hi. apply zsum_none; intros j Hj.
  destruct (Nat.eqb_spec (i + j) K); [lia|reflexivity].
Qed.

(* the window the kernels iterate over *)
Lemma cnv_coeff_spec K : (1 <= length a)%nat -> (1 <= length b)%nat ->
  cnv_coeff n a b K = bivariate_coeff n a b K.
Proof.
  intros Ha Hb. unfold cnv_coeff.
  destruct (Nat.leb_spec (length a + length b) K) as [Hbig|Hsmall].
  { symmetry; apply bivariate_zero; lia. }
  set (j_min := (K - (length a - 1))%nat). set (j_max := Nat.min (K + 1) (length b)).
  rewrite fold_range_psumf.
  assert (Hlen : forall t, (t < j_max - j_min)%nat -> length (pmul (lim a (K - (j_min + t))) (lim b (j_min + t))) = n).
  { intros t Ht. rewrite pmul_length. apply wa. subst j_min j_max. lia. }
  apply list_eq_nth; [rewrite psumf_length by exact Hlen; rewrite bivariate_length; reflexivity|].
  intros c _. rewrite psumf_coeff by exact Hlen. rewrite bivariate_nth.
  rewrite zsum_swap.
  transitivity (zsum (fun j => if Nat.leb j_min j && Nat.ltb j (K + 1)
                                then nth c (pmul (lim a (K - j)) (lim b j)) 0 else 0) (length b)).
  - rewrite zsum_window. reflexivity.
  - apply zsum_ext; intros j Hj. rewrite zsum_diag. subst j_min.
    destruct (Nat.ltb_spec (K - j) (length a)); destruct (Nat.leb_spec j K);
      destruct (Nat.leb_spec (K - (length a - 1)) j); destruct (Nat.ltb_spec j (K + 1)); cbn [andb]; try reflexivity; lia.
Qed.
End Coeff.

Theorem cnv_apply_spec fft n rsz off a b k : wfl n a -> wfl n b -> (1 <= length a)%nat -> (1 <= length b)%nat ->
  (k < rsz)%nat -> lim (cnv_apply fft n rsz off a b) k = bivariate_coeff n a b (k + off).
Proof.
  intros wa wb Ha Hb Hk. unfold cnv_apply. rewrite lim_mk' by exact Hk.
  unfold cnv_min_size, cnv_off, cnv_bound.
  set (bound := (length a + length b - 1)%nat).
  destruct (Nat.ltb_spec k (if fft then Nat.min rsz bound else Nat.min rsz (bound + 1 - Nat.min off bound))) as [H|H].
  - rewrite cnv_coeff_spec by assumption.
    destruct (Nat.le_gt_cases off bound) as [Ho|Ho].
    + rewrite Nat.min_l by exact Ho. reflexivity.
    + rewrite Nat.min_r by lia. rewrite !bivariate_zero by (try assumption; subst bound; lia). reflexivity.
  - symmetry. apply bivariate_zero; try assumption. fold bound. destruct fft; lia.
Qed.

Lemma cnv_apply_length fft n rsz off a b : length (cnv_apply fft n rsz off a b) = rsz.
Proof. apply mk_length. Qed.

Lemma cnv_apply_wfl fft n rsz off a b : wfl n a -> wfl n b -> (1 <= length a)%nat -> (1 <= length b)%nat ->
  wfl n (cnv_apply fft n rsz off a b).
Proof.
  intros wa wb Ha Hb j Hj. rewrite cnv_apply_length in Hj.
  rewrite cnv_apply_spec by assumption. apply bivariate_length; assumption.
Qed.

Lemma mask_limb_length m l : length (mask_limb m l) = length l.
Proof. apply map_length. Qed.

Lemma cnv_prepare_length n psz mask a : length (cnv_prepare n psz mask a) = psz.
Proof. apply mk_length. Qed.

Theorem cnv_prepare_spec n psz mask a j : (j < psz)%nat ->
  lim (cnv_prepare n psz mask a) j =
  let min_size := Nat.min psz (length a) in
  if Nat.ltb (S j) min_size then lim a j
  else if Nat.ltb j min_size then mask_limb mask (lim a j) else pzero n.
Proof. intros H. unfold cnv_prepare. rewrite lim_mk' by exact H. reflexivity. Qed.

Lemma cnv_prepare_wfl n psz mask a : wfl n a -> wfl n (cnv_prepare n psz mask a).
Proof.
  intros wa j Hj. rewrite cnv_prepare_length in Hj. rewrite cnv_prepare_spec by exact Hj. cbv zeta.
  destruct (Nat.ltb_spec (S j) (Nat.min psz (length a))); [apply wa; lia|].
  destruct (Nat.ltb_spec j (Nat.min psz (length a))); [rewrite mask_limb_length; apply wa; lia|apply pzero_length].
Qed.

(* with the all-ones mask and psz = a.size the prepared operand is the operand *)
Lemma mask_limb_m1 l : mask_limb (-1) l = l.
Proof. unfold mask_limb. rewrite (map_ext _ (fun x => x)) by apply Z.land_m1_r. apply map_id. Qed.

Lemma nth_combine_gen {A B} (a : list A) (b : list B) k da db : (k < length a)%nat -> (k < length b)%nat ->
  nth k (combine a b) (da, db) = (nth k a da, nth k b db).
Proof.
  revert b k; induction a as [|x a IH]; intros [|y b] [|k] Ha Hb; cbn [length] in *; try lia; cbn [combine nth].
  - reflexivity.
  - apply IH; lia.
Qed.

Lemma plimbs_add_length a b : length (plimbs_add a b) = Nat.min (length a) (length b).
Proof. apply map2_length. Qed.

Lemma lim_plimbs_add a b i : (i < length a)%nat -> (i < length b)%nat ->
  lim (plimbs_add a b) i = padd (lim a i) (lim b i).
Proof.
  intros Ha Hb. unfold lim, plimbs_add, map2.
  rewrite (nth_map' _ _ _ _ ([], [])) by (rewrite combine_length; lia).
  rewrite nth_combine_gen by assumption. reflexivity.
Qed.

Lemma plimbs_add_wfl n a b : wfl n a -> wfl n b -> length b = length a -> wfl n (plimbs_add a b).
Proof.
  intros wa wb Hl j Hj. rewrite plimbs_add_length in Hj.
  rewrite lim_plimbs_add by lia. rewrite padd_length, wa, wb by lia. apply Nat.min_id.
Qed.

Lemma pmul_bilinear_nth x1 x2 y1 y2 c : length x2 = length x1 -> length y1 = length x1 -> length y2 = length x1 ->
  nth c (pmul (padd x1 x2) (padd y1 y2)) 0 =
  nth c (pmul x1 y1) 0 + nth c (pmul x1 y2) 0 + nth c (pmul x2 y1) 0 + nth c (pmul x2 y2) 0.
Proof.
  intros H1 H2 H3.
  rewrite pmul_padd_distr_r by (try rewrite padd_length; lia).
  rewrite !pmul_padd_distr_l by lia.
  repeat rewrite nth_padd by (rewrite ?padd_length, ?pmul_length; lia).
  ring.
Qed.

(* (a_i + a_j)(b_i + b_j) - a_i b_i - a_j b_j = a_i b_j + a_j b_i, for every coefficient in Y of the bivariate product *)
Lemma pairwise_bivariate_nth n ai aj bi bj K c : wfl n ai -> wfl n aj -> wfl n bi -> wfl n bj ->
  length aj = length ai -> length bj = length bi ->
  nth c (bivariate_coeff n (plimbs_add ai aj) (plimbs_add bi bj) K) 0 - nth c (bivariate_coeff n ai bi K) 0 - nth c (bivariate_coeff n aj bj K) 0
  = nth c (bivariate_coeff n ai bj K) 0 + nth c (bivariate_coeff n aj bi K) 0.
Proof.
  intros wai waj wbi wbj Ha Hb.
  rewrite !bivariate_nth by (try assumption; apply plimbs_add_wfl; assumption).
  rewrite !plimbs_add_length, Ha, Hb, !Nat.min_id.
  rewrite <- !zsum_sub, <- zsum_add. apply zsum_ext; intros i Hi.
  rewrite <- !zsum_sub, <- zsum_add. apply zsum_ext; intros j Hj.
  destruct (Nat.eqb (i + j) K); [|ring].
  rewrite !lim_plimbs_add by lia.
  rewrite pmul_bilinear_nth by (rewrite ?waj, ?wbi, ?wbj, ?wai by lia; reflexivity).
  ring.
Qed.

Theorem pairwise_bivariate n ai aj bi bj K : wfl n ai -> wfl n aj -> wfl n bi -> wfl n bj ->
  length aj = length ai -> length bj = length bi ->
  psub (psub (bivariate_coeff n (plimbs_add ai aj) (plimbs_add bi bj) K) (bivariate_coeff n ai bi K)) (bivariate_coeff n aj bj K)
  = padd (bivariate_coeff n ai bj K) (bivariate_coeff n aj bi K).
Proof.
  intros wai waj wbi wbj Ha Hb.
  pose proof (plimbs_add_wfl n ai aj wai waj Ha) as was.
  pose proof (plimbs_add_wfl n bi bj wbi wbj Hb) as wbs.
  apply list_eq_nth; [rewrite !psub_length, padd_length, !bivariate_length by assumption; lia|].
  intros c _. rewrite !nth_psub, nth_padd by (rewrite ?psub_length, !bivariate_length by assumption; lia).
  apply pairwise_bivariate_nth; assumption.
Qed.

Theorem cnv_pairwise_spec fft n rsz off ai aj bi bj same k :
  wfl n ai -> wfl n aj -> wfl n bi -> wfl n bj -> length aj = length ai -> length bj = length bi ->
  (1 <= length ai)%nat -> (1 <= length bi)%nat -> (k < rsz)%nat ->
  lim (cnv_pairwise fft n rsz off ai aj bi bj same) k =
  if same then bivariate_coeff n ai bi (k + off)
  else bivariate_coeff n (plimbs_add ai aj) (plimbs_add bi bj) (k + off).
Proof.
  intros wai waj wbi wbj Ha Hb H1 H2 Hk. unfold cnv_pairwise. destruct same.
  - apply cnv_apply_spec; assumption.
  - apply cnv_apply_spec; try assumption.
    + apply plimbs_add_wfl; assumption.
    + apply plimbs_add_wfl; assumption.
    + rewrite plimbs_add_length; lia.
    + rewrite plimbs_add_length; lia.
Qed.

Lemma pconst_length n c : length (pconst n c) = n.
Proof. destruct n; cbn [pconst length]; [reflexivity|]. unfold zeros. rewrite repeat_length. reflexivity. Qed.

Lemma nth_pconst n c i : nthZ (pconst n c) i = if Nat.eqb i 0 then (if Nat.eqb n 0 then 0 else c) else 0.
Proof.
  unfold nthZ. destruct n as [|n]; cbn [pconst].
  - destruct i; reflexivity.
  - destruct i as [|i]; cbn [nth Nat.eqb]; [reflexivity|].
    unfold zeros. apply nth_repeat.
Qed.

Lemma pscale_length c q : length (pscale c q) = length q.
Proof. apply map_length. Qed.
Lemma nth_pscale c q k : nth k (pscale c q) 0 = c * nth k q 0.
Proof. apply nth_scale. Qed.
#[export] Hint Rewrite pscale_length : poly_length.
#[export] Hint Rewrite nth_pscale : poly_nth.

Lemma land_neg_pow2 x s : 0 <= s -> Z.land x (- 2 ^ s) = x - x mod 2 ^ s.
Proof.
  intros Hs.
  replace (- 2 ^ s) with (Z.lnot (Z.ones s)) by (unfold Z.lnot; rewrite Z.ones_equiv; lia).
  rewrite <- Z.ldiff_land, Z.ldiff_ones_r by exact Hs.
  rewrite Z.shiftl_mul_pow2, Z.shiftr_div_pow2 by exact Hs.
  pose proof (pow2_pos s Hs). pose proof (Z.div_mod x (2 ^ s) ltac:(lia)). lia.
Qed.


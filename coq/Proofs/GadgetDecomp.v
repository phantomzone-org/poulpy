(* Gadget decomposition (shared by C03 / C04), pure index arithmetic and the polynomial-sum library built on it.
   1. zsum_regroup / gadget_decomposition_exact / _clamped : limbs grouped by (step = dsize, offset = dsize-di-1)
      recombine to the value of the limb vector; with a key of dnum rows exactly the limbs l < dnum*dsize survive.
   2. psumf library (sums of polynomials of length n): swap, linearity, flattening, cut, reversal.
   3. gadget_decomposition_poly : the decomposition on polynomial limbs.
   4. dft_select_digit : the model's selection (Model/DftAbs.dft_select with step dsize, offset dsize-di-1) is that grouping. *)
From PV Require Import Base.MachineInt Model.Znx Model.Limbs Model.Flat Model.Ring Model.Poly Model.DftAbs Model.Gadget Model.GadgetSpec Proofs.C07Dft Proofs.C07Ring.
From PV Require Export Proofs.PolyFacts.
Open Scope Z_scope.

Section Regroup.
Lemma div_step_hit (N d : nat) : (1 <= d)%nat ->
  ((S N + (d - 1 - N mod d)) / d = S ((N + (d - 1 - N mod d)) / d))%nat /\
  (((N + (d - 1 - N mod d)) / d) * d + (d - (d - 1 - N mod d) - 1) = N)%nat.
Proof.
  intros Hd.
  pose proof (Nat.div_mod N d ltac:(lia)) as E.
  pose proof (Nat.mod_upper_bound N d ltac:(lia)) as Hr.
  set (r := (N mod d)%nat) in *. set (q := (N / d)%nat) in *.
  assert (H1 : ((N + (d - 1 - r)) / d = q)%nat).
  { symmetry. apply (Nat.div_unique _ _ _ (d - 1)%nat); lia. }
  assert (H2 : ((S N + (d - 1 - r)) / d = S q)%nat).
  { symmetry. apply (Nat.div_unique _ _ _ 0%nat); lia. }
  rewrite H1, H2. split; lia.
Qed.

Lemma div_step_miss (N d di : nat) : (1 <= d)%nat -> (di < d)%nat -> di <> (d - 1 - N mod d)%nat ->
  ((S N + di) / d = (N + di) / d)%nat.
Proof.
  intros Hd Hdi Hne.
  pose proof (Nat.div_mod N d ltac:(lia)) as E.
  pose proof (Nat.mod_upper_bound N d ltac:(lia)) as Hr.
  set (r := (N mod d)%nat) in *. set (q := (N / d)%nat) in *.
  destruct (Nat.lt_ge_cases (r + di) (d - 1)) as [H|H].
  - assert (H1 : ((N + di) / d = q)%nat) by (symmetry; apply (Nat.div_unique _ _ _ (r + di)%nat); lia).
    assert (H2 : ((S N + di) / d = q)%nat) by (symmetry; apply (Nat.div_unique _ _ _ (r + di + 1)%nat); lia).
    lia.
  - assert (H1 : ((N + di) / d = S q)%nat) by (symmetry; apply (Nat.div_unique _ _ _ (r + di - d)%nat); lia).
    assert (H2 : ((S N + di) / d = S q)%nat) by (symmetry; apply (Nat.div_unique _ _ _ (r + di + 1 - d)%nat); lia).
    lia.
Qed.

Theorem zsum_regroup (g : nat -> Z) (d N : nat) : (1 <= d)%nat ->
  zsum g N = zsum (fun di => zsum (fun q => g (q * d + (d - di - 1))%nat) ((N + di) / d)) d.
Proof.
  intros Hd. induction N as [|N IH].
  - rewrite zsum_0. symmetry. apply zsum_none. intros di Hdi.
    rewrite Nat.add_0_l, Nat.div_small by exact Hdi. apply zsum_0.
  - rewrite zsum_S, IH.
    set (d0 := (d - 1 - N mod d)%nat).
    rewrite (zsum_ext (fun di => zsum (fun q => g (q * d + (d - di - 1))%nat) ((S N + di) / d))
              (fun di => zsum (fun q => g (q * d + (d - di - 1))%nat) ((N + di) / d)
                         + (if Nat.eqb di d0 then (fun _ => g N) di else 0))).
    + rewrite zsum_add. f_equal. rewrite zsum_single; [reflexivity|].
      pose proof (Nat.mod_upper_bound N d ltac:(lia)). unfold d0. lia.
    + intros di Hdi. destruct (Nat.eqb_spec di d0) as [->|Hne].
      * destruct (div_step_hit N d Hd) as [H1 H2]. fold d0 in H1, H2.
        rewrite H1, zsum_S, H2. reflexivity.
      * rewrite (div_step_miss N d di Hd Hdi Hne). lia.
Qed.
End Regroup.


Section Exact.
Lemma gadget_exponent (P b : Z) (dsize q di : nat) : (di < dsize)%nat ->
  P - (Z.of_nat (q * dsize + (dsize - di - 1)) + 1) * b
  = P - (Z.of_nat q + 1) * Z.of_nat dsize * b + Z.of_nat di * b.
Proof.
  intros H.
  replace (Z.of_nat (q * dsize + (dsize - di - 1))) with (Z.of_nat q * Z.of_nat dsize + Z.of_nat dsize - Z.of_nat di - 1) by lia.
  ring.
Qed.

Theorem gadget_decomposition_exact (P b : Z) (dsize a_size : nat) (a : nat -> Z) : (1 <= dsize)%nat ->
  zsum (fun l => a l * 2 ^ (P - (Z.of_nat l + 1) * b)) a_size
  = zsum (fun di => zsum (fun q => a (q * dsize + (dsize - di - 1))%nat
                                   * 2 ^ (P - (Z.of_nat q + 1) * Z.of_nat dsize * b + Z.of_nat di * b))
                         ((a_size + di) / dsize)) dsize.
Proof.
  intros Hd.
  rewrite (zsum_regroup (fun l => a l * 2 ^ (P - (Z.of_nat l + 1) * b)) dsize a_size Hd).
  apply zsum_ext; intros di Hdi. apply zsum_ext; intros q _.
  rewrite gadget_exponent by exact Hdi. reflexivity.
Qed.

Lemma clamp_count (a_size dsize dnum di : nat) : (1 <= dsize)%nat -> (di < dsize)%nat ->
  Nat.min ((a_size + di) / dsize) dnum = ((Nat.min a_size (dnum * dsize) + di) / dsize)%nat.
Proof.
  intros Hd Hdi.
  destruct (Nat.le_gt_cases (dnum * dsize) a_size) as [H|H].
  - rewrite (Nat.min_r a_size) by exact H.
    assert (E : ((dnum * dsize + di) / dsize = dnum)%nat).
    { symmetry. apply (Nat.div_unique _ _ _ di); lia. }
    rewrite E. apply Nat.min_r.
    rewrite <- E at 1. apply Nat.div_le_mono; lia.
  - rewrite (Nat.min_l a_size) by lia. apply Nat.min_l.
    apply Nat.lt_succ_r. apply Nat.div_lt_upper_bound; [lia|]. nia.
Qed.

Theorem gadget_decomposition_clamped (P b : Z) (dsize dnum a_size : nat) (a : nat -> Z) : (1 <= dsize)%nat ->
  zsum (fun di => zsum (fun q => a (q * dsize + (dsize - di - 1))%nat
                                   * 2 ^ (P - (Z.of_nat q + 1) * Z.of_nat dsize * b + Z.of_nat di * b))
                         (Nat.min ((a_size + di) / dsize) dnum)) dsize
  = zsum (fun l => a l * 2 ^ (P - (Z.of_nat l + 1) * b)) (Nat.min a_size (dnum * dsize)).
Proof.
  intros Hd. rewrite (gadget_decomposition_exact P b dsize _ a Hd).
  apply zsum_ext; intros di Hdi. rewrite clamp_count by assumption. reflexivity.
Qed.

End Exact.


(* Gadget.pscale is the scaling of Proofs/PolyFacts.v; its facts under the names the developments rewrite with *)
Section PolyBasics.
Lemma pscale_length c a : length (pscale c a) = length a.
Proof. apply scale_length. Qed.
Lemma nth_pscale c a k : nth k (pscale c a) 0 = c * nth k a 0.
Proof. apply nth_scale. Qed.
Lemma pscale_padd c a b : pscale c (padd a b) = padd (pscale c a) (pscale c b).
Proof. apply scale_padd. Qed.
Lemma pscale_psub c a b : pscale c (psub a b) = psub (pscale c a) (pscale c b).
Proof. apply scale_psub. Qed.
Lemma pscale_pzero c n : pscale c (pzero n) = pzero n.
Proof. apply scale_pzero. Qed.
Lemma pscale_pscale c d a : pscale c (pscale d a) = pscale (c * d) a.
Proof. apply scale_scale. Qed.
Lemma pscale_1 a : pscale 1 a = a.
Proof. apply scale_1. Qed.
Lemma pscale_0 a : pscale 0 a = pzero (length a).
Proof. apply scale_0. Qed.

Lemma nthZ_pscale c a i : nthZ (pscale c a) i = c * nthZ a i.
Proof. apply nth_pscale. Qed.

(* scaling commutes with the product, on either side, for all lengths *)
Lemma pmul_fold_scale (c : Z) (f g : nat -> Z) (p : nat -> bool) l acc :
  fold_left (fun acc i => if p i then acc + c * f i else acc - c * g i) l (c * acc)
  = c * fold_left (fun acc i => if p i then acc + f i else acc - g i) l acc.
Proof.
  revert acc; induction l as [|h l IH]; intros acc; cbn [fold_left]; [reflexivity|].
  rewrite <- IH. f_equal. destruct (p h); ring.
Qed.

Lemma fold_left_ext2 {A B} (f g : A -> B -> A) l a : (forall acc i, f acc i = g acc i) -> fold_left f l a = fold_left g l a.
Proof. intros H. revert a; induction l as [|h l IH]; intros a; cbn [fold_left]; [reflexivity|]. rewrite H. apply IH. Qed.

Lemma pscale_pmul_l c a b : pmul (pscale c a) b = pscale c (pmul a b).
Proof.
  unfold pmul. cbv zeta. rewrite pscale_length. symmetry. unfold pscale at 1. rewrite map_map.
  apply map_ext; intros k. symmetry.
  rewrite <- (pmul_fold_scale c (fun i => nthZ a i * nthZ b (k - i)) (fun i => nthZ a i * nthZ b (length a + k - i)) (fun i => Nat.leb i k)).
  rewrite Z.mul_0_r.
  apply fold_left_ext2; intros acc i. rewrite nthZ_pscale. destruct (Nat.leb i k); ring.
Qed.

Lemma pscale_pmul_r c a b : pmul a (pscale c b) = pscale c (pmul a b).
Proof.
  unfold pmul. cbv zeta. symmetry. unfold pscale at 1. rewrite map_map.
  apply map_ext; intros k. symmetry.
  rewrite <- (pmul_fold_scale c (fun i => nthZ a i * nthZ b (k - i)) (fun i => nthZ a i * nthZ b (length a + k - i)) (fun i => Nat.leb i k)).
  rewrite Z.mul_0_r.
  apply fold_left_ext2; intros acc i. rewrite !nthZ_pscale. destruct (Nat.leb i k); ring.
Qed.
End PolyBasics.


Section PolySums.
Lemma psumf_0 n f : psumf n f 0 = pzero n.
Proof. reflexivity. Qed.
Lemma psumf_S n f m : psumf n f (S m) = padd (psumf n f m) (f m).
Proof. apply psum_S. Qed.
Lemma psumf_ext n f g m : (forall i, (i < m)%nat -> f i = g i) -> psumf n f m = psumf n g m.
Proof. apply psum_ext. Qed.
Lemma psumf_length n f m : (forall i, (i < m)%nat -> length (f i) = n) -> length (psumf n f m) = n.
Proof. apply psum_length. Qed.
Lemma psumf_coeff n f m k : (forall i, (i < m)%nat -> length (f i) = n) ->
  nth k (psumf n f m) 0 = zsum (fun i => nth k (f i) 0) m.
Proof. apply psum_coeff. Qed.
Lemma psumf_pzero n m : psumf n (fun _ => pzero n) m = pzero n.
Proof. apply psum_pzero. Qed.
Lemma psumf_zero n f m : (forall i, (i < m)%nat -> f i = pzero n) -> psumf n f m = pzero n.
Proof. apply psum_zero. Qed.

Lemma psumf_padd n f g m : psumf n (fun i => padd (f i) (g i)) m = padd (psumf n f m) (psumf n g m).
Proof.
  induction m as [|m IH]; [rewrite !psumf_0, padd_pzero_pzero; reflexivity|].
  rewrite !psumf_S, IH. apply padd_swap4.
Qed.

Lemma psumf_swap n (f : nat -> nat -> list Z) m1 m2 :
  psumf n (fun i => psumf n (fun j => f i j) m2) m1 = psumf n (fun j => psumf n (fun i => f i j) m1) m2.
Proof.
  induction m1 as [|m1 IH].
  - rewrite psumf_0. symmetry. apply psumf_pzero.
  - rewrite psumf_S, IH, <- psumf_padd. apply psumf_ext; intros j _. rewrite psumf_S. reflexivity.
Qed.

Lemma pscale_psumf c n f m : pscale c (psumf n f m) = psumf n (fun i => pscale c (f i)) m.
Proof.
  induction m as [|m IH]; [rewrite !psumf_0; apply pscale_pzero|].
  rewrite !psumf_S, pscale_padd, IH. reflexivity.
Qed.

Lemma pmul_psumf_r n f m s : length s = n -> (forall i, (i < m)%nat -> length (f i) = n) ->
  pmul (psumf n f m) s = psumf n (fun i => pmul (f i) s) m.
Proof.
  intros Hs. induction m as [|m IH]; intros H.
  - rewrite !psumf_0. rewrite <- Hs. apply pmul_pzero_l.
  - assert (Hm : length (psumf n f m) = n) by (apply psumf_length; auto with arith).
    rewrite !psumf_S, pmul_padd_distr_r, IH by (rewrite ?Hm; auto with arith). reflexivity.
Qed.

Lemma pmul_psumf_l n f m s : length s = n -> (forall i, (i < m)%nat -> length (f i) = n) ->
  pmul s (psumf n f m) = psumf n (fun i => pmul s (f i)) m.
Proof.
  intros Hs. induction m as [|m IH]; intros H.
  - rewrite !psumf_0. rewrite <- Hs. apply pmul_pzero_r.
  - rewrite !psumf_S, pmul_padd_distr_l, IH by (rewrite ?psumf_length, ?Hs; auto with arith). reflexivity.
Qed.

(* split at m *)
Lemma psumf_app n f m k : (forall i, (i < m + k)%nat -> length (f i) = n) ->
  psumf n f (m + k) = padd (psumf n f m) (psumf n (fun i => f (m + i)%nat) k).
Proof.
  induction k as [|k IH]; intros H.
  - rewrite Nat.add_0_r, psumf_0, padd_pzero_r; [reflexivity|]. apply psumf_length; intros; apply H; lia.
  - rewrite Nat.add_succ_r, !psumf_S, IH, padd_assoc by (intros; apply H; lia). reflexivity.
Qed.

(* a sum whose terms vanish beyond k *)
Lemma psumf_cut n f k m : (k <= m)%nat -> (forall i, (i < k)%nat -> length (f i) = n) ->
  (forall i, (k <= i)%nat -> (i < m)%nat -> f i = pzero n) -> psumf n f m = psumf n f k.
Proof.
  intros Hk Hl Hz. induction m as [|m IH]; [replace k with 0%nat by lia; reflexivity|].
  destruct (Nat.eq_dec k (S m)) as [->|Hne]; [reflexivity|].
  assert (IH' : psumf n f m = psumf n f k) by (apply IH; [lia|intros; apply Hz; lia]).
  rewrite psumf_S, Hz, IH' by lia. apply padd_pzero_r. apply psumf_length; exact Hl.
Qed.

Lemma psumf_cond n (c : nat -> bool) f k m : (k <= m)%nat -> (forall i, (i < k)%nat -> length (f i) = n) ->
  (forall i, (i < m)%nat -> c i = Nat.ltb i k) ->
  psumf n (fun i => if c i then f i else pzero n) m = psumf n f k.
Proof.
  intros Hk Hl Hc.
  rewrite (psumf_cut n _ k m Hk).
  - apply psumf_ext; intros i Hi. rewrite Hc by lia. destruct (Nat.ltb_spec i k); [reflexivity|lia].
  - intros i Hi. rewrite Hc by lia. destruct (Nat.ltb_spec i k); [auto|lia].
  - intros i H1 H2. rewrite Hc by lia. destruct (Nat.ltb_spec i k); [lia|reflexivity].
Qed.

(* flat index q = row*cin + ci *)
Lemma psumf_flatten n f rows cin : (forall q, (q < rows * cin)%nat -> length (f q) = n) ->
  psumf n f (rows * cin) = psumf n (fun row => psumf n (fun ci => f (row * cin + ci)%nat) cin) rows.
Proof.
  induction rows as [|rows IH]; intros H; [reflexivity|].
  rewrite psumf_S, <- IH by (intros; apply H; lia).
  replace (S rows * cin)%nat with (rows * cin + cin)%nat by lia.
  apply psumf_app. intros; apply H; lia.
Qed.

(* reversal *)
Lemma zsum_shift f m : zsum f (S m) = f 0%nat + zsum (fun i => f (S i)) m.
Proof. induction m as [|m IH]; [cbn; lia|]. rewrite zsum_S, IH, zsum_S. lia. Qed.

Lemma zsum_rev g m : zsum g m = zsum (fun i => g (m - 1 - i)%nat) m.
Proof.
  induction m as [|m IH]; [reflexivity|].
  rewrite zsum_S, zsum_shift, IH. replace (S m - 1 - 0)%nat with m by lia.
  rewrite Z.add_comm. f_equal. apply zsum_ext; intros i Hi. f_equal. lia.
Qed.

Lemma psumf_rev n f m : (forall i, (i < m)%nat -> length (f i) = n) ->
  psumf n f m = psumf n (fun i => f (m - 1 - i)%nat) m.
Proof.
  intros H. apply list_eq_nth.
  - rewrite !psumf_length; auto. intros; apply H; lia.
  - intros k _. rewrite !psumf_coeff by (intros; apply H; lia).
    apply (zsum_rev (fun i => nth k (f i) 0)).
Qed.
Lemma psumf_shift n f m : (forall i, (i < S m)%nat -> length (f i) = n) ->
  psumf n f (S m) = padd (f 0%nat) (psumf n (fun i => f (S i)) m).
Proof.
  intros H. change (S m) with (1 + m)%nat. rewrite psumf_app by exact H.
  rewrite psumf_S, psumf_0, padd_pzero_l by (apply H; lia). reflexivity.
Qed.

Lemma psumf_psub n f g m : (forall i, (i < m)%nat -> length (f i) = n) -> (forall i, (i < m)%nat -> length (g i) = n) ->
  psumf n (fun i => psub (f i) (g i)) m = psub (psumf n f m) (psumf n g m).
Proof.
  intros Hf Hg.
  assert (L1 : length (psumf n f m) = n) by (apply psumf_length; exact Hf).
  assert (L2 : length (psumf n g m) = n) by (apply psumf_length; exact Hg).
  apply list_eq_nth.
  - rewrite psub_length, L1, L2, psumf_length; [lia|]. intros. apply psub_len; auto.
  - intros k _. rewrite nth_psub by lia. rewrite !psumf_coeff by (intros; try apply psub_len; auto).
    rewrite <- zsum_sub. apply zsum_ext; intros i Hi. apply nth_psub. rewrite Hf, Hg by exact Hi. reflexivity.
Qed.
End PolySums.

#[export] Hint Rewrite pscale_length : poly_length.
#[export] Hint Rewrite nth_pscale : poly_nth.

Section PolyDecomp.
(* the decomposition on polynomial limbs *)
Theorem gadget_decomposition_poly (P b : Z) (n dsize dnum a_size : nat) (a : nat -> list Z) :
  (1 <= dsize)%nat -> (forall l, length (a l) = n) ->
  psumf n (fun di => psumf n (fun q =>
      pscale (2 ^ (P - (Z.of_nat q + 1) * Z.of_nat dsize * b + Z.of_nat di * b)) (a (q * dsize + (dsize - di - 1))%nat))
      (Nat.min ((a_size + di) / dsize) dnum)) dsize
  = pval P b n a (Nat.min a_size (dnum * dsize)).
Proof.
  intros Hd Ha. unfold pval.
  assert (L1 : forall c l, length (pscale c (a l)) = n) by (intros; rewrite pscale_length; apply Ha).
  apply list_eq_nth.
  - rewrite !psumf_length; auto. intros; apply psumf_length; auto.
  - intros k _.
    rewrite psumf_coeff by (intros; apply psumf_length; auto).
    rewrite (psumf_coeff n _ (Nat.min a_size (dnum * dsize))) by auto.
    rewrite (zsum_ext _ (fun l => (fun l => nth k (a l) 0) l * 2 ^ (P - (Z.of_nat l + 1) * b)) (Nat.min a_size (dnum * dsize)))
      by (intros; rewrite nth_pscale; ring).
    rewrite <- (gadget_decomposition_clamped P b dsize dnum a_size (fun l => nth k (a l) 0) Hd).
    apply zsum_ext; intros di _. rewrite psumf_coeff by auto.
    apply zsum_ext; intros q _. rewrite nth_pscale. ring.
Qed.

Corollary gadget_decomposition_poly_full (P b : Z) (n dsize a_size : nat) (a : nat -> list Z) :
  (1 <= dsize)%nat -> (forall l, length (a l) = n) ->
  psumf n (fun di => psumf n (fun q =>
      pscale (2 ^ (P - (Z.of_nat q + 1) * Z.of_nat dsize * b + Z.of_nat di * b)) (a (q * dsize + (dsize - di - 1))%nat))
      ((a_size + di) / dsize)) dsize
  = pval P b n a a_size.
Proof.
  intros Hd Ha.
  pose proof (gadget_decomposition_poly P b n dsize (a_size + 1) a_size a Hd Ha) as H.
  rewrite (Nat.min_l a_size) in H by nia. rewrite <- H.
  apply psumf_ext; intros di Hdi. f_equal. symmetry. apply Nat.min_l.
  apply Nat.lt_le_incl, Nat.div_lt_upper_bound; [lia|]. nia.
Qed.
End PolyDecomp.

Section Select.
Lemma digit_index_lt (len dsize di q : nat) : (1 <= dsize)%nat -> (di < dsize)%nat ->
  (q < (len + di) / dsize)%nat -> (q * dsize + (dsize - di - 1) < len)%nat.
Proof.
  intros Hd Hdi Hq.
  pose proof (Nat.mul_div_le (len + di) dsize ltac:(lia)) as H.
  assert (dsize * S q <= dsize * ((len + di) / dsize))%nat by (apply Nat.mul_le_mono_l; lia).
  nia.
Qed.

Lemma lim_mk' rsz f j : (j < rsz)%nat -> lim (mk rsz f) j = f j.
Proof.
  intros H. unfold lim, mk.
  rewrite (nth_map' f (seq 0 rsz) j [] 0%nat) by (rewrite seq_length; exact H).
  rewrite seq_nth by exact H. reflexivity.
Qed.

Lemma ceil_div_lt' a b j : (1 <= b)%nat -> (j * b < a)%nat -> (j < ceil_div a b)%nat.
Proof.
  intros Hb H. unfold ceil_div.
  assert (Hle : (b * S j <= a + b - 1)%nat) by (rewrite Nat.mul_succ_r; lia).
  apply Nat.div_le_lower_bound in Hle; lia.
Qed.

(* the (step = dsize, offset = dsize-di-1) selection of the model picks exactly the limbs of digit di *)
Theorem dft_select_digit n sz dsize di (a : plimbs) q : (1 <= dsize)%nat -> (di < dsize)%nat ->
  (q < sz)%nat -> (sz <= (length a + di) / dsize)%nat ->
  lim (dft_select n sz dsize (dsize - di - 1) a) q
  = (if Nat.ltb (q * dsize + (dsize - di - 1)) (length a) then lim a (q * dsize + (dsize - di - 1)) else pzero n)
  /\ (q * dsize + (dsize - di - 1) < length a)%nat.
Proof.
  intros Hd Hdi Hq Hsz.
  assert (Hi : (q * dsize + (dsize - di - 1) < length a)%nat) by (apply digit_index_lt; lia).
  split; [|exact Hi].
  unfold dft_select. cbv zeta. rewrite lim_mk' by exact Hq.
  assert (q < ceil_div (length a) dsize)%nat by (apply ceil_div_lt'; lia).
  destruct (Nat.ltb_spec q (Nat.min sz (ceil_div (length a) dsize))); [|lia].
  rewrite (Nat.add_comm (dsize - di - 1)). reflexivity.
Qed.

Corollary dft_select_digit_limz n sz dsize di (a : plimbs) q : (1 <= dsize)%nat -> (di < dsize)%nat ->
  (q < sz)%nat -> (sz <= (length a + di) / dsize)%nat ->
  lim (dft_select n sz dsize (dsize - di - 1) a) q = limz n a (q * dsize + (dsize - di - 1)).
Proof. intros. apply dft_select_digit; assumption. Qed.
End Select.


(* C07: lazy accumulators of mat_vec.rs -- every u64 accumulation stays below 2^64 for the documented
   number of terms, the results are congruent to the exact dot products, and add/sub/negate on q120b are
   congruent to the ring operations. *)
From PV Require Import Base.MachineInt Model.C07Ntt120 Proofs.C07Ntt.
From Coq Require Import Znumtheory.
Open Scope Z_scope.

Fixpoint lsum (l : list Z) : Z := match l with [] => 0 | t :: r => t + lsum r end.

Lemma lsum_app a b : lsum (a ++ b) = lsum a + lsum b.
Proof. induction a as [|t a IH]; cbn [app lsum]; lia. Qed.

Lemma lsum_bounds l B : (forall t, In t l -> 0 <= t <= B) -> 0 <= lsum l <= Z.of_nat (length l) * B.
Proof.
  induction l as [|t l IH]; intros H; cbn [lsum length]; [lia|].
  assert (0 <= t <= B) by (apply H; left; reflexivity).
  assert (0 <= lsum l <= Z.of_nat (length l) * B) by (apply IH; intros; apply H; right; assumption).
  rewrite Nat2Z.inj_succ. lia.
Qed.

Lemma lsum_nonneg l : (forall t, In t l -> 0 <= t) -> 0 <= lsum l.
Proof.
  induction l as [|t l IH]; intros H; cbn [lsum]; [lia|].
  assert (0 <= t) by (apply H; left; reflexivity).
  assert (0 <= lsum l) by (apply IH; intros; apply H; right; assumption). lia.
Qed.

Lemma fold64_exact l acc : 0 <= acc -> (forall t, In t l -> 0 <= t) -> acc + lsum l < 2 ^ 64 ->
  fold_left (fun s t => u64 (s + t)) l acc = acc + lsum l.
Proof.
  revert acc; induction l as [|t l IH]; intros acc Ha Hn Hb; cbn [fold_left lsum] in *; [lia|].
  assert (0 <= t) by (apply Hn; left; reflexivity).
  assert (0 <= lsum l) by (apply lsum_nonneg; intros; apply Hn; right; assumption).
  rewrite u64_id by lia. rewrite IH; [lia|lia|intros; apply Hn; right; assumption|lia].
Qed.

(* the accumulation loop `s += t` never wraps when the exact total fits *)
Lemma sum64_exact l : (forall t, In t l -> 0 <= t) -> lsum l < 2 ^ 64 -> sum64 l = lsum l.
Proof. intros Hn Hb. unfold sum64. rewrite fold64_exact by (auto; lia). lia. Qed.

Lemma lsum_map_add {A} (f g : A -> Z) l : lsum (map (fun t => f t + g t) l) = lsum (map f l) + lsum (map g l).
Proof. induction l as [|t l IH]; cbn [map lsum]; lia. Qed.
Lemma lsum_map_scale {A} c (f : A -> Z) l : lsum (map (fun t => c * f t) l) = c * lsum (map f l).
Proof. induction l as [|t l IH]; cbn [map lsum]; lia. Qed.
Lemma lsum_map_ext {A} (f g : A -> Z) l : (forall t, In t l -> f t = g t) -> lsum (map f l) = lsum (map g l).
Proof.
  induction l as [|t l IH]; intros H; cbn [map lsum]; [reflexivity|].
  rewrite (H t) by (left; reflexivity). rewrite IH by (intros; apply H; right; assumption). reflexivity.
Qed.
Lemma lsum_map_mod {A} q (f g : A -> Z) l : 0 < q -> (forall t, In t l -> f t mod q = g t mod q) ->
  lsum (map f l) mod q = lsum (map g l) mod q.
Proof.
  intros Hq. induction l as [|t l IH]; intros H; cbn [map lsum]; [reflexivity|].
  rewrite Z.add_mod, (H t), IH, <- Z.add_mod by (try lia; try (left; reflexivity); intros; apply H; right; assumption).
  reflexivity.
Qed.

Lemma in_map_bound {A} (f : A -> Z) l lo hi : (forall a, In a l -> lo <= f a <= hi) -> forall t, In t (map f l) -> lo <= t <= hi.
Proof. intros H t Ht. apply in_map_iff in Ht as (a & <- & Ha). apply H; exact Ha. Qed.

(* the same loop over at most n terms f t, each equal to an exact value g t in [0, B], with n * B below 2^64 *)
Lemma sum64_map_exact {A} (f g : A -> Z) (l : list A) n B :
  (forall t, In t l -> f t = g t /\ 0 <= g t <= B) -> Z.of_nat (length l) <= n -> 0 <= B -> n * B < 2 ^ 64 ->
  sum64 (map f l) = lsum (map g l) /\ 0 <= lsum (map g l) <= n * B.
Proof.
  intros H Hn HB Hb.
  assert (L : 0 <= lsum (map g l) <= Z.of_nat (length (map g l)) * B)
    by (apply lsum_bounds, in_map_bound; intros t Ht; apply (H t Ht)).
  rewrite map_length in L.
  assert (Z.of_nat (length l) * B <= n * B) by (apply Z.mul_le_mono_nonneg_r; lia).
  split; [|lia].
  rewrite (map_ext_in f g) by (intros t Ht; apply (H t Ht)).
  apply sum64_exact; [|lia]. intros t Ht. apply in_map_iff in Ht as (a & <- & Ha). apply (H a Ha).
Qed.

Lemma split32 a : a mod 2 ^ 32 + 2 ^ 32 * (a / 2 ^ 32) = a.
Proof. rewrite (Z.div_mod a (2 ^ 32)) at 3 by (change (2 ^ 32) with 4294967296; lia). lia. Qed.

Lemma mul_bound a b A B : 0 <= a <= A -> 0 <= b <= B -> 0 <= a * b <= A * B.
Proof. intros Ha Hb. split; [apply Z.mul_nonneg_nonneg; lia|apply Z.mul_le_mono_nonneg; lia]. Qed.


Definition is_u32 (x : Z) : Prop := 0 <= x < 2 ^ 32.

Lemma mul_u32_bound a b : is_u32 a -> is_u32 b -> 0 <= a * b <= (2 ^ 32 - 1) * (2 ^ 32 - 1).
Proof. unfold is_u32. change (2 ^ 32) with 4294967296. intros Ha Hb. apply mul_bound; lia. Qed.

Lemma hi32_bound p : 0 <= p <= (2 ^ 32 - 1) * (2 ^ 32 - 1) -> 0 <= p / 2 ^ 32 <= 2 ^ 32 - 2.
Proof.
  change (2 ^ 32) with 4294967296. intros H.
  assert (p / 4294967296 < 4294967295); [|pose proof (Z.div_pos p 4294967296); lia].
  apply Z.div_lt_upper_bound; lia.
Qed.

Lemma u64_mul_u32 a b : is_u32 a -> is_u32 b -> u64 (a * b) = a * b.
Proof.
  intros Ha Hb. pose proof (mul_u32_bound a b Ha Hb) as H. apply u64_id.
  change ((2 ^ 32 - 1) * (2 ^ 32 - 1)) with 18446744065119617025 in H. change (2 ^ 64) with 18446744073709551616. lia.
Qed.

(* a product of two u32 does not wrap; its low and high 32 bits *)
Lemma mul_u32_halves a b : is_u32 a -> is_u32 b ->
  u64 (a * b) = a * b /\ 0 <= (a * b) mod 2 ^ 32 <= 2 ^ 32 - 1 /\ 0 <= (a * b) / 2 ^ 32 <= 2 ^ 32 - 2 /\
  (a * b) mod 2 ^ 32 + 2 ^ 32 * ((a * b) / 2 ^ 32) = a * b.
Proof.
  intros Ha Hb. pose proof (mul_u32_bound a b Ha Hb) as B. pose proof (hi32_bound _ B).
  pose proof (Z.mod_pos_bound (a * b) (2 ^ 32) eq_refl). pose proof (split32 (a * b)).
  split; [apply u64_mul_u32; assumption|lia].
Qed.

(* Splitting an accumulator at bit h:
   accum_to_q120b and the bbb epilogue let an accumulator s enter the result as  (s mod 2^h) * pl + (s / 2^h) * ph,
   pl and ph being the residues of the weight of s and of 2^h times that weight. *)
Definition recomb (h s pl ph : Z) : Z := s mod 2 ^ h * pl + s / 2 ^ h * ph.

Section Recomb.
Variables (h lo hi s S D W pl ph : Z).
Hypothesis Hh : 0 <= lo <= h /\ h <= hi.
Hypothesis Hs : 0 <= s <= S.
Hypothesis HD : S < (D + 1) * 2 ^ lo.
Hypothesis Hpl : 0 <= pl <= W.
Hypothesis Hph : 0 <= ph <= W.

Lemma split_bounds : 0 <= s mod 2 ^ h < 2 ^ hi /\ 0 <= s / 2 ^ h <= D.
Proof.
  pose proof (pow2_pos h ltac:(lia)) as Hp. pose proof (pow2_pos lo ltac:(lia)) as Hl.
  assert (2 ^ lo <= 2 ^ h <= 2 ^ hi) by (split; apply Z.pow_le_mono_r; lia).
  pose proof (Z.mod_pos_bound s (2 ^ h) Hp). split; [lia|].
  split; [apply Z.div_pos; lia|].
  assert (s / 2 ^ h < D + 1); [|lia].
  apply Z.le_lt_trans with (s / 2 ^ lo); [apply Z.div_le_compat_l; lia|apply Z.div_lt_upper_bound; lia].
Qed.

(* the two steps `t += lo * pl; t += hi * ph` of the epilogues, in u64: exact while t plus the bound on the pair fits *)
Lemma recomb64 t : 0 <= t -> t + (2 ^ hi + D) * W < 2 ^ 64 ->
  u64 (u64 (t + u64 (s mod 2 ^ h * pl)) + u64 (s / 2 ^ h * ph)) = t + recomb h s pl ph /\
  0 <= recomb h s pl ph <= (2 ^ hi + D) * W.
Proof.
  intros Ht Hb. destruct split_bounds as [L B].
  pose proof (mul_bound (s mod 2 ^ h) pl (2 ^ hi) W ltac:(lia) Hpl).
  pose proof (mul_bound (s / 2 ^ h) ph D W B Hph).
  unfold recomb. rewrite (u64_id (_ * pl)), (u64_id (_ * ph)) by lia. rewrite (u64_id (t + _)) by lia.
  rewrite u64_id by lia. lia.
Qed.
End Recomb.

Lemma rejoin_eq h s : 0 <= h -> s mod 2 ^ h + s / 2 ^ h * 2 ^ h = s.
Proof. intros Hh. pose proof (pow2_pos h Hh). pose proof (Z.div_mod s (2 ^ h)). lia. Qed.

Lemma rejoin64 h s : 0 <= h -> 0 <= s < 2 ^ 64 -> u64 (s mod 2 ^ h + u64 (s / 2 ^ h * 2 ^ h)) = s.
Proof.
  intros Hh Hs. pose proof (rejoin_eq h s Hh). pose proof (pow2_pos h Hh) as Hp.
  pose proof (Z.mod_pos_bound s (2 ^ h) Hp).
  assert (0 <= s / 2 ^ h * 2 ^ h) by (apply Z.mul_nonneg_nonneg; [apply Z.div_pos|]; lia).
  rewrite (u64_id (_ * _)) by lia. rewrite u64_id by lia. lia.
Qed.

Lemma recomb_congr q h s pl ph w : 0 < q -> 0 <= h ->
  pl mod q = w mod q -> ph mod q = (w * 2 ^ h) mod q -> recomb h s pl ph mod q = (s * w) mod q.
Proof.
  intros Hq Hh Hl Hhh. pose proof (pow2_pos h Hh) as Hp. unfold recomb.
  rewrite (Z.div_mod s (2 ^ h)) at 3 by lia.
  rewrite Z.add_mod, <- (Z.mul_mod_idemp_r (s mod 2 ^ h)), Hl, <- (Z.mul_mod_idemp_r (s / 2 ^ h)), Hhh by lia.
  rewrite !Z.mul_mod_idemp_r, <- Z.add_mod by lia. f_equal. ring.
Qed.

Definition term_ok (t : Z * Z * (Z * Z)) : Prop :=
  let '(xl, xh, (yl, yh)) := t in is_u32 xl /\ is_u32 xh /\ is_u32 yl /\ is_u32 yh.
(* the exact quantities *)
Definition lo_z (t : Z * Z * (Z * Z)) : Z := let '(xl, xh, (yl, yh)) := t in (xl * yl) mod 2 ^ 32 + (xh * yh) mod 2 ^ 32.
Definition hi_z (t : Z * Z * (Z * Z)) : Z := let '(xl, xh, (yl, yh)) := t in (xl * yl) / 2 ^ 32 + (xh * yh) / 2 ^ 32.
Definition prod_z (t : Z * Z * (Z * Z)) : Z := let '(xl, xh, (yl, yh)) := t in xl * yl + xh * yh.
Definition bbc_exact (h q : Z) (terms : list (Z * Z * (Z * Z))) : Z :=
  let slo := lsum (map lo_z terms) in let shi := lsum (map hi_z terms) in
  slo + (shi mod 2 ^ h) * pow2_mod 32 q + (shi / 2 ^ h) * pow2_mod (32 + h) q.

Lemma bbc_term t : term_ok t ->
  bbc_lo t = lo_z t /\ bbc_hi t = hi_z t /\ 0 <= lo_z t <= 2 ^ 33 - 2 /\ 0 <= hi_z t <= 2 ^ 33 - 4 /\
  lo_z t + 2 ^ 32 * hi_z t = prod_z t.
Proof.
  destruct t as [[xl xh] [yl yh]]. cbn [term_ok]. intros (H1 & H2 & H3 & H4).
  destruct (mul_u32_halves xl yl H1 H3) as (Ua & La & Ha & Sa). destruct (mul_u32_halves xh yh H2 H4) as (Ub & Lb & Hb & Sb).
  unfold bbc_lo, bbc_hi, lo_z, hi_z, prod_z. rewrite Ua, Ub.
  change (2 ^ 33) with (2 * 2 ^ 32). change (2 ^ 32) with 4294967296 in *.
  rewrite !u64_id by (change (2 ^ 64) with 18446744073709551616; lia).
  repeat split; lia.
Qed.

Section Bbc.
Variables (h q : Z) (terms : list (Z * Z * (Z * Z))).
Hypothesis Hh : bbc_h_lo <= h < bbc_h_hi.          (* the whole search range of BbcMeta::new *)
Hypothesis Hq : 2 ^ 15 <= q < 2 ^ 31.
Hypothesis Hell : Z.of_nat (length terms) <= bbc_max_ell.
Hypothesis Hok : forall t, In t terms -> term_ok t.

Lemma bbc_sums :
  (sum64 (map bbc_lo terms) = lsum (map lo_z terms) /\ sum64 (map bbc_hi terms) = lsum (map hi_z terms)) /\
  0 <= lsum (map lo_z terms) <= bbc_max_ell * (2 ^ 33 - 2) /\ 0 <= lsum (map hi_z terms) <= bbc_max_ell * (2 ^ 33 - 4).
Proof.
  destruct (sum64_map_exact bbc_lo lo_z terms bbc_max_ell (2 ^ 33 - 2)) as [S1 B1]; try (exact Hell || reflexivity || discriminate).
  { intros t Ht. destruct (bbc_term t (Hok t Ht)) as (E & _ & B & _). exact (conj E B). }
  destruct (sum64_map_exact bbc_hi hi_z terms bbc_max_ell (2 ^ 33 - 4)) as [S2 B2]; try (exact Hell || reflexivity || discriminate).
  { intros t Ht. destruct (bbc_term t (Hok t Ht)) as (_ & E & _ & B & _). exact (conj E B). }
  exact (conj (conj S1 S2) (conj B1 B2)).
Qed.

(* no u64 operation of the kernel wraps; the result is below Q[k] << 33 *)
Theorem lazy_budget_bbc :
  bbc_k h q terms = bbc_exact h q terms /\ 0 <= bbc_exact h q terms < q * 2 ^ q_shift /\ q * 2 ^ q_shift < 2 ^ 64.
Proof.
  destruct bbc_sums as ([S1 S2] & B1 & B2).
  unfold bbc_k. rewrite S1, S2. unfold accum_to_q120b_k, bbc_exact. cbv zeta.
  unfold bbc_h_lo, bbc_h_hi, bbc_max_ell, q_shift, pow2_mod in *.
  change (2 ^ 15) with 32768 in Hq. change (2 ^ 31) with 2147483648 in Hq.
  assert (Hm : forall x, 0 <= x mod q <= q - 1) by (intros x; pose proof (Z.mod_pos_bound x q); lia).
  destruct (recomb64 h 16 31 (lsum (map hi_z terms)) _ 1310719999 (q - 1) (2 ^ 32 mod q) (2 ^ (32 + h) mod q)
              ltac:(lia) B2 eq_refl (Hm _) (Hm _) (lsum (map lo_z terms))) as [-> R]; [lia|lia|].
  unfold recomb in *. lia.
Qed.

(* what the result is congruent to *)
Theorem bbc_exact_congr : bbc_exact h q terms mod q = lsum (map prod_z terms) mod q.
Proof.
  unfold bbc_h_lo, bbc_h_hi in Hh.
  assert (Hq' : 0 < q) by (change (2 ^ 15) with 32768 in Hq; lia).
  assert (E : lsum (map prod_z terms) = lsum (map lo_z terms) + lsum (map hi_z terms) * 2 ^ 32).
  { rewrite Z.mul_comm, <- lsum_map_scale, <- lsum_map_add. apply lsum_map_ext.
    intros t Ht. symmetry. apply (bbc_term t (Hok t Ht)). }
  rewrite E. unfold bbc_exact, pow2_mod. cbv zeta. rewrite <- Z.add_assoc. fold (recomb h (lsum (map hi_z terms)) (2 ^ 32 mod q) (2 ^ (32 + h) mod q)).
  rewrite Z.add_mod, (recomb_congr q h _ _ _ (2 ^ 32)), <- Z.add_mod; try lia.
  - apply Z.mod_mod; lia.
  - rewrite Z.pow_add_r by lia. apply Z.mod_mod; lia.
Qed.

(* with a prepared right operand (y_hi = y_lo * 2^32 mod q, as c_from_b / c_from_znx64 produce it) the kernel
   computes the dot product of the u64 residues x = x_lo + 2^32 x_hi with the residues y_lo *)
Definition prepared (t : Z * Z * (Z * Z)) : Prop := let '(_, _, (yl, yh)) := t in yh mod q = (yl * 2 ^ 32) mod q.
Definition dot_z (t : Z * Z * (Z * Z)) : Z := let '(xl, xh, (yl, _)) := t in (xl + 2 ^ 32 * xh) * yl.

Theorem bbc_congr : (forall t, In t terms -> prepared t) ->
  bbc_k h q terms mod q = lsum (map dot_z terms) mod q.
Proof.
  intros Hp. destruct lazy_budget_bbc as [-> _]. rewrite bbc_exact_congr.
  assert (Hq' : 0 < q) by (change (2 ^ 15) with 32768 in Hq; lia).
  apply lsum_map_mod; [exact Hq'|].
  intros [[xl xh] [yl yh]] Ht. specialize (Hp _ Ht). cbn [prepared] in Hp. cbn [prod_z dot_z].
  rewrite Z.add_mod, <- (Z.mul_mod_idemp_r xh yh), Hp, Z.mul_mod_idemp_r, <- Z.add_mod by lia.
  f_equal. ring.
Qed.
End Bbc.

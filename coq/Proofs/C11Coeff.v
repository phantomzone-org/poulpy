(* C11, per coefficient: the OVERWRITING normalise / shift routines read no prior result limb before writing it:
   their result depends on the prior limbs r0 only through the NUMBER of limbs.  Structural proofs: any word width w,
   any radix, any offset, any input (no range hypothesis). *)
From PV Require Import Base.MachineInt Model.Znx Model.Limbs Proofs.C08Chain Proofs.C08Loops Proofs.C08Normalize.
From Coq Require Import Arith PeanoNat List Bool.
Open Scope Z_scope.

(* two runs in lock step *)
Lemma fold_left_seq_ind2 {S : Type} (f : S -> nat -> S) (R : nat -> S -> S -> Prop) (n : nat) (s s' : S) :
  R 0%nat s s' ->
  (forall j t t', (j < n)%nat -> R j t t' -> R (Datatypes.S j) (f t j) (f t' j)) ->
  R n (fold_left f (seq 0 n) s) (fold_left f (seq 0 n) s').
Proof.
  induction n as [|n IH]; intros H0 Hstep; [exact H0|].
  rewrite seq_S, !fold_left_app. cbn [fold_left Nat.add].
  apply Hstep; [lia|]. apply IH; [exact H0|]. intros j t t' Hj. apply Hstep. lia.
Qed.

(* agreement of two limb lists on a set of positions *)
Definition agree_on (P : nat -> Prop) (r r' : list Z) : Prop :=
  length r = length r' /\ forall i, P i -> nthZ r i = nthZ r' i.

Lemma agree_weaken (P Q : nat -> Prop) r r' : (forall i, Q i -> P i) -> agree_on P r r' -> agree_on Q r r'.
Proof. intros HQ [Hl H]. split; [exact Hl|]. intros i Hi. apply H, HQ, Hi. Qed.

(* H : agree_on P r r' ; closes agree_on Q r r' when Q i -> P i is arithmetic *)
Ltac weaken H := eapply agree_weaken; [|exact H]; cbv beta; let i := fresh "i" in let Hi := fresh "Hi" in intros i Hi; first [lia | intuition lia].

Lemma agree_upd (P : nat -> Prop) r r' k x :
  agree_on P r r' -> agree_on (fun i => P i \/ i = k) (upd r k x) (upd r' k x).
Proof.
  intros [Hl H]. split; [rewrite !upd_length; exact Hl|].
  intros i Hi. rewrite !nth_upd, <- Hl.
  destruct (Nat.eqb_spec i k) as [E|E]; cbn [andb].
  - destruct (Nat.ltb_spec k (length r)) as [Hk|Hk]; [reflexivity|].
    rewrite !nthZ_overflow by lia. reflexivity.
  - apply H. destruct Hi as [Hi|Hi]; [exact Hi|contradiction].
Qed.

Lemma agree_zero_range (P : nat -> Prop) r r' lo hi :
  agree_on P r r' -> agree_on (fun i => P i \/ (lo <= i < hi)%nat) (zero_range r lo hi) (zero_range r' lo hi).
Proof.
  intros [Hl H]. destruct (zero_range_spec r lo hi) as [L1 N1]. destruct (zero_range_spec r' lo hi) as [L2 N2].
  split; [lia|]. intros i Hi. rewrite N1, N2.
  destruct (Nat.leb_spec lo i); destruct (Nat.ltb_spec i hi); cbn [andb]; try reflexivity; apply H;
    destruct Hi as [Hi|Hi]; try exact Hi; lia.
Qed.

Lemma agree_all_eq r r' : agree_on (fun i => (i < length r)%nat) r r' -> r = r'.
Proof. intros [Hl H]. apply (nth_ext r r' 0 0 Hl). exact H. Qed.

Lemma agree_nil_start r r' : length r = length r' -> agree_on (fun _ => False) r r'.
Proof. intros Hl. split; [exact Hl|intros i []]. Qed.

Lemma middle_step_ov w b lsh x x' a c : middle_step w true b lsh x a c = middle_step w true b lsh x' a c.
Proof. unfold middle_step. destruct (middle_core w b lsh a c). reflexivity. Qed.

(* mid_phase with overwrite: extends the agreement downwards by cnt limbs *)
Lemma mid_phase_ov_agree w b lsh a rs as_ cnt r r' c :
  agree_on (fun i => (rs <= i)%nat) r r' ->
  let s := mid_phase w true b lsh a rs as_ cnt (r, c) in
  let s' := mid_phase w true b lsh a rs as_ cnt (r', c) in
  snd s = snd s' /\ agree_on (fun i => (rs - cnt <= i)%nat) (fst s) (fst s').
Proof.
  intros Hag. cbv zeta. unfold mid_phase.
  apply (fold_left_seq_ind2 _
    (fun j (t t' : list Z * Z) => snd t = snd t' /\ agree_on (fun i => (rs - j <= i)%nat) (fst t) (fst t'))).
  - cbn [fst snd]. split; [reflexivity|]. weaken Hag.
  - intros j [t c1] [t' c1'] Hj [Hc Ht]. cbn [fst snd] in Hc, Ht. subst c1'.
    rewrite (middle_step_ov w b lsh (nthZ t (rs - j - 1)) (nthZ t' (rs - j - 1))).
    destruct (middle_step w true b lsh (nthZ t' (rs - j - 1)) (nthZ a (as_ - j - 1)) c1) as [x c2].
    cbn [fst snd]. split; [reflexivity|].
    weaken (agree_upd _ t t' (rs - j - 1) x Ht).
Qed.

(* top_phase with zero_first: the limbs [0, re) are rewritten from the carry alone *)
Lemma top_phase_zero_agree w b lsh re (P : nat -> Prop) r r' c :
  agree_on P r r' ->
  agree_on (fun i => P i \/ (i < re)%nat)
    (fst (top_phase w true b lsh re (r, c))) (fst (top_phase w true b lsh re (r', c))).
Proof.
  intros Hag. unfold top_phase.
  match goal with |- agree_on _ (fst ?X) (fst ?X') =>
    enough (H : snd X = snd X' /\ agree_on (fun i => P i \/ (re - re <= i < re)%nat) (fst X) (fst X'))
      by (destruct H as [_ H]; weaken H)
  end.
  apply (fold_left_seq_ind2 _
    (fun j (t t' : list Z * Z) => snd t = snd t' /\
       agree_on (fun i => P i \/ (re - j <= i < re)%nat) (fst t) (fst t'))).
  - cbn [fst snd]. split; [reflexivity|]. weaken Hag.
  - intros j [t c1] [t' c1'] Hj [Hc Ht]. cbn [fst snd] in Hc, Ht. subst c1'. cbv zeta. cbv iota.
    destruct (Nat.eqb j (re - 1)).
    + cbn [fst snd]. split; [reflexivity|].
      weaken (agree_upd _ t t' (re - j - 1) (final_step_assign w b lsh 0 c1) Ht).
    + destruct (middle_step_assign w b lsh 0 c1) as [x c2]. cbn [fst snd]. split; [reflexivity|].
      weaken (agree_upd _ t t' (re - j - 1) x Ht).
Qed.

Theorem normalize_inter_indep w b off a r0 r1 :
  length r0 = length r1 -> normalize_inter w b off a r0 = normalize_inter w b off a r1.
Proof.
  intros Hl. unfold normalize_inter. rewrite <- Hl.
  destruct (split_offset b off) as [lsh lo].
  set (rsz := length r0). set (asz := length a).
  destruct (inter_shape lo rsz asz) as ((_ & _ & S3 & S4 & S5 & S6) & _).
  set (res_end := natc (- lo) 0 (zn rsz)) in *.
  set (res_start := natc (zn asz - lo) 0 (zn rsz)) in *.
  set (a_end := natc lo 0 (zn asz)) in *.
  set (a_start := natc (zn rsz + lo) 0 (zn asz)) in *.
  set (mid := (a_start - a_end)%nat) in *.
  set (c0 := carry_phase w b lsh a asz (asz - a_start)).
  (* zeroing: agreement on [res_start, rsz) *)
  pose proof (agree_zero_range _ r0 r1 res_start rsz (agree_nil_start r0 r1 Hl)) as Z.
  assert (Z' : agree_on (fun i => (res_start <= i)%nat) (zero_range r0 res_start rsz) (zero_range r1 res_start rsz)).
  { destruct Z as [ZL ZN]. split; [exact ZL|]. intros i Hi.
    destruct (Nat.lt_ge_cases i rsz) as [H|H]; [apply ZN; right; lia|].
    destruct (zero_range_spec r0 res_start rsz) as [L0 _]. destruct (zero_range_spec r1 res_start rsz) as [L1 _].
    rewrite !nthZ_overflow by (unfold rsz in *; lia). reflexivity. }
  destruct (mid_phase_ov_agree w b lsh a res_start a_start mid _ _ c0 Z') as [MC MA].
  destruct (mid_phase w true b lsh a res_start a_start mid (zero_range r0 res_start rsz, c0)) as [r2 c2].
  destruct (mid_phase w true b lsh a res_start a_start mid (zero_range r1 res_start rsz, c0)) as [r2' c2'].
  cbn [fst snd] in MC, MA. subst c2'.
  set (c3 := if lo <? 0 then gap_phase w b (Z.to_nat (- lo) - rsz) c2 else c2).
  apply agree_all_eq.
  pose proof (top_phase_zero_agree w b lsh res_end _ r2 r2' c3 MA) as T.
  weaken T.
Qed.

(* cross radix: starts from a zeroed vector of length r0 *)
Theorem normalize_cross_indep w rb ab off a r0 r1 :
  length r0 = length r1 -> normalize_cross w rb ab off a r0 = normalize_cross w rb ab off a r1.
Proof. intros Hl. unfold normalize_cross. rewrite Hl. reflexivity. Qed.

Theorem normalize_indep w rb ab off a r0 r1 :
  length r0 = length r1 -> normalize w rb ab off a r0 = normalize w rb ab off a r1.
Proof.
  intros Hl. unfold normalize. destruct (rb =? ab).
  - f_equal. apply normalize_inter_indep. exact Hl.
  - apply normalize_cross_indep. exact Hl.
Qed.

Theorem lsh_ov_indep w b k a r0 r1 :
  length r0 = length r1 -> lsh w true b k a r0 = lsh w true b k a r1.
Proof.
  intros Hl. unfold lsh. rewrite <- Hl.
  set (rsz := length r0). set (asz := length a).
  set (steps := Z.to_nat (k / b)). set (krem := k mod b).
  destruct (Nat.leb (Nat.max rsz asz) steps); [reflexivity|].
  set (min_size := Nat.min rsz (asz - steps)).
  set (c0 := carry_down w b krem a asz (Nat.min (steps + min_size) asz)).
  match goal with |- context [fold_left ?f (seq 0 min_size) (r0, c0)] => set (body := f) end.
  assert (H : snd (fold_left body (seq 0 min_size) (r0, c0)) = snd (fold_left body (seq 0 min_size) (r1, c0)) /\
              length (fst (fold_left body (seq 0 min_size) (r0, c0))) = rsz /\
              agree_on (fun i => False \/ (min_size - min_size <= i < min_size)%nat)
                (fst (fold_left body (seq 0 min_size) (r0, c0))) (fst (fold_left body (seq 0 min_size) (r1, c0)))).
  { apply (fold_left_seq_ind2 body
      (fun j (t t' : list Z * Z) => snd t = snd t' /\ length (fst t) = rsz /\
         agree_on (fun i => False \/ (min_size - j <= i < min_size)%nat) (fst t) (fst t'))).
    - cbn [fst snd]. split; [reflexivity|]. split; [reflexivity|].
      weaken (agree_nil_start r0 r1 Hl).
    - intros j [t c1] [t' c1'] Hj (Hc & Hlt & Ht). cbn [fst snd] in Hc, Hlt, Ht. subst c1'. unfold body. cbv zeta.
      destruct (Nat.eqb (min_size - j - 1) 0).
      + cbn [fst snd]. split; [reflexivity|]. split; [rewrite upd_length; exact Hlt|].
        eapply agree_weaken; [|apply agree_upd; exact Ht]. cbv beta. intros i Hi. intuition lia.
      + rewrite (middle_step_ov w b krem (nthZ t (min_size - j - 1)) (nthZ t' (min_size - j - 1))).
        destruct (middle_step w true b krem (nthZ t' (min_size - j - 1)) (nthZ a (min_size - j - 1 + steps)) c1) as [x c2].
        cbn [fst snd]. split; [reflexivity|]. split; [rewrite upd_length; exact Hlt|].
        weaken (agree_upd _ t t' (min_size - j - 1) x Ht). }
  destruct H as (_ & Lr & H).
  destruct (fold_left body (seq 0 min_size) (r0, c0)) as [r c]. destruct (fold_left body (seq 0 min_size) (r1, c0)) as [r' c'].
  cbn [fst] in H, Lr.
  apply agree_all_eq.
  pose proof (agree_zero_range _ r r' min_size rsz H) as Z.
  destruct (zero_range_spec r min_size rsz) as [L0 _].
  weaken Z.
Qed.

(* rsh with overwrite starts from a zeroed vector *)
Theorem rsh_ov_indep w b k a r0 r1 :
  length r0 = length r1 -> rsh w true b k a r0 = rsh w true b k a r1.
Proof. intros Hl. unfold rsh. rewrite Hl. reflexivity. Qed.

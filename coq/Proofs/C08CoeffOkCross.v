(* C08: the executable oracle on vec_znx_normalize (record code 8101) never fails on the model, for every pair of
   radices and every offset. *)
From PV Require Import Base.MachineInt Model.Znx Model.Limbs Model.LimbsBig Model.C08Oracle
  Proofs.ZnxDigit Proofs.C08Steps Proofs.C08Chain Proofs.C08Loops Proofs.C08Value Proofs.C08Normalize
  Proofs.C08WShift Proofs.C08ShiftValue Proofs.C08CoeffOk Proofs.C08Cross Proofs.C08CrossNegTheorem.
Open Scope Z_scope.

Theorem coeff_ok_normalize_cross_all (rb ab off : Z) (a r0 : list Z) : 1 <= rb <= 62 -> 1 <= ab <= 62 ->
  exists out, normalize_cross 64 rb ab off a r0 = Some out /\ coeff_ok rb ab off 0 1 false a r0 out <> 0.
Proof.
  intros Hrb Hab.
  destruct (all_hr a) eqn:Ea.
  - destruct (normalize_cross_value_all rb ab Hrb Hab off a r0 (all_hr_hr62 a Ea)) as (out & E & L & V).
    exists out. split; [exact E|]. apply coeff_ok_holds. intros _ _. cbv zeta. rewrite L.
    specialize (V (Z.of_nat (length r0) * rb + Z.of_nat (length a) * ab + Z.abs off + 2)
                  ltac:(unfold zn; lia)).
    cbv zeta in V. unfold zn in V. destruct V as [V1 V2].
    rewrite Z.mul_0_l, Z.sub_0_r, Z.mul_1_l. split; [exact V1|]. split; [exact V2|discriminate].
  - (* outside the guard of the oracle: verdict 2 *)
    destruct (normalize_cross 64 rb ab off a r0) as [out|] eqn:E.
    + exists out. split; [reflexivity|]. unfold coeff_ok. rewrite Ea. cbn. discriminate.
    + exfalso. apply (normalize_cross_total rb ab ltac:(lia) ltac:(lia) off a r0). exact E.
Qed.

(* the dispatcher vec_znx_normalize *)
Theorem coeff_ok_normalize_all (rb ab off : Z) (a r0 : list Z) : 1 <= rb <= 62 -> 1 <= ab <= 62 ->
  exists out, normalize 64 rb ab off a r0 = Some out /\ coeff_ok rb ab off 0 1 (rb =? ab) a r0 out <> 0.
Proof.
  intros Hrb Hab. unfold normalize.
  destruct (Z.eqb_spec rb ab) as [E|E].
  - subst ab. exists (normalize_inter 64 rb off a r0). split; [reflexivity|].
    apply coeff_ok_normalize_inter. exact Hrb.
  - apply coeff_ok_normalize_cross_all; auto.
Qed.

Theorem coeff_ok_normalize (rb ab off : Z) (a r0 : list Z) : 1 <= rb <= 62 -> 1 <= ab <= 62 ->
  0 <= off \/ rb = ab ->
  exists out, normalize 64 rb ab off a r0 = Some out /\ coeff_ok rb ab off 0 1 (rb =? ab) a r0 out <> 0.
Proof. intros Hrb Hab _. apply coeff_ok_normalize_all; assumption. Qed.

(* C08: the phases of the vector routines at any word width w (radix 1 <= b <= w - 2,
   headroom |x| <= 2^(w-2)) are runs of the ideal carry chain.  One generic lemma (`dloopW_spec`) describes
   every descending in-place loop by index.  The gap phase is stated for an arbitrary cap on the number of
   steps (`gap_phase_c`; the model's is cap 64). *)
From PV Require Import Base.MachineInt Model.Znx Model.Limbs Model.LimbsBig Proofs.ZnxDigit Proofs.C08Steps Proofs.C08Chain
  Proofs.C08WChain.
Open Scope Z_scope.

(* LimbsBig.gap_phase_c = znx_propagate_carry_through_gap with a parametric cap; Limbs.gap_phase is cap = 64 *)
Lemma gap_phase_c_64 (w b : Z) (gap : nat) (c : Z) : gap_phase w b gap c = gap_phase_c w 64 b gap c.
Proof. reflexivity. Qed.

Section Loops.
Variable w : Z.
Variable b : Z.
Hypothesis Hb : 1 <= b <= w - 2.

Let Hb1 : 1 <= b. Proof. lia. Qed.

Lemma HW_pos : 0 < 2 ^ (w - 2).
Proof. apply pow2_pos; lia. Qed.

(* bound of an input sequence that keeps every carry within 2^(w-2) *)
Definition vboundW (u : nat -> Z) : Prop := forall t, Z.abs (u t) <= 2 ^ (w - 2) * 2 ^ (b - 1).

Lemma car_hrW (u : nat -> Z) (c : Z) (j : nat) : vboundW u -> Z.abs c <= 2 ^ (w - 2) -> Z.abs (car b u c j) <= 2 ^ (w - 2).
Proof. intros Hu Hc. apply (car_bound b Hb1 (2 ^ (w - 2))); auto. pose proof HW_pos; lia. Qed.

Lemma vboundW_limbs (lsh : Z) (a : list Z) (k : nat -> nat) : 0 <= lsh < b -> hrlw w a ->
  vboundW (fun t => nthZ a (k t) * 2 ^ lsh).
Proof. intros Hl Ha t. apply shifted_bound; auto. pose proof HW_pos; lia. Qed.

Lemma vboundW_zseq : vboundW zseq.
Proof.
  intros t. unfold zseq. pose proof (pow2_pos (b - 1) ltac:(lia)). pose proof HW_pos. cbn [Z.abs]. nia.
Qed.

Lemma mcW (lsh a c : Z) : 0 <= lsh < b -> Z.abs a <= 2 ^ (w - 2) -> Z.abs c <= 2 ^ (w - 2) ->
  middle_core w b lsh a c = (wrap b (a * 2 ^ lsh + c), bdiv b (a * 2 ^ lsh + c)).
Proof. intros Hl Ha Hc. apply middle_core_ideal; auto. Qed.

(* a loop whose iteration j reads r[rd j] (not yet written) and the carry, and writes r[top - j - 1]; the loop body
   is given up to the equation that says so *)
Lemma dloopW_spec (body : list Z * Z -> nat -> list Z * Z) (F : nat -> Z -> Z -> Z * Z) (rd : nat -> nat)
    (g : nat -> Z -> Z) (u : nat -> Z) (fin : bool) (top cnt : nat) (r : list Z) (c : Z) :
  (cnt <= top)%nat -> vboundW u -> Z.abs c <= 2 ^ (w - 2) ->
  (forall r' c' j, (j < cnt)%nat ->
     body (r', c') j = (upd r' (top - j - 1) (fst (F j (nthZ r' (rd j)) c')), snd (F j (nthZ r' (rd j)) c'))) ->
  (forall j, (j < cnt)%nat -> (rd j < top - j)%nat) ->
  (forall j, (j < cnt)%nat -> Z.abs (car b u c j) <= 2 ^ (w - 2) ->
     fst (F j (nthZ r (rd j)) (car b u c j)) = g j (wrap b (u j + car b u c j)) /\
     ((S j < cnt)%nat \/ fin = false ->
      snd (F j (nthZ r (rd j)) (car b u c j)) = bdiv b (u j + car b u c j))) ->
  let res := fold_left body (seq 0 cnt) (r, c) in
  (fin = false -> snd res = car b u c cnt) /\ length (fst res) = length r /\
  forall i, nthZ (fst res) i =
    if (Nat.leb (top - cnt) i && Nat.ltb i top && Nat.ltb i (length r))%bool
    then g (top - 1 - i)%nat (dig b u c (top - 1 - i)) else nthZ r i.
Proof.
  intros Hcnt Hu Hc Hbody Hrd HF. cbv zeta.
  pose proof (fold_left_seq_ind body (fun j (s : list Z * Z) =>
    ((j < cnt)%nat \/ fin = false -> snd s = car b u c j) /\ length (fst s) = length r /\
    forall i, nthZ (fst s) i =
      if (Nat.leb (top - j) i && Nat.ltb i top && Nat.ltb i (length r))%bool
      then g (top - 1 - i)%nat (dig b u c (top - 1 - i)) else nthZ r i) cnt (r, c)) as HI.
  destruct HI as (I1 & I2 & I3);
    [| | split; [intros Hf; apply I1; right; exact Hf | split; [exact I2|exact I3]]].
  - cbn [fst snd]. split; [reflexivity|]. split; [reflexivity|].
    intros i. natb; try reflexivity; lia.
  - intros j [r' c'] Hj (Ic & Il & In). rewrite (Hbody r' c' j Hj). cbn [fst snd] in Ic, Il, In |- *.
    specialize (Ic ltac:(left; exact Hj)). subst c'.
    assert (Hcj : Z.abs (car b u c j) <= 2 ^ (w - 2)) by (apply car_hrW; auto).
    assert (Er : nthZ r' (rd j) = nthZ r (rd j)).
    { rewrite In. specialize (Hrd j Hj). natb; try reflexivity; lia. }
    rewrite Er. destruct (HF j Hj Hcj) as [F1 F2]. rewrite F1. split; [|split].
    + intros Hn. rewrite car_S. apply F2. destruct Hn as [Hn|Hn]; [left; lia|right; exact Hn].
    + rewrite upd_length. exact Il.
    + clear HF Hu Hc Hcj Er F1 F2 Hbody Hrd. intros i. rewrite nth_upd, Il, In.
      destruct (Nat.eqb_spec i (top - j - 1)) as [Ei|Ei].
      * subst i. natb; try lia; try reflexivity.
        replace (top - 1 - (top - j - 1))%nat with j by lia. reflexivity.
      * cbn [andb]. natb; try lia; reflexivity.
Qed.

Lemma carry_phase_carW (lsh : Z) (a : list Z) (asz cnt : nat) : 0 <= lsh < b -> hrlw w a ->
  carry_phase w b lsh a asz cnt = car b (fun t => nthZ a (asz - t - 1) * 2 ^ lsh) 0 cnt.
Proof.
  intros Hl Ha. unfold carry_phase.
  set (u := fun t : nat => nthZ a (asz - t - 1) * 2 ^ lsh).
  assert (Hu : vboundW u) by (apply vboundW_limbs; auto).
  apply (fold_left_seq_ind _ (fun j c => c = car b u 0 j) cnt 0); [reflexivity|].
  intros j c Hj ->. cbv zeta. rewrite car_S.
  destruct (Nat.eqb_spec j 0) as [E|E].
  - subst j. cbn [car]. rewrite (first_step_carry_only_ideal w b lsh Hb Hl) by apply Ha.
    unfold u. rewrite Z.add_0_r. reflexivity.
  - unfold middle_step_carry_only. rewrite mcW; [reflexivity|exact Hl|apply Ha|].
    apply car_hrW; [exact Hu|]. pose proof HW_pos; cbn [Z.abs]; lia.
Qed.

(* a middle loop over any step of the form  (y, x, c) |-> (gg y (digit), carry) *)
Lemma mid_loop_specW (F : Z -> Z -> Z -> Z * Z) (gg : Z -> Z -> Z) (lsh : Z) (a : list Z) (rs as_ cnt : nat)
    (r : list Z) (c : Z) :
  0 <= lsh < b -> hrlw w a -> Z.abs c <= 2 ^ (w - 2) -> (cnt <= rs)%nat ->
  (forall i x c', Z.abs x <= 2 ^ (w - 2) -> Z.abs c' <= 2 ^ (w - 2) ->
     F (nthZ r i) x c' = (gg (nthZ r i) (wrap b (x * 2 ^ lsh + c')), bdiv b (x * 2 ^ lsh + c'))) ->
  let u := fun t : nat => nthZ a (as_ - t - 1) * 2 ^ lsh in
  let res := fold_left (fun (s : list Z * Z) j =>
    let '(r0, c0) := s in
    let '(x, c') := F (nthZ r0 (rs - j - 1)) (nthZ a (as_ - j - 1)) c0 in
    (upd r0 (rs - j - 1) x, c')) (seq 0 cnt) (r, c) in
  snd res = car b u c cnt /\ length (fst res) = length r /\
  forall i, nthZ (fst res) i =
    if (Nat.leb (rs - cnt) i && Nat.ltb i rs && Nat.ltb i (length r))%bool
    then gg (nthZ r i) (dig b u c (rs - 1 - i)) else nthZ r i.
Proof.
  intros Hl Ha Hc Hcnt HF u. cbv zeta.
  assert (Hu : vboundW u) by (apply vboundW_limbs; auto).
  match goal with |- context [fold_left ?f _ _] => set (body := f) end.
  destruct (dloopW_spec body (fun j y c' => F y (nthZ a (as_ - j - 1)) c') (fun j => (rs - j - 1)%nat)
              (fun j d => gg (nthZ r (rs - j - 1)) d) u false rs cnt r c Hcnt Hu Hc) as (D1 & D2 & D3).
  - intros r' c' j Hj. unfold body. destruct (F _ _ c'); reflexivity.
  - intros j Hj. lia.
  - intros j Hj Hc'. rewrite HF by (auto; apply Ha).
    cbn [fst snd]. split; [reflexivity|intros _; reflexivity].
  - split; [apply D1; reflexivity|]. split; [exact D2|].
    intros i. rewrite D3. natb; try reflexivity.
    replace (rs - (rs - 1 - i) - 1)%nat with i by lia. reflexivity.
Qed.

Lemma mid_phase_specW (ov : bool) (lsh : Z) (a : list Z) (rs as_ cnt : nat) (r : list Z) (c : Z) :
  0 <= lsh < b -> hrlw w a -> (ov = false -> hrlw w r) -> Z.abs c <= 2 ^ (w - 2) -> (cnt <= rs)%nat ->
  let u := fun t : nat => nthZ a (as_ - t - 1) * 2 ^ lsh in
  let res := mid_phase w ov b lsh a rs as_ cnt (r, c) in
  snd res = car b u c cnt /\ length (fst res) = length r /\
  forall i, nthZ (fst res) i =
    if (Nat.leb (rs - cnt) i && Nat.ltb i rs && Nat.ltb i (length r))%bool
    then (if ov then 0 else nthZ r i) + dig b u c (rs - 1 - i) else nthZ r i.
Proof.
  intros Hl Ha Hr Hc Hcnt.
  apply (mid_loop_specW (middle_step w ov b lsh) (fun y d => (if ov then 0 else y) + d) lsh a rs as_ cnt r c Hl Ha Hc Hcnt).
  intros i x c' Hx Hc'. apply (middle_step_ideal w b lsh Hb Hl); auto. intros E. apply Hr. exact E.
Qed.

Lemma mid_phase_sub_specW (lsh : Z) (a : list Z) (rs as_ cnt : nat) (r : list Z) (c : Z) :
  0 <= lsh < b -> hrlw w a -> hrlw w r -> Z.abs c <= 2 ^ (w - 2) -> (cnt <= rs)%nat ->
  let u := fun t : nat => nthZ a (as_ - t - 1) * 2 ^ lsh in
  let res := mid_phase_sub w b lsh a rs as_ cnt (r, c) in
  snd res = car b u c cnt /\ length (fst res) = length r /\
  forall i, nthZ (fst res) i =
    if (Nat.leb (rs - cnt) i && Nat.ltb i rs && Nat.ltb i (length r))%bool
    then nthZ r i - dig b u c (rs - 1 - i) else nthZ r i.
Proof.
  intros Hl Ha Hr Hc Hcnt.
  apply (mid_loop_specW (middle_step_sub w b lsh) (fun y d => y - d) lsh a rs as_ cnt r c Hl Ha Hc Hcnt).
  intros i x c' Hx Hc'. apply (middle_step_sub_ideal w b lsh Hb Hl); auto.
Qed.

Lemma top_phase_specW (zf : bool) (lsh : Z) (re : nat) (r : list Z) (c : Z) :
  0 <= lsh < b -> (zf = false -> forall i, (i < re)%nat -> Z.abs (nthZ r i) <= 2 ^ (w - 2)) -> Z.abs c <= 2 ^ (w - 2) ->
  let u := fun t : nat => if Nat.ltb t re then (if zf then 0 else nthZ r (re - t - 1)) * 2 ^ lsh else 0 in
  let res := fst (top_phase w zf b lsh re (r, c)) in
  length res = length r /\
  forall i, nthZ res i =
    if (Nat.ltb i re && Nat.ltb i (length r))%bool then dig b u c (re - 1 - i) else nthZ r i.
Proof.
  intros Hl Hr Hc u.
  assert (Hx : forall t : nat, (t < re)%nat -> Z.abs (if zf then 0 else nthZ r (re - t - 1)) <= 2 ^ (w - 2)).
  { intros t Ht. destruct zf; [pose proof HW_pos; cbn [Z.abs]; lia|apply Hr; [reflexivity|lia]]. }
  assert (Hu : vboundW u).
  { intros t. unfold u. destruct (Nat.ltb_spec t re).
    - apply shifted_bound; auto. pose proof HW_pos; lia.
    - pose proof (pow2_pos (b - 1) ltac:(lia)). pose proof HW_pos. cbn [Z.abs]. nia. }
  unfold top_phase. match goal with |- context [fold_left ?f _ _] => set (body := f) end.
  destruct (dloopW_spec body
    (fun j y c' => let x0 := if zf then 0 else y in
       if Nat.eqb j (re - 1) then (final_step_assign w b lsh x0 c', c')
       else middle_step_assign w b lsh x0 c')
    (fun j => (re - j - 1)%nat) (fun j d => d) u true re re r c (le_n re) Hu Hc) as (_ & D2 & D3).
  - intros r' c' j Hj. unfold body. cbv zeta. destruct (Nat.eqb j (re - 1)); [reflexivity|].
    destruct (middle_step_assign w b lsh _ c'); reflexivity.
  - intros j Hj. lia.
  - intros j Hj Hc'. set (c' := car b u c j) in *. specialize (Hx j Hj).
    unfold final_step_assign, middle_step_assign.
    assert (Eu : u j = (if zf then 0 else nthZ r (re - j - 1)) * 2 ^ lsh).
    { unfold u. destruct (Nat.ltb_spec j re); [reflexivity|lia]. }
    rewrite Eu.
    destruct (Nat.eqb_spec j (re - 1)) as [E|E]; cbn [fst snd].
    + rewrite (final_core_ideal w b lsh Hb Hl) by auto. split; [reflexivity|]. intros [Hn|Hn]; [lia|discriminate].
    + rewrite mcW by auto. cbn [fst snd]. split; [reflexivity|intros _; reflexivity].
  - split; [exact D2|]. intros i. rewrite D3. natb; try reflexivity; lia.
Qed.

Lemma gap_phase_carW (cap gap : nat) (c : Z) : Z.abs c <= 2 ^ (w - 2) ->
  w - 2 <= (zn cap - 1) * b \/ (gap <= cap)%nat ->
  gap_phase_c w cap b gap c = car b zseq c gap.
Proof.
  intros Hc Hcap. rewrite <- (car_zseq_sat_w b Hb1 cap (w - 2) c gap ltac:(lia) Hc Hcap). unfold gap_phase_c.
  apply (fold_left_seq_ind _ (fun j c' => c' = car b zseq c j) (Nat.min gap cap) c); [reflexivity|].
  intros j c' Hj ->. unfold middle_step_carry_only.
  rewrite mcW; [|lia|pose proof HW_pos; cbn [Z.abs]; lia|apply car_hrW; [apply vboundW_zseq|exact Hc]].
  cbn [snd]. rewrite car_S. unfold zseq at 1. f_equal.
Qed.

End Loops.

(* C07 butterfly networks, structure: canonical form of a butterfly block, generic level-ordered networks and the
   equivalent recursive (divide-and-conquer) networks, for the forward (top level first) and the inverse (bottom
   level first) order of execution. *)
From PV Require Import Base.MachineInt Model.DftAbs Model.C07Ntt120 Model.C07NttNet Proofs.C07Ring Proofs.C07NetBase.
Open Scope Z_scope.

Definition lanefn := nat -> Z -> Z -> Z * Z.

Lemma map3_combine {T} (F : nat -> Z -> Z -> T) lo : forall hi s, length hi = length lo ->
  map (fun t => F (fst t) (fst (snd t)) (snd (snd t))) (combine (seq s (length lo)) (combine lo hi))
  = map (fun i => F (s + i)%nat (nth i lo 0) (nth i hi 0)) (seq 0 (length lo)).
Proof.
  induction lo as [|a lo IH]; intros hi s H; [reflexivity|].
  destruct hi as [|b hi]; [discriminate|].
  cbn [length seq combine map fst snd nth]. f_equal; [rewrite Nat.add_0_r; reflexivity|].
  rewrite IH by (cbn in H; lia). rewrite <- seq_shift, map_map. apply map_ext. intros i.
  rewrite Nat.add_succ_comm. reflexivity.
Qed.

Definition lane_lo (g : lanefn) (x : list Z) (h i : nat) : Z := fst (g i (nth i x 0) (nth (h + i) x 0)).
Definition lane_hi (g : lanefn) (x : list Z) (h i : nat) : Z := snd (g i (nth i x 0) (nth (h + i) x 0)).

Lemma bfly_canon (g : lanefn) x h : length x = (2 * h)%nat ->
  bfly g x = map (lane_lo g x h) (seq 0 h) ++ map (lane_hi g x h) (seq 0 h).
Proof.
  intros Hx. unfold bfly. replace (length x / 2)%nat with h by (rewrite Hx, Nat.mul_comm, Nat.div_mul; lia).
  assert (Hlo : length (firstn h x) = h) by (rewrite firstn_length; lia).
  assert (Hhi : length (skipn h x) = length (firstn h x)) by (rewrite skipn_length; lia).
  rewrite !map_map. cbv beta.
  pose proof (map3_combine (fun i a b => fst (g i a b)) (firstn h x) (skipn h x) 0 Hhi) as E1.
  pose proof (map3_combine (fun i a b => snd (g i a b)) (firstn h x) (skipn h x) 0 Hhi) as E2.
  rewrite Hlo in E1, E2. cbv beta in E1, E2. rewrite E1, E2.
  f_equal; apply map_ext_in; intros i Hi; apply in_seq in Hi; unfold lane_lo, lane_hi;
    cbn [Nat.add]; rewrite nth_firstn_lt by lia; rewrite nth_skipn; reflexivity.
Qed.

Lemma bfly_length (g : lanefn) x h : length x = (2 * h)%nat -> length (bfly g x) = (2 * h)%nat.
Proof. intros H. rewrite (bfly_canon g x h H), app_length, !map_length, !seq_length. lia. Qed.
Lemma firstn_bfly (g : lanefn) x h : length x = (2 * h)%nat -> firstn h (bfly g x) = map (lane_lo g x h) (seq 0 h).
Proof.
  intros H. rewrite (bfly_canon g x h H). rewrite firstn_app, map_length, seq_length, Nat.sub_diag.
  cbn [firstn]. rewrite app_nil_r. apply firstn_all2. rewrite map_length, seq_length. lia.
Qed.
Lemma skipn_bfly (g : lanefn) x h : length x = (2 * h)%nat -> skipn h (bfly g x) = map (lane_hi g x h) (seq 0 h).
Proof.
  intros H. rewrite (bfly_canon g x h H). rewrite skipn_app, map_length, seq_length, Nat.sub_diag.
  cbn [skipn]. rewrite skipn_all2 by (rewrite map_length, seq_length; lia). reflexivity.
Qed.
Lemma nth_bfly_lo (g : lanefn) x h i : length x = (2 * h)%nat -> (i < h)%nat -> nth i (bfly g x) 0 = lane_lo g x h i.
Proof.
  intros H Hi. rewrite (bfly_canon g x h H). rewrite app_nth1 by (rewrite map_length, seq_length; lia).
  apply nth_map_seq. exact Hi.
Qed.
Lemma nth_bfly_hi (g : lanefn) x h i : length x = (2 * h)%nat -> (i < h)%nat -> nth (h + i) (bfly g x) 0 = lane_hi g x h i.
Proof.
  intros H Hi. rewrite (bfly_canon g x h H). rewrite app_nth2 by (rewrite map_length, seq_length; lia).
  rewrite map_length, seq_length. replace (h + i - h)%nat with i by lia. apply nth_map_seq. exact Hi.
Qed.

(* forward order: top level (largest blocks) first *)
Fixpoint gnet (gs : list lanefn) (cnt : nat) (x : list Z) : list Z :=
  match gs with
  | [] => x
  | g :: gs' => gnet gs' (2 * cnt) (level (bfly g) cnt (pow2n (length gs)) x)
  end.
Fixpoint rnet (gs : list lanefn) (x : list Z) : list Z :=
  match gs with
  | [] => x
  | g :: gs' => let y := bfly g x in let h := pow2n (length gs') in rnet gs' (firstn h y) ++ rnet gs' (skipn h y)
  end.

Lemma rnet_length gs : forall x, length x = pow2n (length gs) -> length (rnet gs x) = pow2n (length gs).
Proof.
  induction gs as [|g gs IH]; intros x H; [exact H|].
  cbn [rnet length] in *. rewrite pow2n_S in *. rewrite app_length.
  pose proof (bfly_length g x _ H) as Hb.
  rewrite !IH; [lia| |]; [rewrite skipn_length|rewrite firstn_length]; lia.
Qed.

Lemma flat_map_concat_map {A B} (f : A -> list B) l : flat_map f l = concat (map f l).
Proof. induction l as [|a l IH]; [reflexivity|]. cbn [flat_map map concat]. rewrite IH. reflexivity. Qed.

Lemma concat_map_pairs (R : list Z -> list Z) s (B : list (list Z)) :
  concat (map R (flat_map (fun b => [firstn s b; skipn s b]) B)) = concat (map (fun b => R (firstn s b) ++ R (skipn s b)) B).
Proof.
  induction B as [|b B IH]; [reflexivity|].
  cbn [flat_map map concat app]. rewrite IH, app_assoc. reflexivity.
Qed.

Theorem gnet_rnet gs : forall cnt x, length x = (cnt * pow2n (length gs))%nat ->
  gnet gs cnt x = concat (map (rnet gs) (blocks cnt (pow2n (length gs)) x)).
Proof.
  induction gs as [|g gs IH]; intros cnt x Hx.
  - cbn [gnet rnet length]. rewrite map_id. symmetry. apply concat_blocks. exact Hx.
  - cbn [gnet length] in Hx |- *. set (s := pow2n (length gs)). rewrite pow2n_S in *. fold s in Hx |- *.
    assert (HF : forall b, length b = (2 * s)%nat -> length (bfly g b) = (2 * s)%nat) by (intros b Hb; apply bfly_length; exact Hb).
    rewrite IH by (fold s; rewrite level_length by assumption; lia). fold s.
    rewrite blocks_pairs by (rewrite level_length by assumption; lia).
    rewrite level_blocks by assumption.
    rewrite concat_map_pairs. rewrite map_map. reflexivity.
Qed.

(* inverse order: bottom level (blocks of size 2^c, c = 1 in the code) first *)
(* execution order, k blocks at the top *)
Fixpoint enet (gs : list lanefn) (c k : nat) (x : list Z) : list Z :=
  match gs with
  | [] => x
  | g :: gs' => enet gs' (S c) k (level (bfly g) (k * pow2n (length gs')) (pow2n c) x)
  end.
(* the same levels listed top first *)
Fixpoint ignet (gs : list lanefn) (k : nat) (x : list Z) : list Z :=
  match gs with
  | [] => x
  | g :: gs' => level (bfly g) k (pow2n (length gs)) (ignet gs' (2 * k) x)
  end.
Fixpoint irnet (gs : list lanefn) (x : list Z) : list Z :=
  match gs with
  | [] => x
  | g :: gs' => let h := pow2n (length gs') in bfly g (irnet gs' (firstn h x) ++ irnet gs' (skipn h x))
  end.

Lemma enet_snoc gs g : forall c k x,
  enet (gs ++ [g]) c k x = level (bfly g) k (pow2n (c + length gs)) (enet gs c (2 * k) x).
Proof.
  induction gs as [|g1 gs IH]; intros c k x.
  - cbn [app enet length]. rewrite Nat.add_0_r. unfold pow2n at 1. cbn [Nat.pow]. rewrite Nat.mul_1_r. reflexivity.
  - cbn [app enet length]. rewrite IH. rewrite app_length. cbn [length].
    replace (S c + length gs)%nat with (c + S (length gs))%nat by lia.
    replace (k * pow2n (length gs + 1))%nat with (2 * k * pow2n (length gs))%nat
      by (rewrite Nat.add_1_r, pow2n_S; lia).
    reflexivity.
Qed.
Lemma enet_ignet gs : forall k x, enet (rev gs) 1 k x = ignet gs k x.
Proof.
  induction gs as [|g gs IH]; intros k x; [reflexivity|].
  cbn [rev]. rewrite enet_snoc, IH, rev_length. reflexivity.
Qed.

Lemma irnet_length gs : forall x, length x = pow2n (length gs) -> length (irnet gs x) = pow2n (length gs).
Proof.
  induction gs as [|g gs IH]; intros x H; [exact H|].
  cbn [irnet length] in *. rewrite pow2n_S in *. apply bfly_length. rewrite app_length.
  rewrite !IH; [lia| |]; [rewrite skipn_length|rewrite firstn_length]; lia.
Qed.

Theorem ignet_irnet gs : forall k x, length x = (k * pow2n (length gs))%nat ->
  ignet gs k x = concat (map (irnet gs) (blocks k (pow2n (length gs)) x)).
Proof.
  induction gs as [|g gs IH]; intros k x Hx.
  - cbn [ignet irnet length]. rewrite map_id. symmetry. apply concat_blocks. exact Hx.
  - cbn [ignet length] in Hx |- *. set (s := pow2n (length gs)). rewrite pow2n_S in *. fold s in Hx |- *.
    rewrite IH by (fold s; lia). fold s.
    rewrite blocks_pairs by lia. rewrite concat_map_pairs.
    unfold level.
    assert (Hs : Forall (fun b => length b = (2 * s)%nat)
                   (map (fun b => irnet gs (firstn s b) ++ irnet gs (skipn s b)) (blocks k (2 * s) x))).
    { rewrite Forall_map. eapply Forall_impl; [|apply blocks_sizes; exact Hx]. intros b Hb. cbv beta in *.
      rewrite app_length. unfold s. rewrite !irnet_length; fold s; [lia| |]; [rewrite skipn_length|rewrite firstn_length]; lia. }
    rewrite <- (blocks_length k (2 * s) x) at 1.
    rewrite <- (map_length (fun b => irnet gs (firstn s b) ++ irnet gs (skipn s b))).
    rewrite blocks_concat by exact Hs.
    rewrite map_map. reflexivity.
Qed.

(* one top block *)
Corollary gnet_rnet_1 gs x : length x = pow2n (length gs) -> gnet gs 1 x = rnet gs x.
Proof.
  intros H. rewrite gnet_rnet by lia. rewrite blocks_one by exact H. cbn [map concat]. apply app_nil_r.
Qed.
Corollary enet_irnet_1 gs x : length x = pow2n (length gs) -> enet (rev gs) 1 1 x = irnet gs x.
Proof.
  intros H. rewrite enet_ignet, ignet_irnet by lia. rewrite blocks_one by exact H. cbn [map concat]. apply app_nil_r.
Qed.

(* lanes i < h of two lane functions agree modulo q on congruent inputs *)
Definition lane_cong (q : Z) (h : nat) (g g' : lanefn) : Prop :=
  forall i a b a' b', (i < h)%nat -> cong q a a' -> cong q b b' ->
    cong q (fst (g i a b)) (fst (g' i a' b')) /\ cong q (snd (g i a b)) (snd (g' i a' b')).
(* lists of lane functions, top level first: the head works on blocks of size 2 * 2^(length tail) *)
Fixpoint lanes_cong (q : Z) (gs gs' : list lanefn) : Prop :=
  match gs, gs' with
  | [], [] => True
  | g :: r, g' :: r' => lane_cong q (pow2n (length r)) g g' /\ lanes_cong q r r'
  | _, _ => False
  end.
Lemma lanes_cong_length q gs : forall gs', lanes_cong q gs gs' -> length gs = length gs'.
Proof.
  induction gs as [|g gs IH]; intros [|g' gs'] H; cbn [lanes_cong] in H; try contradiction; [reflexivity|].
  cbn [length]. f_equal. apply IH. tauto.
Qed.

Lemma bfly_lcong q g g' x y h : lane_cong q h g g' -> length x = (2 * h)%nat -> lcong q x y ->
  lcong q (bfly g x) (bfly g' y).
Proof.
  intros Hg Hx [Hl Hxy]. assert (Hy : length y = (2 * h)%nat) by lia.
  split; [rewrite (bfly_length g x h Hx), (bfly_length g' y h Hy); reflexivity|].
  intros i. destruct (Nat.ltb_spec i h) as [Hi|Hi]; [|destruct (Nat.ltb_spec i (2 * h)) as [Hi2|Hi2]].
  - rewrite (nth_bfly_lo g x h i Hx Hi), (nth_bfly_lo g' y h i Hy Hi). unfold lane_lo. apply Hg; [exact Hi|apply Hxy|apply Hxy].
  - replace i with (h + (i - h))%nat by lia.
    rewrite (nth_bfly_hi g x h _ Hx), (nth_bfly_hi g' y h _ Hy) by lia. unfold lane_hi. apply Hg; [lia|apply Hxy|apply Hxy].
  - rewrite !nth_overflow; [reflexivity| |]; [rewrite (bfly_length g' y h Hy)|rewrite (bfly_length g x h Hx)]; lia.
Qed.

Lemma level_lcong q F F' cnt sz : (forall b b', length b = sz -> lcong q b b' -> lcong q (F b) (F' b')) ->
  forall x y, length x = (cnt * sz)%nat -> lcong q x y -> lcong q (level F cnt sz x) (level F' cnt sz y).
Proof.
  intros HF. unfold level. induction cnt as [|c IH]; intros x y Hx Hxy; [apply lcong_refl|].
  cbn [blocks map concat]. apply lcong_app.
  - apply HF; [rewrite firstn_length; lia|apply lcong_firstn; exact Hxy].
  - apply IH; [rewrite skipn_length; lia|apply lcong_skipn; exact Hxy].
Qed.

Lemma gnet_lcong q gs : forall gs', lanes_cong q gs gs' ->
  forall cnt x y, length x = (cnt * pow2n (length gs))%nat -> lcong q x y -> lcong q (gnet gs cnt x) (gnet gs' cnt y).
Proof.
  induction gs as [|g gs IH]; intros [|g' gs'] H cnt x y Hx Hxy; cbn [lanes_cong] in H; try contradiction; [exact Hxy|].
  destruct H as [Hg Hgs]. cbn [gnet length]. rewrite <- (lanes_cong_length q gs gs' Hgs). cbn [length] in Hx. rewrite pow2n_S in *.
  assert (HF : forall b, length b = (2 * pow2n (length gs))%nat -> length (bfly g b) = (2 * pow2n (length gs))%nat)
    by (intros b Hb; apply bfly_length; exact Hb).
  apply IH; [exact Hgs|rewrite level_length by assumption; lia|].
  apply level_lcong; [|exact Hx|exact Hxy].
  intros b b' Hb Hbb. eapply bfly_lcong; eauto.
Qed.

Lemma ignet_length gs : forall k x, length x = (k * pow2n (length gs))%nat -> length (ignet gs k x) = (k * pow2n (length gs))%nat.
Proof.
  induction gs as [|g gs IH]; intros k x Hx; [exact Hx|].
  cbn [ignet length] in *. rewrite pow2n_S in *. apply level_length.
  - rewrite IH; lia.
  - intros b Hb. apply bfly_length. exact Hb.
Qed.
Lemma ignet_lcong q gs : forall gs', lanes_cong q gs gs' ->
  forall k x y, length x = (k * pow2n (length gs))%nat -> lcong q x y -> lcong q (ignet gs k x) (ignet gs' k y).
Proof.
  induction gs as [|g gs IH]; intros [|g' gs'] H k x y Hx Hxy; cbn [lanes_cong] in H; try contradiction; [exact Hxy|].
  destruct H as [Hg Hgs]. cbn [ignet length]. rewrite <- (lanes_cong_length q gs gs' Hgs). cbn [length] in Hx. rewrite pow2n_S in *.
  apply level_lcong.
  - intros b b' Hb Hbb. eapply bfly_lcong; eauto.
  - rewrite ignet_length; lia.
  - apply IH; [exact Hgs|lia|exact Hxy].
Qed.

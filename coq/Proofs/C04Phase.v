(* C04 — external product GLWE x GGSW and CMux: phase theorems on the model Gadget.gadget_product / cmux.
   C04_external_product_phase_lemma  phase(res) = m2 (x) phase'(ct) + E + 2^P Iq
   C04_ggsw_cells                    the GGSW-cell hypothesis as a Definition; C04_ggsw_cells_satisfiable: a concrete instance
   gadget_product_spec_any_acc       the product from ANY prior accumulator content of the right shape (the repaired code zeroes it)
   C04_cmux_phase_lemma / C04_cmux_selects_lemma   cmux before its final normalisation *)
From PV Require Import Base.MachineInt Model.Znx Model.Limbs Model.Flat Model.Ring Model.Poly Model.DftAbs Model.Gadget Model.GadgetSpec Proofs.C07Dft Proofs.C07Ring Proofs.GadgetDecomp Proofs.GadgetPhase Proofs.C03Phase.
Open Scope Z_scope.

(* C04 — external product GLWE x GGSW.
   The GGSW hypothesis `ggsw_cells` is TAKEN AS A NAMED SECTION HYPOTHESIS: cell (row, ci) of the GGSW is a GLWE under Sk whose
   phase is  2^(P-(row+1) dsize b) (m2 (x) Sk ci) + e_{row,ci} + 2^P I_{row,ci}   (Sk 0 = 1, Sk (i+1) = s_i: the cell encrypts
   m2 2^(..) for ci = 0 and s_{ci-1} m2 2^(..) for ci >= 1; with the phase convention ct[0] + sum ct[i+1] (x) s_i the sign is +). *)
Definition C04_ggsw_cells (P b : Z) (n rank msize dsize dnum : nat) (K : pmat) (sk : list (list Z)) (m2 : list Z)
           (e I : nat -> nat -> list Z) : Prop :=
  key_rows_ok P b n (S rank) (S rank) msize dsize dnum K (sk_ext n sk) (fun ci => pmul m2 (sk_ext n sk ci)) e I.

Section C04.
Variables (P b : Z) (n rank msize a_size dsize dnum : nat) (clamp : bool).
Variable a : cols_t.                       (* all rank+1 columns of the input GLWE (GGSW radix) *)
Variable res0 : cols_t.                    (* prior content of the accumulator: only its shape matters *)
Variable K : pmat.
Variable Sk : nat -> list Z.
Variable m2 : list Z.
Variables (e I : nat -> nat -> list Z).
Hypothesis Ha : wf_cols n (S rank) a_size a.
Hypothesis Hres0 : acc_shape (S rank) msize clamp res0.
Hypothesis HK : wf_pmat_in n (dnum * S rank) (msize * S rank) K.
Hypothesis Hd : (1 <= dsize)%nat.
Hypothesis Hdrop : (dsize - 2 <= msize)%nat.
Hypothesis HS : forall co, length (Sk co) = n.
Hypothesis Hm2 : length m2 = n.
Hypothesis He : forall row ci, length (e row ci) = n.
Hypothesis HI : forall row ci, length (I row ci) = n.
Hypothesis Hb : 0 <= b.
Hypothesis HP : Z.of_nat msize * b <= P.
Hypothesis HP2 : Z.of_nat dnum * Z.of_nat dsize * b <= P.
Hypothesis ggsw_cells : key_rows_ok P b n (S rank) (S rank) msize dsize dnum K Sk (fun ci => pmul m2 (Sk ci)) e I.

(* the message factors out of the main term *)
Lemma m2_factor (V : nat -> list Z) cols : (forall ci, length (V ci) = n) ->
  psumf n (fun ci => pmul (V ci) (pmul m2 (Sk ci))) cols = pmul m2 (psumf n (fun ci => pmul (V ci) (Sk ci)) cols).
Proof.
  intros HV. rewrite pmul_psumf_l by (try assumption; intros; rewrite pmul_length; apply HV).
  apply psumf_ext; intros ci _.
  rewrite <- pmul_assoc by (rewrite ?HV, ?Hm2, ?HS; reflexivity).
  rewrite (pmul_comm (V ci) m2) by (rewrite HV, Hm2; reflexivity).
  apply pmul_assoc; rewrite ?HV, ?Hm2, ?HS; reflexivity.
Qed.

(* phase(res) = m2 (x) phase'(ct) + E + 2^P Iq ; phase' = phase of the limbs l < min(a_size, dnum*dsize) *)
Theorem C04_external_product_phase_lemma :
  exists res, gadget_product n (S rank) msize res0 a a_size dsize dnum msize clamp K = Some res /\
    wf_cols n (S rank) msize res /\
    phase_f P b n (S rank) msize (limbs_of res) Sk
    = padd (padd (pmul m2 (phase_f P b n (S rank) (Nat.min a_size (dnum * dsize)) (acol n a) Sk))
                 (gadget_err P b n (S rank) (S rank) msize dsize dnum (acol n a) K Sk e))
           (pscale (2 ^ P) (gadget_int b n (S rank) (S rank) msize dsize dnum (acol n a) K Sk I)).
Proof.
  destruct (gadget_product_spec n (S rank) (S rank) msize a_size dsize dnum clamp a K res0 Ha Hd Hdrop Hres0) as [res [E1 [E2 E3]]].
  exists res. split; [exact E1|]. split; [exact E2|].
  rewrite (phase_f_ext P b n (S rank) msize (limbs_of res)
             (gp_spec n (S rank) (S rank) msize a_size dsize dnum clamp (acol n a) K) Sk) by (intros; apply E3; assumption).
  pose proof (acol_length n (S rank) a_size a Ha) as LA.
  rewrite (gadget_phase_rows_in P b n (S rank) (S rank) msize a_size dsize dnum clamp (acol n a) K Sk (fun ci => pmul m2 (Sk ci)) e I);
    try assumption.
  - do 2 f_equal. unfold pval_used, phase_f. apply m2_factor. intros. apply pval_length. intros; apply LA.
  - apply (acol_zero n (S rank) a_size a Ha).
  - intros. rewrite pmul_length. exact Hm2.
Qed.
End C04.

(* the GGSW hypothesis is satisfiable: a noise-free GGSW-like matrix, n = 2, rank = 1, dsize = 1, dnum = 2, msize = 2, b = 4, P = 8,
   secret s = X, message m2 = 3 + X.  Cell (row, ci) has m2 (x) Sk ci in limb `row` of its body column and zero elsewhere. *)
Definition ex_sk : list (list Z) := [[0; 1]].
Definition ex_m2 : list Z := [3; 1].
Definition ex_K : pmat := fun q c =>
  let row := (q / 2)%nat in let ci := (q mod 2)%nat in
  let limb := (c / 2)%nat in let co := (c mod 2)%nat in
  if Nat.eqb co 0 && Nat.eqb limb row then pmul ex_m2 (sk_ext 2 ex_sk ci) else pzero 2.

Example C04_ggsw_cells_satisfiable :
  C04_ggsw_cells 8 4 2 1 2 1 2 ex_K ex_sk ex_m2 (fun _ _ => pzero 2) (fun _ _ => pzero 2).
Proof.
  unfold C04_ggsw_cells, key_rows_ok. intros row ci Hrow Hci.
  destruct row as [|[|row]]; [| |lia]; (destruct ci as [|[|ci]]; [| |lia]); vm_compute; reflexivity.
Qed.



(* the columns t - f of cmux *)
Section ColSub.
Variables (n ncols res_size t_size f_size : nat) (t f : cols_t).
Hypothesis Ht : wf_cols n ncols t_size t.
Hypothesis Hf : wf_cols n ncols f_size f.

Lemma col_sub_limb ci j : (ci < ncols)%nat -> (j < res_size)%nat ->
  lim (col_sub n res_size (col t ci) (col f ci)) j = psub (acol n t ci j) (acol n f ci j).
Proof.
  intros Hci Hj. destruct Ht as [Hlt Hct]. destruct Hf as [Hlf Hcf].
  destruct (Hct ci Hci) as [Lt Wt]. destruct (Hcf ci Hci) as [Lf Wf].
  unfold col_sub, dft_sub. cbv zeta. rewrite lim_mk' by exact Hj. rewrite Lt, Lf.
  unfold acol, limz. rewrite Lt, Lf.
  destruct (Nat.ltb_spec j (Nat.min t_size f_size)) as [H1|H1].
  - destruct (Nat.ltb_spec j t_size); destruct (Nat.ltb_spec j f_size); try lia. reflexivity.
  - destruct (Nat.ltb_spec j (Nat.max t_size f_size)) as [H2|H2].
    + destruct (Nat.leb_spec t_size f_size).
      * destruct (Nat.ltb_spec j t_size); destruct (Nat.ltb_spec j f_size); try lia.
        symmetry; apply psub_pzero_l, Wf; assumption.
      * destruct (Nat.ltb_spec j t_size); destruct (Nat.ltb_spec j f_size); try lia.
        symmetry; apply psub_pzero_r, Wt; assumption.
    + destruct (Nat.ltb_spec j t_size); destruct (Nat.ltb_spec j f_size); try lia.
      symmetry; apply psub_pzero_r, pzero_length.
Qed.

Lemma cmux_d_wf : wf_cols n ncols res_size (map2 (col_sub n res_size) t f).
Proof.
  pose proof (acol_length n ncols t_size t Ht) as LT. pose proof (acol_length n ncols f_size f Hf) as LF.
  destruct Ht as [Hlt Hct]. destruct Hf as [Hlf Hcf].
  split; [rewrite map2_length; unfold plimbs in *; lia|].
  intros ci Hci. rewrite (col_map2 (col_sub n res_size) t f [] [] ci) by (unfold plimbs in *; lia).
  change (nth ci t []) with (col t ci). change (nth ci f []) with (col f ci).
  split; [unfold col_sub, dft_sub; apply mk_length|].
  intros l Hl. rewrite col_sub_limb by assumption. apply psub_len; auto.
Qed.

Lemma cmux_d_acol ci j : (ci < ncols)%nat -> (j < res_size)%nat ->
  acol n (map2 (col_sub n res_size) t f) ci j = psub (acol n t ci j) (acol n f ci j).
Proof.
  intros Hci Hj. destruct cmux_d_wf as [Hl Hc]. destruct (Hc ci Hci) as [Hlen _].
  unfold acol at 1. unfold limz. rewrite Hlen. destruct (Nat.ltb_spec j res_size); [|lia].
  destruct Ht as [Hlt _]. destruct Hf as [Hlf _].
  rewrite (col_map2 (col_sub n res_size) t f [] [] ci) by (unfold plimbs in *; lia).
  apply col_sub_limb; assumption.
Qed.
End ColSub.


(* the product in external-product mode from ANY accumulator content of the right shape: the repaired code zeroes the first msize
   limbs (Gadget.acc_start), so the result does not depend on what the scratch space held *)
Section AnyAcc.
Theorem gadget_product_spec_any_acc n cin cols_out msize a_size dsize dnum (a : cols_t) (m : pmat) (res0 : cols_t) :
  wf_cols n cin a_size a -> (1 <= dsize)%nat -> (dsize - 2 <= msize)%nat ->
  length res0 = cols_out -> (forall co, (co < cols_out)%nat -> length (col res0 co) = msize) ->
  exists res, gadget_product n cols_out msize res0 a a_size dsize dnum msize false m = Some res /\
    wf_cols n cols_out msize res /\
    forall co j, (co < cols_out)%nat -> (j < msize)%nat ->
      lim (col res co) j = gp_spec n cin cols_out msize a_size dsize dnum false (acol n a) m co j.
Proof. intros Ha Hd Hdrop Hl Hc. apply gadget_product_spec; try assumption. right. split; assumption. Qed.
End AnyAcc.

Section Cmux.
Variables (be : Z) (P b : Z) (n rank res_size t_size f_size dsize dnum msize : nat).
Variables (res0 t f : cols_t).
Variable K : pmat.
Variable Sk : nat -> list Z.
Variable bit : Z.
Variables (e I : nat -> nat -> list Z).
Let m2 : list Z := pscale bit (pone n).
Let d : cols_t := map2 (col_sub n res_size) t f.
Let L1 : nat := Nat.min res_size (dnum * dsize).
Hypothesis Hn : (1 <= n)%nat.
Hypothesis Ht : wf_cols n (S rank) t_size t.
Hypothesis Hf : wf_cols n (S rank) f_size f.
Hypothesis Hres0 : length res0 = S rank.
Hypothesis Hres0c : forall co, (co < S rank)%nat -> length (col res0 co) = msize.
Hypothesis HK : wf_pmat_in n (dnum * S rank) (msize * S rank) K.
Hypothesis Hd : (1 <= dsize)%nat.
Hypothesis Hdrop : (dsize - 2 <= msize)%nat.
Hypothesis HS : forall co, length (Sk co) = n.
Hypothesis He : forall row ci, length (e row ci) = n.
Hypothesis HI : forall row ci, length (I row ci) = n.
Hypothesis Hb : 0 <= b.
Hypothesis HP : Z.of_nat msize * b <= P.
Hypothesis HP2 : Z.of_nat dnum * Z.of_nat dsize * b <= P.
Hypothesis ggsw_cells : key_rows_ok P b n (S rank) (S rank) msize dsize dnum K Sk (fun ci => pmul m2 (Sk ci)) e I.

Let E : list Z := gadget_err P b n (S rank) (S rank) msize dsize dnum (acol n d) K Sk e.
Let Iq : list Z := gadget_int b n (S rank) (S rank) msize dsize dnum (acol n d) K Sk I.
(* phases of t, f over the limbs that meet a GGSW row, and of the part of f that add_small adds *)
Let PT1 : list Z := phase_f P b n (S rank) L1 (acol n t) Sk.
Let PF1 : list Z := phase_f P b n (S rank) L1 (acol n f) Sk.
Let PF2 : list Z := phase_f P b n (S rank) (Nat.min msize f_size) (acol n f) Sk.

Lemma m2_length : length m2 = n.
Proof. unfold m2. rewrite pscale_length. apply pone_length; exact Hn. Qed.

Lemma m2_mul x : length x = n -> pmul m2 x = pscale bit x.
Proof.
  intros H. unfold m2. rewrite pscale_pmul_l. f_equal. rewrite <- H. apply pmul_one_l. lia.
Qed.

(* cmux before its final normalisation: (t - f) (x) GGSW(bit) + f *)
Theorem C04_cmux_phase_lemma :
  exists big, gadget_product n (S rank) msize res0 d res_size dsize dnum msize false K = Some big /\
    cmux be n b rank res_size t_size f_size dsize dnum msize res0 t f K
      = sequence (map (big_normalize (wbig be) n b b res_size) (map2 add_small big f)) /\
    wf_cols n (S rank) msize (map2 add_small big f) /\
    phase_f P b n (S rank) msize (limbs_of (map2 add_small big f)) Sk
    = padd (padd (padd (pscale bit (psub PT1 PF1)) PF2) E) (pscale (2 ^ P) Iq).
Proof.
  pose proof (cmux_d_wf n (S rank) res_size t_size f_size t f Ht Hf) as Hdw. fold d in Hdw.
  destruct (gadget_product_spec_any_acc n (S rank) (S rank) msize res_size dsize dnum d K res0 Hdw Hd Hdrop Hres0 Hres0c)
    as [big [E1 [E2 E3]]].
  exists big. split; [exact E1|]. split; [unfold cmux; fold d; rewrite E1; reflexivity|].
  pose proof (acol_length n (S rank) f_size f Hf) as LF. pose proof (acol_zero n (S rank) f_size f Hf) as ZF.
  pose proof (acol_length n (S rank) t_size t Ht) as LT.
  pose proof (acol_length n (S rank) res_size d Hdw) as LD.
  destruct (add_small_cols n (S rank) msize f_size big f E2 Hf) as [Wsum Hlimb].
  split; [exact Wsum|].
  rewrite (phase_f_ext P b n (S rank) msize _ _ Sk Hlimb).
  rewrite phase_f_padd by (intros; try apply LF; try apply HS; apply (proj2 E2 co); assumption).
  (* the product part *)
  rewrite (phase_f_ext P b n (S rank) msize (limbs_of big)
             (gp_spec n (S rank) (S rank) msize res_size dsize dnum false (acol n d) K) Sk) by (intros; apply E3; assumption).
  rewrite (gadget_phase_rows_in P b n (S rank) (S rank) msize res_size dsize dnum false (acol n d) K Sk (fun ci => pmul m2 (Sk ci)) e I);
    try assumption;
    [|apply (acol_zero n (S rank) res_size d Hdw)|intros; rewrite pmul_length; apply m2_length].
  fold E Iq.
  (* main term: m2 (x) phase'(t - f) = bit (phase'(t) - phase'(f)) *)
  assert (Emain : psumf n (fun ci => pmul (pval_used P b n res_size dsize dnum (acol n d) ci) (pmul m2 (Sk ci))) (S rank)
                  = pscale bit (psub PT1 PF1)).
  { rewrite (m2_factor n Sk m2 HS m2_length), m2_mul by plen.
    f_equal. unfold PT1, PF1. rewrite <- phase_f_psub by (intros; auto).
    unfold phase_f, pval_used. fold L1. apply psumf_ext; intros ci Hci. f_equal.
    unfold pval. apply psumf_ext; intros j Hj. f_equal.
    apply (cmux_d_acol n (S rank) res_size t_size f_size t f Ht); [exact Hf|exact Hci|unfold L1 in Hj; lia]. }
  rewrite Emain.
  (* the part of f that add_small adds *)
  assert (EF : phase_f P b n (S rank) msize (acol n f) Sk = PF2).
  { unfold PF2. apply phase_f_cut; [lia|exact LF|]. intros co j H1 H2. apply ZF. lia. }
  rewrite EF.
  set (M := pscale bit (psub PT1 PF1)).
  rewrite !padd_assoc. f_equal. rewrite <- !padd_assoc. rewrite (padd_comm (padd E (pscale (2 ^ P) Iq)) PF2).
  rewrite !padd_assoc. reflexivity.
Qed.

(* bit = 0 selects f, bit = 1 selects t (when no limb of f is lost: f_size <= min(res_size, dnum*dsize), f_size <= msize) *)
Theorem C04_cmux_selects_lemma : (bit = 0 \/ bit = 1) ->
  (bit = 1 -> (f_size <= L1)%nat /\ (f_size <= msize)%nat) ->
  exists big, gadget_product n (S rank) msize res0 d res_size dsize dnum msize false K = Some big /\
    cmux be n b rank res_size t_size f_size dsize dnum msize res0 t f K
      = sequence (map (big_normalize (wbig be) n b b res_size) (map2 add_small big f)) /\
    phase_f P b n (S rank) msize (limbs_of (map2 add_small big f)) Sk
    = padd (padd (if bit =? 1 then PT1 else PF2) E) (pscale (2 ^ P) Iq).
Proof.
  intros Hbit Hsz. destruct C04_cmux_phase_lemma as [big [E1 [E2 [_ E3]]]].
  exists big. split; [exact E1|]. split; [exact E2|]. rewrite E3. do 2 f_equal.
  pose proof (acol_length n (S rank) f_size f Hf) as LF. pose proof (acol_zero n (S rank) f_size f Hf) as ZF.
  pose proof (acol_length n (S rank) t_size t Ht) as LT.
  assert (LT1 : length PT1 = n) by (apply phase_f_length; intros; apply LT).
  assert (LF1 : length PF1 = n) by (apply phase_f_length; intros; apply LF).
  assert (LF2 : length PF2 = n) by (apply phase_f_length; intros; apply LF).
  destruct Hbit as [-> | ->]; cbn [Z.eqb Pos.eqb].
  - rewrite pscale_0, psub_length, LT1, LF1, Nat.min_id. apply padd_pzero_l; exact LF2.
  - rewrite pscale_1. destruct (Hsz eq_refl) as [H1 H2].
    assert (EF : PF1 = PF2).
    { unfold PF1, PF2. rewrite (Nat.min_r msize f_size) by exact H2.
      apply phase_f_cut; [exact H1|exact LF|]. intros co j G1 G2. apply ZF; exact G1. }
    rewrite EF. pcoeff n. ring.
Qed.
End Cmux.

(* the external product stated with Gadget.phase_val, when no input limb is lost (a_size <= dnum*dsize):
   phase(res) = m2 (x) phase(ct) + E + 2^P Iq *)
Section C04PhaseVal.
Variables (P b : Z) (n msize a_size dsize dnum : nat) (clamp : bool).
Variable a : cols_t.
Variable res0 : cols_t.
Variable K : pmat.
Variable sk : list (list Z).
Variable m2 : list Z.
Variables (e I : nat -> nat -> list Z).
Let rank := length sk.
Let Sk := sk_ext n sk.
Hypothesis Ha : wf_cols n (S rank) a_size a.
Hypothesis Hres0 : acc_shape (S rank) msize clamp res0.
Hypothesis HK : wf_pmat_in n (dnum * S rank) (msize * S rank) K.
Hypothesis Hn : (1 <= n)%nat.
Hypothesis Hd : (1 <= dsize)%nat.
Hypothesis Hdrop : (dsize - 2 <= msize)%nat.
Hypothesis Hfit : (a_size <= dnum * dsize)%nat.
Hypothesis Hsk : forall s, In s sk -> length s = n.
Hypothesis Hm2 : length m2 = n.
Hypothesis He : forall row ci, length (e row ci) = n.
Hypothesis HI : forall row ci, length (I row ci) = n.
Hypothesis Hb : 0 <= b.
Hypothesis HP : Z.of_nat msize * b <= P.
Hypothesis HP2 : Z.of_nat dnum * Z.of_nat dsize * b <= P.
Hypothesis ggsw_cells : C04_ggsw_cells P b n rank msize dsize dnum K sk m2 e I.

Theorem C04_external_product_phase_val_lemma :
  exists res, gadget_product n (S rank) msize res0 a a_size dsize dnum msize clamp K = Some res /\
    phase_val P b n sk res
    = padd (padd (pmul m2 (phase_val P b n sk a))
                 (gadget_err P b n (S rank) (S rank) msize dsize dnum (acol n a) K Sk e))
           (pscale (2 ^ P) (gadget_int b n (S rank) (S rank) msize dsize dnum (acol n a) K Sk I)).
Proof.
  pose proof (sk_ext_length n sk Hn Hsk) as HS.
  destruct (C04_external_product_phase_lemma P b n rank msize a_size dsize dnum clamp a res0 K Sk m2 e I
              Ha Hres0 HK Hd Hdrop HS Hm2 He HI Hb HP HP2 ggsw_cells) as [res [E1 [E2 E3]]].
  exists res. split; [exact E1|].
  assert (Hnth : forall i, (i < length sk)%nat -> length (nth i sk (pzero n)) = n) by (intros; apply Hsk, nth_In; assumption).
  rewrite (phase_val_phase_f P b n sk res msize Hn E2 Hnth).
  rewrite (phase_val_phase_f P b n sk a a_size Hn Ha Hnth).
  fold rank Sk. rewrite E3. do 3 f_equal.
  rewrite Nat.min_l by exact Hfit. apply phase_f_ext. intros co j Hc Hj.
  destruct Ha as [_ Hcols]. destruct (Hcols co Hc) as [Hlen _].
  unfold acol, limz, limbs_of. rewrite Hlen. destruct (Nat.ltb_spec j a_size); [reflexivity|lia].
Qed.
End C04PhaseVal.

(* the hypotheses of the C04 phase theorems are satisfiable: a concrete small instance (stated as Examples in Props/C04.v) *)
(* a concrete small external product: n = 2, rank = 1, a_size = 2, dsize = 1, dnum = 2, msize = 2, b = 4, P = 8, s = X;
   noise-free GGSW-like matrix of the message m2: cell (row, ci) holds m2 (x) Sk ci in limb `row` of its body column *)
Definition ex4_sk : list (list Z) := [[0; 1]].
Definition ex4_K (m2 : list Z) : pmat := fun q c =>
  let row := (q / 2)%nat in let ci := (q mod 2)%nat in
  let limb := (c / 2)%nat in let co := (c mod 2)%nat in
  if Nat.eqb co 0 && Nat.eqb limb row then pmul m2 (sk_ext 2 ex4_sk ci) else pzero 2.
Definition ex4_m2 : list Z := [3; 1].
Definition ex4_ct : cols_t := [[[1; 2]; [3; 4]]; [[5; 6]; [7; 8]]].
Definition ex4_f : cols_t := [[[2; 0]; [1; 1]]; [[0; 3]; [4; 5]]].
Definition ex4_zero : nat -> nat -> list Z := fun _ _ => pzero 2.

Ltac ex4_cells_tac :=
  intros row ci Hrow Hci;
  destruct row as [|[|row]]; [| |lia]; (destruct ci as [|[|ci]]; [| |lia]); vm_compute; reflexivity.

Lemma ex4_wf_cols c : c = ex4_ct \/ c = ex4_f \/ c = zcols 2 2 2 -> wf_cols 2 2 2 c.
Proof.
  intros [-> | [-> | ->]]; (split; [reflexivity|]); intros ci H; (destruct ci as [|[|ci]]; [| |lia]);
    (split; [reflexivity|]); intros l Hl; destruct l as [|[|l]]; try lia; reflexivity.
Qed.

Lemma ex4_sk_len co : length (sk_ext 2 ex4_sk co) = 2%nat.
Proof. destruct co as [|[|co]]; try reflexivity. cbn. destruct co; reflexivity. Qed.

Lemma ex4_K_wf m2 : length m2 = 2%nat -> wf_pmat_in 2 (2 * 2) (2 * 2) (ex4_K m2).
Proof. intros H q c _ _. unfold ex4_K. cbv zeta. destruct (_ && _); [rewrite pmul_length; exact H|reflexivity]. Qed.

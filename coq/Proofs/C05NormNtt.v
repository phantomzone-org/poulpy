(* C05 — the NTT120 family (i128 accumulator, LimbsBig.normalize_big 128, equal radices, entries within 2^126): the notions
   in which Props/C05.v states the instance of Section Width (Proofs/C05Norm.v) at C08WNormalize.normalize_inter_value_128. *)
From PV Require Import Base.MachineInt Model.Znx Model.Limbs Model.LimbsBig Model.Flat Model.Ring Model.DftAbs
  Model.C05Cnv Model.C05Spec Model.C05Core.
Open Scope Z_scope.

Definition nrm128 (n rsz : nat) (b lo : Z) : plimbs -> limbs := big_nrm false n rsz b b lo.
Definition dom126 (D : plimbs) : Prop := forall u c, Z.abs (nth c (lim D u) 0) <= 2 ^ 126.

Section DischargeNtt.
Variables (n rsz : nat) (P b lo : Z).
Let nrm := nrm128 n rsz b lo.
Definition xy128 (D : plimbs) (c : nat) : Z := nth c (pval n P b (nrm D)) 0 - nth c (pval n (P + lo) b D) 0.
Definition eps128 (D : plimbs) : list Z := map (fun c => wrap P (xy128 D c)) (seq 0 n).
Definition kap128 (D : plimbs) : list Z := map (fun c => (xy128 D c + 2 ^ (P - 1)) / 2 ^ P) (seq 0 n).
End DischargeNtt.

Lemma normalize_big_same_radix b lo a r : normalize_big 128 b b lo a r = Some (normalize_inter_c 128 128 b lo a r).
Proof. unfold normalize_big. rewrite Z.eqb_refl. reflexivity. Qed.

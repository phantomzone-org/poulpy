(* Facts about Model/Flat.v: writing a column touches only that column (frame); what `sequence`, `transpose` and
   `lift_coeff` return; what `shape_ok` says. *)
From PV Require Import Base.MachineInt Model.Znx Model.Limbs Model.Flat Proofs.ListFacts.
From Coq Require Import Arith PeanoNat.
Open Scope nat_scope.

Definition in_col (n cols size col idx : nat) : bool :=
  let limb := idx / n in Nat.eqb (limb mod cols) col && Nat.ltb (limb / cols) size.

Lemma write_at_length (data l : list Z) off :
  off + length l <= length data -> length (write_at data off l) = length data.
Proof.
  intros H. unfold write_at. rewrite !app_length, firstn_length, skipn_length. lia.
Qed.

Lemma nth_firstn_lt' (A : Type) (l : list A) k i d : i < k -> nth i (firstn k l) d = nth i l d.
Proof. apply nth_firstn_lt. Qed.
Lemma nth_skipn' (A : Type) (l : list A) k i d : nth i (skipn k l) d = nth (k + i) l d.
Proof. apply nth_skipn. Qed.

Lemma write_at_nth_outside (data l : list Z) off idx d :
  off + length l <= length data -> (idx < off \/ off + length l <= idx) ->
  nth idx (write_at data off l) d = nth idx data d.
Proof.
  intros Hlen Hout. unfold write_at.
  destruct Hout as [Hlt | Hge].
  - rewrite app_nth1 by (rewrite firstn_length; lia).
    rewrite nth_firstn_lt by lia. reflexivity.
  - rewrite app_nth2 by (rewrite firstn_length; lia).
    rewrite firstn_length, Nat.min_l by lia.
    rewrite app_nth2 by lia.
    rewrite nth_skipn. f_equal. lia.
Qed.

Lemma in_range_limb n cols col j idx :
  0 < n -> col < cols -> n * (j * cols + col) <= idx < n * (j * cols + col) + n ->
  idx / n = j * cols + col.
Proof.
  intros Hn Hc [H1 H2]. symmetry. apply Nat.div_unique with (r := idx - n * (j * cols + col)); lia.
Qed.

Lemma in_col_of_range n cols size col j idx :
  0 < n -> col < cols -> j < size ->
  n * (j * cols + col) <= idx < n * (j * cols + col) + n -> in_col n cols size col idx = true.
Proof.
  intros Hn Hc Hj Hr. unfold in_col. rewrite (in_range_limb n cols col j idx Hn Hc Hr).
  apply andb_true_intro; split.
  - apply Nat.eqb_eq. rewrite Nat.add_comm, Nat.mod_add by lia. apply Nat.mod_small; lia.
  - apply Nat.ltb_lt. rewrite Nat.add_comm, Nat.div_add by lia. rewrite Nat.div_small by lia. lia.
Qed.

Lemma firstn_pad_length n (l : list Z) : length (firstn n (l ++ zeros n)) = n.
Proof. rewrite firstn_length, app_length. unfold zeros. rewrite repeat_length. lia. Qed.

(* one limb *)
Lemma write_limb_length n cols data col j l :
  n * (j * cols + col) + n <= length data -> length (write_limb n cols data col j l) = length data.
Proof. intros H. unfold write_limb. apply write_at_length. rewrite firstn_pad_length. lia. Qed.

Lemma write_limb_outside n cols data col j l idx d size :
  0 < n -> col < cols -> j < size -> n * (j * cols + col) + n <= length data ->
  in_col n cols size col idx = false ->
  nth idx (write_limb n cols data col j l) d = nth idx data d.
Proof.
  intros Hn Hc Hj Hlen Hout. unfold write_limb. apply write_at_nth_outside.
  - rewrite firstn_pad_length. lia.
  - rewrite firstn_pad_length.
    destruct (Nat.lt_ge_cases idx (n * (j * cols + col))) as [Hlt|Hge]; [left; exact Hlt|].
    destruct (Nat.lt_ge_cases idx (n * (j * cols + col) + n)) as [Hlt2|Hge2]; [|right; exact Hge2].
    rewrite (in_col_of_range n cols size col j idx Hn Hc Hj) in Hout by lia. discriminate.
Qed.

Lemma limb_fits n cols size col j (data : list Z) :
  col < cols -> j < size -> n * cols * size <= length data -> n * (j * cols + col) + n <= length data.
Proof. intros Hc Hj Hd. assert (j * cols + col + 1 <= cols * size) by nia. nia. Qed.

(* the fold of write_col, generalised over the starting limb index *)
Lemma write_col_aux n cols col size (limbs : list (list Z)) :
  forall data j0, 0 < n -> col < cols -> j0 + length limbs <= size ->
  n * cols * size <= length data ->
  let r := fst (fold_left (fun (s : list Z * nat) l => (write_limb n cols (fst s) col (snd s) l, S (snd s))) limbs (data, j0)) in
  length r = length data /\
  forall idx d, in_col n cols size col idx = false -> nth idx r d = nth idx data d.
Proof.
  induction limbs as [|l limbs IH]; intros data j0 Hn Hc Hsz Hlen; cbn [fold_left fst snd length] in *.
  - split; [reflexivity | intros; reflexivity].
  - assert (Hin : n * (j0 * cols + col) + n <= length data) by (apply (limb_fits n cols size); lia).
    specialize (IH (write_limb n cols data col j0 l) (S j0) Hn Hc ltac:(lia)).
    rewrite write_limb_length in IH by exact Hin.
    specialize (IH Hlen). cbn zeta in IH. destruct IH as [IHl IHn].
    split; [exact IHl|].
    intros idx d Hout. rewrite IHn by exact Hout.
    apply write_limb_outside with (size := size); try assumption; lia.
Qed.

Theorem write_col_frame n cols col size data (limbs : list (list Z)) :
  0 < n -> col < cols -> length limbs <= size -> n * cols * size <= length data ->
  length (write_col n cols data col limbs) = length data /\
  forall idx d, in_col n cols size col idx = false ->
    nth idx (write_col n cols data col limbs) d = nth idx data d.
Proof.
  intros Hn Hc Hl Hd. unfold write_col.
  exact (write_col_aux n cols col size limbs data 0 Hn Hc ltac:(lia) Hd).
Qed.

Lemma untranspose_length size cs : length (untranspose size cs) = size.
Proof. unfold untranspose. rewrite map_length, seq_length. reflexivity. Qed.

Lemma sequence_some {A} (l : list (option A)) (l' : list A) : sequence l = Some l' ->
  length l' = length l /\ forall i d d', (i < length l)%nat -> nth i l d = Some (nth i l' d').
Proof.
  revert l'; induction l as [|[x|] t IH]; intros l' H; cbn [sequence] in H; try discriminate.
  - injection H as <-. split; [reflexivity|]. intros i d d' Hi. cbn in Hi. lia.
  - destruct (sequence t) as [t'|] eqn:E; [|discriminate]. injection H as <-.
    destruct (IH t' eq_refl) as [Hl Hn]. split; [cbn [length]; lia|].
    intros [|i] d d' Hi; cbn [nth]; [reflexivity|]. apply Hn. cbn [length] in Hi. lia.
Qed.

Lemma transpose_length n c : length (transpose n c) = n.
Proof. unfold transpose. apply map_seq_length. Qed.
Lemma transpose_nth n c t : (t < n)%nat -> nth t (transpose n c) [] = map (fun l => nthZ l t) c.
Proof. intros H. unfold transpose. rewrite nth_map_seq by exact H. reflexivity. Qed.

Lemma lift_coeff_some f n rsize al rl out : lift_coeff f n rsize al rl = Some out ->
  exists cs, length cs = n /\ out = untranspose rsize cs /\
             forall t, (t < n)%nat -> f (map (fun l => nthZ l t) al) (map (fun l => nthZ l t) rl) = Some (nth t cs []).
Proof.
  unfold lift_coeff. destruct (sequence _) as [cs|] eqn:E; [|discriminate]. intros [= <-].
  destruct (sequence_some _ _ E) as [Hl Hn].
  rewrite map_length, combine_length, !transpose_length, Nat.min_id in Hl.
  exists cs. split; [exact Hl|]. split; [reflexivity|]. intros t Ht.
  specialize (Hn t None [] ltac:(rewrite map_length, combine_length, !transpose_length; lia)).
  rewrite <- Hn.
  rewrite (nth_indep _ None ((fun p => f (fst p) (snd p)) ([], [])))
    by (rewrite map_length, combine_length, !transpose_length; lia).
  rewrite (map_nth (fun p => f (fst p) (snd p))).
  rewrite combine_nth by (rewrite !transpose_length; reflexivity).
  rewrite !transpose_nth by exact Ht. reflexivity.
Qed.

Lemma lift_coeff_length f n rsize a_limbs r_limbs l :
  lift_coeff f n rsize a_limbs r_limbs = Some l -> length l = rsize.
Proof. intros H. destruct (lift_coeff_some _ _ _ _ _ _ H) as (cs & _ & -> & _). apply untranspose_length. Qed.

Lemma shape_ok_facts s data : shape_ok s data = true ->
  s_col s < s_cols s /\ s_size s <= s_max s /\ length data = s_n s * s_cols s * s_max s.
Proof.
  unfold shape_ok. intros H.
  apply andb_prop in H as [H H3]. apply andb_prop in H as [H1 H2].
  apply Nat.ltb_lt in H1. apply Nat.leb_le in H2. apply Nat.eqb_eq in H3. auto.
Qed.

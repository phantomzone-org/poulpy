(* C15 — circuit bootstrapping: composition of blind rotation (C14), rotation / trace / packing (C02, C03) and the
   GGLWE -> GGSW expansion (C04) into "every cell of the output GGSW encrypts the message of the input LWE" — the
   message being the constant m (constant mode) or the monomial X^(m * 2^log_gap_out) (exponent mode) — for every
   parameter set on which the rows of the ideal pipeline decode to that message ([cbt_rows_ok], a computation on the
   lookup table the code builds; Proofs/C15CbtGeneral.v proves it for all parameters the code accepts). *)
From Coq Require Import ZArith List Bool Lia.
From PV Require Import Gen.C15_gen Model.C15Uint Model.C15Cbt Proofs.C15Layout.
Import ListNotations.
Open Scope Z_scope.

Lemma poly_eqb_iff logn (p q : poly) : poly_eqb logn p q = true <-> forall j, 0 <= j < 2 ^ logn -> p j = q j.
Proof.
  unfold poly_eqb. rewrite forallb_forall. split; intros H j Hj.
  - apply Z.eqb_eq, H, in_zseq. lia.
  - apply in_zseq in Hj. apply Z.eqb_eq, H. lia.
Qed.

Lemma cbt_rows_ok_iff logn base2k dnum bb expo ld lgo m :
  cbt_rows_ok logn base2k dnum bb expo ld lgo m = true <->
  forall i, 0 <= i < dnum ->
    exists q, cb_row logn base2k dnum bb expo ld lgo m i = Some q /\
              forall j, 0 <= j < 2 ^ logn -> row_decoded base2k dnum bb i q j = cand logn expo lgo m j.
Proof.
  unfold cbt_rows_ok. rewrite forallb_forall. split; intros H i Hi.
  - specialize (H i ltac:(apply in_zseq; lia)).
    destruct (cb_row logn base2k dnum bb expo ld lgo m i) as [q|]; [|discriminate].
    exists q. split; [reflexivity|]. apply poly_eqb_iff, H.
  - apply in_zseq in Hi. destruct (H i ltac:(lia)) as (q & -> & Hq). apply poly_eqb_iff, Hq.
Qed.

Section Cells.
  Variables lwe glwe ggsw : Type.
  Variable blind_rotate : lwe -> glwe.
  Variable g_rot : Z -> glwe -> glwe.
  Variable g_trace : Z -> glwe -> glwe.
  Variable g_post : glwe -> glwe.
  Variable g_expand : list glwe -> ggsw.
  Variables (logn base2k dnum rank bb : Z) (expo : bool) (ld lgo : Z).
  Hypothesis Hdnum : 0 <= dnum.
  Let n := 2 ^ logn.

  Variable lwe_msg : lwe -> Z -> Prop.               (* ideal message of the LWE ciphertext: phase = m / 2^(ld+1) *)
  Variable enc_poly : glwe -> poly -> Prop.          (* ideal plaintext, in units of 2^-(base2k*dnum) *)
  (* cell (row, col) of the GGSW is an encryption of mp * s_col * 2^-(base2k*(row+1)) (s_0 = 1) *)
  Variable cell_enc : ggsw -> Z -> Z -> poly -> Prop.
  Variable quiet : glwe -> Prop.
  Variable quiet_ggsw : ggsw -> Prop.

  (* C14 (C14_blind_rotation_phase, C14_lut_set_then_rotate_selects of Props/C14.v): the accumulator is the table rotated by the message *)
  Hypothesis blind_rotation : forall l m, lwe_msg l m -> 0 <= m < 2 ^ ld -> quiet (blind_rotate l) ->
    enc_poly (blind_rotate l) (br_acc logn base2k dnum bb expo ld m).
  (* C02 (phase_rotate) *)
  Hypothesis rotate_phase : forall k c q, enc_poly c q -> enc_poly (g_rot k c) (p_rot n k q).
  (* C03 (trace) *)
  Hypothesis trace_phase : forall skip c q, enc_poly c q -> quiet (g_trace skip c) -> enc_poly (g_trace skip c) (p_trace n skip q).
  (* C03 (trace, rotate, pack as composed by post_process) *)
  Hypothesis post_phase : forall c q q', enc_poly c q -> post_process logn dnum ld lgo q = Some q' -> quiet (g_post c) ->
    enc_poly (g_post c) q'.
  (* C04 (GGLWE -> GGSW): when row i of column 0 encrypts mp at gadget level i, every cell (i, col) encrypts mp * s_col *)
  Hypothesis expand_rows : forall rows mp,
    length rows = Z.to_nat dnum ->
    (forall i, 0 <= i < dnum -> exists c q, nth_error rows (Z.to_nat i) = Some c /\ enc_poly c q /\
                                            forall j, 0 <= j < n -> row_decoded base2k dnum bb i q j = mp j) ->
    quiet_ggsw (g_expand rows) ->
    forall row col, 0 <= row < dnum -> 0 <= col <= rank -> cell_enc (g_expand rows) row col mp.

  Notation cbt_row_ct := (cbt_row_ct glwe g_rot g_trace g_post logn dnum expo ld).
  Notation cbt_rows_ct := (cbt_rows_ct lwe glwe blind_rotate g_rot g_trace g_post logn dnum expo ld).
  Notation cbt_ct := (cbt_ct lwe glwe ggsw blind_rotate g_rot g_trace g_post g_expand logn dnum expo ld).

  (* noise side condition: the accumulator, every row and the expanded GGSW stay below their decoding thresholds *)
  Definition cbt_quiet (l : lwe) : Prop :=
    quiet (blind_rotate l) /\ Forall quiet (cbt_rows_ct l) /\ quiet_ggsw (cbt_ct l).

  Theorem circuit_bootstrap_cells : forall l m,
    lwe_msg l m -> 0 <= m < 2 ^ ld ->
    cbt_rows_ok logn base2k dnum bb expo ld lgo m = true ->
    cbt_quiet l ->
    forall row col, 0 <= row < dnum -> 0 <= col <= rank ->
      cell_enc (cbt_ct l) row col (cand logn expo lgo m).
  Proof.
    intros l m Hl Hm Hok (Q1 & Q2 & Q3) row col Hrow Hcol.
    unfold C15Cbt.cbt_ct in *. apply expand_rows; auto.
    - unfold C15Cbt.cbt_rows_ct. now rewrite map_length, zseq_length.
    - intros i Hi. destruct (proj1 (cbt_rows_ok_iff _ _ _ _ _ _ _ _) Hok i Hi) as (q & Eq & Hq).
      exists (cbt_row_ct (blind_rotate l) i), q. split; [|split; [|exact Hq]].
      { unfold C15Cbt.cbt_rows_ct. rewrite nth_error_map.
        rewrite (nth_error_nth' _ 0) by (rewrite zseq_length; lia). rewrite nth_zseq by lia.
        cbn [option_map]. do 2 f_equal. lia. }
      assert (Qi : quiet (cbt_row_ct (blind_rotate l) i)).
      { rewrite Forall_forall in Q2. apply Q2. unfold C15Cbt.cbt_rows_ct. apply in_map. apply in_zseq.
        rewrite Z2Nat.id by lia. lia. }
      pose proof (blind_rotation l m Hl Hm Q1) as Hacc.
      pose proof (rotate_phase (- (i * cb_gap logn dnum ld)) _ _ Hacc) as Hrot.
      unfold cb_row in Eq. destruct (cb_asserts base2k dnum bb expo ld); [|discriminate].
      unfold C15Cbt.cbt_row_ct in *. cbv zeta in *. fold n in Eq.
      destruct expo.
      + eapply post_phase; eauto.
      + injection Eq as <-. apply trace_phase; auto.
  Qed.
End Cells.

(* C08, cross-radix normalisation with a negative offset, any word width wd: the pieces that only this case
   uses.  (1) steps over an all-zero limb with a carry slightly above the headroom, (2) the top phase over
   zero limbs, (3) gapbits_phase: rounding a carry through gap bits in chunks of 32 with a cap. *)
From PV Require Import Base.MachineInt Model.Znx Model.Limbs
  Proofs.ZnxDigit Proofs.C08Steps Proofs.C08Chain Proofs.C08Loops Proofs.C08CrossInner
  Proofs.C08WChain Proofs.C08WLoops Proofs.C08WCrossInner.
Open Scope Z_scope.

Section ZeroLimb.
Variable wd : Z.
Variable b : Z.
Hypothesis Hwd : 5 <= wd.
Hypothesis Hb : 1 <= b <= wd - 2.

Let M := 2 ^ (wd - 2).

Lemma M_facts : 8 <= M /\ 2 ^ (wd - 1) = 2 * M /\ 2 * 2 ^ (b - 1) <= M /\ 0 < 2 ^ (b - 1) /\ 2 ^ b = 2 * 2 ^ (b - 1).
Proof.
  unfold M. split; [|split; [|split; [|split]]].
  - change 8 with (2 ^ 3). apply pow2_le_mono; lia.
  - apply pow_wd1; lia.
  - rewrite <- pow2_split by lia. apply pow2_le_mono; lia.
  - apply pow2_pos; lia.
  - apply pow2_split; lia.
Qed.

Lemma digit_carry_slack (c : Z) : Z.abs c <= M + 1 ->
  get_digit wd b c = wrap b c /\ get_carry wd b c (get_digit wd b c) = bdiv b c.
Proof.
  intros Hc. destruct M_facts as (M8 & Mw & Mb & Hp & Hs).
  assert (Hd : get_digit wd b c = wrap b c) by (apply digit_spec; lia).
  split; [exact Hd|].
  pose proof (wrap_range b c ltac:(lia)) as [Hr1 Hr2].
  pose proof (wrap_bdiv b c ltac:(lia)) as Hdec.
  assert (Hr : in_range wd (c - get_digit wd b c)).
  { rewrite Hd. unfold in_range. rewrite Mw. lia. }
  pose proof (carry_spec wd b c ltac:(lia) Hr) as Hcs. rewrite Hd in *.
  pose proof (pow2_pos b ltac:(lia)). nia.
Qed.

Lemma middle_core_zero (c : Z) : Z.abs c <= M + 1 ->
  middle_core wd b 0 0 c = (wrap b c, bdiv b c).
Proof.
  intros Hc. destruct M_facts as (M8 & Mw & Mb & Hp & Hs).
  unfold middle_core. rewrite Z.eqb_refl. cbv zeta.
  assert (Ed0 : get_digit wd b 0 = 0) by (rewrite digit_spec by lia; apply wrap_zero; lia).
  rewrite Ed0.
  assert (Ec0 : get_carry wd b 0 0 = 0).
  { unfold get_carry, wsub, asr. rewrite Z.sub_0_r, wrap_id; [apply Z.div_0_l; pose proof (pow2_pos b ltac:(lia)); lia|lia|].
    unfold in_range. rewrite Mw. lia. }
  rewrite Ec0.
  assert (Ea : wadd wd 0 c = c).
  { unfold wadd. rewrite Z.add_0_l. apply wrap_id; [lia|]. unfold in_range. rewrite Mw. lia. }
  rewrite Ea. destruct (digit_carry_slack c Hc) as [E1 E2]. rewrite E2, E1. f_equal.
  pose proof (bdiv_abs b c ltac:(lia)) as Hk.
  unfold wadd. rewrite Z.add_0_l. apply wrap_id; [lia|]. unfold in_range. rewrite Mw.
  pose proof (pow2_pos b ltac:(lia)).
  assert (Z.abs (bdiv b c) <= M + 1); [|lia].
  destruct (Z_le_gt_dec (Z.abs (bdiv b c)) (M + 1)) as [|Hgt]; auto. exfalso.
  assert ((M + 2) * 2 ^ b <= Z.abs (bdiv b c) * 2 ^ b) by (apply Z.mul_le_mono_nonneg_r; lia). nia.
Qed.

Lemma final_core_zero (c : Z) : Z.abs c <= M + 1 -> final_core wd b 0 0 c = wrap b c.
Proof.
  intros Hc. destruct M_facts as (M8 & Mw & Mb & Hp & Hs).
  unfold final_core. rewrite Z.eqb_refl.
  assert (Ed0 : get_digit wd b 0 = 0) by (rewrite digit_spec by lia; apply wrap_zero; lia).
  rewrite Ed0.
  assert (Ea : wadd wd 0 c = c).
  { unfold wadd. rewrite Z.add_0_l. apply wrap_id; [lia|]. unfold in_range. rewrite Mw. lia. }
  rewrite Ea. apply digit_spec. lia.
Qed.

Lemma car_zseq_slack (c : Z) (j : nat) : Z.abs c <= M + 1 -> Z.abs (car b zseq c j) <= M + 1.
Proof.
  intros Hc. destruct M_facts as (M8 & Mw & Mb & Hp & Hs).
  apply (car_bound b ltac:(lia) (M + 1)); [lia| |exact Hc].
  intros t Ht. unfold zseq. cbn [Z.abs]. nia.
Qed.

(* top_phase over limbs that hold 0: the digits of the carry *)
Lemma top_zero (re : nat) (r : list Z) (c : Z) :
  (forall i, (i < re)%nat -> nthZ r i = 0) -> Z.abs c <= M + 1 ->
  let out := fst (top_phase wd false b 0 re (r, c)) in
  length out = length r /\
  forall i, nthZ out i =
    if (Nat.ltb i re && Nat.ltb i (length r))%bool then dig b zseq c (re - 1 - i) else nthZ r i.
Proof.
  intros Hr0 Hc. cbv zeta. unfold top_phase.
  match goal with |- context [fold_left ?f _ _] => set (body := f) end.
  pose proof (fold_left_seq_ind body (fun j (s : list Z * Z) =>
    ((j < re)%nat -> snd s = car b zseq c j) /\ length (fst s) = length r /\
    forall i, nthZ (fst s) i =
      if (Nat.leb (re - j) i && Nat.ltb i re && Nat.ltb i (length r))%bool
      then dig b zseq c (re - 1 - i) else nthZ r i) re (r, c)) as HI.
  destruct HI as (_ & I2 & I3).
  - cbn [fst snd]. split; [reflexivity|]. split; [reflexivity|].
    intros i. natb; try reflexivity; lia.
  - intros j [r' c'] Hj (Ic & Il & In). unfold body. cbn [fst snd] in *.
    specialize (Ic Hj). subst c'.
    assert (Hcj : Z.abs (car b zseq c j) <= M + 1) by (apply car_zseq_slack; exact Hc).
    assert (Er : nthZ r' (re - j - 1) = 0).
    { rewrite In. natb; try lia; apply Hr0; lia. }
    rewrite Er.
    assert (Edig : wrap b (car b zseq c j) = dig b zseq c j).
    { unfold dig, zseq. rewrite Z.add_0_l. reflexivity. }
    assert (Hup : length (upd r' (re - j - 1) (dig b zseq c j)) = length r /\
      forall i, nthZ (upd r' (re - j - 1) (dig b zseq c j)) i =
        if (Nat.leb (re - S j) i && Nat.ltb i re && Nat.ltb i (length r))%bool
        then dig b zseq c (re - 1 - i) else nthZ r i).
    { split; [rewrite upd_length; exact Il|].
      intros i. rewrite nth_upd, Il, In. clear - Hj.
      destruct (Nat.eqb_spec i (re - j - 1)) as [Ei|Ei].
      - subst i. natb; try lia; try reflexivity.
        replace (re - 1 - (re - j - 1))%nat with j by lia. reflexivity.
      - cbn [andb]. natb; try lia; reflexivity. }
    destruct (Nat.eqb_spec j (re - 1)) as [E|E].
    + unfold final_step_assign. rewrite final_core_zero by exact Hcj. rewrite Edig. cbn [fst snd].
      split; [intros; lia|exact Hup].
    + unfold middle_step_assign. rewrite middle_core_zero by exact Hcj. rewrite Edig. cbn [fst snd].
      split; [intros _; rewrite car_S; unfold zseq at 1; rewrite Z.add_0_l; reflexivity|exact Hup].
  - split; [exact I2|]. intros i. rewrite I3. natb; try reflexivity; lia.
Qed.

End ZeroLimb.

Section GapBits.
Variable wd : Z.
Hypothesis Hwd : 34 <= wd.

Let M := 2 ^ (wd - 2).

Lemma M_pos : 0 < M.
Proof. unfold M. apply pow2_pos; lia. Qed.

(* one chunk: a carry-only middle step of radix t over a zero limb *)
Lemma chunk_step (t c : Z) : 1 <= t <= 32 -> Z.abs c <= M ->
  middle_step_carry_only wd t 0 0 c = bdiv t c /\ Z.abs (bdiv t c) <= M.
Proof.
  intros Ht Hc. pose proof M_pos as HM. unfold middle_step_carry_only.
  rewrite (mcW wd t ltac:(lia) 0 0 c ltac:(lia)); [|fold M; cbn [Z.abs]; lia|exact Hc].
  cbn [snd]. rewrite Z.mul_0_l, Z.add_0_l. split; [reflexivity|].
  replace c with (0 + c) by lia. apply bdiv_chain; [lia|lia| |exact Hc].
  cbn [Z.abs]. pose proof (pow2_pos (t - 1) ltac:(lia)). nia.
Qed.

(* the general run: c = S + 2^g c' with |S| <= 2^g - 1 (mixed-radix balanced digits) *)
Lemma gapbits_chain : forall (fuel : nat) (g c : Z), 0 <= g <= 32 * Z.of_nat fuel -> Z.abs c <= M ->
  let c' := gapbits_phase wd fuel g c in
  exists S, c = S + 2 ^ g * c' /\ Z.abs S <= 2 ^ g - 1 /\ Z.abs c' <= M /\ (c = 0 -> c' = 0).
Proof.
  induction fuel as [|f IH]; intros g c Hg Hc; cbv zeta.
  - assert (g = 0) by lia. subst g. cbn [gapbits_phase]. exists 0.
    change (2 ^ 0) with 1. split; [lia|]. split; [cbn; lia|]. split; [exact Hc|auto].
  - cbn [gapbits_phase]. destruct (Z.eqb_spec g 0) as [E|E].
    + subst g. exists 0. change (2 ^ 0) with 1. split; [lia|]. split; [cbn; lia|]. split; [exact Hc|auto].
    + set (t := Z.min g 32).
      assert (Ht : 1 <= t <= 32 /\ t <= g) by (unfold t; lia).
      destruct (chunk_step t c ltac:(lia) Hc) as [Es Hb]. rewrite Es.
      destruct (IH (g - t) (bdiv t c) ltac:(lia) Hb) as (S1 & E1 & B1 & B2 & B3). cbv zeta in E1, B1, B2, B3.
      set (c' := gapbits_phase wd f (g - t) (bdiv t c)) in *.
      pose proof (wrap_bdiv t c ltac:(lia)) as Hdec.
      pose proof (wrap_range t c ltac:(lia)) as Hdr.
      exists (wrap t c + 2 ^ t * S1).
      assert (Eg : 2 ^ g = 2 ^ t * 2 ^ (g - t)) by (rewrite <- pow2_add by lia; f_equal; lia).
      split; [rewrite Eg; rewrite <- Hdec at 1; rewrite E1 at 1; ring|].
      split; [rewrite Eg; apply pieces_bound; [lia|lia|exact Hdr|exact B1]|].
      split; [exact B2|].
      intros E0. apply B3. subst c. apply bdiv_zero. lia.
Qed.

(* k chunks of 32 bits = k steps of the radix-2^32 chain over zero limbs *)
Lemma gapbits_full : forall (fuel k : nat) (c : Z), (k <= fuel)%nat -> Z.abs c <= M ->
  gapbits_phase wd fuel (32 * Z.of_nat k) c = car 32 zseq c k.
Proof.
  induction fuel as [|f IH]; intros k c Hk Hc.
  - assert (k = 0%nat) by lia. subst k. reflexivity.
  - destruct k as [|k]; [reflexivity|].
    cbn [gapbits_phase]. destruct (Z.eqb_spec (32 * Z.of_nat (S k)) 0) as [E|_]; [lia|].
    replace (Z.min (32 * Z.of_nat (S k)) 32) with 32 by lia.
    destruct (chunk_step 32 c ltac:(lia) Hc) as [Es Hb]. rewrite Es.
    replace (32 * Z.of_nat (S k) - 32) with (32 * Z.of_nat k) by lia.
    rewrite IH by (auto; lia). rewrite car_zseq_S. reflexivity.
Qed.

(* a carry within the headroom vanishes after kc chunks of 32 bits when 32 (kc - 1) >= wd - 2 *)
Lemma gapbits_vanish (fuel kc : nat) (c : Z) : (1 <= kc <= fuel)%nat -> wd - 2 <= 32 * (Z.of_nat kc - 1) ->
  Z.abs c <= M -> gapbits_phase wd fuel (32 * Z.of_nat kc) c = 0.
Proof.
  intros Hk Hcap Hc. rewrite gapbits_full by (auto; lia).
  replace kc with (S (kc - 1)) by lia. rewrite car_S. unfold zseq at 1. rewrite Z.add_0_l.
  assert (Hs : Z.abs (car 32 zseq c (kc - 1)) <= 1).
  { apply (car_zseq_small_w 32 ltac:(lia) (kc - 1) (wd - 2) c ltac:(lia)); [|exact Hc].
    unfold zn. rewrite Nat2Z.inj_sub by lia. change (Z.of_nat 1) with 1. lia. }
  set (x := car 32 zseq c (kc - 1)) in *. unfold bdiv.
  change (2 ^ (32 - 1)) with 2147483648. change (2 ^ 32) with 4294967296.
  apply Z.div_small. lia.
Qed.

(* the capped run used by the cross-radix routines: capbits = 32 kc *)
Lemma gapbits_spec (kc : nat) (G c : Z) : (1 <= kc <= 8)%nat -> wd - 2 <= 32 * (Z.of_nat kc - 1) ->
  0 <= G -> Z.abs c <= M ->
  let c' := gapbits_phase wd 8 (Z.min G (32 * Z.of_nat kc)) c in
  exists S, c = S + 2 ^ G * c' /\ Z.abs S <= 2 ^ G - 1 /\ Z.abs c' <= M /\ (c = 0 -> c' = 0).
Proof.
  intros Hk Hcap HG Hc. cbv zeta. pose proof M_pos as HM.
  destruct (Z_le_gt_dec G (32 * Z.of_nat kc)) as [Hle|Hgt].
  - rewrite Z.min_l by lia. apply gapbits_chain; [lia|exact Hc].
  - rewrite Z.min_r by lia. rewrite gapbits_vanish by (auto; lia).
    exists c. split; [lia|]. split; [|split; [cbn [Z.abs]; lia|auto]].
    assert (2 ^ (wd - 2) <= 2 ^ (G - 1)) by (apply pow2_le_mono; lia).
    pose proof (pow2_split G ltac:(lia)). pose proof (pow2_pos (G - 1) ltac:(lia)). fold M in H. lia.
Qed.

End GapBits.

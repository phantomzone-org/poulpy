(* C08 encoding, end to end on flat buffers: the records 8301 / 8302 / 8303 of `run_c08_enc` (encode, then decode at the
   same precision) return the per-coefficient round trips, with everything outside the written words unchanged. *)
From PV Require Import Base.MachineInt Model.Znx Model.Limbs Model.Flat Model.C08Encode Proofs.C11Frame
  Proofs.C08EncodeSpec Proofs.C08EncodeCoef Proofs.C08EncodeDec Proofs.C08EncodeMain Proofs.C08EncodeFlat Proofs.ListFacts.
From Coq Require Import Arith PeanoNat.
Open Scope Z_scope.

Lemma e_ok_length s (buf buf' : list Z) : length buf' = length buf -> e_ok s buf' = e_ok s buf.
Proof. intros H. unfold e_ok, shape_ok. rewrite H. reflexivity. Qed.

(* records 8301 / 8302: encode with `enc k`, decode at width w on a data vector of the ring degree; every entry fits,
   so the decoded vector is the input *)
Theorem flat_rt_vec (w : Z) (enc : Z -> nat -> Z -> list Z) (allow0 dbg : bool) (b k : Z) s (buf data : list Z) :
  1 <= b <= 62 -> codec b w enc (dec_vec w b) ->
  1 <= k <= Z.of_nat (s_size s) * b -> e_ok s buf = true -> length data = s_n s ->
  Forall (fun v => in_range w v /\ enc_fits b k v = true) data ->
  exists buf',
    e_bind (enc_vec_flat (enc k) allow0 b k s buf data) (fun buf' =>
      e_bind (dec_vec_flat w b k dbg s buf' (zeros (s_n s))) (fun d => Some [buf'; d]))
    = Some [buf'; data]
    /\ length buf' = length buf
    /\ (forall idx d, e_in_col (s_n s) (s_cols s) (s_size s) (s_col s) idx = false -> nth idx buf' d = nth idx buf d)
    /\ e_coeffs s buf' = map (enc k (s_size s)) data.
Proof.
  intros Hb C Hk Hok Hd Hf. rewrite Forall_forall in Hf.
  destruct (enc_params b k ltac:(lia) ltac:(lia)) as (Esz & Hr & Hs1).
  pose proof (enc_size_le b k (s_size s) ltac:(lia) Hk) as Hs2.
  assert (E2 : Nat.leb (enc_size b k) (s_size s) = true) by (apply Nat.leb_le; lia).
  destruct (enc_vec_flat (enc k) allow0 b k s buf data) as [buf'|] eqn:E.
  2:{ exfalso. unfold enc_vec_flat in E. rewrite Hok, Hd, Nat.eqb_refl, E2 in E.
      assert (E1 : Nat.leb 1 (enc_size b k) = true) by (apply Nat.leb_le; lia).
      rewrite E1, orb_true_r in E. discriminate. }
  exists buf'.
  destruct (enc_vec_flat_frame _ _ _ _ _ _ _ _ E) as [L F].
  assert (Cf : e_coeffs s buf' = map (enc k (s_size s)) data).
  { apply (enc_vec_flat_coeffs _ _ _ _ _ _ _ _ E). intros v Hv.
    apply (enc_digits b Hb w enc _ C k (s_size s) v Hk). apply Hf. exact Hv. }
  split; [|split; [exact L|split; [exact F|exact Cf]]].
  cbn [e_bind]. unfold dec_vec_flat. rewrite (e_ok_length s buf buf' L), Hok, zeros_length.
  rewrite E2, orb_true_r, Nat.eqb_refl, Nat.leb_refl, orb_true_r.
  assert (Ec : (if w =? 64 then true else true) = true) by (destruct (w =? 64); reflexivity).
  rewrite Ec. cbn [andb e_bind]. rewrite Cf, map_map.
  rewrite firstn_all2 by (rewrite map_length; lia).
  rewrite skipn_all2 by (rewrite zeros_length; lia).
  assert (Ed : map (fun v => dec_vec w b k (enc k (s_size s) v)) data = data).
  { rewrite <- (map_id data) at 2. apply map_ext_in. intros v Hv. destruct (Hf v Hv) as [H1 H2].
    apply (rt_fits b Hb w enc _ C); assumption. }
  rewrite Ed. cbn [map]. destruct (k <? b); rewrite app_nil_r; reflexivity.
Qed.

(* Key-row lemma for the modelled encryption routines: the value-level body equation of a key / GGSW cell implies the key-row
   hypothesis of the phase theorems (key_rows_ok / C04_ggsw_cells), with the same error e and the explicit integer part I = J. *)
From PV Require Import Base.MachineInt Model.Znx Model.Limbs Model.Flat Model.Ring Model.Poly Model.DftAbs Model.Gadget Model.GadgetSpec Model.GadgetEnc Proofs.C07Dft Proofs.C07Ring Proofs.GadgetDecomp Proofs.GadgetPhase Proofs.C03Phase Proofs.C04Phase.
Open Scope Z_scope.

Section EncTools.
Lemma psumf_single n (g : nat -> list Z) c m : (c < m)%nat -> (forall i, length (g i) = n) ->
  psumf n (fun i => if Nat.eqb i c then g i else pzero n) m = g c.
Proof.
  intros Hc Hg. apply list_eq_nth.
  - rewrite Hg. apply psumf_length. intros i _. destruct (Nat.eqb i c); [apply Hg|apply pzero_length].
  - intros k _. rewrite psumf_coeff by (intros i _; destruct (Nat.eqb i c); [apply Hg|apply pzero_length]).
    rewrite <- (zsum_single (fun i => nth k (g i) 0) c m Hc). apply zsum_ext; intros i _.
    destruct (Nat.eqb i c); [reflexivity|apply nth_pzero].
Qed.

Lemma kphase_cols P b n cols_out msize K Sk q :
  kphase P b n cols_out msize K Sk q = psumf n (fun co => pmul (kcol P b n cols_out msize K q co) (Sk co)) cols_out.
Proof. reflexivity. Qed.

Lemma kcol_length P b n cols_out msize K rows q co : wf_pmat_in n rows (msize * cols_out) K -> (q < rows)%nat -> (co < cols_out)%nat ->
  length (kcol P b n cols_out msize K q co) = n.
Proof.
  intros HK Hq Hc. unfold kcol. apply pval_length. intros j Hj. apply HK; [exact Hq|]. apply flat_in; assumption.
Qed.
End EncTools.

Section EncRows.
Variables (P b : Z) (n cin rank msize dsize dnum : nat).
Variable K : pmat.
Variable Sk : nat -> list Z.
Variables (src : nat -> list Z) (e J : nat -> nat -> list Z).
Hypothesis Hn : (1 <= n)%nat.
Hypothesis HK : wf_pmat_in n (dnum * cin) (msize * S rank) K.
Hypothesis HS : forall co, length (Sk co) = n.
Hypothesis HS0 : Sk 0%nat = pone n.
Hypothesis Hsrc : forall ci, length (src ci) = n.
Hypothesis He : forall row ci, length (e row ci) = n.
Hypothesis HJ : forall row ci, length (J row ci) = n.
Hypothesis body_ok : enc_body_ok P b n cin rank msize dsize dnum K Sk src e J.

(* (a) the key-row hypothesis follows from the body equation of the encryption routine *)
Theorem key_rows_of_enc_body : key_rows_ok P b n cin (S rank) msize dsize dnum K Sk src e J.
Proof.
  intros row ci Hrow Hci. set (q := (row * cin + ci)%nat).
  assert (Hq : (q < dnum * cin)%nat) by (apply flat_in; assumption).
  assert (LC : forall co, (co < S rank)%nat -> length (kcol P b n (S rank) msize K q co) = n)
    by (intros; apply (kcol_length P b n (S rank) msize K (dnum * cin)); assumption).
  rewrite kphase_cols.
  rewrite psumf_shift by (intros co Hco; rewrite pmul_length; apply LC; exact Hco).
  fold (kmask P b n (S rank) msize K Sk rank q).
  rewrite HS0, (pmul_pone_r n _ Hn (LC 0%nat ltac:(lia))).
  pose proof (body_ok row ci Hrow Hci) as Eb. fold q in Eb. rewrite Eb. clear Eb.
  set (M := kmask P b n (S rank) msize K Sk rank q).
  assert (LM : length M = n).
  { unfold M, kmask. apply psumf_length. intros i Hi. rewrite pmul_length. apply LC. lia. }
  set (pt := pscale (2 ^ (P - (Z.of_nat row + 1) * Z.of_nat dsize * b)) (src ci)).
  assert (Lpt : length pt = n) by (unfold pt; rewrite pscale_length; apply Hsrc).
  set (JJ := pscale (2 ^ P) (J row ci)).
  assert (LJ : length JJ = n) by (unfold JJ; rewrite pscale_length; apply HJ).
  pose proof (He row ci) as Le.
  pcoeff n. ring.
Qed.
End EncRows.

Section GgswRows.
Variables (P b : Z) (n rank msize dsize dnum : nat).
Variable K : pmat.
Variable Sk : nat -> list Z.
Variable m2 : list Z.
Variables (e J : nat -> nat -> list Z).
Hypothesis Hn : (1 <= n)%nat.
Hypothesis HK : wf_pmat_in n (dnum * S rank) (msize * S rank) K.
Hypothesis HS : forall co, length (Sk co) = n.
Hypothesis HS0 : Sk 0%nat = pone n.
Hypothesis Hm2 : length m2 = n.
Hypothesis He : forall row ci, length (e row ci) = n.
Hypothesis HJ : forall row ci, length (J row ci) = n.
Hypothesis body_ok : ggsw_body_ok P b n rank msize dsize dnum K Sk m2 e J.

(* the GGSW body equations (plaintext subtracted from mask column col) are the GGLWE body equation with src_col = m2 (x) Sk col *)
Theorem enc_body_of_ggsw_body : enc_body_ok P b n (S rank) rank msize dsize dnum K Sk (fun ci => pmul m2 (Sk ci)) e J.
Proof.
  intros row col Hrow Hcol. pose proof (body_ok row col Hrow Hcol) as Eb. cbv zeta in Eb.
  set (q := (row * S rank + col)%nat) in *.
  assert (Hq : (q < dnum * S rank)%nat) by (apply flat_in; assumption).
  assert (LC : forall co, (co < S rank)%nat -> length (kcol P b n (S rank) msize K q co) = n)
    by (intros; apply (kcol_length P b n (S rank) msize K (dnum * S rank)); assumption).
  set (r := 2 ^ (P - (Z.of_nat row + 1) * Z.of_nat dsize * b)) in *.
  set (pt := pscale r m2) in *.
  assert (Lpt : length pt = n) by (unfold pt; rewrite pscale_length; exact Hm2).
  rewrite Eb. clear Eb.
  set (JJ := pscale (2 ^ P) (J row col)).
  assert (LJ : length JJ = n) by (unfold JJ; rewrite pscale_length; apply HJ).
  pose proof (He row col) as Le.
  set (M := kmask P b n (S rank) msize K Sk rank q).
  assert (LM : length M = n).
  { unfold M, kmask. apply psumf_length. intros i Hi. rewrite pmul_length. apply LC. lia. }
  destruct col as [|c].
  - (* col = 0 : no mask column is touched, the plaintext goes to the body *)
    cbn [Nat.eqb].
    assert (E1 : psumf n (fun i => pmul (kcol P b n (S rank) msize K q (S i)) (Sk (S i))) rank = M) by reflexivity.
    rewrite E1. do 2 f_equal. unfold pt. rewrite HS0, (pmul_pone_r n m2 Hn Hm2). reflexivity.
  - (* col = c+1 : mask column c+1 enters the product as (a - pt) *)
    assert (Hc : (c < rank)%nat) by lia.
    assert (E1 : psumf n (fun i => pmul (if Nat.eqb (S i) (S c) then psub (kcol P b n (S rank) msize K q (S i)) pt
                                         else kcol P b n (S rank) msize K q (S i)) (Sk (S i))) rank
                 = psub M (pmul pt (Sk (S c)))).
    { unfold M, kmask.
      rewrite <- (psumf_single n (fun i => pmul pt (Sk (S i))) c rank Hc) by (intros; rewrite pmul_length; exact Lpt).
      rewrite <- psumf_psub.
      - apply psumf_ext; intros i Hi. cbn [Nat.eqb]. destruct (Nat.eqb i c).
        + apply pmul_psub_distr_r; rewrite ?HS, ?Lpt, LC by lia; reflexivity.
        + symmetry. apply psub_pzero_r. rewrite pmul_length. apply LC. lia.
      - intros i Hi. rewrite pmul_length. apply LC. lia.
      - intros i Hi. destruct (Nat.eqb i c); [rewrite pmul_length; exact Lpt|apply pzero_length]. }
    rewrite E1. cbn [Nat.eqb].
    assert (E2 : pscale r (pmul m2 (Sk (S c))) = pmul pt (Sk (S c))) by (unfold pt; rewrite pscale_pmul_l; reflexivity).
    rewrite E2. set (X := pmul pt (Sk (S c))).
    assert (LX : length X = n) by (unfold X; rewrite pmul_length; exact Lpt).
    pcoeff n. ring.
Qed.

Corollary ggsw_cells_of_ggsw_body : key_rows_ok P b n (S rank) (S rank) msize dsize dnum K Sk (fun ci => pmul m2 (Sk ci)) e J.
Proof.
  apply key_rows_of_enc_body; try assumption; [intros; rewrite pmul_length; exact Hm2|apply enc_body_of_ggsw_body].
Qed.
End GgswRows.

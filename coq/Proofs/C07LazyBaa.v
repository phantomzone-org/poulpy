(* C07: the baa accumulator (q120a x q120a). *)
From PV Require Import Base.MachineInt Model.C07Ntt120 Proofs.C07Ntt Proofs.C07Lazy.
Open Scope Z_scope.

Definition baa_pair_ok (p : Z * Z) : Prop := is_u32 (fst p) /\ is_u32 (snd p).
Definition baa_dot (xy : list (Z * Z)) : Z := lsum (map (fun p => fst p * snd p) xy).
Definition baa_exact (h q : Z) (xy : list (Z * Z)) : Z :=
  lsum (map (fun p => (fst p * snd p) mod 2 ^ h) xy) + lsum (map (fun p => (fst p * snd p) / 2 ^ h) xy) * pow2_mod h q.

Section Baa.
Variables (h q : Z) (xy : list (Z * Z)).
Hypothesis Hh : 45 <= h <= 47.           (* BaaMeta::new finds 46 / 47 / 45 for Primes29 / 30 / 31 *)
Hypothesis Hq : 2 ^ 15 <= q < 2 ^ 31.
Hypothesis Hell : Z.of_nat (length xy) <= baa_max_ell.
Hypothesis Hok : forall p, In p xy -> baa_pair_ok p.

Lemma baa_term p : baa_pair_ok p ->
  u64 (fst p * snd p) = fst p * snd p /\ 0 <= (fst p * snd p) mod 2 ^ h <= 2 ^ 47 - 1 /\ 0 <= (fst p * snd p) / 2 ^ h <= 2 ^ 19 - 1.
Proof.
  intros [Hx Hy]. pose proof (mul_u32_bound _ _ Hx Hy) as B.
  split; [apply u64_mul_u32; assumption|].
  destruct (split_bounds h 45 47 (fst p * snd p) _ (2 ^ 19 - 1) ltac:(lia) B eq_refl) as [L D]. lia.
Qed.

Theorem lazy_budget_baa : baa_k h q xy = baa_exact h q xy /\ 0 <= baa_exact h q xy < 2 ^ 64.
Proof.
  unfold baa_k, baa_exact. cbv zeta. rewrite !map_map.
  destruct (sum64_map_exact (fun p => u64 (fst p * snd p) mod 2 ^ h) (fun p => (fst p * snd p) mod 2 ^ h) xy baa_max_ell (2 ^ 47 - 1))
    as [-> B1]; try (exact Hell || reflexivity || discriminate).
  { intros p Hp. destruct (baa_term p (Hok p Hp)) as (-> & B & _). exact (conj eq_refl B). }
  destruct (sum64_map_exact (fun p => u64 (fst p * snd p) / 2 ^ h) (fun p => (fst p * snd p) / 2 ^ h) xy baa_max_ell (2 ^ 19 - 1))
    as [-> B2]; try (exact Hell || reflexivity || discriminate).
  { intros p Hp. destruct (baa_term p (Hok p Hp)) as (-> & _ & B). exact (conj eq_refl B). }
  assert (P : 0 <= pow2_mod h q <= 2 ^ 31) by (unfold pow2_mod; pose proof (Z.mod_pos_bound (2 ^ h) q); change (2 ^ 15) with 32768 in Hq; lia).
  pose proof (mul_bound _ _ _ _ B2 P) as B3. unfold baa_max_ell in *.
  rewrite (u64_id (_ * pow2_mod h q)), u64_id by lia. split; [reflexivity|lia].
Qed.

Theorem baa_congr : baa_k h q xy mod q = baa_dot xy mod q.
Proof.
  destruct lazy_budget_baa as [-> _]. unfold baa_exact, baa_dot, pow2_mod.
  assert (Hq' : 0 < q) by (change (2 ^ 15) with 32768 in Hq; lia).
  assert (Hp : 0 < 2 ^ h) by (apply pow2_pos; lia).
  rewrite (lsum_map_ext (fun p => fst p * snd p) (fun p => (fst p * snd p) mod 2 ^ h + 2 ^ h * ((fst p * snd p) / 2 ^ h)))
    by (intros p _; pose proof (Z.div_mod (fst p * snd p) (2 ^ h) ltac:(lia)); lia).
  rewrite lsum_map_add, lsum_map_scale.
  rewrite Z.add_mod, Z.mul_mod_idemp_r, <- Z.add_mod by lia. f_equal. ring.
Qed.
End Baa.

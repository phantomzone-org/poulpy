(* C17 - op_total for cross-radix normalisation, add_scalar, ring splitting / merging and the DFT-domain shape functions:
   the checked twins of Model/C17Ops2.v never fail and agree with the shared models. *)
From PV Require Import Base.MachineInt Model.Znx Model.Limbs Model.LimbsBig Model.Ring Model.DftAbs Model.C17Ops Model.C17Ops2
  Proofs.C17Total Proofs.ListFacts.
From Coq Require Import Arith PeanoNat.
Open Scope Z_scope.

Lemma getn_in (l : list Z) (i : nat) : (i < length l)%nat -> getn l i = Some (nthZ l i).
Proof. apply getc_in. Qed.
Lemma updn_in (l : list Z) (i : nat) (x : Z) : (i < length l)%nat -> updn l i x = Some (upd l i x).
Proof. apply updc_in. Qed.

Section W.
Variable w : Z.

(* the two shared models are the two instances of the generic routine *)
Lemma normalize_cross_is_g (rb ab off : Z) (a r0 : list Z) :
  normalize_cross w rb ab off a r0 = normalize_cross_g w 128 rb ab off a r0.
Proof. reflexivity. Qed.
Lemma normalize_cross_big_is_g (rb ab off : Z) (a r0 : list Z) :
  normalize_cross_big w rb ab off a r0 = normalize_cross_g w 192 rb ab off a r0.
Proof. reflexivity. Qed.

Definition cst_ok (L : nat) (s : cstate) : Prop := length (c_res s) = L /\ (c_rlimb s < L)%nat.

Lemma cross_inner_total (rb ab : Z) (a_limb : nat) (L : nat) : forall (fuel : nat) (s : cstate),
  cst_ok L s ->
  cross_inner_c w fuel rb ab a_limb s = Some (cross_inner w fuel rb ab a_limb s) /\
  cst_ok L (fst (cross_inner w fuel rb ab a_limb s)).
Proof.
  induction fuel as [|f IH]; intros s (HL & HR); [cbn; unfold cst_ok; auto|].
  cbn [cross_inner_c cross_inner].
  set (a_take := Z.min (Z.min ab (c_atake s)) (c_racc s)).
  (* first block: s1 *)
  set (s1 := if a_take =? 0 then s else
       let scale := rb - c_racc s in
       let '(r', n') := extract_digit_addmul w a_take scale (nthZ (c_res s) (c_rlimb s)) (c_anorm s) in
       {| c_res := upd (c_res s) (c_rlimb s) r'; c_anorm := n'; c_acarry := c_acarry s; c_rcarry := c_rcarry s;
          c_atake := c_atake s - a_take; c_racc := c_racc s - a_take; c_rlimb := c_rlimb s |}).
  assert (E1 : (if a_take =? 0 then Some s else
        let scale := rb - c_racc s in
        xr <- getn (c_res s) (c_rlimb s) ;;
        let '(r', n') := extract_digit_addmul w a_take scale xr (c_anorm s) in
        res' <- updn (c_res s) (c_rlimb s) r' ;;
        Some {| c_res := res'; c_anorm := n'; c_acarry := c_acarry s; c_rcarry := c_rcarry s;
                c_atake := c_atake s - a_take; c_racc := c_racc s - a_take; c_rlimb := c_rlimb s |}) = Some s1 /\ cst_ok L s1).
  { unfold s1. destruct (a_take =? 0); [unfold cst_ok; auto|]. cbv zeta.
    rewrite getn_in by lia. cbn [bindo].
    destruct (extract_digit_addmul w a_take (rb - c_racc s) (nthZ (c_res s) (c_rlimb s)) (c_anorm s)) as [r' n'].
    rewrite updn_in by lia. cbn [bindo]. split; [reflexivity|]. unfold cst_ok; cbn. rewrite upd_length. auto. }
  destruct E1 as (E1 & (HL1 & HR1)).
  match goal with |- (bindo ?X _ = _) /\ _ => replace X with (Some s1) by (symmetry; exact E1) end.
  cbn [bindo]. fold s1. clearbody s1.
  destruct ((c_racc s1 =? 0) || Nat.eqb a_limb 0).
  - destruct (Nat.eqb a_limb 0 && (c_atake s1 =? 0)).
    + (* last a-limb consumed *)
      set (ac := wadd w (c_acarry s1) (c_anorm s1)).
      destruct (c_racc s1 =? 0).
      * cbn [bindo]. rewrite getn_in by lia. cbn [bindo].
        destruct (middle_step_assign w rb 0 (nthZ (c_res s1) (c_rlimb s1)) (c_rcarry s1)) as [x rc].
        rewrite updn_in by lia. cbn [bindo fst]. split; [reflexivity|]. unfold cst_ok; cbn. rewrite upd_length. auto.
      * cbv zeta. rewrite getn_in by lia. cbn [bindo].
        destruct (extract_digit_addmul w (c_racc s1) (rb - c_racc s1) (nthZ (c_res s1) (c_rlimb s1)) ac) as [r' n'].
        rewrite updn_in by lia. cbn [bindo].
        rewrite getn_in by (rewrite upd_length; lia). cbn [bindo].
        destruct (middle_step_assign w rb 0 (nthZ (upd (c_res s1) (c_rlimb s1) r') (c_rlimb s1)) (c_rcarry s1)) as [x rc].
        rewrite updn_in by (rewrite upd_length; lia). cbn [bindo fst]. split; [reflexivity|].
        unfold cst_ok; cbn. rewrite !upd_length. auto.
    + destruct (Nat.eqb_spec (c_rlimb s1) 0) as [E0|E0].
      * cbn [fst]. split; [reflexivity|]. unfold cst_ok; auto.
      * cbv zeta. cbn [c_atake c_res c_anorm c_acarry c_rcarry c_racc c_rlimb].
        destruct (c_atake s1 =? 0).
        -- cbn [fst]. split; [reflexivity|]. unfold cst_ok; cbn. split; [assumption|lia].
        -- apply IH. unfold cst_ok; cbn. split; [assumption|lia].
  - destruct (c_atake s1 =? 0).
    + cbn [fst]. split; [reflexivity|]. unfold cst_ok; cbn. auto.
    + apply IH. unfold cst_ok; auto.
Qed.

Lemma clampZ_range (x lo hi : Z) : lo <= hi -> lo <= clampZ x lo hi <= hi.
Proof. unfold clampZ. lia. Qed.

(* a bit position clamped to k limbs of b bits lies in limb k at the latest, rounded up or down *)
Lemma clamp_ceil_le (x b : Z) (k : nat) : 1 <= b -> (Z.to_nat (div_ceil (clampZ x 0 (zn k * b)) b) <= k)%nat.
Proof.
  intros Hb. assert (H0 : 0 <= zn k * b) by (unfold zn; nia).
  pose proof (clampZ_range x 0 (zn k * b) H0) as Hc. set (c := clampZ x 0 (zn k * b)) in *.
  assert ((c + b - 1) / b < zn k + 1) by (apply Z.div_lt_upper_bound; lia).
  unfold div_ceil, zn in *. lia.
Qed.
Lemma clamp_floor_le (x b : Z) (k : nat) : 1 <= b -> (Z.to_nat (clampZ x 0 (zn k * b) / b) <= k)%nat.
Proof.
  intros Hb. pose proof (clamp_ceil_le x b k Hb) as H. set (c := clampZ x 0 (zn k * b)) in *.
  assert (c / b <= div_ceil c b) by (unfold div_ceil; apply Z.div_le_mono; lia). lia.
Qed.

Definition ost_ok (L : nat) (st : cstate * bool * bool) : Prop := cst_ok L (fst (fst st)).

(* the checked cross-radix routine performs no out-of-range access (outer Some) and returns what the model returns *)
Theorem normalize_cross_g_total (cap rb ab off : Z) (a r0 : list Z) :
  1 <= rb -> 1 <= ab ->
  normalize_cross_gc w cap rb ab off a r0 = Some (normalize_cross_g w cap rb ab off a r0).
Proof.
  intros Hrb Hab. unfold normalize_cross_gc, normalize_cross_g.
  destruct (split_offset ab off) as [lsh lo].
  set (rsz := length r0). set (asz := length a).
  set (a_tot := zn asz * ab). set (r_tot := zn rsz * rb).
  set (res_end := Z.to_nat (clampZ (- lo * ab) 0 r_tot / rb)).
  set (res_start_bit := clampZ (a_tot - lo * ab) 0 r_tot).
  set (a_start_bit := clampZ (r_tot + lo * ab) 0 a_tot).
  set (res_start := Z.to_nat (div_ceil res_start_bit rb)).
  set (a_start := Z.to_nat (div_ceil a_start_bit ab)).
  set (a_end := Z.to_nat (clampZ (lo * ab) 0 a_tot / ab)).
  assert (Hrs : (res_start <= rsz)%nat) by exact (clamp_ceil_le _ _ _ Hrb).
  assert (Has : (a_start <= asz)%nat) by exact (clamp_ceil_le _ _ _ Hab).
  assert (Hre : (res_end <= rsz)%nat) by exact (clamp_floor_le _ _ _ Hrb).
  (* only these three bounds matter below: the index arithmetic is forgotten *)
  clearbody res_end res_start a_start a_end res_start_bit a_start_bit a_tot r_tot.
  destruct (zero_range_total r0 0 rsz ltac:(fold rsz; lia)) as (Ez & _). rewrite Ez. cbn [bindo].
  assert (Hz0 : zero_range r0 0 rsz = zeros rsz) by (unfold rsz; apply zero_range_all). rewrite !Hz0.
  destruct (Nat.eqb_spec res_start 0) as [E0|E0]; [reflexivity|].
  rewrite carry_phase_total by (fold asz; lia). cbn [bindo].
  set (s0 := {| c_res := zeros rsz; c_anorm := 0; c_acarry := carry_phase w ab lsh a asz (asz - a_start); c_rcarry := 0;
                c_atake := 0; c_racc := rb; c_rlimb := (res_start - 1)%nat |}).
  set (fuel := (Z.to_nat ab + Z.to_nat rb + 4)%nat).
  match goal with |- bindo (foldc ?fc ?l ?st0) _ = _ =>
    match goal with |- context [fold_left ?f l st0] =>
      destruct (foldc_seq (ost_ok rsz) f fc (a_start - a_end) 0%nat st0) as (E & P) end end.
  - unfold ost_ok, cst_ok, s0; cbn. rewrite zeros_length. lia.
  - intros [[s brk] bad] j HP Hj. unfold ost_ok in *; cbn [fst] in HP.
    destruct (brk || bad); [split; [reflexivity|exact HP]|].
    rewrite idx_down by lia. rewrite getc_in by (fold asz; lia). cbn [bindo].
    destruct (middle_step w true ab lsh 0 (nthZ a (a_start - j - 1)) (c_acarry s)) as [an ac].
    match goal with |- (bindo (cross_inner_c w fuel rb ab _ ?s2) _ = _) /\ _ =>
      destruct (cross_inner_total rb ab (a_start - j - 1) rsz fuel s2) as (Ei & Pi) end.
    { destruct HP as (HL & HR).
      destruct (Nat.eqb j 0); [|unfold cst_ok; cbn; auto].
      destruct (negb ((a_tot - a_start_bit) mod ab =? 0)); [unfold cst_ok; cbn; auto|].
      destruct (negb ((r_tot - res_start_bit) mod rb =? 0)); unfold cst_ok; cbn; auto. }
    rewrite Ei. cbn [bindo].
    match goal with |- context [cross_inner w fuel rb ab ?al ?s2] => destruct (cross_inner w fuel rb ab al s2) as [s3 [| |]] end;
      cbn [fst] in Pi; split; try reflexivity; exact Pi.
  - rew_conv E. cbn [bindo].
    match goal with |- context [fold_left ?f ?l ?st0] => destruct (fold_left f l st0) as [[s brk] bad] end.
    unfold ost_ok in P; cbn [fst] in P. destruct P as (PL & PR).
    destruct bad; [reflexivity|].
    destruct (Nat.eqb res_end 0); [reflexivity|].
    match goal with |- bindo (top_phase_c w false rb 0 res_end (c_res s, ?cu)) _ = _ =>
      destruct (top_phase_total w false rb 0 res_end (c_res s) cu ltac:(rewrite PL; exact Hre)) as (Et & _) end.
    rewrite Et. reflexivity.
Qed.

(* the i64 routine (cap 128) and the big-accumulator copy (cap 192) *)
Corollary normalize_cross_total_c (rb ab off : Z) (a r0 : list Z) :
  1 <= rb -> 1 <= ab ->
  normalize_cross_gc w 128 rb ab off a r0 = Some (normalize_cross w rb ab off a r0).
Proof. intros. rewrite normalize_cross_is_g. apply normalize_cross_g_total; assumption. Qed.
Corollary normalize_cross_big_total_c (rb ab off : Z) (a r0 : list Z) :
  1 <= rb -> 1 <= ab ->
  normalize_cross_gc w 192 rb ab off a r0 = Some (normalize_cross_big w rb ab off a r0).
Proof. intros. rewrite normalize_cross_big_is_g. apply normalize_cross_g_total; assumption. Qed.

Theorem normalize_inter_cap_total (cap : nat) (b off : Z) (a r0 : list Z) :
  normalize_inter_cc w cap b off a r0 = Some (LimbsBig.normalize_inter_c w cap b off a r0).
Proof.
  unfold normalize_inter_cc, LimbsBig.normalize_inter_c.
  destruct (split_offset b off) as [lsh lo].
  set (rsz := length r0). set (asz := length a).
  set (res_end := natc (- lo) 0 (zn rsz)). set (res_start := natc (zn asz - lo) 0 (zn rsz)).
  set (a_end := natc lo 0 (zn asz)). set (a_start := natc (zn rsz + lo) 0 (zn asz)).
  pose proof (natc_le (- lo) rsz) as H1. pose proof (natc_le (zn asz - lo) rsz) as H2.
  pose proof (natc_le lo asz) as H3. pose proof (natc_le (zn rsz + lo) asz) as H4.
  fold res_end in H1. fold res_start in H2. fold a_end in H3. fold a_start in H4.
  assert (Hmid : (a_start - a_end <= res_start)%nat).
  { unfold a_start, a_end, res_start, natc, clampZ, zn. lia. }
  rewrite carry_phase_total by (fold asz; lia). cbn [bindo].
  destruct (zero_range_total r0 res_start rsz ltac:(fold rsz; lia)) as (Ez & Lz). rewrite Ez. cbn [bindo].
  destruct (mid_phase_total w true b lsh a res_start a_start (a_start - a_end)
              (zero_range r0 res_start rsz) (carry_phase w b lsh a asz (asz - a_start))
              ltac:(rewrite Lz; fold rsz; lia) ltac:(fold asz; lia) Hmid ltac:(lia)) as (Em & Lm).
  rewrite Em. cbn [bindo].
  destruct (mid_phase w true b lsh a res_start a_start (a_start - a_end)
              (zero_range r0 res_start rsz, carry_phase w b lsh a asz (asz - a_start))) as [r2 c2] eqn:E2.
  cbn [fst] in Lm.
  destruct (top_phase_total w true b lsh res_end r2
              (if lo <? 0 then gap_phase_c w cap b (Z.to_nat (- lo) - rsz) c2 else c2)
              ltac:(rewrite Lm, Lz; fold rsz; lia)) as (Et & _).
  rewrite Et. reflexivity.
Qed.

(* the i64 routine is the instance with 64 gap steps *)
Corollary normalize_inter_total (b off : Z) (a r0 : list Z) :
  C17Ops.normalize_inter_c w b off a r0 = Some (normalize_inter w b off a r0).
Proof. exact (normalize_inter_cap_total 64 b off a r0). Qed.

Theorem vec_add_scalar_total (n : nat) (sub : bool) (a : list Z) (b : limbs) (b_limb : nat) (r0 : limbs) :
  vec_add_scalar_c w n sub a b b_limb r0 = Some (vec_add_scalar w n sub a b b_limb r0).
Proof.
  unfold vec_add_scalar_c, vec_add_scalar. apply build_total. intros j Hj.
  destruct (Nat.ltb_spec j (length b)); [rewrite lnthc_in by lia|]; reflexivity.
Qed.
(* the model's own rejection (res_limb >= size: at_mut asserts) is the only way the twin fails *)
Theorem vec_add_scalar_assign_total (sub : bool) (a : list Z) (res_limb : nat) (r0 : limbs) :
  vec_add_scalar_assign_c w sub a res_limb r0 = vec_add_scalar_assign w sub a res_limb r0.
Proof.
  unfold vec_add_scalar_assign_c, vec_add_scalar_assign.
  destruct (Nat.ltb_spec res_limb (length r0)).
  - rewrite lnthc_in by lia. cbn [bindo]. apply build_total. intros j Hj. rewrite lnthc_in by lia. reflexivity.
  - rewrite lnthc_out by lia. reflexivity.
Qed.

Lemma znx_switch_ring_total (n_out : nat) (r0 a : list Z) :
  (0 < n_out)%nat -> (0 < length a)%nat ->
  (exists g, (0 < g)%nat /\ (length a = g * n_out \/ n_out = g * length a)%nat) ->
  znx_switch_ring_c n_out r0 a = Some (znx_switch_ring n_out r0 a).
Proof.
  intros Hn Ha (g & Hg & Hd). unfold znx_switch_ring_c, znx_switch_ring.
  destruct (Nat.eqb (length a) n_out); [reflexivity|].
  destruct (Nat.ltb_spec n_out (length a)) as [Hlt|Hge].
  - apply seqo_map. intros t Ht. apply in_seq in Ht. apply getn_in.
    apply (switch_down_in_bounds (length a) n_out t); lia.
  - apply seqo_map. intros t Ht. apply in_seq in Ht.
    destruct (Nat.eqb (t mod (n_out / length a)) 0); [|reflexivity]. apply getn_in.
    destruct Hd as [Hd|Hd].
    + (* length a = g * n_out with n_out >= length a: g = 1 *)
      assert (g = 1)%nat by nia. subst g. assert (length a = n_out) by lia.
      rewrite H, Nat.div_same by lia. rewrite Nat.div_1_r. lia.
    + rewrite Hd, Nat.div_mul by lia. apply Nat.div_lt_upper_bound; lia.
Qed.

Definition limbs_wf (n : nat) (l : limbs) : Prop := Forall (fun x => length x = n) l.

Lemma lnth_len (n : nat) (l : limbs) (j : nat) : limbs_wf n l -> (j < length l)%nat -> length (lnth l j) = n.
Proof. intros H Hj. unfold lnth, limbs_wf in *. rewrite Forall_forall in H. apply H. apply nth_In. exact Hj. Qed.

Lemma znx_rotate_length (p : Z) (src : list Z) : length (znx_rotate w p src) = length src.
Proof.
  unfold znx_rotate. set (n := Z.of_nat (length src)). set (k := Z.to_nat (n - (p mod (2 * n)) mod n)).
  assert (length (firstn k src) + length (skipn k src) = length src)%nat by (rewrite <- app_length, firstn_skipn; reflexivity).
  destruct (p mod (2 * n) <? n); rewrite app_length; unfold vneg; rewrite map_length; lia.
Qed.

Theorem vec_split_part_total (n_in n_out i : nat) (a r0 : limbs) :
  (0 < n_out)%nat -> (0 < n_in)%nat -> (exists g, (0 < g)%nat /\ n_in = (g * n_out)%nat) -> limbs_wf n_in a ->
  vec_split_part_c w n_out i a r0 = Some (vec_split_part w n_out i a r0).
Proof.
  intros Ho Hi (g & Hg & Hd) Hwf. unfold vec_split_part_c, vec_split_part. apply build_total. intros j Hj.
  destruct (Nat.ltb_spec j (length a)); [|reflexivity]. rewrite !lnthc_in by lia. cbn [bindo].
  apply znx_switch_ring_total; [exact Ho| |].
  - destruct (Nat.eqb i 0); [|rewrite znx_rotate_length]; rewrite (lnth_len n_in) by assumption; lia.
  - exists g. split; [exact Hg|]. left.
    destruct (Nat.eqb i 0); [|rewrite znx_rotate_length]; rewrite (lnth_len n_in) by assumption; exact Hd.
Qed.

Theorem vec_merge_rings_total (n_in n_out : nat) (parts : list limbs) (r0 : limbs) :
  (0 < length parts)%nat -> n_out = (length parts * n_in)%nat -> Forall (limbs_wf n_in) parts ->
  vec_merge_rings_c n_out parts r0 = Some (vec_merge_rings n_out parts r0).
Proof.
  intros Hp Hd Hwf. unfold vec_merge_rings_c, vec_merge_rings. apply build_total. intros j Hj.
  apply seqo_map. intros u Hu. apply in_seq in Hu.
  set (gap := length parts). assert (Hi : (u mod gap < gap)%nat) by (apply Nat.mod_upper_bound; lia).
  rewrite (nth_error_nth' parts [] Hi). cbn [bindo].
  destruct (Nat.ltb_spec j (length (nth (u mod gap) parts []))) as [Hl|]; [|reflexivity].
  rewrite lnthc_in by exact Hl. cbn [bindo]. apply getn_in.
  rewrite Forall_forall in Hwf. rewrite (lnth_len n_in); [|apply Hwf; apply nth_In; exact Hi|exact Hl].
  apply Nat.div_lt_upper_bound; [lia|]. fold gap in Hd. lia.
Qed.

End W.

Lemma limc_in (l : plimbs) (j : nat) : (j < length l)%nat -> limc l j = Some (lim l j).
Proof. intros H. unfold limc, lim. apply nth_error_nth'. exact H. Qed.
Lemma mk_total (rsz : nat) (f : nat -> list Z) (fc : nat -> option (list Z)) :
  (forall j, (j < rsz)%nat -> fc j = Some (f j)) -> mk_c rsz fc = Some (mk rsz f).
Proof. intros H. unfold mk_c, mk. apply seqo_map. intros j Hj. apply in_seq in Hj. apply H. lia. Qed.

Theorem dft_select_total (n rsz step offset : nat) (a : plimbs) :
  dft_select_c n rsz step offset a = Some (dft_select n rsz step offset a).
Proof.
  unfold dft_select_c, dft_select. apply mk_total. intros j Hj.
  destruct (Nat.ltb j (Nat.min rsz (ceil_div (length a) step))); [|reflexivity].
  destruct (Nat.ltb_spec (offset + j * step) (length a)); [apply limc_in; assumption|reflexivity].
Qed.
Theorem dft_add_total (n rsz : nat) (a b : plimbs) : dft_add_c n rsz a b = Some (dft_add n rsz a b).
Proof.
  unfold dft_add_c, dft_add. apply mk_total. intros j Hj.
  destruct (Nat.ltb_spec j (Nat.min (length a) (length b))).
  - rewrite !limc_in by lia. reflexivity.
  - destruct (Nat.ltb_spec j (Nat.max (length a) (length b))); [|reflexivity].
    destruct (Nat.leb_spec (length a) (length b)); rewrite limc_in by lia; reflexivity.
Qed.
Theorem dft_sub_total (n rsz : nat) (a b : plimbs) : dft_sub_c n rsz a b = Some (dft_sub n rsz a b).
Proof.
  unfold dft_sub_c, dft_sub. apply mk_total. intros j Hj.
  destruct (Nat.ltb_spec j (Nat.min (length a) (length b))).
  - rewrite !limc_in by lia. reflexivity.
  - destruct (Nat.ltb_spec j (Nat.max (length a) (length b))); [|reflexivity].
    destruct (Nat.leb_spec (length a) (length b)); rewrite limc_in by lia; reflexivity.
Qed.
Theorem dft_add_assign_total (a r0 : plimbs) : dft_add_assign_c a r0 = Some (dft_add_assign a r0).
Proof.
  unfold dft_add_assign_c, dft_add_assign. apply mk_total. intros j Hj. rewrite limc_in by lia. cbn [bindo].
  destruct (Nat.ltb_spec j (length a)); [rewrite limc_in by lia|]; reflexivity.
Qed.
Theorem dft_sub_assign_total (a r0 : plimbs) : dft_sub_assign_c a r0 = Some (dft_sub_assign a r0).
Proof.
  unfold dft_sub_assign_c, dft_sub_assign. apply mk_total. intros j Hj. rewrite limc_in by lia. cbn [bindo].
  destruct (Nat.ltb_spec j (length a)); [rewrite limc_in by lia|]; reflexivity.
Qed.
Theorem dft_sub_negate_assign_total (a r0 : plimbs) : dft_sub_negate_assign_c a r0 = Some (dft_sub_negate_assign a r0).
Proof.
  unfold dft_sub_negate_assign_c, dft_sub_negate_assign. apply mk_total. intros j Hj. rewrite limc_in by lia. cbn [bindo].
  destruct (Nat.ltb_spec j (length a)); [rewrite limc_in by lia|]; reflexivity.
Qed.
Theorem dft_add_scaled_assign_total (scale : Z) (a r0 : plimbs) :
  dft_add_scaled_assign_c scale a r0 = Some (dft_add_scaled_assign scale a r0).
Proof.
  unfold dft_add_scaled_assign_c, dft_add_scaled_assign.
  destruct (0 <? scale).
  - apply mk_total. intros j Hj. rewrite limc_in by lia. cbn [bindo].
    destruct (Nat.ltb_spec j (Nat.min (length a) (length r0) - Nat.min (Z.to_nat scale) (length a))); [rewrite limc_in by lia|]; reflexivity.
  - destruct (scale <? 0); [|apply dft_add_assign_total].
    apply mk_total. intros j Hj. rewrite limc_in by lia. cbn [bindo].
    destruct (Nat.leb_spec (Nat.min (Z.to_nat (- scale)) (length r0)) j); cbn [andb]; [|reflexivity].
    destruct (Nat.ltb_spec (j - Nat.min (Z.to_nat (- scale)) (length r0)) (Nat.min (length a) (length r0 - Nat.min (Z.to_nat (- scale)) (length r0))));
      [rewrite limc_in by lia|]; reflexivity.
Qed.
Theorem svp_apply_total (n rsz : nat) (s : list Z) (b : plimbs) : svp_apply_c n rsz s b = Some (svp_apply n rsz s b).
Proof.
  unfold svp_apply_c, svp_apply. apply mk_total. intros j Hj.
  destruct (Nat.ltb_spec j (length b)); [rewrite limc_in by lia|]; reflexivity.
Qed.

(* vmp: every flat index of `a` is < cols_in * a.size and every (q, c + off) is inside the nrows x ncols matrix *)
Theorem vmp_total (n rcols rsz acols asz rows msize limb_offset : nat) (aflat : nat -> list Z) (mflat : nat -> nat -> list Z) (c : nat) :
  vmp_c n rcols rsz acols asz rows msize limb_offset aflat mflat c =
  Some (vmp n rcols rsz acols asz rows msize limb_offset aflat mflat c).
Proof.
  unfold vmp_c, vmp.
  set (nrows := (acols * rows)%nat). set (ncols := (rcols * msize)%nat). set (a_len := (acols * asz)%nat).
  set (col_max := Nat.min ncols (rcols * rsz + limb_offset * rcols)). set (off := (limb_offset * rcols)%nat).
  destruct (Nat.leb_spec col_max off); [reflexivity|].
  destruct (Nat.ltb_spec c (col_max - off)) as [Hc|]; [|reflexivity].
  apply (foldc_seq (fun _ => True)); auto. intros acc q _ Hq. split; auto.
  unfold flat1_c, flat2_c.
  assert (Nat.ltb q a_len = true) as -> by (apply Nat.ltb_lt; lia).
  assert (Nat.ltb q nrows = true) as -> by (apply Nat.ltb_lt; lia).
  assert (Nat.ltb (c + off) ncols = true) as -> by (apply Nat.ltb_lt; unfold col_max in *; lia).
  reflexivity.
Qed.


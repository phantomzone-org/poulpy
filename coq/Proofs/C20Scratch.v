(* C20 — the per-thread scratch windows produced by Scratch::split_mut.
   Every window is 64-byte aligned, has the requested length, lies inside the arena, and the windows are laid
   out one after the other (hence pairwise disjoint); what the arena must provide for the split not to panic. *)
From PV Require Import Base.MachineInt Model.C20Threads.
Open Scope Z_scope.

Lemma align_offset_range (a : Z) : 0 <= align_offset a < 64.
Proof. unfold align_offset, DEFAULTALIGN. lia. Qed.

Lemma align_offset_aligned (a : Z) : (a + align_offset a) mod 64 = 0.
Proof. unfold align_offset, DEFAULTALIGN. lia. Qed.

Lemma take_spec (addr len take : Z) (w r : Z * Z) :
  0 <= len -> 1 <= take ->
  take_slice_aligned addr len take = Some (w, r) ->
  fst w mod 64 = 0 /\ snd w = take /\ addr <= fst w /\ fst w + take = fst r /\
  fst r + snd r = addr + len /\ 0 <= snd r.
Proof.
  intros Hlen Htake H. unfold take_slice_aligned in H.
  pose proof (align_offset_range addr) as Ho.
  pose proof (align_offset_aligned addr) as Ha.
  destruct (take <=? Z.max 0 (len - align_offset addr)) eqn:E; [|discriminate].
  inversion H; subst; clear H. cbn [fst snd].
  apply Z.leb_le in E. repeat split; try lia; exact Ha.
Qed.

(* windows laid out left to right inside [lo, hi): the shape every successful split has *)
Fixpoint laid_out (lo hi take : Z) (ws : list (Z * Z)) : Prop :=
  match ws with
  | [] => True
  | w :: r => lo <= fst w /\ fst w mod 64 = 0 /\ snd w = take /\ fst w + take <= hi /\ laid_out (fst w + take) hi take r
  end.

Lemma split_loop_spec (n : nat) : forall addr len take ws r,
  0 <= len -> 1 <= take ->
  split_loop n addr len take = Some (ws, r) ->
  length ws = n /\ laid_out addr (fst r) take ws /\ addr <= fst r /\ fst r + snd r = addr + len /\ 0 <= snd r.
Proof.
  induction n as [|n IH]; intros addr len take ws r Hlen Htake H; cbn [split_loop] in H.
  - inversion H; subst; cbn [fst snd laid_out length]. repeat split; lia.
  - destruct (take_slice_aligned addr len take) as [[w [addr' len']]|] eqn:Et; [|discriminate].
    destruct (split_loop n addr' len' take) as [[ws' r']|] eqn:Es; [|discriminate].
    inversion H; subst; clear H.
    destruct (take_spec _ _ _ _ _ Hlen Htake Et) as (Hal & Hsz & Hlo & Hnext & Hend & Hrem).
    cbn [fst snd] in *.
    destruct (IH _ _ _ _ _ Hrem Htake Es) as (Hn & Hlay & Hle & Hend' & Hrem').
    cbn [length laid_out]. rewrite Hn. repeat split; try lia.
    rewrite Hnext. exact Hlay.
Qed.

Lemma laid_out_weaken (ws : list (Z * Z)) : forall lo hi hi' take,
  hi <= hi' -> laid_out lo hi take ws -> laid_out lo hi' take ws.
Proof.
  induction ws as [|w ws IH]; intros lo hi hi' take Hh H; cbn [laid_out] in *; auto.
  destruct H as (H1 & H2 & H3 & H4 & H5). repeat split; try lia; auto. eapply IH; eauto.
Qed.

Lemma laid_out_nth (ws : list (Z * Z)) : forall lo hi take i,
  1 <= take -> laid_out lo hi take ws -> (i < length ws)%nat ->
  lo <= fst (nth i ws (0, 0)) /\ fst (nth i ws (0, 0)) mod 64 = 0 /\ snd (nth i ws (0, 0)) = take /\
  fst (nth i ws (0, 0)) + take <= hi.
Proof.
  induction ws as [|w ws IH]; intros lo hi take i Ht H Hi; cbn [length] in Hi; [lia|].
  cbn [laid_out] in H. destruct H as (H1 & H2 & H3 & H4 & H5).
  destruct i as [|i]; cbn [nth].
  - repeat split; auto.
  - assert (Hi' : (i < length ws)%nat) by lia.
    destruct (IH _ _ _ _ Ht H5 Hi') as (A & B & C & D). repeat split; auto; lia.
Qed.

Lemma laid_out_ordered (ws : list (Z * Z)) : forall lo hi take i j,
  1 <= take -> laid_out lo hi take ws -> (i < j)%nat -> (j < length ws)%nat ->
  fst (nth i ws (0, 0)) + take <= fst (nth j ws (0, 0)).
Proof.
  induction ws as [|w ws IH]; intros lo hi take i j Ht H Hij Hj; cbn [length] in Hj; [lia|].
  cbn [laid_out] in H. destruct H as (H1 & H2 & H3 & H4 & H5).
  destruct j as [|j]; [lia|]. destruct i as [|i]; cbn [nth].
  - assert (Hj' : (j < length ws)%nat) by lia.
    destruct (laid_out_nth _ _ _ _ _ Ht H5 Hj') as (A & _). lia.
  - eapply IH; eauto; lia.
Qed.

(* the main statement: shape of every successful split *)
Lemma scratch_windows_disjoint :
  forall (addr len per : Z) (threads : nat) (ws : list (Z * Z)) (rest : Z * Z),
    0 <= len -> 1 <= per ->
    split_mut addr len threads per = Some (ws, rest) ->
    length ws = threads /\
    (forall i, (i < threads)%nat ->
       let w := nth i ws (0, 0) in
       fst w mod 64 = 0 /\ snd w = per /\ addr <= fst w /\ fst w + snd w <= addr + len) /\
    (forall i j, (i < j)%nat -> (j < threads)%nat ->
       fst (nth i ws (0, 0)) + snd (nth i ws (0, 0)) <= fst (nth j ws (0, 0))) /\
    (forall i, (i < threads)%nat -> fst (nth i ws (0, 0)) + snd (nth i ws (0, 0)) <= fst rest) /\
    addr <= fst rest /\ 0 <= snd rest /\ fst rest + snd rest = addr + len.
Proof.
  intros addr len per threads ws rest Hlen Hper H. unfold split_mut in H.
  destruct (Z.of_nat threads * per <=? available addr len); [|discriminate].
  destruct (split_loop_spec _ _ _ _ _ _ Hlen Hper H) as (Hn & Hlay & Hle & Hend & Hrem).
  split; [exact Hn|]. split; [|split; [|split]].
  - intros i Hi. cbn zeta. rewrite <- Hn in Hi.
    destruct (laid_out_nth _ _ _ _ _ Hper Hlay Hi) as (A & B & C & D). repeat split; auto; lia.
  - intros i j Hij Hj. rewrite <- Hn in Hj.
    assert (Hi : (i < length ws)%nat) by lia.
    destruct (laid_out_nth _ _ _ _ _ Hper Hlay Hi) as (_ & _ & C & _). rewrite C.
    eapply laid_out_ordered; eauto.
  - intros i Hi. rewrite <- Hn in Hi.
    destruct (laid_out_nth _ _ _ _ _ Hper Hlay Hi) as (_ & _ & C & D). lia.
  - repeat split; lia.
Qed.

(* --- when does the split succeed? ------------------------------------------------------------- *)
Lemma available_after_take (addr len per : Z) :
  0 <= len -> 0 <= per -> round64 per <= available addr len ->
  exists w addr' len',
    take_slice_aligned addr len per = Some (w, (addr', len')) /\ 0 <= len' /\
    available addr' len' = available addr len - round64 per.
Proof.
  intros Hlen Hper Hav. unfold take_slice_aligned, available, round64, align_offset, DEFAULTALIGN in *.
  destruct (per <=? Z.max 0 (len - (- addr) mod 64)) eqn:E.
  - eexists _, _, _. split; [reflexivity|]. apply Z.leb_le in E. split; [lia|]. lia.
  - apply Z.leb_gt in E. lia.
Qed.

Lemma split_loop_enough (n : nat) : forall addr len per,
  0 <= len -> 0 <= per -> Z.of_nat n * round64 per <= available addr len ->
  exists ws r, split_loop n addr len per = Some (ws, r).
Proof.
  induction n as [|n IH]; intros addr len per Hlen Hper Hav; cbn [split_loop].
  - eexists _, _; reflexivity.
  - assert (Hr : 0 <= round64 per) by (unfold round64, DEFAULTALIGN; lia).
    assert (H1 : round64 per <= available addr len) by nia.
    destruct (available_after_take _ _ _ Hlen Hper H1) as (w & addr' & len' & Et & Hl' & Hav').
    rewrite Et.
    destruct (IH addr' len' per Hl' Hper ltac:(nia)) as (ws & r & Es). rewrite Es.
    eexists _, _; reflexivity.
Qed.

Lemma round64_ge (x : Z) : x <= round64 x.
Proof. unfold round64, DEFAULTALIGN. lia. Qed.

Lemma round64_id (x : Z) : x mod 64 = 0 -> round64 x = x.
Proof. unfold round64, DEFAULTALIGN. lia. Qed.

(* an arena with threads * round64(per_thread) available bytes is enough *)
Lemma split_mut_enough (addr len per : Z) (threads : nat) :
  0 <= len -> 0 <= per -> Z.of_nat threads * round64 per <= available addr len ->
  exists ws r, split_mut addr len threads per = Some (ws, r).
Proof.
  intros Hlen Hper Hav. unfold split_mut.
  pose proof (round64_ge per).
  assert (Z.of_nat threads * per <= available addr len) by nia.
  destruct (Z.of_nat threads * per <=? available addr len) eqn:E; [|apply Z.leb_gt in E; lia].
  apply split_loop_enough; auto.
Qed.

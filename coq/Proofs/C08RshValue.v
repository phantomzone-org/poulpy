(* C08 at w = 64: torus-value theorems for the fused right shifts (rsh<false> = add, rsh_sub) of the
   i64 routines, as instances of Proofs/C08WRshValue.v. *)
From PV Require Import Base.MachineInt Model.Znx Model.Limbs Model.C08Oracle Proofs.C08Chain Proofs.C08Value
  Proofs.C08ShiftValue.
From PV Require Export Proofs.C08WRshValue.
Open Scope Z_scope.

Section RshValue.
Variable b : Z.
Hypothesis Hb : 1 <= b <= 62.

Lemma val_nil (P : Z) : val_scaled P b [] = 0.
Proof. reflexivity. Qed.

(* rsh<false>: res += a * 2^-k *)

Theorem rsh_add_value (k : Z) (a r0 : list Z) : 0 <= k -> hr62 a -> hr62 r0 ->
  let out := rsh 64 false b k a r0 in
  length out = length r0 /\
  forall P, zn (length r0) * b + zn (length a) * b + k <= P ->
    let D := tor_abs P (val_scaled P b out - val_scaled P b r0 - val_scaled (P - k) b a) in
    D <= 2 ^ (P - zn (length r0) * b) /\ (zn (length a) * b + k <= zn (length r0) * b -> D = 0).
Proof.
  intros Hk Ha Hr. apply (rsh_add_valueW 64 b Hb); [lia|exact Hk|exact (hr62_w a Ha)|exact (hr62_w r0 Hr)].
Qed.

(* rsh_sub: res -= a * 2^-k *)

Theorem rsh_sub_value (k : Z) (a r0 : list Z) : 0 <= k -> hr62 a -> hr62 r0 ->
  let out := rsh_sub 64 b k a r0 in
  length out = length r0 /\
  forall P, zn (length r0) * b + zn (length a) * b + k <= P ->
    let D := tor_abs P (val_scaled P b out - val_scaled P b r0 + val_scaled (P - k) b a) in
    D <= 2 ^ (P - zn (length r0) * b) /\ (zn (length a) * b + k <= zn (length r0) * b -> D = 0).
Proof.
  intros Hk Ha Hr. apply (rsh_sub_valueW 64 b Hb); [lia|exact Hk|exact (hr62_w a Ha)|exact (hr62_w r0 Hr)].
Qed.

End RshValue.

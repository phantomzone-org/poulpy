(* C12 - key-switch family (gglwe_product_dft, glwe_keyswitch incl. dsize > 1 and cross-radix input,
   glwe_external_product, glwe_automorphism and variants): the declared size suffices on ring degrees that are multiples of 8. *)
From PV Require Import Base.MachineInt Model.C12Scratch Gen.C12TmpBytes_gen Model.C12Trees
  Proofs.C12Arena Proofs.C12Hal Proofs.C12Core.
Open Scope Z_scope.

Section KS.
  Variables fam n : Z.
  Hypothesis Hf : is_fam fam.
  Hypothesis Hn0 : 0 <= n.
  Hypothesis Hn8 : n mod 8 = 0.

  Let nn1 := nn_norm fam n Hf Hn0 Hn8.
  Let nn2 := nn_bnorm fam n Hf Hn0 Hn8.

  (* the vmp scratch does not depend on the size of the result *)
  Lemma vmp_bytes_res_indep (rs rs' a rows ci co size : Z) :
    hal_vmp_apply_dft_to_dft_tmp_bytes fam n rs a rows ci co size = hal_vmp_apply_dft_to_dft_tmp_bytes fam n rs' a rows ci co size.
  Proof using Hf Hn0 Hn8. autounfold with c12gen. destruct Hf as [-> | ->]; reflexivity. Qed.

  Lemma nn_vmp (rs a rows ci co size : Z) : 0 <= a -> 0 <= rows -> 0 <= ci ->
    0 <= hal_vmp_apply_dft_to_dft_tmp_bytes fam n rs a rows ci co size.
  Proof using Hf Hn0 Hn8. intros. apply (budget_nonneg _ _ (budget_vmp fam n Hf Hn0 Hn8 rs a rows ci co size ltac:(lia) ltac:(lia) ltac:(lia))). Qed.

  Lemma gglwe_product_spec (rs a_size : Z) (key : infos) : wf_infos key -> 0 <= a_size ->
    budget (t_gglwe_product_dft fam n rs (i_rank_in key) a_size key) (gglwe_product_dft_tmp_bytes fam n rs a_size key).
  Proof using Hf Hn0 Hn8.
    intros (Hb & Hsz & Hr & Hri & Hdn & Hds) Ha.
    unfold t_gglwe_product_dft, gglwe_product_dft_tmp_bytes. cbv zeta.
    destruct (Z.eqb_spec (i_dsize key) 1) as [E|E].
    - pose proof (budget_vmp fam n Hf Hn0 Hn8 rs a_size (i_dnum key) (i_rank_in key) (i_rank key + 1) (i_size key) Ha Hdn Hri) as Bv.
      pose proof (budget_nonneg _ _ Bv). cbn [budget persist]. split; [lia|]. eapply budget_mono; [exact Bv | lia].
    - set (dsize := i_dsize key) in *. set (dnum := i_dnum key) in *.
      set (a' := Z.min (div_ceil a_size dsize) dnum).
      assert (Ha' : 0 <= a') by (unfold a'; pose proof (div_ceil_nonneg a_size dsize Ha ltac:(lia)); lia).
      pose proof (al_dft fam n Hf Hn0 Hn8 (i_rank_in key) a' Hri Ha') as HD1.
      pose proof (al_dft fam n Hf Hn0 Hn8 (i_rank key + 1) (i_size key) ltac:(lia) Hsz) as HD2.
      pose proof (nn_vmp rs a' dnum (i_rank_in key) (i_rank key + 1) (i_size key) Ha' Hdn Hri) as HV.
      cbn [budget persist]. fold a'. leaves.
      (* every slice of the input has at most a' limbs *)
      apply budget_seq_scoped; [lia|]. intros t Ht. apply in_map_iff in Ht. destruct Ht as (di & <- & Hdi). apply in_zrange in Hdi.
      assert (0 <= (a_size + di) / dsize) by (apply Z.div_pos; lia).
      assert (Z.min ((a_size + di) / dsize) dnum <= a').
      { unfold a', div_ceil. assert ((a_size + di) / dsize <= (a_size + dsize - 1) / dsize) by (apply Z.div_le_mono; lia). lia. }
      pose proof (vmp_bytes_mono fam n rs a' (Z.min ((a_size + di) / dsize) dnum) dnum (i_rank_in key) (i_rank key + 1) (i_size key) Hf ltac:(lia) Hri).
      eapply budget_mono; [apply (budget_vmp fam n Hf Hn0 Hn8 rs _ dnum (i_rank_in key) (i_rank key + 1) (i_size key)); lia | lia].
  Qed.

  Lemma ks_internal_res_indep (r r' a key : infos) :
    glwe_keyswitch_internal_tmp_bytes fam n r a key = glwe_keyswitch_internal_tmp_bytes fam n r' a key.
  Proof using Hf Hn0 Hn8.
    unfold glwe_keyswitch_internal_tmp_bytes, gglwe_product_dft_tmp_bytes. cbv zeta.
    destruct (i_dsize key =? 1); repeat f_equal; apply vmp_bytes_res_indep.
  Qed.

  Lemma ks_internal_spec (a key : infos) : wf_infos key -> 0 <= i_size a -> i_rank a = i_rank_in key ->
    budget (t_glwe_keyswitch_internal fam n a key) (glwe_keyswitch_internal_tmp_bytes fam n key a key).
  Proof using Hf Hn0 Hn8.
    intros Hk Ha Hrk. pose proof (gglwe_product_spec (i_size key) (i_size a) key Hk Ha) as Bp.
    destruct Hk as (Hb & Hsz & Hr & Hri & Hdn & Hds).
    pose proof (al_dft fam n Hf Hn0 Hn8 (i_rank a) (i_size a) ltac:(lia) Ha) as HD.
    pose proof (budget_nonneg _ _ Bp).
    unfold t_glwe_keyswitch_internal, glwe_keyswitch_internal_tmp_bytes. cbv zeta. rewrite Hrk in *.
    replace (i_rank_in key + 1 - 1) with (i_rank_in key) by lia.
    cbn [budget persist]. leaves. eapply budget_mono; [exact Bp | lia].
  Qed.

  (* the cross-radix copy of the input *)
  Lemma conv_layout_facts (a key : infos) : wf_infos a -> wf_infos key -> i_n a = n ->
    let c := conv_layout a key in
    0 <= i_size c /\ i_rank c = i_rank a /\
    GLWE_bytes_of_from_infos c = VecZnx_bytes_of (i_n c) (i_rank c + 1) (i_size c) /\
    0 <= VecZnx_bytes_of (i_n c) (i_rank c + 1) (i_size c) /\ VecZnx_bytes_of (i_n c) (i_rank c + 1) (i_size c) mod 64 = 0.
  Proof using Hf Hn0 Hn8.
    intros (Hab & Has & Har & _) (Hkb & _) Hna c.
    assert (Hs : 0 <= i_size c).
    { unfold c, conv_layout, mk_glwe_layout; cbn [i_size]. apply div_ceil_nonneg; [unfold i_max_k; nia | lia]. }
    assert (Hr : i_rank c = i_rank a) by reflexivity.
    assert (Hn : i_n c = n) by (unfold c, conv_layout, mk_glwe_layout; cbn [i_n]; exact Hna).
    split; [exact Hs|]. split; [exact Hr|]. split.
    - unfold GLWE_bytes_of_from_infos, GLWE_bytes_of, i_max_k. f_equal.
      replace (i_base2k c) with (i_base2k key) by reflexivity. apply div_ceil_mul; lia.
    - rewrite Hn, Hr. apply (al_vec_znx fam n Hf Hn0 Hn8); lia.
  Qed.

  Lemma glwe_normalize_spec (cols : Z) : budget (t_glwe_normalize fam n cols) (glwe_normalize_tmp_bytes fam n).
  Proof using Hf Hn0 Hn8.
    unfold t_glwe_normalize, glwe_normalize_tmp_bytes. cbn [budget persist]. split; [lia|].
    eapply budget_mono; [apply (budget_normalize fam n Hf Hn0 Hn8) | lia].
  Qed.

  (* glwe_keyswitch / glwe_keyswitch_assign (a := res) *)
  Lemma keyswitch_spec (res a key : infos) :
    wf_infos res -> wf_infos a -> wf_infos key -> i_n a = n -> i_rank a = i_rank_in key ->
    budget (tree_glwe_keyswitch fam n res a key) (glwe_keyswitch_tmp_bytes fam n res a key).
  Proof using Hf Hn0 Hn8.
    intros Hres Ha Hk Hna Hrk.
    assert (Hrr : 0 <= i_rank res) by (destruct Hres as (_&_&?&_); lia).
    assert (Has : 0 <= i_size a) by (destruct Ha as (_&?&_); lia).
    assert (Hks : 0 <= i_size key) by (destruct Hk as (_&?&_); lia).
    pose proof (budget_big_normalize fam n Hf Hn0 Hn8) as Bb. pose proof nn1. pose proof nn2.
    pose proof (al_dft fam n Hf Hn0 Hn8 (i_rank res + 1) (i_size key) ltac:(lia) Hks) as HD0.
    pose proof (glwe_normalize_spec (i_rank a + 1)) as Bgn.
    unfold tree_glwe_keyswitch, glwe_keyswitch_tmp_bytes. cbv zeta.
    destruct (Z.eqb_spec (i_base2k a) (i_base2k key)) as [E|E]; cbn [negb].
    - (* same radix *)
      pose proof (ks_internal_spec a key Hk Has Hrk) as Bi.
      rewrite (ks_internal_res_indep res key a key).
      pose proof (budget_nonneg _ _ Bi).
      cbn [budget persist]. leaves.
      all: eapply budget_mono; [eassumption | lia].
    - (* cross radix: a is first re-normalised into a temporary of the key's radix *)
      destruct (conv_layout_facts a key Ha Hk Hna) as (Hcs & Hcr & Hcb & Hc0 & Hc64).
      fold (conv_layout a key).
      pose proof (ks_internal_spec (conv_layout a key) key Hk Hcs ltac:(lia)) as Bi.
      rewrite (ks_internal_res_indep res key (conv_layout a key) key).
      pose proof (budget_nonneg _ _ Bi). rewrite Hcb.
      unfold t_take_glwe. cbn [budget persist]. leaves.
      all: eapply budget_mono; [eassumption | lia].
  Qed.

  Lemma suffices_glwe_keyswitch (res a key : infos) :
    wf_infos res -> wf_infos a -> wf_infos key -> i_n a = n -> i_rank a = i_rank_in key ->
    run_takes (tree_glwe_keyswitch fam n res a key) (0, glwe_keyswitch_tmp_bytes fam n res a key) <> None.
  Proof using Hf Hn0 Hn8. intros. apply budget_suffices, keyswitch_spec; assumption. Qed.

  (* glwe_automorphism = glwe_keyswitch followed by vec_znx_automorphism_assign on every column *)
  Lemma automorphism_spec (res a key : infos) :
    wf_infos res -> wf_infos a -> wf_infos key -> i_n a = n -> i_rank a = i_rank_in key ->
    budget (tree_glwe_automorphism fam n res a key) (glwe_automorphism_tmp_bytes fam n res a key).
  Proof using Hf Hn0 Hn8.
    intros Hres Ha Hk Hna Hrk. pose proof (keyswitch_spec res a key Hres Ha Hk Hna Hrk) as Bk.
    pose proof (budget_automorphism_assign fam n Hf Hn0 Hn8) as Ba.
    pose proof (budget_nonneg _ _ Bk). pose proof (budget_nonneg _ _ Ba).
    unfold tree_glwe_automorphism, glwe_automorphism_tmp_bytes; cbv zeta. cbn [budget persist]. leaves.
    all: eapply budget_mono; [eassumption | lia].
  Qed.

  Lemma suffices_glwe_automorphism (res a key : infos) :
    wf_infos res -> wf_infos a -> wf_infos key -> i_n a = n -> i_rank a = i_rank_in key ->
    run_takes (tree_glwe_automorphism fam n res a key) (0, glwe_automorphism_tmp_bytes fam n res a key) <> None.
  Proof using Hf Hn0 Hn8. intros. apply budget_suffices, automorphism_spec; assumption. Qed.

  Lemma ep_internal_res_indep (r r' a g : infos) :
    glwe_external_product_internal_tmp_bytes fam n r a g = glwe_external_product_internal_tmp_bytes fam n r' a g.
  Proof using Hf Hn0 Hn8.
    unfold glwe_external_product_internal_tmp_bytes. cbv zeta.
    rewrite (vmp_bytes_res_indep (i_size r) (i_size r')). reflexivity.
  Qed.

  (* a holds size limbs of the GGSW's radix *)
  Lemma ep_internal_spec (a g : infos) : wf_infos g -> 0 <= i_size a -> i_base2k a = i_base2k g ->
    budget (t_glwe_external_product_internal fam n a g) (glwe_external_product_internal_tmp_bytes fam n g a g).
  Proof using Hf Hn0 Hn8.
    intros (Hb & Hsz & Hr & Hri & Hdn & Hds) Ha Hba.
    unfold t_glwe_external_product_internal, glwe_external_product_internal_tmp_bytes. cbv zeta.
    assert (Hin : div_ceil (i_max_k a) (i_base2k g) = i_size a) by (unfold i_max_k; rewrite Hba; apply div_ceil_mul; lia).
    rewrite Hin.
    set (dsize := i_dsize g) in *. set (cols := i_rank g + 1) in *. set (in_size := div_ceil (i_size a) dsize).
    assert (Hin0 : 0 <= in_size) by (apply div_ceil_nonneg; lia).
    pose proof (al_dft fam n Hf Hn0 Hn8 cols in_size ltac:(lia) Hin0) as HD1.
    pose proof (al_dft fam n Hf Hn0 Hn8 cols (i_size g) ltac:(lia) Hsz) as HD2.
    pose proof (nn_vmp (i_size g) in_size in_size cols cols (i_size g) Hin0 Hin0 ltac:(lia)) as HV.
    (* no slice of the input has more than in_size limbs *)
    assert (Hvmp : forall s, 0 <= s <= in_size ->
              budget (t_vmp_apply_dft_to_dft fam s (i_dnum g) cols)
                     (hal_vmp_apply_dft_to_dft_tmp_bytes fam n (i_size g) in_size in_size cols cols (i_size g))).
    { intros s Hs. eapply budget_mono; [apply (budget_vmp fam n Hf Hn0 Hn8 (i_size g) s (i_dnum g) cols cols (i_size g)); lia|].
      autounfold with c12gen.
      assert (Z.min s (i_dnum g) * cols <= Z.min in_size in_size * cols) by (apply Z.mul_le_mono_nonneg_r; lia).
      destruct Hf as [-> | ->]; cbn [Z.eqb]; lia. }
    destruct (Z.eqb_spec dsize 1) as [E|E].
    - destruct (Z.ltb_spec 1 dsize) as [?|_]; [lia|].
      assert (Hi : in_size = i_size a) by (unfold in_size, div_ceil; rewrite E; replace (i_size a + 1 - 1) with (i_size a) by lia; apply Z.div_1_r).
      cbn [budget persist]. leaves. eapply budget_mono; [apply (Hvmp (i_size a)); lia | lia].
    - destruct (Z.ltb_spec 1 dsize) as [_|?]; [|lia].
      cbn [budget persist]. leaves.
      apply budget_seq_scoped; [lia|]. intros t Ht. apply in_map_iff in Ht. destruct Ht as (di & <- & Hdi). apply in_zrange in Hdi.
      assert (0 <= (i_size a + di) / dsize) by (apply Z.div_pos; lia).
      assert ((i_size a + di) / dsize <= in_size) by (unfold in_size, div_ceil; apply Z.div_le_mono; lia).
      eapply budget_mono; [apply Hvmp; lia | lia].
  Qed.

  Lemma external_product_spec (res a g : infos) :
    wf_infos res -> wf_infos a -> wf_infos g -> i_n a = n ->
    budget (tree_glwe_external_product fam n res a g) (glwe_external_product_tmp_bytes fam n res a g).
  Proof using Hf Hn0 Hn8.
    intros Hres Ha Hg Hna.
    assert (Hrr : 0 <= i_rank res) by (destruct Hres as (_&_&?&_); lia).
    assert (Has : 0 <= i_size a) by (destruct Ha as (_&?&_); lia).
    assert (Hgs : 0 <= i_size g) by (destruct Hg as (_&?&_); lia).
    pose proof (budget_big_normalize fam n Hf Hn0 Hn8) as Bb. pose proof nn1. pose proof nn2.
    pose proof (al_dft fam n Hf Hn0 Hn8 (i_rank res + 1) (i_size g) ltac:(lia) Hgs) as HD0.
    pose proof (glwe_normalize_spec (i_rank a + 1)) as Bgn.
    unfold tree_glwe_external_product, glwe_external_product_tmp_bytes. cbv zeta.
    destruct (Z.eqb_spec (i_base2k a) (i_base2k g)) as [E|E]; cbn [negb].
    - pose proof (ep_internal_spec a g Hg Has E) as Bi.
      rewrite (ep_internal_res_indep res g a g).
      pose proof (budget_nonneg _ _ Bi).
      cbn [budget persist]. leaves.
      all: eapply budget_mono; [eassumption | lia].
    - destruct (conv_layout_facts a g Ha Hg Hna) as (Hcs & Hcr & Hcb & Hc0 & Hc64).
      fold (conv_layout a g).
      pose proof (ep_internal_spec (conv_layout a g) g Hg Hcs eq_refl) as Bi.
      rewrite (ep_internal_res_indep res g (conv_layout a g) g).
      pose proof (budget_nonneg _ _ Bi). rewrite Hcb. unfold t_take_glwe.
      cbn [budget persist]. leaves.
      all: eapply budget_mono; [eassumption | lia].
  Qed.

  Lemma suffices_glwe_external_product (res a g : infos) :
    wf_infos res -> wf_infos a -> wf_infos g -> i_n a = n ->
    run_takes (tree_glwe_external_product fam n res a g) (0, glwe_external_product_tmp_bytes fam n res a g) <> None.
  Proof using Hf Hn0 Hn8. intros. apply budget_suffices, external_product_spec; assumption. Qed.

  (* matrix forms: the same operation on every (row, col), each time on the whole scratch *)
  Lemma loop_scoped_spec (b : Z) (k : nat) (t : tree) : budget t b -> budget (Seq (Need b) (Loop k (Scoped t))) b.
  Proof. intros Bt. pose proof (budget_nonneg _ _ Bt). cbn [budget persist]. split; [lia|]. rewrite Z.sub_0_r. exact Bt. Qed.

  Lemma suffices_gglwe_keyswitch (res a key : infos) :
    wf_infos res -> wf_infos a -> wf_infos key -> i_n a = n -> i_rank a = i_rank_in key ->
    run_takes (tree_gglwe_keyswitch fam n res a key) (0, gglwe_keyswitch_tmp_bytes fam n res a key) <> None.
  Proof using Hf Hn0 Hn8. intros. apply budget_suffices, loop_scoped_spec, keyswitch_spec; assumption. Qed.
  Lemma suffices_gglwe_external_product (res a g : infos) :
    wf_infos res -> wf_infos a -> wf_infos g -> i_n a = n ->
    run_takes (tree_gglwe_external_product fam n res a g) (0, gglwe_external_product_tmp_bytes fam n res a g) <> None.
  Proof using Hf Hn0 Hn8. intros. apply budget_suffices, loop_scoped_spec, external_product_spec; assumption. Qed.
  Lemma suffices_ggsw_external_product (res a g : infos) :
    wf_infos res -> wf_infos a -> wf_infos g -> i_n a = n ->
    run_takes (tree_ggsw_external_product fam n res a g) (0, ggsw_external_product_tmp_bytes fam n res a g) <> None.
  Proof using Hf Hn0 Hn8. intros. apply budget_suffices, loop_scoped_spec, external_product_spec; assumption. Qed.
End KS.

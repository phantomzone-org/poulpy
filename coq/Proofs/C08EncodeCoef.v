(* C08 encoding: the machine-word encoders of one coefficient compute the balanced expansion.
   Radix 1 <= b <= 62, i64 limbs; the encoded value may be any i64 / i128 (the carry `(x >> b) + (digit < 0)` of the
   encoders is exact on the whole range of the word). *)
From PV Require Import Base.MachineInt Model.Znx Model.Limbs Model.C08Encode Proofs.ZnxDigit Proofs.C08Steps
  Proofs.C08EncodeSpec.
Open Scope Z_scope.

(* what the encoders write for a value V at precision k: balanced digits of radix 2^b above a last limb holding the
   low k' = b - krem bits, shifted left by krem; then zeros *)
Definition enc_spec (b k : Z) (a_size : nat) (V : Z) : list Z :=
  let size := enc_size b k in let krem := enc_krem b k in
  rev (ldigs b (size - 1) (bdiv (b - krem) V)) ++ [wrap (b - krem) V * 2 ^ krem] ++ zeros (a_size - size).

Lemma enc_params (b k : Z) : 1 <= b -> 1 <= k ->
  Z.of_nat (enc_size b k) * b = k + enc_krem b k /\ 0 <= enc_krem b k < b /\ (1 <= enc_size b k)%nat.
Proof.
  intros Hb Hk. unfold enc_size, enc_krem, div_ceil.
  assert (Hq : 0 <= (k + b - 1) / b) by (apply Z.div_pos; lia).
  rewrite Z2Nat.id by exact Hq.
  pose proof (Z.div_mod k b ltac:(lia)) as Hdm. pose proof (Z.mod_pos_bound k b ltac:(lia)) as Hmb.
  set (q := k / b) in *. set (r := k mod b) in *.
  destruct (Z.eq_dec r 0) as [E|E].
  - rewrite E in *. rewrite Z.sub_0_r, Z.mod_same by lia.
    assert (E2 : (k + b - 1) / b = q).
    { symmetry. apply (Z.div_unique_pos _ _ _ (b - 1)); lia. }
    rewrite E2. split; [lia|]. split; [lia|]. assert (1 <= q) by nia. lia.
  - rewrite (Z.mod_small (b - r)) by lia.
    assert (E2 : (k + b - 1) / b = q + 1).
    { symmetry. apply (Z.div_unique_pos _ _ _ (r - 1)); lia. }
    rewrite E2. split; [lia|]. split; [lia|]. assert (0 <= q) by (apply Z.div_pos; lia). lia.
Qed.

Lemma enc_size_le (b k : Z) (a_size : nat) : 1 <= b -> 1 <= k <= Z.of_nat a_size * b ->
  (enc_size b k <= a_size)%nat.
Proof.
  intros Hb Hk. destruct (enc_params b k Hb ltac:(lia)) as (E & Hr & _).
  assert (Z.of_nat (enc_size b k) * b < (Z.of_nat a_size + 1) * b) by lia.
  assert (Z.of_nat (enc_size b k) < Z.of_nat a_size + 1) by nia. lia.
Qed.

Lemma wrap_scale (b lsh x : Z) : 0 <= lsh < b -> wrap b (x * 2 ^ lsh) = wrap (b - lsh) x * 2 ^ lsh.
Proof. intros H. replace b with ((b - lsh) + lsh) at 1 by lia. apply wrap_mul_pow2; lia. Qed.

Lemma bdiv_scale (b lsh x : Z) : 0 <= lsh < b -> bdiv b (x * 2 ^ lsh) = bdiv (b - lsh) x.
Proof.
  intros H. unfold bdiv.
  pose proof (pow2_pos lsh ltac:(lia)) as Hl. pose proof (pow2_pos (b - lsh) ltac:(lia)) as Hb.
  assert (E1 : 2 ^ b = 2 ^ (b - lsh) * 2 ^ lsh) by (rewrite <- Z.pow_add_r by lia; f_equal; lia).
  destruct (Z.eq_dec lsh (b - 1)) as [El|El].
  - (* b - lsh = 1: 2^(b - lsh - 1) = 1 *)
    replace (b - lsh - 1) with 0 by lia. replace (b - 1) with lsh by lia.
    rewrite E1. replace (x * 2 ^ lsh + 2 ^ lsh) with ((x + 2 ^ 0) * 2 ^ lsh) by (rewrite Z.pow_0_r; ring).
    rewrite Z.div_mul_cancel_r by lia. reflexivity.
  - assert (E2 : 2 ^ (b - 1) = 2 ^ (b - lsh - 1) * 2 ^ lsh) by (rewrite <- Z.pow_add_r by lia; f_equal; lia).
    rewrite E1, E2. replace (x * 2 ^ lsh + 2 ^ (b - lsh - 1) * 2 ^ lsh) with ((x + 2 ^ (b - lsh - 1)) * 2 ^ lsh) by ring.
    rewrite Z.div_mul_cancel_r by lia. reflexivity.
Qed.

Lemma enc_carry_exact (w r x : Z) : 1 <= r < w -> in_range w x ->
  enc_get_carry w r x (get_digit w r x) = bdiv r x /\ Z.abs (bdiv r x) * 2 ^ r <= 2 ^ (w - 1) + 2 ^ (r - 1).
Proof.
  intros Hr [Hx1 Hx2].
  rewrite digit_spec by lia.
  pose proof (wrap_range r x ltac:(lia)) as [Hd1 Hd2].
  pose proof (wrap_bdiv r x ltac:(lia)) as Hdec.
  pose proof (pow2_pos r ltac:(lia)) as Hpr. pose proof (pow2_split r ltac:(lia)) as Hsr.
  pose proof (pow2_pos (r - 1) ltac:(lia)) as Hpr1.
  pose proof (pow2_split w ltac:(lia)) as Hsw. pose proof (pow2_pos (w - 1) ltac:(lia)) as Hpw.
  assert (Ew : 2 ^ (w - 1) = 2 ^ r * 2 ^ (w - 1 - r)) by (rewrite <- Z.pow_add_r by lia; f_equal; lia).
  pose proof (pow2_pos (w - 1 - r) ltac:(lia)) as Hpq.
  set (d := wrap r x) in *. set (q := bdiv r x) in *.
  assert (Hq1 : - 2 ^ (w - 1 - r) <= q) by nia.
  assert (Hq2 : q <= 2 ^ (w - 1 - r)) by nia.
  assert (Hb : Z.abs q * 2 ^ r <= 2 ^ (w - 1) + 2 ^ (r - 1)) by (clear - Hdec Hx1 Hx2 Hd1 Hd2 Hpr; nia).
  split; [|exact Hb].
  unfold enc_get_carry, wadd, asr.
  assert (Ef : x / 2 ^ r + (if d <? 0 then 1 else 0) = q).
  { destruct (Z.ltb_spec d 0) as [Hn|Hn].
    - assert (x / 2 ^ r = q - 1); [|lia].
      symmetry. apply (Z.div_unique_pos _ _ _ (d + 2 ^ r)); lia.
    - assert (x / 2 ^ r = q); [|lia].
      symmetry. apply (Z.div_unique_pos _ _ _ d); lia. }
  rewrite Ef. apply wrap_id; [lia|]. unfold in_range. clear - Hq1 Hq2 Ew Hsr Hpr1 Hpq. nia.
Qed.

Section B.
Variable b : Z.
Hypothesis Hb : 1 <= b <= 62.

(* first step on a full-range i64 *)
Lemma first_full (lsh v : Z) : 0 <= lsh < b -> in_range 64 v ->
  enc_first_step b lsh v = (wrap (b - lsh) v * 2 ^ lsh, bdiv (b - lsh) v) /\
  Z.abs (bdiv (b - lsh) v) <= 2 ^ 62.
Proof.
  intros Hl Hv.
  destruct (enc_carry_exact 64 (b - lsh) v ltac:(lia) Hv) as [Hc Hcb].
  assert (Hbound : Z.abs (bdiv (b - lsh) v) <= 2 ^ 62).
  { pose proof (pow2_pos (b - lsh) ltac:(lia)) as Hp. pose proof (pow2_split (b - lsh) ltac:(lia)) as Hs.
    pose proof (pow2_pos (b - lsh - 1) ltac:(lia)) as Hp1.
    change (2 ^ (64 - 1)) with (2 * 2 ^ 62) in Hcb. nia. }
  split; [|exact Hbound].
  unfold enc_first_step. destruct (Z.eqb_spec lsh 0) as [E|E].
  - subst lsh. rewrite Z.sub_0_r in *. cbv zeta. rewrite Hc. rewrite digit_spec by lia.
    rewrite Z.pow_0_r, Z.mul_1_r. reflexivity.
  - cbv zeta. rewrite Hc. rewrite digit_spec by lia. f_equal.
    apply shl_exact; [lia|].
    apply (in_range_weaken b 64); [lia|]. apply shifted_digit_range; [lia|]. apply wrap_range; lia.
Qed.

(* middle step with headroom: the ideal balanced division step *)
Lemma enc_middle_ideal (lsh a c : Z) : 0 <= lsh < b -> Z.abs a <= 2 ^ 62 -> Z.abs c <= 2 ^ 62 ->
  enc_middle_step b lsh a c = (wrap b (a * 2 ^ lsh + c), bdiv b (a * 2 ^ lsh + c)).
Proof.
  intros Hl Ha Hc.
  assert (E63 : 2 ^ (64 - 1) = 2 * 2 ^ 62) by reflexivity.
  assert (H61 : 2 ^ (b - 1) <= 2 ^ 61) by (apply Z.pow_le_mono_r; lia).
  assert (E62 : 2 ^ 62 = 2 * 2 ^ 61) by reflexivity.
  pose proof (pow2_pos (b - 1) ltac:(lia)) as Hpb1.
  assert (Hra : in_range 64 a) by (unfold in_range; lia).
  unfold enc_middle_step.
  assert (Ebl : (if lsh =? 0 then b else b - lsh) = b - lsh) by (destruct (Z.eqb_spec lsh 0); lia).
  rewrite Ebl. cbv zeta.
  destruct (enc_carry_exact 64 (b - lsh) a ltac:(lia) Hra) as [Hc1 _]. rewrite Hc1.
  rewrite (digit_spec 64 (b - lsh) a) by lia.
  set (d := wrap (b - lsh) a). set (cr := bdiv (b - lsh) a).
  pose proof (wrap_bdiv (b - lsh) a ltac:(lia)) as Hdec. fold d cr in Hdec.
  assert (Hdr : in_range (b - lsh) d) by (apply wrap_range; lia).
  pose proof (shifted_digit_range b lsh d Hl Hdr) as [S1 S2].
  assert (Esh : (if lsh =? 0 then d else shl 64 d lsh) = d * 2 ^ lsh).
  { destruct (Z.eqb_spec lsh 0) as [->|Hne]; [rewrite Z.pow_0_r; lia|].
    apply shl_exact; [lia|]. apply (in_range_weaken b 64); [lia|split; assumption]. }
  rewrite Esh. set (sh := d * 2 ^ lsh) in *.
  assert (Edpc : wadd 64 sh c = sh + c).
  { unfold wadd. apply wrap_id; [lia|]. unfold in_range. lia. }
  rewrite Edpc.
  assert (Hrd : in_range 64 (sh + c)) by (unfold in_range; lia).
  destruct (enc_carry_exact 64 b (sh + c) ltac:(lia) Hrd) as [Hc2 _]. rewrite Hc2.
  rewrite digit_spec by lia.
  assert (E2 : 2 ^ b = 2 ^ (b - lsh) * 2 ^ lsh) by (rewrite <- Z.pow_add_r by lia; f_equal; lia).
  assert (Ev : a * 2 ^ lsh + c = (sh + c) + 2 ^ b * cr) by (unfold sh; rewrite E2; nia).
  rewrite Ev, wrap_add_mul, bdiv_add_mul by lia. f_equal.
  assert (Hk : Z.abs (bdiv b (a * 2 ^ lsh + c)) <= 2 ^ 62).
  { apply bdiv_chain; try lia. apply shifted_bound; auto; lia. }
  rewrite Ev, bdiv_add_mul in Hk by lia.
  unfold wadd. rewrite Z.add_comm. apply wrap_id; [lia|]. unfold in_range. lia.
Qed.

(* the in-place tail over limbs with headroom is the normalising chain of the shifted limbs *)
Lemma enc_tail_nchain (lsh : Z) (l : list Z) (c : Z) : 0 <= lsh < b ->
  Forall (fun x => Z.abs x <= 2 ^ 62) l -> Z.abs c <= 2 ^ 62 ->
  enc_tail b lsh l c = nchain b (map (fun x => x * 2 ^ lsh) l) c.
Proof.
  intros Hl Hf. revert c. induction Hf as [|x t Hx Ht IH]; intros c Hc; [reflexivity|].
  cbn [enc_tail map nchain].
  destruct t as [|y t'].
  - cbn [map nchain]. unfold final_step_assign.
    rewrite (final_core_ideal 64 b lsh ltac:(lia) Hl x c) by (change (2 ^ (64 - 2)) with (2 ^ 62); assumption).
    reflexivity.
  - rewrite (enc_middle_ideal lsh x c Hl Hx Hc).
    f_equal. apply IH.
    apply bdiv_chain; try lia. apply shifted_bound; auto; lia.
Qed.

Lemma enc_tail_length (lsh : Z) (l : list Z) (c : Z) : length (enc_tail b lsh l c) = length l.
Proof.
  revert c; induction l as [|x t IH]; intros c; [reflexivity|].
  cbn [enc_tail]. destruct t as [|y t']; [reflexivity|].
  destruct (enc_middle_step b lsh x c) as [x' c']. cbn [length]. f_equal. apply IH.
Qed.

(* the normalisation loop on  hi ++ x :: rest  with length hi = size - 1 *)
Lemma enc_norm_app (lsh : Z) (hi rest : list Z) (x : Z) : 0 <= lsh < b -> in_range 64 x ->
  Forall (fun y => Z.abs y <= 2 ^ 62) hi ->
  enc_norm b lsh (S (length hi)) (hi ++ x :: rest) =
    rev (ldigs b (S (length hi)) (x * 2 ^ lsh + 2 ^ b * (lvalr b (rev hi) * 2 ^ lsh))) ++ rest.
Proof.
  intros Hl Hx Hhi. unfold enc_norm.
  destruct (split_after hi x rest _ eq_refl) as [Ef Es].
  rewrite Ef, Es, rev_app_distr. cbn [rev app].
  destruct (first_full lsh x Hl Hx) as [E1 Hc]. rewrite E1.
  rewrite enc_tail_nchain by (auto; apply Forall_rev; exact Hhi).
  rewrite nchain_ldigs by lia. rewrite map_length, rev_length.
  f_equal. f_equal. cbn [ldigs].
  rewrite lvalr_scale.
  rewrite wrap_add_mul, bdiv_add_mul by lia.
  rewrite wrap_scale, bdiv_scale by lia.
  cbn [rev]. do 3 f_equal. ring.
Qed.

Lemma upd_zeros (a_size m : nat) (v : Z) : (m < a_size)%nat ->
  upd (zeros a_size) m v = zeros m ++ v :: zeros (a_size - S m).
Proof.
  revert m; induction a_size as [|n IH]; intros m Hm; [lia|].
  destruct m as [|m]; cbn [zeros repeat upd app].
  - replace (S n - 1)%nat with n by lia. reflexivity.
  - fold (zeros n). fold (zeros m). rewrite IH by lia. reflexivity.
Qed.

Lemma Forall_zeros (P : Z -> Prop) (n : nat) : P 0 -> Forall P (zeros n).
Proof. intros H. unfold zeros. induction n; cbn [repeat]; constructor; auto. Qed.

Lemma ldigs_zero (n : nat) : ldigs b n 0 = zeros n.
Proof.
  induction n as [|n IH]; [reflexivity|]. cbn [ldigs]. rewrite wrap_zero, bdiv_zero by lia.
  rewrite IH. reflexivity.
Qed.

(* both lay out limbs hi ++ x :: zeros whose value is V modulo 2^(size b), then run the loop with lsh = krem *)
Lemma enc_norm_spec (k : Z) (a_size : nat) (hi : list Z) (x V t : Z) : 1 <= k <= Z.of_nat a_size * b ->
  S (length hi) = enc_size b k -> in_range 64 x -> Forall (fun y => Z.abs y <= 2 ^ 62) hi ->
  x + 2 ^ b * lvalr b (rev hi) = V + 2 ^ (Z.of_nat (enc_size b k) * b) * t ->
  enc_norm b (enc_krem b k) (enc_size b k) (hi ++ x :: zeros (a_size - enc_size b k)) = enc_spec b k a_size V.
Proof.
  intros Hk Hs Hx Hhi HV. unfold enc_spec. cbv zeta.
  destruct (enc_params b k ltac:(lia) ltac:(lia)) as (Esz & Hr & Hs1).
  set (size := enc_size b k) in *. set (krem := enc_krem b k) in *.
  rewrite <- Hs at 1. rewrite enc_norm_app by (auto; lia). rewrite Hs.
  replace (x * 2 ^ krem + 2 ^ b * (lvalr b (rev hi) * 2 ^ krem))
    with (V * 2 ^ krem + 2 ^ (Z.of_nat size * b) * (t * 2 ^ krem))
    by (transitivity ((x + 2 ^ b * lvalr b (rev hi)) * 2 ^ krem); [rewrite HV|]; ring).
  rewrite ldigs_periodic by lia.
  replace size with (S (size - 1)) at 1 by lia. cbn [ldigs rev].
  rewrite wrap_scale, bdiv_scale by lia. rewrite <- app_assoc. reflexivity.
Qed.

Theorem enc_i64_spec (k : Z) (a_size : nat) (v : Z) : 1 <= k <= Z.of_nat a_size * b -> in_range 64 v ->
  enc_i64 b k a_size v = enc_spec b k a_size v.
Proof.
  intros Hk Hv. unfold enc_i64. cbv zeta.
  destruct (enc_params b k ltac:(lia) ltac:(lia)) as (Esz & Hr & Hs1).
  pose proof (enc_size_le b k a_size ltac:(lia) Hk) as Hs2.
  rewrite upd_zeros by lia. replace (S (enc_size b k - 1)) with (enc_size b k) by lia.
  apply (enc_norm_spec k a_size _ v v 0); auto.
  - unfold zeros. rewrite repeat_length. lia.
  - apply Forall_zeros. cbn. lia.
  - unfold zeros at 1. rewrite rev_repeat. fold (zeros (enc_size b k - 1)). rewrite lvalr_zeros. ring.
Qed.

Lemma enc_digits128_ldigs (n : nat) (a : Z) : in_range 128 a -> enc_digits128 b n a = ldigs b n a.
Proof.
  revert a; induction n as [|n IH]; intros a Ha; [reflexivity|].
  cbn [enc_digits128 ldigs]. cbv zeta.
  destruct (enc_carry_exact 128 b a ltac:(lia) Ha) as [Hc Hcb].
  rewrite Hc. rewrite digit_spec by lia. f_equal.
  - apply wrap_id; [lia|]. apply (in_range_weaken b 64); [lia|]. apply wrap_range; lia.
  - apply IH.
    pose proof (pow2_pos b ltac:(lia)) as Hp. pose proof (pow2_split b ltac:(lia)) as Hs.
    pose proof (pow2_pos (b - 1) ltac:(lia)) as Hp1.
    assert (E : 2 ^ (128 - 1) = 2 * 2 ^ 126) by reflexivity.
    unfold in_range. rewrite E in *. nia.
Qed.

Theorem enc_i128_spec (k : Z) (a_size : nat) (v : Z) : 1 <= k <= Z.of_nat a_size * b -> in_range 128 v ->
  enc_i128 b k a_size v = enc_spec b k a_size v.
Proof.
  intros Hk Hv. unfold enc_i128. cbv zeta.
  destruct (enc_params b k ltac:(lia) ltac:(lia)) as (Esz & Hr & Hs1).
  rewrite enc_digits128_ldigs by auto.
  replace (enc_size b k) with (S (enc_size b k - 1)) at 2 by lia. cbn [ldigs rev]. rewrite <- app_assoc. cbn [app].
  set (m := (enc_size b k - 1)%nat).
  pose proof (ldigs_value b m (bdiv b v) ltac:(lia)) as Hval. pose proof (wrap_bdiv b v ltac:(lia)) as HdV.
  pose proof (ldigs_balanced b m (bdiv b v) ltac:(lia)) as Hbal.
  assert (H61 : 2 ^ (b - 1) <= 2 ^ 61) by (apply Z.pow_le_mono_r; lia).
  apply (enc_norm_spec k a_size _ _ v (- bdivn b m (bdiv b v))); auto.
  - rewrite rev_length, ldigs_length. unfold m. lia.
  - apply (in_range_weaken b 64); [lia|]. apply wrap_range; lia.
  - apply Forall_rev. eapply Forall_impl; [|exact Hbal].
    intros y [Hy1 Hy2]. assert (2 ^ 61 <= 2 ^ 62) by (apply Z.pow_le_mono_r; lia). lia.
  - rewrite rev_involutive. replace (Z.of_nat (enc_size b k)) with (Z.of_nat m + 1) by (unfold m; lia).
    rewrite Z.mul_add_distr_r, Z.mul_1_l, Z.pow_add_r by lia. nia.
Qed.

End B.

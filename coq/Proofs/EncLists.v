(* List plumbing for the encryption model: `sequence`, per-coefficient maps, the magnitude of a negacyclic product,
   the range of the uniform digit map. *)
From PV Require Import Base.MachineInt Model.Znx Model.Limbs Model.Flat Model.DftAbs Model.EncModel Proofs.EncValue Proofs.ListFacts.
Open Scope Z_scope.

Lemma sequence_nth {A B} (f : A -> option B) (l : list A) : forall r, sequence (map f l) = Some r ->
  length r = length l /\ forall i da db, (i < length l)%nat -> f (nth i l da) = Some (nth i r db).
Proof.
  induction l as [|x l IH]; intros r H; cbn [map sequence] in H.
  - inversion H. split; [reflexivity|]. intros i da db Hi. cbn [length] in Hi. lia.
  - destruct (f x) as [y|] eqn:E; [|discriminate].
    destruct (sequence (map f l)) as [r'|] eqn:E'; [|discriminate].
    inversion H; subst. destruct (IH r' eq_refl) as [L N]. split; [cbn [length]; lia|].
    intros [|i] da db Hi; cbn [nth]; [exact E|]. apply N. cbn [length] in Hi. lia.
Qed.

(* the loops of the model that carry their index: `for (i, x) in l.enumerate()` *)
Lemma sequence_indexed_nth {A B} (F : nat * A -> option B) (n : nat) (l : list A) (r : list B) : length l = n ->
  sequence (map F (combine (seq 0 n) l)) = Some r ->
  length r = n /\ forall i da db, (i < n)%nat -> F (i, nth i l da) = Some (nth i r db).
Proof.
  intros Ll H. destruct (sequence_nth F _ r H) as [L N]. rewrite combine_length, seq_length, Ll, Nat.min_id in L, N.
  split; [exact L|]. intros i da db Hi. specialize (N i (O, da) db Hi).
  rewrite combine_nth, seq_nth in N by (rewrite ?seq_length; lia). exact N.
Qed.

Lemma cmap_opt_nth (n : nat) (f : nat -> option (list Z)) (c : ccol) :
  cmap_opt n f = Some c -> length c = n /\ forall k, (k < n)%nat -> f k = Some (coef c k).
Proof.
  intros H. destruct (sequence_nth f (seq 0 n) c H) as [L N]. rewrite seq_length in L, N. split; [exact L|].
  intros k Hk. specialize (N k O [] Hk). rewrite seq_nth in N by exact Hk. exact N.
Qed.

Lemma Forall2_map_of_nth {A B C D} (R : C -> D -> Prop) (g : A -> C) (h : B -> D) (da : A) (db : B) : forall l r,
  length l = length r -> (forall i, (i < length l)%nat -> R (g (nth i l da)) (h (nth i r db))) ->
  Forall2 R (map g l) (map h r).
Proof.
  induction l as [|x l IH]; intros [|y r] Hl H; cbn [length map] in *; try discriminate; constructor.
  - apply (H O). lia.
  - apply IH; [lia|]. intros i Hi. apply (H (S i)). lia.
Qed.

Lemma coef_cmk (n : nat) (f : nat -> list Z) (k : nat) : (k < n)%nat -> coef (cmk n f) k = f k.
Proof.
  intros H. unfold coef, cmk. apply nth_map_seq. lia.
Qed.

Lemma coef_svp (s : poly) (n size : nat) (c : ccol) (k : nat) : (k < n)%nat ->
  coef (svp s n size c) k = map (fun j => nthZ (pmul s (limb_poly c j)) k) (seq 0 size).
Proof. intros H. unfold svp. rewrite coef_cmk by lia. rewrite map_map. reflexivity. Qed.

Lemma coef_svp_length s n size c k : (k < n)%nat -> length (coef (svp s n size c) k) = size.
Proof. intros. rewrite coef_svp by lia. rewrite map_length, seq_length. reflexivity. Qed.

Lemma limb_poly_length (c : ccol) j : length (limb_poly c j) = length c.
Proof. unfold limb_poly. apply map_length. Qed.
Lemma nth_limb_poly (c : ccol) j t : nthZ (limb_poly c j) t = nthZ (coef c t) j.
Proof.
  unfold limb_poly, coef. destruct (Nat.lt_ge_cases t (length c)) as [H|H].
  - unfold nthZ at 1. rewrite nth_indep with (d' := nthZ [] j) by (rewrite map_length; lia).
    rewrite (map_nth (fun cl => nthZ cl j)). reflexivity.
  - rewrite nthZ_overflow by (rewrite map_length; lia). rewrite (nth_overflow c) by lia. unfold nthZ. destruct j; reflexivity.
Qed.

(* 1-norm *)
Definition norm1 (s : list Z) : Z := fold_right (fun x acc => Z.abs x + acc) 0 s.
Definition asum (a : list Z) (l : list nat) : Z := fold_right (fun i acc => Z.abs (nthZ a i) + acc) 0 l.

Lemma asum_shift (x : Z) (t : list Z) (l : list nat) : asum (x :: t) (map S l) = asum t l.
Proof. induction l; cbn [map asum fold_right]; [reflexivity|]. unfold asum in IHl. rewrite IHl. reflexivity. Qed.
Lemma asum_norm1 (a : list Z) : asum a (seq 0 (length a)) = norm1 a.
Proof.
  induction a as [|x t IH]; [reflexivity|].
  cbn [length seq]. rewrite <- seq_shift. cbn [asum fold_right norm1]. fold (asum (x :: t) (map S (seq 0 (length t)))).
  rewrite asum_shift, IH. reflexivity.
Qed.
Lemma norm1_nonneg a : 0 <= norm1 a.
Proof. induction a; cbn [norm1 fold_right]; [lia|]. unfold norm1 in IHa. lia. Qed.

(* |(a * b)_k| <= |a|_1 * max|b| *)
Definition pstep (a b : list Z) (n k : nat) (acc : Z) (i : nat) : Z :=
  let ai := nthZ a i in if Nat.leb i k then acc + ai * nthZ b (k - i) else acc - ai * nthZ b (n + k - i).
Lemma asum_nonneg a l : 0 <= asum a l.
Proof. induction l; cbn [asum fold_right]; [lia|]. unfold asum in IHl. lia. Qed.
Lemma pmul_fold_bound (a b : list Z) (n k : nat) (B : Z) : bnd B b -> forall (l : list nat) (acc : Z),
  Z.abs (fold_left (pstep a b n k) l acc) <= Z.abs acc + asum a l * B.
Proof.
  intros Hb. induction l as [|i l IH]; intros acc; cbn [fold_left asum fold_right].
  - lia.
  - eapply Z.le_trans; [apply IH|]. fold (asum a l).
    assert (H1 := Hb (k - i)%nat). assert (H2 := Hb (n + k - i)%nat).
    pose proof (asum_nonneg a l). unfold pstep. cbv zeta.
    destruct (Nat.leb i k); nia.
Qed.

Lemma pmul_nth_bound (a b : list Z) (k : nat) (B : Z) : bnd B b -> 0 <= B ->
  Z.abs (nthZ (pmul a b) k) <= norm1 a * B.
Proof.
  intros Hb HB. unfold pmul.
  destruct (Nat.lt_ge_cases k (length a)) as [Hk|Hk].
  - unfold nthZ. rewrite nth_map_seq by lia.
    change (Z.abs (fold_left (pstep a b (length a) k) (seq 0 (length a)) 0) <= norm1 a * B).
    eapply Z.le_trans; [apply (pmul_fold_bound a b (length a) k B Hb)|]. rewrite asum_norm1. lia.
  - rewrite nthZ_overflow by (rewrite map_length, seq_length; lia). pose proof (norm1_nonneg a). nia.
Qed.

Lemma pmul_nth_bound_le (a b : list Z) (k : nat) (B S : Z) : bnd B b -> 0 <= B -> norm1 a <= S ->
  Z.abs (nthZ (pmul a b) k) <= S * B.
Proof.
  intros Hb HB HS. eapply Z.le_trans; [apply (pmul_nth_bound a b k B Hb HB)|]. apply Z.mul_le_mono_nonneg_r; assumption.
Qed.

(* magnitude of a product column *)
Lemma svp_coef_bnd (b S : Z) (n size : nat) (s : poly) (c : ccol) (k : nat) : 1 <= b -> (k < n)%nat ->
  norm1 s <= S -> (forall j, bnd (2 ^ (b - 1)) (limb_poly c j)) ->
  length (coef (svp s n size c) k) = size /\ bnd (S * 2 ^ (b - 1)) (coef (svp s n size c) k).
Proof.
  intros Hb Hk Hs Hc. split; [apply coef_svp_length; lia|].
  pose proof (pow2_pos (b - 1) ltac:(lia)) as Hp. pose proof (norm1_nonneg s) as Hn.
  intros j. rewrite coef_svp by lia. destruct (Nat.lt_ge_cases j size) as [Hj|Hj].
  - unfold nthZ at 1. rewrite nth_map_seq by lia. apply pmul_nth_bound_le; [apply Hc|lia|exact Hs].
  - rewrite nthZ_overflow by (rewrite map_length, seq_length; lia). nia.
Qed.

Lemma land_low_mask (b u : Z) : 0 <= b -> Z.land u (2 ^ b - 1) = u mod 2 ^ b.
Proof. intros Hb. replace (2 ^ b - 1) with (Z.ones b) by (rewrite Z.ones_equiv; lia). apply Z.land_ones. exact Hb. Qed.

Lemma uniform_digit_mod (b u : Z) : 0 <= b -> uniform_digit b u = u mod 2 ^ b - 2 ^ (b - 1).
Proof. intros Hb. unfold uniform_digit. rewrite land_low_mask by exact Hb. reflexivity. Qed.

Lemma uniform_digit_range (b u : Z) : 1 <= b -> in_range b (uniform_digit b u).
Proof.
  intros Hb. rewrite uniform_digit_mod by lia. unfold in_range.
  pose proof (pow2_split b Hb). pose proof (Z.mod_pos_bound u (2 ^ b) (pow2_pos b ltac:(lia))). lia.
Qed.

Lemma limb_poly_mask_bnd (b : Z) (n size : nat) (us : nat -> Z) (off j : nat) : 1 <= b ->
  bnd (2 ^ (b - 1)) (limb_poly (mask_col b n size us off) j).
Proof.
  intros Hb i. pose proof (pow2_pos (b - 1) ltac:(lia)) as Hp.
  unfold limb_poly, mask_col.
  destruct (Nat.lt_ge_cases i n) as [Hi|Hi].
  - unfold nthZ at 1. rewrite map_map. rewrite nth_map_seq by lia.
    destruct (Nat.lt_ge_cases j size) as [Hj|Hj].
    + unfold nthZ. rewrite nth_map_seq by lia.
      unfold mask_digit. pose proof (uniform_digit_range b (us (off + j * n + i)%nat) Hb) as Hr. unfold in_range in Hr. lia.
    + rewrite nthZ_overflow by (rewrite map_length, seq_length; lia). lia.
  - rewrite nthZ_overflow by (rewrite !map_length, seq_length; lia). lia.
Qed.

Lemma mask_col_length b n size us off : length (mask_col b n size us off) = n.
Proof. unfold mask_col. rewrite map_length, seq_length. reflexivity. Qed.

Lemma in_range_bnd_limb (b : Z) (n : nat) (c : ccol) (j : nat) : 1 <= b ->
  (forall t, (t < n)%nat -> Forall (in_range b) (coef c t)) -> length c = n -> bnd (2 ^ (b - 1)) (limb_poly c j).
Proof.
  intros Hb H Hl t. rewrite nth_limb_poly. pose proof (pow2_pos (b - 1) ltac:(lia)).
  destruct (Nat.lt_ge_cases t n).
  - apply (bnd_in_range b (coef c t) Hb (H t ltac:(lia))).
  - unfold coef. rewrite nth_overflow by lia. unfold nthZ. destruct j; cbn; lia.
Qed.

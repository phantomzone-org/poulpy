(* C01, secret-key GLWE at the level of the model: the exact phase of the body written by glwe_encrypt_sk_internal, the
   value returned by glwe_decrypt, and their composition. *)
From PV Require Import Base.MachineInt Model.Znx Model.Limbs Model.Flat Model.DftAbs Model.C08Oracle Model.EncModel
  Proofs.EncValue Proofs.EncLists Proofs.C01Sk.
Open Scope Z_scope.

Lemma glwe_mask_length b n size rank us : length (glwe_mask b n size rank us) = rank.
Proof. unfold glwe_mask. rewrite map_length, seq_length. reflexivity. Qed.

(* the product limbs (s_i * a_i)_k of every mask column, for coefficient k *)
Definition prods_at (n size : nat) (sk : list poly) (a : list ccol) (k : nat) : list (list Z) :=
  map (fun q => coef (svp (fst q) n size (snd q)) k) (combine sk a).

Lemma prods_at_length n size sk a k : length (prods_at n size sk a k) = Nat.min (length sk) (length a).
Proof. unfold prods_at. rewrite map_length. apply combine_length. Qed.

Lemma enc_sk_body_shape wb b n size nk pt sk a e body : enc_sk_body wb b n size nk pt sk a e = Some body ->
  (target_limb nk b < size)%nat /\ length body = n.
Proof.
  unfold enc_sk_body. destruct (Nat.leb size (target_limb nk b)) eqn:Hl; [discriminate|]. apply Nat.leb_gt in Hl.
  destruct (sequence _); [|discriminate]. intros H. split; [exact Hl|]. apply (cmap_opt_nth _ _ _ H).
Qed.

Section Glwe.
Variables wb b pb : Z.
Variable D : Z -> Prop.
Variables n size psize rank : nat.
Variable nk : Z.
Hypothesis normalize_value_ok_small : normalize_value_ok_dom D (fun rb ab => normalize 64 rb ab 0) (2 ^ 62).
Hypothesis normalize_value_ok_big : normalize_value_ok_dom D (bnorm wb) (2 ^ (wb - 2)).
Hypothesis Hwb : 2 <= wb.
Hypothesis Hb : D b.
Hypothesis Hpb : D pb.
Hypothesis Hb_pos : 1 <= b.
Variables S E M : Z.
Hypothesis HS : 0 <= S.

Lemma prods_at_ok (sk : list poly) (a : list ccol) (k : nat) : (k < n)%nat ->
  Forall (fun s => norm1 s <= S) sk -> Forall (fun c => forall j, bnd (2 ^ (b - 1)) (limb_poly c j)) a ->
  Forall (fun X => length X = size /\ bnd (S * 2 ^ (b - 1)) X) (prods_at n size sk a k).
Proof.
  intros Hk Hs Ha. unfold prods_at. rewrite Forall_forall in *. intros X HX.
  apply in_map_iff in HX. destruct HX as [[s c] [<- Hin]]. cbn [fst snd].
  apply (svp_coef_bnd b S n size s c k Hb_pos Hk).
  - apply Hs. exact (in_combine_l _ _ _ _ Hin).
  - apply Ha. exact (in_combine_r _ _ _ _ Hin).
Qed.

Lemma glwe_mask_bnd (us : nat -> Z) :
  Forall (fun c => forall j, bnd (2 ^ (b - 1)) (limb_poly c j)) (glwe_mask b n size rank us).
Proof.
  unfold glwe_mask. rewrite Forall_map, Forall_forall. intros c _ j. apply limb_poly_mask_bnd. exact Hb_pos.
Qed.

(* The phase body + sum_i s_i a_i of a fresh ciphertext is plaintext + e on limb ceil(nk/b) - 1, exactly; `pt0` is the
   optional plaintext on column 0 (the public key is such a ciphertext without plaintext). *)
Lemma enc_sk_body_phase (pt0 : option ccol) (sk : list poly) (us : nat -> Z) (e : poly) (body : ccol) (k : nat) :
  (k < n)%nat -> length sk = rank -> Forall (fun s => norm1 s <= S) sk ->
  Z.abs (nthZ e k) <= E -> (forall p, pt0 = Some p -> bnd M (coef p k)) -> 0 <= M ->
  zn rank * 2 ^ (b - 1) + E + M <= 2 ^ 62 -> S * 2 ^ (b - 1) <= 2 ^ (wb - 2) ->
  enc_sk_body wb b n size nk (option_map (fun p => (p, O)) pt0) sk (glwe_mask b n size rank us) e = Some body ->
  length (coef body k) = size /\ Forall (in_range b) (coef body k) /\
  forall P, zn size * b <= P -> 1 <= P ->
    exists q, lval P b size (coef body k) + lvsum P b size (prods_at n size sk (glwe_mask b n size rank us) k)
              = optval P b size (option_map (fun p => coef p k) pt0) + nthZ e k * wt P b (target_limb nk b) + q * 2 ^ P.
Proof.
  intros Hk Hlen Hs He Hm HM Hh64 HBp Hbody.
  destruct (enc_sk_body_shape _ _ _ _ _ _ _ _ _ _ Hbody) as [Hl _].
  set (a := glwe_mask b n size rank us) in *.
  unfold enc_sk_body in Hbody. destruct (Nat.leb size (target_limb nk b)); [discriminate|].
  destruct (sequence _) as [terms|] eqn:Hseq in Hbody; [|discriminate].
  destruct (cmap_opt_nth _ _ _ Hbody) as [_ Hbk]. specialize (Hbk k Hk). cbn beta in Hbk.
  assert (Hbk' : sk_body_coeff b size (target_limb nk b) (map (fun t => coef t k) terms) (nthZ e k)
                   (option_map (fun p => coef p k) pt0) = Some (coef body k)) by (destruct pt0; exact Hbk).
  (* a plaintext on column 0 does not enter the products *)
  assert (Esrc : forall i c, sk_src b n size (option_map (fun p => (p, O)) pt0) (Datatypes.S i) c = c)
    by (intros; destruct pt0; reflexivity).
  assert (LX : length (prods_at n size sk a k) = rank).
  { rewrite prods_at_length. unfold a. rewrite glwe_mask_length. lia. }
  assert (HT : Forall2 (fun X t => bnorm wb b b X (zeros size) = Some t)
                 (prods_at n size sk a k) (map (fun t => coef t k) terms)).
  { assert (Lc : length (combine sk a) = length a) by (rewrite combine_length; unfold a; rewrite glwe_mask_length; lia).
    destruct (sequence_indexed_nth _ _ _ _ Lc Hseq) as [Lt Nt].
    unfold prods_at. apply (Forall2_map_of_nth _ _ _ ([], []) []); [exact (eq_trans Lc (eq_sym Lt))|].
    intros i Hi. assert (Hi' : (i < length a)%nat) by (rewrite <- Lc; exact Hi).
    specialize (Nt i ([], []) [] Hi'). cbn [fst snd] in Nt.
    unfold sk_term in Nt. rewrite Esrc in Nt.
    destruct (cmap_opt_nth _ _ _ Nt) as [_ Htk]. exact (Htk k Hk). }
  eapply (enc_body_value wb b D size) with (Bp := S * 2 ^ (b - 1)) (E := E) (M := M); try eassumption.
  - apply (prods_at_ok sk a k Hk Hs (glwe_mask_bnd us)).
  - intros p Hp. destruct pt0 as [p0|]; [|discriminate]. injection Hp as <-. apply Hm. reflexivity.
  - rewrite LX. exact Hh64.
Qed.

(* glwe_decrypt returns body + sum_i s_i a_i within one unit of the last limb of the plaintext *)
Lemma dec_glwe_value (sk : list poly) (ct : list ccol) (d : ccol) (k : nat) : (k < n)%nat ->
  (length sk <= rank)%nat -> Forall (fun s => norm1 s <= S) sk ->
  Forall (fun c => forall j, bnd (2 ^ (b - 1)) (limb_poly c j)) (tl ct) ->
  length (coef (hd [] ct) k) = size -> Forall (in_range b) (coef (hd [] ct) k) ->
  zn rank * (S * 2 ^ (b - 1)) + 2 ^ (b - 1) <= 2 ^ (wb - 2) ->
  dec_glwe wb b pb n size psize sk ct = Some d ->
  length (coef d k) = psize /\
  forall P, zn size * b <= P -> zn psize * pb <= P ->
    tor_abs P (val_scaled P pb (coef d k)
               - (lvsum P b size (prods_at n size sk (tl ct) k) + lval P b size (coef (hd [] ct) k)))
      <= 2 ^ (P - zn psize * pb).
Proof.
  intros Hk Hlen Hs Hct Lb Rb Hh Hdec.
  unfold dec_glwe in Hdec. destruct (cmap_opt_nth _ _ _ Hdec) as [_ Hdk]. specialize (Hdk k Hk). cbn beta in Hdk.
  rewrite map_map in Hdk. fold (prods_at n size sk (tl ct) k) in Hdk.
  pose proof (pow2_pos (b - 1) ltac:(lia)) as Hp.
  assert (LX : zn (length (prods_at n size sk (tl ct) k)) <= zn rank) by (rewrite prods_at_length; unfold zn; lia).
  assert (HBp : 0 <= S * 2 ^ (b - 1)) by nia.
  eapply (dec_coeff_value wb b pb D size psize) with (Bp := S * 2 ^ (b - 1)) (Bb := 2 ^ (b - 1)); try eassumption.
  - apply (prods_at_ok sk (tl ct) k Hk Hs Hct).
  - apply bnd_in_range; assumption.
  - pose proof (Z.mul_le_mono_nonneg_r _ _ _ HBp LX). lia.
Qed.

Theorem sk_roundtrip (pt : ccol) (sk : list poly) (us : nat -> Z) (e : poly) (ct : list ccol) (d : ccol) :
  length sk = rank ->
  Forall (fun s => norm1 s <= S) sk ->
  (forall k, (k < n)%nat -> Z.abs (nthZ e k) <= E) ->
  (forall k, (k < n)%nat -> bnd M (coef pt k)) ->
  zn rank * 2 ^ (b - 1) + E + M <= 2 ^ 62 ->
  zn rank * (S * 2 ^ (b - 1)) + 2 ^ (b - 1) <= 2 ^ (wb - 2) ->
  S * 2 ^ (b - 1) <= 2 ^ (wb - 2) ->
  enc_sk wb b n size rank nk (Some (pt, O)) sk us e = Some ct ->
  dec_glwe wb b pb n size psize sk ct = Some d ->
  let ell := target_limb nk b in
  (ell < size)%nat /\ tl ct = glwe_mask b n size rank us /\
  forall k, (k < n)%nat ->
    length (coef (hd [] ct) k) = size /\ Forall (in_range b) (coef (hd [] ct) k) /\ length (coef d k) = psize /\
    forall P, zn size * b <= P -> zn psize * pb <= P -> 1 <= P ->
    (exists q, lval P b size (coef (hd [] ct) k) + lvsum P b size (prods_at n size sk (tl ct) k)
               = lval P b size (coef pt k) + nthZ e k * wt P b ell + q * 2 ^ P) /\
    tor_abs P (val_scaled P pb (coef d k) - val_scaled P b (firstn size (coef pt k)) - nthZ e k * wt P b ell)
      <= 2 ^ (P - zn psize * pb).
Proof using normalize_value_ok_small normalize_value_ok_big Hwb Hb Hpb Hb_pos HS.
  intros Hlen Hs He Hm Hh64 Hhb HBp Henc Hdec. cbv zeta.
  unfold enc_sk in Henc.
  destruct (enc_sk_body wb b n size nk (Some (pt, O)) sk (glwe_mask b n size rank us) e) as [body|] eqn:Hbody; [|discriminate].
  injection Henc as <-. cbn [hd tl] in *.
  split; [apply (enc_sk_body_shape _ _ _ _ _ _ _ _ _ _ Hbody)|]. split; [reflexivity|].
  intros k Hk.
  assert (HM : 0 <= M) by (specialize (Hm k Hk O); lia).
  destruct (enc_sk_body_phase (Some pt) sk us e body k Hk Hlen Hs (He k Hk)
              ltac:(intros p Hp; injection Hp as <-; exact (Hm k Hk)) HM Hh64 HBp Hbody) as (L1 & R1 & V1).
  destruct (dec_glwe_value sk (body :: glwe_mask b n size rank us) d k Hk ltac:(lia) Hs (glwe_mask_bnd us) L1 R1 Hhb Hdec)
    as (L2 & V2).
  split; [exact L1|]. split; [exact R1|]. split; [exact L2|].
  intros P HP HPp HP1. destruct (V1 P HP HP1) as [q Hq]. cbn [option_map optval] in Hq.
  split; [exists q; exact Hq|].
  rewrite lval_firstn. refine (roundtrip_of_phase P _ _ _ _ q _ HP1 _ (V2 P HP HPp)). cbn [hd tl]. lia.
Qed.

End Glwe.

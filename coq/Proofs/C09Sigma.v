(* C09 items 3-4: the running-index automorphism loop is the Galois map sigma_g : X -> X^g,
   every position is written exactly once, and sigma_g o sigma_h = sigma_{gh}. *)
From Coq Require Import Znumtheory Zpow_facts.
From PV Require Import Base.MachineInt Model.Znx Model.Limbs Model.Ring Model.Poly
  Proofs.C09Lists Proofs.C09Ring.
Open Scope Z_scope.

Lemma gcd2n_odd g n : Z.gcd g (2 * n) = 1 -> Z.odd g = true.
Proof.
  intros Hg. destruct (Z.odd g) eqn:Ho; auto. exfalso.
  assert (He : Z.even g = true) by (rewrite <- Z.negb_odd, Ho; reflexivity).
  apply Z.even_spec in He. destruct He as [m Hm].
  assert (Hd : (2 | Z.gcd g (2 * n))).
  { apply Z.gcd_greatest; [exists m; lia | exists n; lia]. }
  rewrite Hg in Hd. destruct Hd as [c Hc]. lia.
Qed.

Lemma gcd2n_gcdn g n : Z.gcd g (2 * n) = 1 -> Z.gcd g n = 1.
Proof.
  intros Hg. apply Zgcd_1_rel_prime. apply Zgcd_1_rel_prime in Hg.
  apply rel_prime_sym. apply (rel_prime_div (2 * n) g n); [apply rel_prime_sym; auto|].
  exists 2; lia.
Qed.

Lemma odd_pow2_coprime g m : 0 <= m -> Z.odd g = true -> Z.gcd g (2 * 2 ^ m) = 1.
Proof.
  intros Hm Ho. apply Zgcd_1_rel_prime.
  replace (2 * 2 ^ m) with (2 ^ (m + 1)) by (rewrite Z.pow_add_r by lia; lia).
  apply rel_prime_Zpower_r; [lia|].
  apply bezout_rel_prime.
  apply Zodd_bool_iff in Ho. apply Zodd_ex_iff in Ho.
  destruct Ho as [k Hk]. apply (Bezout_intro g 2 1 1 (- k)). lia.
Qed.

Lemma gcd_mul_2n g h n : Z.gcd g (2 * n) = 1 -> Z.gcd h (2 * n) = 1 -> Z.gcd (g * h) (2 * n) = 1.
Proof.
  intros Hg Hh. apply Zgcd_1_rel_prime. apply Zgcd_1_rel_prime in Hg, Hh.
  apply rel_prime_sym. apply rel_prime_mult; apply rel_prime_sym; auto.
Qed.

Lemma mod_2n_mod_n x n : 0 < n -> (x mod (2 * n)) mod n = x mod n.
Proof. intros Hn. symmetry. apply Zmod_div_mod; try lia. exists 2; lia. Qed.

(* multiplication by g (coprime to n) is injective on [0,n) modulo n *)
Lemma mul_inj_mod g n j1 j2 :
  0 < n -> Z.gcd g n = 1 -> 0 <= j1 < n -> 0 <= j2 < n ->
  (j1 * g) mod n = (j2 * g) mod n -> j1 = j2.
Proof.
  intros Hn Hg H1 H2 Heq.
  assert (Hd : (n | (j1 - j2) * g)).
  { apply Z.mod_divide; [lia|].
    replace ((j1 - j2) * g) with (j1 * g - j2 * g) by ring.
    rewrite Zminus_mod, Heq, Z.sub_diag. apply Z.mod_0_l; lia. }
  rewrite Z.mul_comm in Hd.
  apply Gauss in Hd; [|apply rel_prime_sym, Zgcd_1_rel_prime; auto].
  destruct Hd as [c Hc].
  assert (Hc0 : c = 0).
  { destruct (Z_lt_le_dec c 1); destruct (Z_lt_le_dec (-1) c); try lia; nia. }
  subst c. lia.
Qed.

(* znx_automorphism_onto with the modulus made a parameter (convertible to the model): sg_e, sg_pos, sg_val below are
   stated over the section variable a, so onto_fold cannot destruct a itself; it changes to onto_gen at the moduli of
   a and destructs a copy l = a *)
Definition onto_gen (w n2 nn p2 : Z) (r0 a : list Z) : list Z :=
  match a with
  | [] => r0
  | a0 :: rest =>
    fst (fold_left (fun (s : list Z * Z) ai =>
      let '(r, k) := s in
      let k' := (k + p2) mod n2 in
      (if k' <? nn then upd r (Z.to_nat k') ai else upd r (Z.to_nat (k' - nn)) (wneg w ai), k'))
      rest (upd r0 0 a0, 0))
  end.

Section Sigma.
Variable w : Z.
Variable g : Z.
Variable a : list Z.
Local Notation n := (Z.of_nat (length a)).

Definition sg_e (j : nat) : Z := (Z.of_nat j * g) mod (2 * n).
Definition sg_pos (j : nat) : nat := Z.to_nat (if sg_e j <? n then sg_e j else sg_e j - n).
Definition sg_val (j : nat) : Z := if sg_e j <? n then nthZ a j else wneg w (nthZ a j).

Lemma sg_e_bound j : 0 < n -> 0 <= sg_e j < 2 * n.
Proof. intros; unfold sg_e; apply Z.mod_pos_bound; lia. Qed.

Lemma sg_pos_mod j : 0 < n -> Z.of_nat (sg_pos j) = (Z.of_nat j * g) mod n.
Proof.
  intros Hn. unfold sg_pos. pose proof (sg_e_bound j Hn) as Hb.
  rewrite <- (mod_2n_mod_n (Z.of_nat j * g) n Hn). fold (sg_e j).
  destruct (Z.ltb_spec (sg_e j) n).
  - rewrite Z2Nat.id by lia. symmetry; apply Z.mod_small; lia.
  - rewrite Z2Nat.id by lia. apply (Z.mod_unique_pos (sg_e j) n 1); lia.
Qed.

Lemma sg_pos_lt j : 0 < n -> (sg_pos j < length a)%nat.
Proof.
  intros Hn. pose proof (sg_pos_mod j Hn) as H.
  pose proof (Z.mod_pos_bound (Z.of_nat j * g) n Hn) as Hb. rewrite <- H in Hb. lia.
Qed.

Lemma sg_pos_inj j1 j2 :
  Z.gcd g n = 1 -> (j1 < length a)%nat -> (j2 < length a)%nat -> sg_pos j1 = sg_pos j2 -> j1 = j2.
Proof.
  intros Hg H1 H2 Heq. assert (Hn : 0 < n) by lia.
  apply Nat2Z.inj. apply (mul_inj_mod g n); auto; try lia.
  rewrite <- !sg_pos_mod by auto. rewrite Heq. reflexivity.
Qed.

(* sigma as a fold of independent writes *)
Lemma sigma_fold :
  sigma w g a = fold_upd sg_pos sg_val (seq 0 (length a)) (zeros (length a)).
Proof.
  unfold sigma, fold_upd. cbv zeta. apply fold_left_ext_in. intros r j _.
  unfold sg_pos, sg_val, sg_e. destruct (_ <? _); reflexivity.
Qed.

(* the running index k_j = (j * g) mod 2n *)
Lemma step_e j : (sg_e j + g mod (2 * n)) mod (2 * n) = sg_e (S j).
Proof.
  unfold sg_e. rewrite <- Zplus_mod. f_equal. lia.
Qed.

Lemma onto_loop (rest : list Z) : forall (j0 : nat) (r : list Z),
  (forall i, (i < length rest)%nat -> nthZ rest i = nthZ a (S j0 + i)) ->
  fold_left (fun (s : list Z * Z) ai =>
      let '(r, k) := s in
      let k' := (k + g mod (2 * n)) mod (2 * n) in
      (if k' <? n then upd r (Z.to_nat k') ai else upd r (Z.to_nat (k' - n)) (wneg w ai), k'))
    rest (r, sg_e j0)
  = (fold_upd sg_pos sg_val (seq (S j0) (length rest)) r, sg_e (j0 + length rest)).
Proof.
  induction rest as [|x rest IH]; intros j0 r Hnth.
  - cbn [fold_left length seq fold_upd]. rewrite Nat.add_0_r. reflexivity.
  - cbn [fold_left length seq]. cbv zeta. rewrite step_e.
    assert (Hx : x = nthZ a (S j0)).
    { specialize (Hnth 0%nat ltac:(cbn [length]; lia)). rewrite Nat.add_0_r in Hnth. exact Hnth. }
    replace (if sg_e (S j0) <? n then upd r (Z.to_nat (sg_e (S j0))) x
             else upd r (Z.to_nat (sg_e (S j0) - n)) (wneg w x))
      with (upd r (sg_pos (S j0)) (sg_val (S j0)))
      by (unfold sg_pos, sg_val; rewrite Hx; destruct (_ <? _); reflexivity).
    rewrite IH; auto.
    + unfold fold_upd. cbn [fold_left]. f_equal. f_equal. lia.
    + intros i Hi. specialize (Hnth (S i) ltac:(cbn [length]; lia)).
      unfold nthZ in *. cbn [nth] in Hnth. rewrite Hnth. f_equal. lia.
Qed.

Lemma onto_fold r0 :
  (0 < length a)%nat ->
  znx_automorphism_onto w g r0 a = fold_upd sg_pos sg_val (seq 0 (length a)) r0.
Proof.
  intros Hlen. assert (Hn : 0 < n) by lia.
  change (znx_automorphism_onto w g r0 a) with (onto_gen w (2 * n) n (g mod (2 * n)) r0 a).
  assert (Hgen : forall l, l = a ->
     onto_gen w (2 * n) n (g mod (2 * n)) r0 l = fold_upd sg_pos sg_val (seq 0 (length l)) r0).
  2: apply Hgen; reflexivity.
  intros l El. destruct l as [|a0 rest]; [rewrite <- El in Hlen; cbn [length] in Hlen; lia|].
  unfold onto_gen.
  assert (H0 : sg_e 0 = 0) by (unfold sg_e; cbn [Z.of_nat]; rewrite Z.mul_0_l; apply Z.mod_0_l; lia).
  rewrite <- H0 at 1.
  assert (Hnth : forall i, (i < length rest)%nat -> nthZ rest i = nthZ a (1 + i))
    by (intros i Hi; rewrite <- El; reflexivity).
  pose proof (onto_loop rest 0 (upd r0 0 a0) Hnth) as HL. cbv zeta in HL. rewrite HL. clear HL.
  cbn [fst length seq]. unfold fold_upd. cbn [fold_left]. f_equal.
    unfold sg_pos, sg_val. rewrite H0. rewrite <- El.
    destruct (Z.ltb_spec 0 n); [|lia]. reflexivity.
Qed.

Lemma fold_all_hit r0 :
  Z.gcd g n = 1 -> length r0 = length a ->
  forall j, (j < length a)%nat ->
  nthZ (fold_upd sg_pos sg_val (seq 0 (length a)) r0) (sg_pos j) = sg_val j.
Proof.
  intros Hg Hl j Hj. assert (Hn : 0 < n) by lia.
  apply fold_upd_hit.
  - apply inj_seq_NoDup. intros; apply sg_pos_inj; auto.
  - apply in_seq; lia.
  - rewrite Hl. apply sg_pos_lt; auto.
Qed.

Lemma sg_pos_onto t :
  Z.gcd g n = 1 -> (t < length a)%nat -> exists j, (j < length a)%nat /\ sg_pos j = t.
Proof.
  intros Hg Ht. assert (Hn : 0 < n) by lia.
  apply inj_seq_onto; auto.
  - intros; apply sg_pos_lt; auto.
  - intros; apply sg_pos_inj; auto.
Qed.

(* the final content does not depend on the initial content *)
Lemma fold_indep r0 r1 :
  Z.gcd g n = 1 -> length r0 = length a -> length r1 = length a ->
  fold_upd sg_pos sg_val (seq 0 (length a)) r0 = fold_upd sg_pos sg_val (seq 0 (length a)) r1.
Proof.
  intros Hg H0 H1. apply nthZ_ext.
  - rewrite !fold_upd_length. lia.
  - intros t Ht. rewrite fold_upd_length, H0 in Ht.
    destruct (sg_pos_onto t Hg Ht) as [j [Hj <-]].
    rewrite !fold_all_hit by auto. reflexivity.
Qed.

Lemma sigma_length : length (sigma w g a) = length a.
Proof. rewrite sigma_fold, fold_upd_length. apply repeat_length. Qed.

Lemma sigma_nth j :
  Z.gcd g n = 1 -> (j < length a)%nat -> nthZ (sigma w g a) (sg_pos j) = sg_val j.
Proof.
  intros Hg Hj. rewrite sigma_fold. apply fold_all_hit; auto. apply repeat_length.
Qed.

Theorem automorphism_is_sigma_gcd r0 :
  Z.gcd g n = 1 -> length r0 = length a ->
  znx_automorphism_onto w g r0 a = sigma w g a.
Proof.
  intros Hg Hl.
  destruct (Nat.eq_dec (length a) 0) as [H0|H0].
  { destruct a; [|discriminate]. destruct r0; [|discriminate]. reflexivity. }
  rewrite onto_fold by lia. rewrite sigma_fold.
  apply fold_indep; auto. apply repeat_length.
Qed.

Lemma sigma_range :
  1 <= w -> Z.gcd g n = 1 -> Forall (in_range w) a -> Forall (in_range w) (sigma w g a).
Proof.
  intros Hw Hg Hr. apply Forall_of_nthZ. intros t Ht. rewrite sigma_length in Ht.
  destruct (sg_pos_onto t Hg Ht) as [j [Hj <-]].
  rewrite sigma_nth by auto. unfold sg_val.
  destruct (_ <? _); [apply Forall_nthZ; auto | apply wneg_range; auto].
Qed.

(* coefficient j of a sits at exponent j*g of sigma_g a *)
Lemma ext_sigma_small j :
  1 <= w -> Z.gcd g n = 1 -> Forall (in_range w) a -> (j < length a)%nat ->
  ext w (sigma w g a) (Z.of_nat j * g) = nthZ a j.
Proof.
  intros Hw Hg Hr Hj. assert (Hn : 0 < n) by lia.
  pose proof (sigma_nth j Hg Hj) as Hs.
  pose proof (sg_pos_lt j Hn) as Hp.
  pose proof (sg_e_bound j Hn) as Hb.
  pose proof (Z.div_mod (Z.of_nat j * g) (2 * n) ltac:(lia)) as Hdm. fold (sg_e j) in Hdm.
  set (Q := (Z.of_nat j * g) / (2 * n)) in *. clearbody Q.
  unfold sg_pos, sg_val in *.
  destruct (Z.ltb_spec (sg_e j) n) as [Hlt|Hge].
  - rewrite (ext_at_nat w (sigma w g a) _ (0 + 2 * Q) (Z.to_nat (sg_e j)))
      by (rewrite sigma_length; lia).
    rewrite even_add_mul2. cbn [Z.even]. exact Hs.
  - rewrite (ext_at_nat w (sigma w g a) _ (1 + 2 * Q) (Z.to_nat (sg_e j - n)))
      by (rewrite sigma_length; lia).
    rewrite even_add_mul2. cbn [Z.even]. rewrite Hs.
    apply wneg_involutive; auto. apply Forall_nthZ; auto.
Qed.

(* sigma_g a (X^g) = a (X) on the whole extension *)
Lemma ext_sigma k :
  1 <= w -> Z.gcd g (2 * n) = 1 -> Forall (in_range w) a -> (0 < length a)%nat ->
  ext w (sigma w g a) (k * g) = ext w a k.
Proof.
  intros Hw Hg2 Hr Hlen. assert (Hn : 0 < n) by lia.
  pose proof (gcd2n_odd g n Hg2) as Hodd. pose proof (gcd2n_gcdn g n Hg2) as Hg.
  destruct (exp_decomp n k Hn) as [q [j [Hk Hj]]].
  rewrite (ext_at_nat w a k q j) by lia.
  replace (k * g) with (Z.of_nat j * g + (q * g) * Z.of_nat (length (sigma w g a)))
    by (rewrite sigma_length; subst k; ring).
  rewrite ext_shift; auto.
  - rewrite ext_sigma_small by (auto; lia).
    rewrite Z.even_mul. rewrite <- (Z.negb_odd g), Hodd. cbn [negb]. rewrite Bool.orb_false_r.
    reflexivity.
  - apply sigma_range; auto.
  - rewrite sigma_length; auto.
Qed.

End Sigma.

(* two lists of one length agree as soon as their extensions agree along an index map that reaches every residue
   modulo 2n: k + p for the rotations, k * g for sigma_g *)
Lemma ext_inj_along w (phi : Z -> Z) (a b : list Z) :
  length a = length b -> (0 < length a)%nat ->
  (forall t, exists k s, t = phi k + s * (2 * Z.of_nat (length a))) ->
  (forall k, ext w a (phi k) = ext w b (phi k)) -> a = b.
Proof.
  intros Hl Hn Hon H. apply (ext_inj w); [exact Hl|]. intros t. destruct (Hon t) as (k & s & ->).
  rewrite ext_period by exact Hn. rewrite Hl, ext_period by lia. apply H.
Qed.

Lemma bezout_all g m : Z.gcd g m = 1 -> forall t, exists k s, t = k * g + s * m.
Proof.
  intros Hg t. destruct (rel_prime_bezout g m) as [u v Huv]; [apply Zgcd_1_rel_prime; exact Hg|].
  exists (t * u), (t * v). transitivity (t * (u * g + v * m)); [rewrite Huv; ring|ring].
Qed.

Theorem sigma_compose_gcd w g h a :
  1 <= w -> Z.gcd g (2 * Z.of_nat (length a)) = 1 -> Z.gcd h (2 * Z.of_nat (length a)) = 1 ->
  Forall (in_range w) a ->
  sigma w g (sigma w h a) = sigma w (g * h) a.
Proof.
  intros Hw Hg Hh Hr.
  destruct (Nat.eq_dec (length a) 0) as [H0|H0].
  { destruct a; [|discriminate]. reflexivity. }
  pose proof (gcd_mul_2n g h _ Hg Hh) as Hgh.
  apply (ext_inj_along w (fun k => k * (g * h))); rewrite ?sigma_length; [reflexivity|lia|apply bezout_all; exact Hgh|].
  intros k. rewrite (ext_sigma w (g * h)) by (auto; lia).
  replace (k * (g * h)) with (k * h * g) by ring.
  rewrite ext_sigma; rewrite ?sigma_length; auto; try lia.
  - apply ext_sigma; auto; lia.
  - apply sigma_range; auto. apply gcd2n_gcdn; exact Hh.
Qed.

Theorem sigma_1 w a : sigma w 1 a = a.
Proof.
  destruct (Nat.eq_dec (length a) 0) as [H0|H0].
  { destruct a; [|discriminate]. reflexivity. }
  set (n := Z.of_nat (length a)). assert (Hn : 0 < n) by (unfold n; lia).
  assert (Hg : Z.gcd 1 n = 1) by apply Z.gcd_1_l.
  apply nthZ_ext; [apply sigma_length|].
  intros i Hi. rewrite sigma_length in Hi.
  assert (He : sg_e 1 a i = Z.of_nat i).
  { unfold sg_e. rewrite Z.mul_1_r. apply Z.mod_small. lia. }
  assert (Hp : sg_pos 1 a i = i).
  { unfold sg_pos. rewrite He. fold n. destruct (Z.ltb_spec (Z.of_nat i) n); lia. }
  rewrite <- Hp at 1. rewrite sigma_nth by auto.
  unfold sg_val. rewrite He. fold n. destruct (Z.ltb_spec (Z.of_nat i) n); [reflexivity|lia].
Qed.

(* sigma only depends on g mod 2n *)
Lemma sigma_mod w g a : sigma w (g mod (2 * Z.of_nat (length a))) a = sigma w g a.
Proof.
  destruct (Nat.eq_dec (length a) 0) as [H0|H0].
  { destruct a; [|discriminate]. reflexivity. }
  unfold sigma. cbv zeta. apply fold_left_ext_in. intros r j _.
  rewrite Z.mul_mod_idemp_r by lia. reflexivity.
Qed.

Lemma sigma_congr w g h a :
  g mod (2 * Z.of_nat (length a)) = h mod (2 * Z.of_nat (length a)) -> sigma w g a = sigma w h a.
Proof. intros H. rewrite <- (sigma_mod w g), <- (sigma_mod w h), H. reflexivity. Qed.

(* g * h = 1 mod 2n: sigma_h undoes sigma_g *)
Theorem sigma_inverse_gcd w g h a :
  1 <= w -> Z.gcd g (2 * Z.of_nat (length a)) = 1 ->
  (g * h) mod (2 * Z.of_nat (length a)) = 1 ->
  Forall (in_range w) a ->
  sigma w h (sigma w g a) = a.
Proof.
  intros Hw Hg Hinv Hr.
  destruct (Nat.eq_dec (length a) 0) as [H0|H0].
  { destruct a; [|discriminate]. reflexivity. }
  set (n := Z.of_nat (length a)) in *. assert (Hn : 0 < n) by (unfold n; lia).
  assert (Hh : Z.gcd h (2 * n) = 1).
  { apply Zgcd_1_rel_prime. apply bezout_rel_prime.
    pose proof (Z.div_mod (g * h) (2 * n) ltac:(lia)) as Hd. rewrite Hinv in Hd.
    apply (Bezout_intro h (2 * n) 1 g (- ((g * h) / (2 * n)))). lia. }
  rewrite sigma_compose_gcd by auto.
  rewrite (sigma_congr w (h * g) 1 a).
  - apply sigma_1.
  - fold n. rewrite (Z.mul_comm h g), Hinv. symmetry. apply Z.mod_small. lia.
Qed.

(* the forms the library uses: n = 2^m, g odd *)
Theorem automorphism_is_sigma w g m r0 a :
  0 <= m -> Z.of_nat (length a) = 2 ^ m -> Z.odd g = true -> length r0 = length a ->
  znx_automorphism_onto w g r0 a = sigma w g a.
Proof.
  intros Hm Hn Ho Hl. apply automorphism_is_sigma_gcd; auto.
  apply gcd2n_gcdn. rewrite Hn. apply odd_pow2_coprime; auto.
Qed.

Theorem sigma_compose w g h m a :
  1 <= w -> 0 <= m -> Z.of_nat (length a) = 2 ^ m -> Z.odd g = true -> Z.odd h = true ->
  Forall (in_range w) a ->
  sigma w g (sigma w h a) = sigma w (g * h) a.
Proof.
  intros Hw Hm Hn Hg Hh Hr. apply sigma_compose_gcd; auto; rewrite Hn; apply odd_pow2_coprime; auto.
Qed.


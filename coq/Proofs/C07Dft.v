(* C07: the length of `mk`.  The coefficient-list basics of Proofs/PolyFacts.v are exported from here, so that the files
   which import C07Dft see them. *)
From PV Require Import Base.MachineInt Model.Znx Model.Limbs Model.Ring Model.DftAbs.
From PV Require Export Proofs.PolyFacts.
Open Scope Z_scope.

Lemma mk_length rsz f : length (mk rsz f) = rsz.
Proof. unfold mk; rewrite map_length, seq_length; reflexivity. Qed.

(* C05 — discharge of the Section hypotheses `nrm_shape`, `nrm_no_overflow`, `normalize_value_ok` of Proofs/C05Core.v for the
   model's per-column normaliser `big_nrm` with equal radices, once for both accumulator widths: Section Width takes the
   per-coefficient routine `ni` and C08's value theorem about it as hypotheses and gives the hypothesis-free forms of the
   tensor / mul_plain phase theorems; Props/C05.v instantiates it with C08Normalize.normalize_inter_value (FFT64) and
   C08WNormalize.normalize_inter_value_128 (NTT120).  The notions of the FFT64 family stand at the end of the file. *)
From PV Require Import Base.MachineInt Model.Znx Model.Limbs Model.LimbsBig Model.Flat Model.Ring Model.DftAbs
  Model.C05Cnv Model.C05Spec Model.C05Core Model.C08Oracle.
From PV Require Import Proofs.C07Dft Proofs.C07Ring Proofs.C05Cnv Proofs.C05Core.
From PV Require Import Proofs.C08Chain Proofs.C08Value Proofs.C08Normalize.
Open Scope Z_scope.

Lemma sumn_zsum m f : sumn m f = zsum f m.
Proof. induction m as [|m IH]; [reflexivity|]. cbn [sumn]. rewrite zsum_S, IH. reflexivity. Qed.

(* the limbs of coefficient c of a column *)
Definition coefcol (c : nat) (D : plimbs) : list Z := map (fun l => nthZ l c) D.

Lemma nthZ_coefcol c D u : nthZ (coefcol c D) u = nth c (lim D u) 0.
Proof.
  unfold coefcol, nthZ, lim. destruct (Nat.lt_ge_cases u (length D)) as [H|H].
  - rewrite (nth_map' _ _ _ _ []) by exact H. reflexivity.
  - rewrite (nth_overflow (map _ D)) by (rewrite map_length; exact H). rewrite (nth_overflow D) by exact H. destruct c; reflexivity.
Qed.

Lemma val_scaled_cval P b c D : val_scaled P b (coefcol c D) = cval P b c D.
Proof.
  rewrite val_scaled_sumn, sumn_zsum. unfold cval, coefcol. rewrite map_length.
  apply zsum_ext; intros u _. fold (coefcol c D). rewrite nthZ_coefcol. unfold wt. ring.
Qed.

Lemma sequence_map_some {X Y} (g : X -> Y) l : sequence (map (fun x => Some (g x)) l) = Some (map g l).
Proof. induction l as [|x l IH]; [reflexivity|]. cbn [map sequence]. rewrite IH. reflexivity. Qed.

Lemma nth_transpose n (L : list (list Z)) c : (c < n)%nat -> nth c (transpose n L) [] = coefcol c L.
Proof.
  intros H. unfold transpose. rewrite (nth_indep _ [] (map (fun l => nthZ l 0%nat) L)) by (rewrite map_length, seq_length; exact H).
  rewrite (map_nth (fun i => map (fun l => nthZ l i) L)), seq_nth by exact H. reflexivity.
Qed.
Lemma transpose_length n (L : list (list Z)) : length (transpose n L) = n.
Proof. unfold transpose. rewrite map_length, seq_length. reflexivity. Qed.

(* the magnitude domain of an accumulator of either width *)
Definition capped (cap : Z) (D : plimbs) : Prop := forall u c, Z.abs (nth c (lim D u) 0) <= cap.

Lemma capped_coefcol cap D c : capped cap D -> Forall (fun x => Z.abs x <= cap) (coefcol c D).
Proof.
  intros H. apply Forall_forall. intros x Hx. unfold coefcol in Hx. apply in_map_iff in Hx. destruct Hx as (l & <- & Hl).
  destruct (In_nth _ _ [] Hl) as (u & Hu & E). specialize (H u c). unfold lim in H. rewrite E in H. exact H.
Qed.

(* X = Y + (X - Y reduced to P bits around 0) + 2^P (the quotient), coefficient by coefficient *)
Lemma wrap_quot_split n P (X Y : list Z) : 0 <= P -> length X = n -> length Y = n ->
  X = padd (padd Y (map (fun c => wrap P (nth c X 0 - nth c Y 0)) (seq 0 n)))
           (pscale (2 ^ P) (map (fun c => (nth c X 0 - nth c Y 0 + 2 ^ (P - 1)) / 2 ^ P) (seq 0 n))).
Proof.
  intros P0 LX LY.
  apply list_eq_nth; [rewrite !padd_length, pscale_length, !map_length, seq_length; lia|].
  rewrite LX. intros c Hc. unfold nthZ.
  rewrite !nth_padd by (rewrite ?padd_length, ?pscale_length, !map_length, seq_length; lia).
  rewrite nth_pscale, !nth_map_seq by exact Hc.
  pose proof (pow2_pos P P0). unfold wrap.
  pose proof (Z.div_mod (nth c X 0 - nth c Y 0 + 2 ^ (P - 1)) (2 ^ P) ltac:(lia)). lia.
Qed.

Section Width.
Variables (fft : bool) (cap b lo : Z).
Variable ni : list Z -> list Z -> list Z.      (* the per-coefficient routine big_nrm runs when the radices are equal *)
Hypothesis Hb : 1 <= b <= 62.
Hypothesis ni_same_radix : forall a r,
  (if fft then normalize 64 b b lo a r else normalize_big 128 b b lo a r) = Some (ni a r).
Hypothesis ni_value : forall a r0, Forall (fun x => Z.abs x <= cap) a ->
  let out := ni a r0 in
  length out = length r0 /\ Forall (in_range b) out /\ out = ni a (zeros (length r0)) /\
  forall P, zn (length r0) * b + zn (length a) * b + Z.abs lo <= P ->
    let D := tor_abs P (val_scaled P b out - val_scaled (P + lo) b a) in
    D <= 2 ^ (P - zn (length r0) * b) /\ (zn (length a) * b - lo <= zn (length r0) * b -> D = 0).
Variables (n rsz dsz : nat) (P : Z).
Hypothesis HP : zn rsz * b + zn dsz * b + Z.abs lo <= P.

Let nrm := big_nrm fft n rsz b b lo.
Definition xyw (D : plimbs) (c : nat) : Z := nth c (pval n P b (nrm D)) 0 - nth c (pval n (P + lo) b D) 0.
Definition epsw (D : plimbs) : list Z := map (fun c => wrap P (xyw D c)) (seq 0 n).
Definition kapw (D : plimbs) : list Z := map (fun c => (xyw D c + 2 ^ (P - 1)) / 2 ^ P) (seq 0 n).

Lemma nrm_shape D : shaped n rsz (nrm D).
Proof. apply big_nrm_shape_same_radix. Qed.

(* coefficient c of the normalised column is `ni` of coefficient c of the accumulator *)
Lemma big_nrm_coeff D u c : capped cap D -> (c < n)%nat -> (u < rsz)%nat ->
  nth c (lim (nrm D) u) 0 = nthZ (ni (coefcol c D) (zeros rsz)) u.
Proof.
  intros Hd Hc Hu. unfold nrm, big_nrm, lift_coeff.
  set (R := mk rsz (fun _ => pzero n)).
  rewrite (map_ext _ (fun p : list Z * list Z => Some (map (wrap 64) (ni (fst p) (snd p)))))
    by (intros p; rewrite ni_same_radix; reflexivity).
  rewrite sequence_map_some.
  match goal with |- context [untranspose rsz ?cs] => change (untranspose rsz cs) with (mk rsz (fun j => map (fun cf => nthZ cf j) cs)) end.
  rewrite lim_mk' by exact Hu.
  assert (Lc : length (combine (transpose n D) (transpose n R)) = n) by (rewrite combine_length, !transpose_length; apply Nat.min_id).
  rewrite (nth_map' _ _ _ _ []) by (rewrite map_length, Lc; exact Hc).
  rewrite (nth_map' _ _ _ _ ([], [])) by (rewrite Lc; exact Hc).
  rewrite nth_combine_gen by (rewrite transpose_length; exact Hc). cbn [fst snd].
  rewrite !nth_transpose by exact Hc.
  destruct (ni_value (coefcol c D) (coefcol c R) (capped_coefcol cap D c Hd)) as (L & Bd & E & _).
  assert (LR : length (coefcol c R) = rsz) by (unfold coefcol, R; rewrite map_length; apply mk_length).
  rewrite LR in E. rewrite E in Bd |- *.
  rewrite (map_ext_in _ (fun x => x)), map_id; [reflexivity|].
  intros x Hx. rewrite Forall_forall in Bd. specialize (Bd x Hx). apply wrap_id; [lia|].
  unfold in_range in *. assert (2 ^ (b - 1) <= 2 ^ (64 - 1)) by (apply Z.pow_le_mono_r; lia). lia.
Qed.

Lemma out_facts D c : capped cap D ->
  let out := ni (coefcol c D) (zeros rsz) in
  length out = rsz /\ Forall (in_range b) out /\
  (length D = dsz -> tor_abs P (val_scaled P b out - val_scaled (P + lo) b (coefcol c D)) <= 2 ^ (P - zn rsz * b)).
Proof.
  intros Hd out.
  destruct (ni_value (coefcol c D) (zeros rsz) (capped_coefcol cap D c Hd)) as (L & Bd & _ & V).
  rewrite zeros_length in L, V. split; [exact L|]. split; [exact Bd|].
  intros HL. apply V. unfold coefcol. rewrite map_length, HL. exact HP.
Qed.

Lemma big_nrm_no_overflow D : wfl n D -> length D = dsz -> capped cap D -> forall u c, Z.abs (nth c (lim (nrm D) u) 0) <= 2 ^ 61.
Proof.
  intros _ _ Hd u c. destruct (nrm_shape D) as [Ls Ss].
  destruct (Nat.lt_ge_cases u rsz) as [Hu|Hu].
  - destruct (Nat.lt_ge_cases c n) as [Hc|Hc].
    + rewrite big_nrm_coeff by assumption.
      destruct (out_facts D c Hd) as (L & Bd & _). rewrite Forall_forall in Bd.
      assert (Hin : In (nthZ (ni (coefcol c D) (zeros rsz)) u) (ni (coefcol c D) (zeros rsz))) by (apply nth_In; rewrite L; exact Hu).
      specialize (Bd _ Hin). unfold in_range in Bd.
      assert (2 ^ (b - 1) <= 2 ^ 61) by (apply Z.pow_le_mono_r; lia). lia.
    + rewrite nth_overflow by (change (lim ?l u) with (lnth l u); rewrite Ss by exact Hu; exact Hc). cbn [Z.abs]. lia.
  - unfold lim. rewrite (nth_overflow (nrm D)) by (rewrite Ls; exact Hu). destruct c; cbn; lia.
Qed.

Lemma cval_big_nrm D c : capped cap D -> (c < n)%nat ->
  cval P b c (nrm D) = val_scaled P b (ni (coefcol c D) (zeros rsz)).
Proof.
  intros Hd Hc. destruct (nrm_shape D) as [Ls _].
  destruct (out_facts D c Hd) as (L & _).
  rewrite val_scaled_sumn, sumn_zsum, L. unfold cval. rewrite Ls.
  apply zsum_ext; intros u Hu. rewrite big_nrm_coeff by assumption. unfold wt. ring.
Qed.

(* normalize_value_ok for the model's normaliser with equal radices: C08's value theorem, coefficient by coefficient *)
Theorem big_nrm_value_ok D : wfl n D -> length D = dsz -> capped cap D ->
  length (epsw D) = n /\ length (kapw D) = n /\
  pval n P b (nrm D) = padd (padd (pval n (P + lo) b D) (epsw D)) (pscale (2 ^ P) (kapw D)) /\
  forall c, Z.abs (nth c (epsw D) 0) <= 2 ^ (P - zn rsz * b).
Proof.
  intros w HL Hd.
  pose proof (shaped_wfl n rsz _ (nrm_shape D)) as wn.
  assert (Le : length (epsw D) = n) by (unfold epsw; rewrite map_length, seq_length; reflexivity).
  split; [exact Le|]. split; [unfold kapw; rewrite map_length, seq_length; reflexivity|]. split.
  - apply wrap_quot_split; [unfold zn in HP; nia|apply pval_length; exact wn|apply pval_length; exact w].
  - intros c. destruct (Nat.lt_ge_cases c n) as [Hc|Hc].
    + unfold epsw. rewrite nth_map_seq by exact Hc. unfold xyw.
      rewrite !nth_pval by assumption.
      rewrite cval_big_nrm by assumption. rewrite <- val_scaled_cval.
      apply (out_facts D c Hd). exact HL.
    + rewrite nth_overflow by (rewrite Le; exact Hc). cbn [Z.abs]. apply Z.pow_nonneg. lia.
Qed.

(* C05Core's tensor_phase / Em_bound and mul_plain_phase with no hypothesis on the normaliser left *)
Theorem tensor_phase_big_nrm (hi cols asz bsz : nat) (A B : list plimbs) (sigma : nat * nat -> list Z) :
  (forall i, (i < cols)%nat -> wfl n (colsel A i) /\ length (colsel A i) = asz) ->
  (forall i, (i < cols)%nat -> wfl n (colsel B i) /\ length (colsel B i) = bsz) ->
  (1 <= asz)%nat -> (1 <= bsz)%nat ->
  (forall i, (i < cols)%nat -> capped cap (Cn fft n dsz hi A B i i)) ->
  (forall i j, (i < cols)%nat -> (j < cols)%nat -> i <> j -> capped cap (Pw fft n dsz hi A B i j)) ->
  (forall ij, length (sigma ij) = n) ->
  forall res0 : list (list (list Z)), length res0 = length (tpairs cols) -> (forall r, In r res0 -> length r = rsz) ->
  phase n P b (tensor_gen (cell_apply fft n nrm dsz hi A B) cols res0) (map sigma (tpairs cols)) =
  padd (padd (plsum n (map (fun ij => pmul (Gm fft n dsz hi P b lo A B ij) (sigma ij)) (tpairs cols)))
             (plsum n (map (fun ij => pmul (Em fft n dsz hi epsw A B ij) (sigma ij)) (tpairs cols))))
       (pscale (2 ^ P) (plsum n (map (fun ij => pmul (Km fft n dsz hi kapw A B ij) (sigma ij)) (tpairs cols))))
  /\ forall ij c, (fst ij < cols)%nat -> (snd ij < cols)%nat ->
     Z.abs (nth c (Em fft n dsz hi epsw A B ij) 0) <= (if Nat.eqb (fst ij) (snd ij) then 1 else 3) * 2 ^ (P - zn rsz * b).
Proof.
  intros HA HB Ha Hbz Hd1 Hd2 Hs res0 HL Hr. split.
  - exact (tensor_phase fft n rsz dsz hi cols asz bsz P b b lo nrm epsw kapw (capped cap) A B sigma
             nrm_shape big_nrm_no_overflow big_nrm_value_ok HA HB Ha Hbz Hd1 Hd2 Hs res0 HL Hr).
  - exact (Em_bound fft n rsz dsz hi cols asz bsz P b b lo nrm epsw kapw (capped cap) A B sigma
             big_nrm_value_ok HA HB Ha Hbz Hd1 Hd2 Hs).
Qed.

Theorem mul_plain_phase_big_nrm (hi : nat) (B : plimbs) (A : list plimbs) (key : list (list Z)) :
  wfl n B -> (1 <= length B)%nat ->
  (forall a, In a A -> wfl n a /\ (1 <= length a)%nat /\ capped cap (cnv_apply fft n dsz hi a B)) -> (forall k, In k key -> length k = n) ->
  let Cf := fun a => cnv_apply fft n dsz hi a B in
  phase n P b (map (fun a => nrm (Cf a)) A) key =
  padd (padd (plsum n (map (fun q => pmul (pval n (P + lo) b (Cf (fst q))) (snd q)) (combine A key)))
             (plsum n (map (fun q => pmul (epsw (Cf (fst q))) (snd q)) (combine A key))))
       (pscale (2 ^ P) (plsum n (map (fun q => pmul (kapw (Cf (fst q))) (snd q)) (combine A key))))
  /\ forall a c, In a A -> Z.abs (nth c (epsw (Cf a)) 0) <= 2 ^ (P - zn rsz * b).
Proof.
  intros wB LB HA Hk Cf. split.
  - exact (mul_plain_phase fft n rsz dsz hi P b b lo nrm epsw kapw (capped cap) B
             nrm_shape big_nrm_value_ok wB LB A key HA Hk).
  - intros a c Ha. destruct (HA a Ha) as (wa & La & da).
    apply (big_nrm_value_ok (Cf a)); [apply cnv_apply_wfl; assumption|apply cnv_apply_length|exact da].
Qed.
End Width.

(* FFT64 family: i64 accumulator, Limbs.normalize 64, entries within 2^62 *)
Definition nrm64 (n rsz : nat) (b lo : Z) : plimbs -> limbs := big_nrm true n rsz b b lo.
Definition dom62 (D : plimbs) : Prop := forall u c, Z.abs (nth c (lim D u) 0) <= 2 ^ 62.

Section Discharge.
Variables (n rsz : nat) (P b lo : Z).
Let nrm := nrm64 n rsz b lo.
Definition xy (D : plimbs) (c : nat) : Z := nth c (pval n P b (nrm D)) 0 - nth c (pval n (P + lo) b D) 0.
Definition eps64 (D : plimbs) : list Z := map (fun c => wrap P (xy D c)) (seq 0 n).
Definition kap64 (D : plimbs) : list Z := map (fun c => (xy D c + 2 ^ (P - 1)) / 2 ^ P) (seq 0 n).
End Discharge.

Lemma normalize_same_radix b lo a r : normalize 64 b b lo a r = Some (normalize_inter 64 b lo a r).
Proof. unfold normalize. rewrite Z.eqb_refl. reflexivity. Qed.

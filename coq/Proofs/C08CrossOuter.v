(* C08, cross-radix normalisation: the invariants of the outer loop at width 64.  The part of the shifted input
   consumed so far = dropped low bits + res limbs (radix rb) + pending a-carry. *)
From PV Require Import Base.MachineInt Model.Znx Model.Limbs Model.C08Oracle
  Proofs.ZnxDigit Proofs.C08Steps Proofs.C08Chain Proofs.C08Loops Proofs.C08Value Proofs.C08Normalize Proofs.C08CrossInner Proofs.C08CrossGeom.
Open Scope Z_scope.

Section Outer.
Variables rb ab : Z.
Variable a : list Z.
Variable lsh : Z.
Variable rsz : nat.
Variables z g : Z.

Definition Lval (t : nat) : Z := ival ab (vin a lsh) t.

Lemma Lval_S (t : nat) : Lval (S t) = Lval t + vin a lsh t * 2 ^ (zn t * ab).
Proof. reflexivity. Qed.

Definition dropok (drop : Z) : Prop := Z.abs drop <= 2 ^ g /\ (g <= lsh -> drop = 0).

Definition Outer (t : nat) (s : cstate) : Prop :=
  shape rb rsz s /\ 0 < c_racc s <= rb /\ c_rcarry s = 0 /\ Z.abs (c_acarry s) <= 2 ^ 62 /\
  Fpos rb rsz s + g = z + zn t * ab /\
  exists drop, dropok drop /\
    2 ^ z * Lval t = 2 ^ z * drop + 2 ^ g * Vres rb rsz (c_res s) + 2 ^ (z + zn t * ab) * c_acarry s.

Definition Final (res : list Z) : Prop :=
  length res = rsz /\
  exists drop K, dropok drop /\
    2 ^ z * Lval (length a) = 2 ^ z * drop + 2 ^ g * Vres rb rsz res + 2 ^ (g + zn rsz * rb) * K.

Definition Entry (t : nat) (s : cstate) : Prop :=
  shape rb rsz s /\ 0 < c_racc s <= rb /\ 0 < c_atake s <= ab /\ Z.abs (c_anorm s) <= 2 ^ c_atake s /\
  Z.abs (c_acarry s) <= 2 ^ 62 /\ c_rcarry s = 0 /\
  Fpos rb rsz s + g = z + (zn t + 1) * ab - c_atake s /\
  exists drop X low, dropok drop /\
    2 ^ z * Lval (S t) = 2 ^ z * drop + 2 ^ g * Vres rb rsz (c_res s)
                         + 2 ^ (g + Fpos rb rsz s) * c_anorm s + 2 ^ (z + (zn t + 1) * ab) * c_acarry s /\
    Z.abs X <= 2 ^ 62 * 2 ^ (ab - 1) + 2 ^ 62 /\
    X = low + 2 ^ (ab - c_atake s) * c_anorm s + 2 ^ ab * c_acarry s /\
    2 * Z.abs low <= 2 ^ (ab - c_atake s).

End Outer.

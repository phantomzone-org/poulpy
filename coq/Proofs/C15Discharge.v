(* C15 — discharging the named hypothesis [cmux_selects] of C15_word_op_correct from the phase theorem of C04.

   Part 1 (torus arithmetic, generic): ciphertexts are given with their phase [phase c : list Z] (n coefficients, scaled
   by 2^P as in Gadget.phase_val); a bit b is encoded as b * Delta at coefficient 0, Delta = 2^(P-2) (encode at
   TorusPrecision 2).  [enc_c c q]  := every coefficient of the phase is strictly within Delta/2 of Delta * q  (it decodes
   to q); [quiet_c c] := the phase is within Delta/2 - BE of an encoding of a bit.  If cmux satisfies the phase equation
   that C04 proves — phase(out) = phase(selected input) + E + 2^P I with |E|_inf <= BE — then the hypothesis
   [cmux_selects] of C15_word_op_correct / C15_heval_refines_eval_stale holds for these predicates.
   The only premises that remain are about noise: the bound BE on the error polynomial of one cmux, and [quiet_c] of
   every intermediate ciphertext.

   Part 2: the phase equation, coefficient by coefficient, for the model Gadget.cmux of the real code, from
   C04_cmux_selects (before the final normalisation, which adds the rounding term of C03_normalize_cols_phase). *)
From PV Require Import Base.MachineInt Model.Znx Model.Limbs Model.Flat Model.Ring Model.Poly Model.DftAbs Model.Gadget
  Model.GadgetSpec Proofs.C07Dft Proofs.C07Ring Proofs.GadgetDecomp Proofs.GadgetPhase Proofs.C03Phase Proofs.C04Phase.
From PV Require Import Model.C15Uint.
Open Scope Z_scope.

(* Part 1: distance on the torus Z / 2^P *)
Section Torus.
  Variable P : Z.
  Hypothesis HP : 3 <= P.
  Definition tdist (x y : Z) : Z := Z.abs (wrap P (x - y)).
  Let H := 2 ^ (P - 1).

  Lemma H_pos : 0 < H. Proof. apply pow2_pos; lia. Qed.
  Lemma P_split : 2 ^ P = 2 * H. Proof. apply pow2_split; lia. Qed.

  Lemma wrap_abs_le x : Z.abs (wrap P x) <= Z.abs x.
  Proof.
    pose proof (wrap_range P x ltac:(lia)) as R. unfold in_range in R. fold H in R. pose proof H_pos.
    destruct (Z_lt_le_dec x (- H)); [lia|]. destruct (Z_lt_le_dec x H); [|lia].
    rewrite wrap_id by (try lia; unfold in_range; fold H; lia). lia.
  Qed.

  Lemma tdist_add_err x y e : tdist (x + e) y <= tdist x y + Z.abs e.
  Proof.
    unfold tdist. replace (x + e - y) with ((x - y) + e) by ring. rewrite <- wrap_wrap_add_l by lia.
    eapply Z.le_trans; [apply wrap_abs_le|]. lia.
  Qed.

  Lemma tdist_add_period x y k : tdist (x + 2 ^ P * k) y = tdist x y.
  Proof.
    unfold tdist. f_equal. apply wrap_eq_mod; [lia|]. replace (x + 2 ^ P * k - y) with (x - y + k * 2 ^ P) by ring.
    apply Z.mod_add. pose proof (pow2_pos P ltac:(lia)). lia.
  Qed.

  Lemma tdist_sym x y : tdist x y = tdist y x \/ (wrap P (x - y) = - H).
  Proof.
    unfold tdist. pose proof (wrap_range P (x - y) ltac:(lia)) as R. unfold in_range in R. fold H in R.
    destruct (Z.eq_dec (wrap P (x - y)) (- H)); [now right|left].
    destruct (wrap_exists P (x - y) ltac:(lia)) as [q Eq].
    assert (E : wrap P (y - x) = - wrap P (x - y)).
    { rewrite <- (wrap_id P (- wrap P (x - y))) by (try lia; unfold in_range; fold H; lia).
      apply wrap_eq_mod; [lia|]. rewrite Eq. replace (- (x - y - q * 2 ^ P)) with (y - x + q * 2 ^ P) by ring.
      symmetry. apply Z.mod_add. pose proof (pow2_pos P ltac:(lia)). lia. }
    rewrite E. lia.
  Qed.

  Lemma tdist_triangle x y z : tdist y z <= tdist x y + tdist x z.
  Proof.
    (* y - z = (x - z) - (x - y) *)
    unfold tdist. pose proof (wrap_range P (x - y) ltac:(lia)) as R. unfold in_range in R. fold H in R.
    destruct (wrap_exists P (x - y) ltac:(lia)) as [q Eq]. destruct (wrap_exists P (x - z) ltac:(lia)) as [q' Eq'].
    assert (E : wrap P (y - z) = wrap P (wrap P (x - z) - wrap P (x - y))).
    { apply wrap_eq_mod; [lia|]. rewrite Eq, Eq'. replace (x - z - q' * 2 ^ P - (x - y - q * 2 ^ P)) with (y - z + (q - q') * 2 ^ P) by ring.
      symmetry. apply Z.mod_add. pose proof (pow2_pos P ltac:(lia)). lia. }
    rewrite E. eapply Z.le_trans; [apply wrap_abs_le|]. lia.
  Qed.
End Torus.

(* Part 1: cmux_selects from the phase equation *)
Section Bridge.
  Variables glwe ggsw : Type.
  Variable phase : glwe -> list Z.
  Variable n : nat.
  Variables P BE : Z.
  Variable cmux : glwe -> glwe -> ggsw -> glwe.
  Variable enc_sel : ggsw -> bool -> Prop.
  Hypothesis HP : 3 <= P.
  Hypothesis HBE : 0 <= BE.
  Let Delta := 2 ^ (P - 2).
  Let Half := 2 ^ (P - 3).

  (* the shape of C04_cmux_selects: the selected input plus an error polynomial bounded by BE, modulo 2^P *)
  Hypothesis cmux_phase : forall t f s b, enc_sel s b ->
    exists E I : list Z, (forall k, Z.abs (nth k E 0) <= BE) /\
      forall k, (k < n)%nat ->
        nth k (phase (cmux t f s)) 0 = nth k (phase (if b then t else f)) 0 + nth k E 0 + 2 ^ P * nth k I 0.

  Definition enc_c (c : glwe) (q : poly) : Prop :=
    forall k, (k < n)%nat -> tdist P (nth k (phase c) 0) (Delta * q (Z.of_nat k)) < Half.
  Definition quiet_c (c : glwe) : Prop :=
    exists b : bool, forall k, (k < n)%nat ->
      tdist P (nth k (phase c) 0) (Delta * p_const (if b then 1 else 0) (Z.of_nat k)) < Half - BE.

  Lemma Delta_Half : Delta = 2 * Half /\ 0 < Half /\ 2 ^ (P - 1) = 4 * Half.
  Proof.
    unfold Delta, Half. pose proof (pow2_pos (P - 3) ltac:(lia)).
    replace (P - 2) with (1 + (P - 3)) by lia. replace (P - 1) with (2 + (P - 3)) by lia.
    rewrite !Z.pow_add_r by lia. change (2 ^ 1) with 2. change (2 ^ 2) with 4. lia.
  Qed.

  Lemma bits_apart (b b' : bool) : tdist P (Delta * (if b then 1 else 0)) (Delta * (if b' then 1 else 0)) < Delta -> b = b'.
  Proof.
    destruct Delta_Half as (E1 & E2 & E3). unfold tdist.
    destruct b, b'; auto; intros Hlt; exfalso.
    - replace (Delta * 1 - Delta * 0) with Delta in Hlt by ring.
      rewrite wrap_id in Hlt by (try lia; unfold in_range; lia). lia.
    - replace (Delta * 0 - Delta * 1) with (- Delta) in Hlt by ring.
      rewrite wrap_id in Hlt by (try lia; unfold in_range; lia). lia.
  Qed.

  (* the hypothesis [cmux_selects] of C15_word_op_correct, for enc_poly := enc_c and quiet := quiet_c *)
  Theorem cmux_selects_of_phase : (1 <= n)%nat -> forall t f s (bt bf b : bool),
    enc_c t (p_const (if bt then 1 else 0)) -> enc_c f (p_const (if bf then 1 else 0)) -> enc_sel s b ->
    quiet_c (cmux t f s) -> enc_c (cmux t f s) (p_const (if (if b then bt else bf) then 1 else 0)).
  Proof.
    intros Hn t f s bt bf b Ht Hf Hs [b' Hq].
    destruct (cmux_phase t f s b Hs) as (E & I & HE & Hph).
    set (sb := if b then bt else bf).
    assert (Hsel : enc_c (if b then t else f) (p_const (if sb then 1 else 0))) by (unfold sb; destruct b; assumption).
    destruct Delta_Half as (E1 & E2 & E3).
    (* every coefficient of the output is within Half + BE of the selected encoding *)
    assert (Hout : forall k, (k < n)%nat ->
              tdist P (nth k (phase (cmux t f s)) 0) (Delta * p_const (if sb then 1 else 0) (Z.of_nat k)) < Half + BE).
    { intros k Hk. rewrite (Hph k Hk). rewrite tdist_add_period by lia.
      eapply Z.le_lt_trans; [apply tdist_add_err; lia|]. pose proof (Hsel k Hk). pose proof (HE k). lia. }
    (* so the bit the output is quiet for is the selected one *)
    assert (Eb : b' = sb).
    { apply bits_apart. pose proof (Hq 0%nat ltac:(lia)) as Q0. pose proof (Hout 0%nat ltac:(lia)) as O0.
      unfold p_const in Q0, O0. cbn [Z.of_nat Z.eqb] in Q0, O0.
      eapply Z.le_lt_trans; [apply (tdist_triangle P HP (nth 0 (phase (cmux t f s)) 0))|]. lia. }
    subst b'. intros k Hk. pose proof (Hq k Hk). lia.
  Qed.
End Bridge.

(* Part 2: the phase equation of Gadget.cmux, coefficient by coefficient (C04_cmux_selects) *)
Theorem cmux_phase_pointwise :
  forall (be P b : Z) (n rank res_size t_size f_size dsize dnum msize : nat) (res0 t f : cols_t) (K : pmat) (Sk : nat -> list Z)
      (bit : Z) (e I : nat -> nat -> list Z),
    (1 <= n)%nat ->
    wf_cols n (S rank) t_size t -> wf_cols n (S rank) f_size f ->
    length res0 = S rank -> (forall co : nat, (co < S rank)%nat -> length (col res0 co) = msize) ->
    wf_pmat_in n (dnum * S rank) (msize * S rank) K ->
    (1 <= dsize)%nat -> (dsize - 2 <= msize)%nat ->
    (forall co : nat, length (Sk co) = n) ->
    (forall row ci : nat, length (e row ci) = n) -> (forall row ci : nat, length (I row ci) = n) ->
    0 <= b -> Z.of_nat msize * b <= P -> Z.of_nat dnum * Z.of_nat dsize * b <= P ->
    (* the selector GGSW encrypts the bit in every cell (C04_ggsw_cells) *)
    key_rows_ok P b n (S rank) (S rank) msize dsize dnum K Sk (fun ci : nat => pmul (pscale bit (pone n)) (Sk ci)) e I ->
    bit = 0 \/ bit = 1 ->
    (bit = 1 -> (f_size <= Nat.min res_size (dnum * dsize))%nat /\ (f_size <= msize)%nat) ->
    exists (big : cols_t) (E Iq : list Z),
      cmux be n b rank res_size t_size f_size dsize dnum msize res0 t f K =
        sequence (map (big_normalize (wbig be) n b b res_size) (map2 add_small big f)) /\
      E = gadget_err P b n (S rank) (S rank) msize dsize dnum (acol n (map2 (col_sub n res_size) t f)) K Sk e /\
      length E = n /\ length Iq = n /\
      forall k, (k < n)%nat ->
        nth k (phase_f P b n (S rank) msize (limbs_of (map2 add_small big f)) Sk) 0 =
        nth k (if bit =? 1 then phase_f P b n (S rank) (Nat.min res_size (dnum * dsize)) (acol n t) Sk
               else phase_f P b n (S rank) (Nat.min msize f_size) (acol n f) Sk) 0
        + nth k E 0 + 2 ^ P * nth k Iq 0.
Proof.
  intros be P b n rank res_size t_size f_size dsize dnum msize res0 t f K Sk bit e I
         Hn Ht Hf Hr0 Hr1 HK Hd Hdrop HS He HI Hb HP1 HP2 Hcells Hbit Hsz.
  destruct (C04_cmux_selects_lemma be P b n rank res_size t_size f_size dsize dnum msize res0 t f K Sk bit e I
              Hn Ht Hf Hr0 Hr1 HK Hd Hdrop HS He HI Hb HP1 HP2 Hcells Hbit Hsz) as (big & E1 & E2 & E3).
  set (E := gadget_err P b n (S rank) (S rank) msize dsize dnum (acol n (map2 (col_sub n res_size) t f)) K Sk e) in *.
  set (Iq := gadget_int b n (S rank) (S rank) msize dsize dnum (acol n (map2 (col_sub n res_size) t f)) K Sk I) in *.
  pose proof (acol_length n (S rank) res_size _ (cmux_d_wf n (S rank) res_size t_size f_size t f Ht Hf)) as LA.
  assert (LE : length E = n) by (apply gadget_err_length; exact LA).
  assert (LI : length Iq = n) by (apply gadget_int_length; exact LA).
  exists big, E, Iq. split; [exact E2|]. split; [reflexivity|]. split; [exact LE|]. split; [exact LI|].
  intros k Hk. rewrite E3.
  set (X := if bit =? 1 then _ else _).
  assert (LX : length X = n).
  { unfold X. destruct (bit =? 1); apply phase_f_length; intros.
    - apply (acol_length n (S rank) t_size t Ht).
    - apply (acol_length n (S rank) f_size f Hf). }
  rewrite nth_padd by (rewrite pscale_length, padd_length, LX, LE, LI; lia).
  rewrite nth_padd by (rewrite LE, LX; reflexivity). rewrite nth_pscale. ring.
Qed.

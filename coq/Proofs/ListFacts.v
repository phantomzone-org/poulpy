(* Lists by index: `nth` / `nthZ` of the list constructions the models are written with (map over seq, map2, firstn,
   skipn, app, zeros, upd), extensionality of lists and of folds, finite choice.  From the model files only the list utilities `map2` (Model.Znx) and
   `nthZ`, `upd`, `zeros` (Model.Limbs) are used. *)
From PV Require Import Base.MachineInt Model.Znx Model.Limbs.
Open Scope Z_scope.

Lemma nth_map_seq {A} (f : nat -> A) (d : A) (n i : nat) : (i < n)%nat -> nth i (map f (seq 0 n)) d = f i.
Proof.
  intros Hi. rewrite (nth_indep _ d (f 0%nat)) by (rewrite map_length, seq_length; exact Hi).
  rewrite (map_nth f (seq 0 n) 0%nat i), seq_nth by exact Hi. reflexivity.
Qed.

Lemma nthZ_map_seq (f : nat -> Z) (n i : nat) : (i < n)%nat -> nthZ (map f (seq 0 n)) i = f i.
Proof. apply nth_map_seq. Qed.

Lemma map_seq_length {A} (f : nat -> A) n : length (map f (seq 0 n)) = n.
Proof. rewrite map_length, seq_length. reflexivity. Qed.

Lemma map_seq_ext {A} (f g : nat -> A) n : (forall i, (i < n)%nat -> f i = g i) -> map f (seq 0 n) = map g (seq 0 n).
Proof. intros H. apply map_ext_in. intros i Hi. apply in_seq in Hi. apply H. lia. Qed.

Lemma nthZ_ext (l1 l2 : list Z) :
  length l1 = length l2 -> (forall i, (i < length l1)%nat -> nthZ l1 i = nthZ l2 i) -> l1 = l2.
Proof. intros Hl H. apply (nth_ext l1 l2 0 0 Hl). exact H. Qed.

Lemma nthZ_overflow (l : list Z) i : (length l <= i)%nat -> nthZ l i = 0.
Proof. apply nth_overflow. Qed.

Lemma nthZ_map (f : Z -> Z) (l : list Z) i : (i < length l)%nat -> nthZ (map f l) i = f (nthZ l i).
Proof.
  intros Hi. unfold nthZ. rewrite (nth_indep _ 0 (f 0)) by (rewrite map_length; exact Hi). apply map_nth.
Qed.

Lemma list_as_map_seq (l : list Z) : l = map (fun i => nthZ l i) (seq 0 (length l)).
Proof.
  apply nthZ_ext.
  - rewrite map_seq_length. reflexivity.
  - intros i Hi. rewrite nthZ_map_seq by exact Hi. reflexivity.
Qed.

Lemma zeros_length k : length (zeros k) = k.
Proof. apply repeat_length. Qed.

Lemma nthZ_zeros k i : nthZ (zeros k) i = 0.
Proof.
  unfold nthZ, zeros. destruct (Nat.lt_ge_cases i k); [apply nth_repeat|]. apply nth_overflow. rewrite repeat_length. lia.
Qed.

Lemma upd_length l i x : length (upd l i x) = length l.
Proof. revert i; induction l as [|h t IH]; intros [|i]; cbn [upd length]; auto. Qed.

Lemma nth_firstn_lt {A} (l : list A) k i d : (i < k)%nat -> nth i (firstn k l) d = nth i l d.
Proof.
  revert k i; induction l as [|x l IH]; intros k i H.
  - rewrite firstn_nil. reflexivity.
  - destruct k as [|k]; [lia|]. destruct i as [|i]; cbn [firstn nth]; [reflexivity|]. apply IH. lia.
Qed.

Lemma nth_skipn {A} (l : list A) k i d : nth i (skipn k l) d = nth (k + i) l d.
Proof.
  revert k; induction l as [|x l IH]; intros k.
  - rewrite skipn_nil. destruct i, k; reflexivity.
  - destruct k as [|k]; [reflexivity|]. cbn [skipn Nat.add nth]. apply IH.
Qed.

Lemma nthZ_firstn (l : list Z) s i : (i < s)%nat -> nthZ (firstn s l) i = nthZ l i.
Proof. apply nth_firstn_lt. Qed.

Lemma nthZ_skipn (l : list Z) s i : nthZ (skipn s l) i = nthZ l (s + i).
Proof. apply nth_skipn. Qed.

Lemma nthZ_app_l (l1 l2 : list Z) i : (i < length l1)%nat -> nthZ (l1 ++ l2) i = nthZ l1 i.
Proof. intros. unfold nthZ. apply app_nth1. assumption. Qed.

Lemma nthZ_app_r (l1 l2 : list Z) i : (length l1 <= i)%nat -> nthZ (l1 ++ l2) i = nthZ l2 (i - length l1).
Proof. intros. unfold nthZ. apply app_nth2. assumption. Qed.

Lemma Forall_firstn {A} (P : A -> Prop) (n : nat) (l : list A) : Forall P l -> Forall P (firstn n l).
Proof. intros H. revert n. induction H; intros [|n]; cbn [firstn]; constructor; auto. Qed.

Lemma Forall_skipn {A} (P : A -> Prop) (n : nat) (l : list A) : Forall P l -> Forall P (skipn n l).
Proof. intros H. revert n. induction H; intros [|n]; cbn [skipn]; auto. Qed.

Lemma map2_length {A B C} (f : A -> B -> C) l1 l2 : length (map2 f l1 l2) = Nat.min (length l1) (length l2).
Proof. unfold map2. rewrite map_length, combine_length. reflexivity. Qed.

Lemma nthZ_map2 (f : Z -> Z -> Z) (a b : list Z) k : (k < length a)%nat -> (k < length b)%nat ->
  nthZ (map2 f a b) k = f (nthZ a k) (nthZ b k).
Proof.
  unfold map2, nthZ. revert b k; induction a as [|x a IH]; intros [|y b] [|k] Ha Hb; cbn [length] in *; try lia.
  - reflexivity.
  - cbn [combine map nth]. apply IH; lia.
Qed.

(* nthZ_map2 with `nthZ` unfolded, for rewriting in goals written with `nth _ _ 0` *)
Lemma nth_map2 (f : Z -> Z -> Z) (a b : list Z) k : (k < length a)%nat -> (k < length b)%nat ->
  nth k (map2 f a b) 0 = f (nth k a 0) (nth k b 0).
Proof. exact (nthZ_map2 f a b k). Qed.

Lemma fold_left_ext_in {A B} (f g : A -> B -> A) (l : list B) (a : A) :
  (forall x y, In y l -> f x y = g x y) -> fold_left f l a = fold_left g l a.
Proof.
  revert a; induction l as [|b l IH]; intros a H; cbn [fold_left]; [reflexivity|].
  rewrite H by (left; reflexivity). apply IH. intros; apply H; right; assumption.
Qed.

Lemma fold_left_seq_ext {A} (f g : A -> nat -> A) (n : nat) (a : A) :
  (forall x j, (j < n)%nat -> f x j = g x j) -> fold_left f (seq 0 n) a = fold_left g (seq 0 n) a.
Proof. intros H. apply fold_left_ext_in. intros x j Hj. apply in_seq in Hj. apply H. lia. Qed.

Lemma Forall2_length {A B} (R : A -> B -> Prop) l r : Forall2 R l r -> length l = length r.
Proof. induction 1; cbn [length]; lia. Qed.

Lemma Forall2_map_in {A B C} (R : B -> C -> Prop) (f : A -> B) (h : A -> C) l :
  (forall x, In x l -> R (f x) (h x)) -> Forall2 R (map f l) (map h l).
Proof.
  induction l as [|x l IH]; intros H; cbn [map]; constructor.
  - apply H. left. reflexivity.
  - apply IH. intros y Hy. apply H. right. exact Hy.
Qed.

Lemma fin_choice {X} (d : X) m (Pr : nat -> X -> Prop) :
  (forall i, (i < m)%nat -> exists x, Pr i x) -> exists f, forall i, (i < m)%nat -> Pr i (f i).
Proof.
  induction m as [|m IH]; intros H; [exists (fun _ => d); intros; lia|].
  destruct (IH (fun i Hi => H i (Nat.lt_lt_succ_r _ _ Hi))) as [f Hf].
  destruct (H m (Nat.lt_succ_diag_r m)) as [x Hx].
  exists (fun i => if Nat.eqb i m then x else f i). intros i Hi.
  destruct (Nat.eqb_spec i m) as [->|Hne]; [exact Hx|apply Hf; lia].
Qed.

(* the same with the witnesses collected in a list *)
Lemma finite_choice {A} (d : A) (n : nat) (R : nat -> A -> Prop) :
  (forall t, (t < n)%nat -> exists x, R t x) -> exists l, length l = n /\ forall t, (t < n)%nat -> R t (nth t l d).
Proof.
  intros H. destruct (fin_choice d n R H) as [f Hf]. exists (map f (seq 0 n)). split; [apply map_seq_length|].
  intros t Ht. rewrite nth_map_seq by exact Ht. apply Hf. exact Ht.
Qed.


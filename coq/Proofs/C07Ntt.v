(* C07: NTT120 scalar layer -- constants, conversions, CRT reconstruction. *)
From PV Require Import Base.MachineInt Model.C07Ntt120.
From Coq Require Import Znumtheory.
Open Scope Z_scope.

Definition three_sets : list primeset := [primes29; primes30; primes31].

Lemma three_sets_ind (P : primeset -> Prop) : P primes29 -> P primes30 -> P primes31 -> forall ps, In ps three_sets -> P ps.
Proof. intros H1 H2 H3 ps [<-|[<-|[<-|[]]]]; assumption. Qed.

Theorem crt_consts_ok : forall ps, In ps three_sets ->
  (forall i j, (i < j < 4)%nat -> Z.gcd (qk ps i) (qk ps j) = 1) /\
  (forall k, (k < 4)%nat -> (Qprod ps / qk ps k * crtk ps k) mod qk ps k = 1 /\ 0 <= crtk ps k < qk ps k).
Proof.
  intros ps Hin. split.
  - intros i j Hij.
    assert (Hc : forallb (fun i => forallb (fun j => if Nat.ltb i j then Z.gcd (qk ps i) (qk ps j) =? 1 else true) (seq 0 4)) (seq 0 4) = true).
    { revert ps Hin. apply three_sets_ind; vm_compute; reflexivity. }
    rewrite forallb_forall in Hc. specialize (Hc i ltac:(apply in_seq; lia)).
    rewrite forallb_forall in Hc. specialize (Hc j ltac:(apply in_seq; lia)).
    destruct (Nat.ltb_spec i j); [|lia]. apply Z.eqb_eq; exact Hc.
  - intros k Hk.
    assert (Hc : forallb (fun k => ((Qprod ps / qk ps k * crtk ps k) mod qk ps k =? 1) && (0 <=? crtk ps k) && (crtk ps k <? qk ps k)) (seq 0 4) = true).
    { revert ps Hin. apply three_sets_ind; vm_compute; reflexivity. }
    rewrite forallb_forall in Hc. specialize (Hc k ltac:(apply in_seq; lia)).
    apply andb_prop in Hc as [Hc H3]. apply andb_prop in Hc as [H1 H2].
    apply Z.eqb_eq in H1. apply Z.leb_le in H2. apply Z.ltb_lt in H3. auto.
Qed.

(* repeated squaring *)
Lemma iter_sq_pow q x n : 0 < q ->
  Nat.iter n (fun y => (y * y) mod q) (x mod q) = x ^ (2 ^ Z.of_nat n) mod q.
Proof.
  intros Hq. induction n as [|n IH].
  - cbn [Nat.iter]. change (2 ^ Z.of_nat 0) with 1. rewrite Z.pow_1_r. reflexivity.
  - change (Nat.iter (S n) (fun y => (y * y) mod q) (x mod q)) with
      ((Nat.iter n (fun y => (y * y) mod q) (x mod q) * Nat.iter n (fun y => (y * y) mod q) (x mod q)) mod q).
    rewrite IH.
    rewrite <- Z.mul_mod by lia. f_equal.
    rewrite Nat2Z.inj_succ, Z.pow_succ_r by lia.
    rewrite <- Z.pow_add_r by (pose proof (pow2_pos (Z.of_nat n)); lia).
    f_equal. lia.
Qed.

Theorem omega_order : forall ps, In ps three_sets -> forall k, (k < 4)%nat ->
  omegak ps k ^ (2 ^ log_max_n) mod qk ps k = qk ps k - 1 /\ 1 < qk ps k.
Proof.
  intros ps Hin k Hk.
  assert (Hc : forallb (fun k => (Nat.iter (Z.to_nat log_max_n) (fun y => (y * y) mod qk ps k) (omegak ps k mod qk ps k) =? qk ps k - 1)
                                 && (1 <? qk ps k)) (seq 0 4) = true).
  { revert ps Hin. apply three_sets_ind; vm_compute; reflexivity. }
  rewrite forallb_forall in Hc. specialize (Hc k ltac:(apply in_seq; lia)).
  apply andb_prop in Hc as [H1 H2]. apply Z.eqb_eq in H1. apply Z.ltb_lt in H2.
  split; [|exact H2].
  rewrite iter_sq_pow in H1 by lia. rewrite Z2Nat.id in H1 by (vm_compute; discriminate). exact H1.
Qed.

Lemma u64_id x : 0 <= x < 2 ^ 64 -> u64 x = x.
Proof. intros H. unfold u64, wrapu. apply Z.mod_small; exact H. Qed.
Lemma u32_id x : 0 <= x < 2 ^ 32 -> u32 x = x.
Proof. intros H. unfold u32, wrapu. apply Z.mod_small; exact H. Qed.
Lemma u64_range x : 0 <= u64 x < 2 ^ 64.
Proof. unfold u64, wrapu. apply Z.mod_pos_bound. reflexivity. Qed.
Lemma i128_id x : - 2 ^ 127 <= x < 2 ^ 127 -> i128 x = x.
Proof. intros H. unfold i128. apply wrap_id; [lia|]. unfold in_range. change (128 - 1) with 127. exact H. Qed.

Lemma eqmod_divide q a b : 0 < q -> a mod q = b mod q -> (q | a - b).
Proof.
  intros Hq H. apply Z.mod_divide; [lia|]. rewrite Zminus_mod, H, Z.sub_diag. apply Z.mod_0_l; lia.
Qed.
Lemma divide_eqmod q a b : 0 < q -> (q | a - b) -> a mod q = b mod q.
Proof.
  intros Hq [c Hc]. replace a with (b + c * q) by lia. apply Z.mod_add; lia.
Qed.

Theorem b_from_znx64_congr : forall x, in_range 64 x -> forall q, 0 < q < 2 ^ 32 ->
  b_from_znx64_k q x mod q = x mod q /\ 0 <= b_from_znx64_k q x < 2 ^ 64.
Proof.
  intros x Hx q Hq. unfold in_range in Hx. change (64 - 1) with 63 in Hx.
  unfold b_from_znx64_k. cbv zeta.
  assert (H64 : 2 ^ 64 = 2 * 2 ^ 63) by reflexivity.
  assert (H63 : 0 < 2 ^ 63) by reflexivity.
  pose proof (Z.mod_pos_bound (2 ^ 63) q ltac:(lia)) as Hm.
  destruct (Z.lt_ge_cases x 0) as [Hneg|Hpos].
  - (* negative: x as u64 = x + 2^64 *)
    assert (Hu : u64 x = x + 2 ^ 64).
    { unfold u64, wrapu. symmetry. apply (Z.mod_unique _ _ (-1)); lia. }
    rewrite Hu.
    destruct (Z.ltb_spec (2 ^ 63 - 1) (x + 2 ^ 64)) as [_|Hc]; [|lia].
    assert (Hl : (x + 2 ^ 64) mod 2 ^ 63 = x + 2 ^ 63).
    { symmetry. apply (Z.mod_unique _ _ 1); lia. }
    rewrite Hl. unfold oq.
    rewrite u64_id by (change (2 ^ 32) with 4294967296 in Hq; lia).
    split; [|change (2 ^ 32) with 4294967296 in Hq; lia].
    pose proof (Z.div_mod (2 ^ 63) q ltac:(lia)) as Hd.
    replace (x + 2 ^ 63 + (q - 2 ^ 63 mod q)) with (x + (1 + 2 ^ 63 / q) * q) by lia.
    apply Z.mod_add; lia.
  - assert (Hu : u64 x = x) by (apply u64_id; lia).
    rewrite Hu.
    destruct (Z.ltb_spec (2 ^ 63 - 1) x) as [Hc|_]; [lia|].
    rewrite (Z.mod_small x (2 ^ 63)) by lia. rewrite Z.add_0_r, u64_id by lia.
    split; [reflexivity|lia].
Qed.

(* vector form, on the generated prime sets *)
Corollary b_from_znx64_vec : forall ps, In ps three_sets -> forall x, in_range 64 x -> forall k, (k < 4)%nat ->
  nth k (b_from_znx64 ps x) 0 mod qk ps k = x mod qk ps k /\ 0 <= nth k (b_from_znx64 ps x) 0 < 2 ^ 64.
Proof.
  intros ps Hin x Hx k Hk.
  assert (Hq : 0 < qk ps k < 2 ^ 32).
  { assert (Hc : forallb (fun k => (0 <? qk ps k) && (qk ps k <? 2 ^ 32)) (seq 0 4) = true)
      by (revert ps Hin; apply three_sets_ind; vm_compute; reflexivity).
    rewrite forallb_forall in Hc. specialize (Hc k ltac:(apply in_seq; lia)).
    apply andb_prop in Hc as [H1 H2]. apply Z.ltb_lt in H1. apply Z.ltb_lt in H2. lia. }
  assert (Hn : nth k (b_from_znx64 ps x) 0 = b_from_znx64_k (qk ps k) x).
  { unfold b_from_znx64, qk.
    assert (Hl : length (ps_Q ps) = 4%nat) by (clear - Hin; revert ps Hin; apply three_sets_ind; reflexivity).
    rewrite (nth_indep _ 0 (b_from_znx64_k 1 x)) by (rewrite map_length; lia).
    apply (map_nth (fun q => b_from_znx64_k q x)). }
  rewrite Hn. apply b_from_znx64_congr; assumption.
Qed.

Lemma land_le_r x m : 0 <= m -> Z.land x m <= m.
Proof.
  intros Hm.
  assert (Hz : Z.ldiff (Z.land x m) m = 0).
  { apply Z.bits_inj'; intros n Hn. rewrite Z.ldiff_spec, Z.land_spec, Z.bits_0.
    destruct (Z.testbit x n), (Z.testbit m n); reflexivity. }
  pose proof (Z.sub_nocarry_ldiff m (Z.land x m) Hz) as Hs.
  assert (0 <= Z.ldiff m (Z.land x m)) by (apply Z.ldiff_nonneg; left; exact Hm).
  lia.
Qed.

(* x land mask is again an i64: b_from_znx64_masked of the model is b_from_znx64 on it *)
Lemma land_in_range x m : in_range 64 x -> in_range 64 m -> in_range 64 (Z.land x m).
Proof.
  unfold in_range. change (64 - 1) with 63. intros Hx Hm.
  assert (Hp63 : 0 < 2 ^ 63) by reflexivity.
  destruct (Z.lt_ge_cases x 0) as [Hxn|Hxp]; destruct (Z.lt_ge_cases m 0) as [Hmn|Hmp].
  - (* both negative: land = - (lor (-x-1) (-m-1)) - 1 *)
    assert (Hl : Z.land x m = Z.lnot (Z.lor (Z.lnot x) (Z.lnot m))).
    { rewrite Z.lnot_lor, !Z.lnot_involutive. reflexivity. }
    rewrite Hl.
    assert (0 <= Z.lnot x < 2 ^ 63) by (unfold Z.lnot; lia).
    assert (0 <= Z.lnot m < 2 ^ 63) by (unfold Z.lnot; lia).
    assert (0 <= Z.lor (Z.lnot x) (Z.lnot m)) by (apply Z.lor_nonneg; lia).
    assert (Z.lor (Z.lnot x) (Z.lnot m) < 2 ^ 63).
    { destruct (Z.eq_dec (Z.lor (Z.lnot x) (Z.lnot m)) 0) as [->|Hne]; [reflexivity|].
      apply Z.log2_lt_pow2; [lia|]. rewrite Z.log2_lor by lia.
      apply Z.max_lub_lt.
      - destruct (Z.eq_dec (Z.lnot x) 0) as [->|]; [reflexivity|apply Z.log2_lt_pow2; lia].
      - destruct (Z.eq_dec (Z.lnot m) 0) as [->|]; [reflexivity|apply Z.log2_lt_pow2; lia]. }
    set (L := Z.lor (Z.lnot x) (Z.lnot m)) in *. unfold Z.lnot. lia.
  - (* x negative, m >= 0: 0 <= land <= m *)
    assert (0 <= Z.land x m) by (apply Z.land_nonneg; lia).
    assert (Z.land x m <= m) by (apply land_le_r; lia).
    lia.
  - assert (0 <= Z.land x m) by (apply Z.land_nonneg; lia).
    assert (Z.land x m <= x) by (rewrite Z.land_comm; apply land_le_r; lia).
    lia.
  - assert (0 <= Z.land x m) by (apply Z.land_nonneg; lia).
    assert (Z.land x m <= x) by (rewrite Z.land_comm; apply land_le_r; lia).
    lia.
Qed.

Theorem c_from_b_correct : forall q x, 0 < q < 2 ^ 32 ->
  exists r r', c_from_b_k q x = [r; r'] /\ 0 <= r < q /\ 0 <= r' < q /\
               r mod q = x mod q /\ r' mod q = (x * 2 ^ 32) mod q.
Proof.
  intros q x Hq. change (2 ^ 32) with 4294967296 in *.
  pose proof (Z.mod_pos_bound x q ltac:(lia)) as Hr.
  exists (x mod q), ((x mod q * 4294967296) mod q).
  pose proof (Z.mod_pos_bound (x mod q * 4294967296) q ltac:(lia)) as Hr'.
  unfold c_from_b_k. cbv zeta. change (2 ^ 32) with 4294967296.
  rewrite (u64_id (x mod q * 4294967296)) by (change (2 ^ 64) with 18446744073709551616; nia).
  rewrite !u32_id by (change (2 ^ 32) with 4294967296; lia).
  repeat split; try lia.
  - apply Z.mod_mod; lia.
  - rewrite Z.mod_mod by lia. apply Z.mul_mod_idemp_l; lia.
Qed.

Corollary c_from_znx64_correct : forall q x, 0 < q < 2 ^ 32 ->
  exists r r', c_from_znx64_k q x = [r; r'] /\ 0 <= r < q /\ 0 <= r' < q /\
               r mod q = x mod q /\ r' mod q = (x * 2 ^ 32) mod q.
Proof. intros q x Hq. exact (c_from_b_correct q x Hq). Qed.

(* b_to_znx128 only looks at the residue classes of its inputs *)
Theorem same_residue_same_output : forall ps x y,
  (forall k, (k < 4)%nat -> nth k x 0 mod qk ps k = nth k y 0 mod qk ps k) ->
  b_to_znx128 ps x = b_to_znx128 ps y.
Proof.
  intros ps x y H. unfold b_to_znx128. cbv zeta.
  cbn [seq fold_left]. unfold crt_term. cbv zeta.
  rewrite (H 0%nat), (H 1%nat), (H 2%nat), (H 3%nat) by lia. reflexivity.
Qed.

Lemma coprime_divide_mul a b d : Z.gcd a b = 1 -> (a | d) -> (b | d) -> (a * b | d).
Proof.
  intros Hg [e He] Hb. subst d.
  assert (Hbe : (b | e)).
  { apply (Z.gauss b a e); [rewrite Z.mul_comm; exact Hb|rewrite Z.gcd_comm; exact Hg]. }
  destruct Hbe as [f Hf]. subst e. exists f. ring.
Qed.

Lemma crt_term_cong q m c x : 0 < q -> (m * c) mod q = 1 -> ((x mod q * c) mod q * m) mod q = x mod q.
Proof.
  intros Hq H.
  rewrite Z.mul_mod_idemp_l by lia.
  rewrite <- Z.mul_assoc, (Z.mul_comm c m).
  rewrite Z.mul_mod_idemp_l by lia.
  rewrite <- Z.mul_mod_idemp_r, H, Z.mul_1_r by lia. reflexivity.
Qed.

Lemma term_vanish q m t : 0 < q -> m mod q = 0 -> (t * m) mod q = 0.
Proof. intros Hq H. rewrite <- Z.mul_mod_idemp_r, H, Z.mul_0_r by lia. apply Z.mod_0_l; lia. Qed.

Lemma add4_mod a b c d q : 0 < q -> (a + b + c + d) mod q = (a mod q + b mod q + c mod q + d mod q) mod q.
Proof.
  intros Hq.
  rewrite (Z.add_mod (a + b + c) d), (Z.add_mod (a + b) c), (Z.add_mod a b) by lia.
  rewrite (Z.add_mod (a mod q + b mod q + c mod q) (d mod q)), (Z.add_mod (a mod q + b mod q) (c mod q)) by lia.
  rewrite !Z.mod_mod by lia. reflexivity.
Qed.

(* the arithmetic facts about one prime set that the reconstruction needs; all decidable, checked by vm_compute *)
Definition crt_ready (ps : primeset) : bool :=
  let q k := qk ps k in let c k := crtk ps k in
  let Q := Qprod ps in
  (length (ps_Q ps) =? 4)%nat &&
  forallb (fun k => (1 <? q k) && (0 <=? c k) && (c k <? 2 ^ 32) && (q k <? 2 ^ 32) &&
                    (qm ps k =? Q / q k) && (Q mod q k =? 0) && ((qm ps k * c k) mod q k =? 1) &&
                    forallb (fun j => Nat.eqb j k || (qm ps j mod q k =? 0)) (seq 0 4)) (seq 0 4) &&
  (total_q ps =? Q) && (4 * Q <? 2 ^ 127) && Z.odd Q &&
  (Z.gcd (q 0%nat) (q 1%nat) =? 1) && (Z.gcd (q 0%nat * q 1%nat) (q 2%nat) =? 1) &&
  (Z.gcd (q 0%nat * q 1%nat * q 2%nat) (q 3%nat) =? 1).

Lemma crt_ready_three : forall ps, In ps three_sets -> crt_ready ps = true.
Proof. apply three_sets_ind; vm_compute; reflexivity. Qed.

Section Crt.
Variable ps : primeset.
Hypothesis Hready : crt_ready ps = true.

Let q k := qk ps k.
Let c k := crtk ps k.
Let Q := Qprod ps.

Lemma ready_k k : (k < 4)%nat ->
  1 < q k /\ 0 <= c k < 2 ^ 32 /\ q k < 2 ^ 32 /\ qm ps k = Q / q k /\ Q mod q k = 0 /\ (qm ps k * c k) mod q k = 1 /\
  (forall j, (j < 4)%nat -> j <> k -> qm ps j mod q k = 0).
Proof.
  intros Hk. unfold crt_ready in Hready. cbv zeta in Hready. fold q c Q in Hready.
  rewrite !Bool.andb_true_iff in Hready. destruct Hready as (((((((_ & Hall) & _) & _) & _) & _) & _) & _).
  rewrite forallb_forall in Hall. specialize (Hall k ltac:(apply in_seq; lia)).
  rewrite !Bool.andb_true_iff in Hall. destruct Hall as (((((((H1 & H2) & H3) & H4) & H5) & H6) & H7) & Hz).
  apply Z.ltb_lt in H1, H3, H4. apply Z.leb_le in H2. apply Z.eqb_eq in H5, H6, H7.
  repeat split; try assumption.
  intros j Hj Hne. rewrite forallb_forall in Hz. specialize (Hz j ltac:(apply in_seq; lia)).
  apply orb_prop in Hz as [Hz|Hz]; [apply Nat.eqb_eq in Hz; lia|apply Z.eqb_eq; exact Hz].
Qed.

Lemma ready_global : total_q ps = Q /\ 4 * Q < 2 ^ 127 /\ Z.odd Q = true /\
  Z.gcd (q 0%nat) (q 1%nat) = 1 /\ Z.gcd (q 0%nat * q 1%nat) (q 2%nat) = 1 /\ Z.gcd (q 0%nat * q 1%nat * q 2%nat) (q 3%nat) = 1.
Proof.
  unfold crt_ready in Hready. cbv zeta in Hready. fold q c Q in Hready.
  rewrite !Bool.andb_true_iff in Hready. destruct Hready as (((((((_ & _) & T) & B) & O) & G1) & G2) & G3).
  apply Z.eqb_eq in T, G1, G2, G3. apply Z.ltb_lt in B.
  repeat split; assumption.
Qed.

Lemma Q_pos : 0 < Q.
Proof.
  destruct (ready_k 0%nat ltac:(lia)) as [? _]. destruct (ready_k 1%nat ltac:(lia)) as [? _].
  destruct (ready_k 2%nat ltac:(lia)) as [? _]. destruct (ready_k 3%nat ltac:(lia)) as [? _].
  unfold Q, Qprod. fold (q 0%nat) (q 1%nat) (q 2%nat) (q 3%nat).
  repeat apply Z.mul_pos_pos; lia.
Qed.

(* a reduced term: value and bounds, no wrap *)
Definition tk (k : nat) (xk : Z) : Z := ((xk mod q k) * c k) mod q k.

Lemma qm_bounds k : (k < 4)%nat -> 0 < qm ps k /\ q k * qm ps k = Q.
Proof.
  intros Hk. destruct (ready_k k Hk) as (Hq & _ & _ & Hm & Hd & _).
  pose proof Q_pos. fold (q k) in *.
  assert (HQ : Q = q k * (Q / q k)) by (apply Z.div_exact in Hd; lia).
  rewrite Hm. split; [|lia]. nia.
Qed.

Lemma crt_term_eq k xk : (k < 4)%nat ->
  crt_term ps k xk = tk k xk * qm ps k /\ 0 <= tk k xk * qm ps k <= Q - qm ps k.
Proof.
  intros Hk. destruct (ready_k k Hk) as (Hq & Hc & Hq32 & _).
  destruct (qm_bounds k Hk) as [Hmp HmQ]. destruct ready_global as (_ & H4 & _).
  pose proof Q_pos.
  unfold crt_term. cbv zeta. fold (q k) (c k).
  pose proof (Z.mod_pos_bound xk (q k) ltac:(lia)) as Hr.
  assert (Hrc : 0 <= xk mod q k * c k < 2 ^ 64).
  { change (2 ^ 64) with (2 ^ 32 * 2 ^ 32). split; [nia|].
    apply Z.le_lt_trans with ((q k - 1) * c k); [nia|]. nia. }
  rewrite (i128_id (xk mod q k * c k)) by (change (2 ^ 127) with (2 ^ 64 * 2 ^ 63); change (2 ^ 63) with 9223372036854775808; lia).
  rewrite Z.rem_mod_nonneg by lia. fold (tk k xk).
  pose proof (Z.mod_pos_bound (xk mod q k * c k) (q k) ltac:(lia)) as Ht. fold (tk k xk) in Ht.
  assert (Hb : 0 <= tk k xk * qm ps k <= Q - qm ps k) by nia.
  rewrite i128_id by lia. split; [reflexivity|exact Hb].
Qed.

Definition crt_sum (x : list Z) : Z :=
  tk 0 (nth 0 x 0) * qm ps 0 + tk 1 (nth 1 x 0) * qm ps 1 + tk 2 (nth 2 x 0) * qm ps 2 + tk 3 (nth 3 x 0) * qm ps 3.

(* the reconstruction without any machine wrap *)
Lemma b_to_znx128_unwrapped x :
  b_to_znx128 ps x = let m := crt_sum x mod Q in if (Q + 1) / 2 <=? m then m - Q else m.
Proof.
  destruct ready_global as (Htq & H4 & _). pose proof Q_pos as HQ.
  unfold b_to_znx128. cbv zeta. cbn [seq fold_left].
  destruct (crt_term_eq 0 (nth 0 x 0) ltac:(lia)) as [-> B0].
  destruct (crt_term_eq 1 (nth 1 x 0) ltac:(lia)) as [-> B1].
  destruct (crt_term_eq 2 (nth 2 x 0) ltac:(lia)) as [-> B2].
  destruct (crt_term_eq 3 (nth 3 x 0) ltac:(lia)) as [-> B3].
  destruct (qm_bounds 0 ltac:(lia)) as [M0 _]. destruct (qm_bounds 1 ltac:(lia)) as [M1 _].
  destruct (qm_bounds 2 ltac:(lia)) as [M2 _]. destruct (qm_bounds 3 ltac:(lia)) as [M3 _].
  rewrite Z.add_0_l.
  rewrite (i128_id (tk 0 _ * _)) by lia.
  rewrite (i128_id (tk 0 _ * _ + tk 1 _ * _)) by lia.
  rewrite (i128_id (tk 0 _ * _ + tk 1 _ * _ + tk 2 _ * _)) by lia.
  rewrite (i128_id (tk 0 _ * _ + tk 1 _ * _ + tk 2 _ * _ + tk 3 _ * _)) by lia.
  fold (crt_sum x). rewrite Htq.
  assert (Hs : 0 <= crt_sum x) by (unfold crt_sum; lia).
  rewrite Z.rem_mod_nonneg by lia.
  pose proof (Z.mod_pos_bound (crt_sum x) Q HQ) as Hm.
  rewrite (i128_id (Q + 1)) by lia.
  rewrite Z.quot_div_nonneg by lia.
  destruct (Z.leb_spec ((Q + 1) / 2) (crt_sum x mod Q)); [|reflexivity].
  apply i128_id. lia.
Qed.

(* modulo q k the k-th term of the sum is the k-th residue, the others vanish *)
Lemma term_residue x k j : (k < 4)%nat -> (j < 4)%nat ->
  (tk j (nth j x 0) * qm ps j) mod q k = if Nat.eqb j k then nth k x 0 mod q k else 0.
Proof.
  intros Hk Hj. destruct (ready_k k Hk) as (Hq & _ & _ & _ & _ & Hinv & Hz).
  destruct (Nat.eqb_spec j k) as [->|Hne].
  - unfold tk. apply crt_term_cong; [lia|exact Hinv].
  - apply term_vanish; [lia|apply Hz; assumption].
Qed.

Lemma crt_sum_residue x k : (k < 4)%nat -> crt_sum x mod q k = nth k x 0 mod q k.
Proof.
  intros Hk. destruct (ready_k k Hk) as (Hq & _).
  unfold crt_sum. rewrite add4_mod, !term_residue by lia.
  destruct k as [|[|[|[|k]]]]; [| | | |lia]; cbn [Nat.eqb]; rewrite ?Z.add_0_r, ?Z.add_0_l; apply Z.mod_mod; lia.
Qed.

Lemma divide_Q d : (forall k, (k < 4)%nat -> (q k | d)) -> (Q | d).
Proof.
  intros H. destruct ready_global as (_ & _ & _ & G1 & G2 & G3).
  unfold Q, Qprod. fold (q 0%nat) (q 1%nat) (q 2%nat) (q 3%nat).
  apply coprime_divide_mul; [exact G3| |apply H; lia].
  apply coprime_divide_mul; [exact G2| |apply H; lia].
  apply coprime_divide_mul; [exact G1|apply H; lia|apply H; lia].
Qed.

Theorem b_to_znx128_exact_gen : forall x v,
  (forall k, (k < 4)%nat -> nth k x 0 mod q k = v mod q k) ->
  2 * Z.abs v < Q ->
  b_to_znx128 ps x = v.
Proof.
  intros x v Hres Hv. rewrite b_to_znx128_unwrapped. cbv zeta.
  pose proof Q_pos as HQ. destruct ready_global as (_ & _ & Hodd & _).
  set (m := crt_sum x mod Q).
  pose proof (Z.mod_pos_bound (crt_sum x) Q HQ) as Hm. fold m in Hm.
  assert (Hdiv : (Q | m - v)).
  { apply divide_Q. intros k Hk. destruct (ready_k k Hk) as (Hq & _ & _ & _ & Hd & _).
    apply eqmod_divide; [lia|]. rewrite <- Hres by exact Hk. rewrite <- crt_sum_residue by exact Hk.
    unfold m. symmetry. apply Zmod_div_mod; [lia|lia|]. apply Z.mod_divide; [lia|exact Hd]. }
  destruct Hdiv as [w Hw].
  assert (HQodd : Q = 2 * (Q / 2) + 1).
  { rewrite (Z.div_mod Q 2) at 1 by lia. rewrite Zmod_odd, Hodd. reflexivity. }
  assert (Hhalf : (Q + 1) / 2 = Q / 2 + 1).
  { rewrite HQodd at 1. replace (2 * (Q / 2) + 1 + 1) with ((Q / 2 + 1) * 2) by ring. apply Z.div_mul; lia. }
  rewrite Hhalf.
  assert (Hw01 : w = 0 \/ w = 1) by nia.
  destruct Hw01 as [-> | ->].
  - destruct (Z.leb_spec (Q / 2 + 1) m); lia.
  - destruct (Z.leb_spec (Q / 2 + 1) m); lia.
Qed.
End Crt.

Theorem b_to_znx128_exact : forall ps, In ps three_sets -> forall x v,
  (forall k, (k < 4)%nat -> nth k x 0 mod qk ps k = v mod qk ps k) ->
  2 * Z.abs v < Qprod ps ->
  b_to_znx128 ps x = v.
Proof. intros ps Hin. apply b_to_znx128_exact_gen. apply crt_ready_three; exact Hin. Qed.

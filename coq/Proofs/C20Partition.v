(* C20 — the chunking of work items over threads is a partition, and the index formulas of both call sites
   enumerate exactly the items of each chunk. *)
From PV Require Import Base.MachineInt Model.C20Threads.
From Coq Require Import Arith PeanoNat.
Local Open Scope nat_scope.

Lemma div_ceil_ge (n t : nat) : 1 <= t -> n <= div_ceil n t * t.
Proof.
  intros Ht. unfold div_ceil.
  pose proof (Nat.div_mod n t ltac:(lia)) as Hdm.
  pose proof (Nat.mod_upper_bound n t ltac:(lia)) as Hm.
  destruct (n mod t =? 0) eqn:E.
  - apply Nat.eqb_eq in E. nia.
  - nia.
Qed.

Lemma div_ceil_pos (n t : nat) : 1 <= t -> 1 <= n -> 1 <= div_ceil n t.
Proof.
  intros Ht Hn. unfold div_ceil.
  pose proof (Nat.div_mod n t ltac:(lia)) as Hdm.
  destruct (n mod t =? 0) eqn:E.
  - apply Nat.eqb_eq in E. rewrite E in Hdm. destruct (n / t); [lia|lia].
  - lia.
Qed.

Lemma div_ceil_zero (t : nat) : 1 <= t -> div_ceil 0 t = 0.
Proof.
  intros Ht. unfold div_ceil. rewrite Nat.div_0_l, Nat.mod_0_l by lia. reflexivity.
Qed.

Lemma firstn_seq' (c : nat) : forall a n, firstn c (seq a n) = seq a (min c n).
Proof.
  induction c as [|c IH]; intros a n; [reflexivity|].
  destruct n as [|n]; [reflexivity|]. cbn [seq firstn min Nat.min]. f_equal. apply IH.
Qed.

Lemma skipn_seq' (c : nat) : forall a n, skipn c (seq a n) = seq (a + c) (n - c).
Proof.
  induction c as [|c IH]; intros a n.
  - rewrite Nat.add_0_r, Nat.sub_0_r. reflexivity.
  - destruct n as [|n]; [reflexivity|]. cbn [seq skipn]. rewrite IH. f_equal; lia.
Qed.

Lemma chunks_aux_concat {A : Type} (c : nat) (Hc : 1 <= c) : forall fuel (l : list A),
  length l <= fuel -> concat (chunks_aux fuel c l) = l.
Proof.
  induction fuel as [|f IH]; intros l Hl.
  - destruct l; [reflexivity|cbn [length] in Hl; lia].
  - cbn [chunks_aux]. destruct l as [|x l']; [reflexivity|].
    cbn [concat]. rewrite IH.
    + apply firstn_skipn.
    + rewrite skipn_length. cbn [length] in *. lia.
Qed.

Lemma chunks_aux_nonempty {A : Type} (c : nat) (Hc : 1 <= c) : forall fuel (l : list A) ch,
  In ch (chunks_aux fuel c l) -> ch <> [].
Proof.
  induction fuel as [|f IH]; intros l ch Hin; cbn [chunks_aux] in Hin; [contradiction|].
  destruct l as [|x l']; [contradiction|].
  destruct Hin as [<-|Hin].
  - destruct c; [lia|]. cbn [firstn]. discriminate.
  - eapply IH; eauto.
Qed.

(* number of chunks k: (k-1)*c < n <= k*c *)
Lemma chunks_aux_count {A : Type} (c : nat) (Hc : 1 <= c) : forall fuel (l : list A),
  length l <= fuel ->
  length (chunks_aux fuel c l) * c < length l + c /\ length l <= length (chunks_aux fuel c l) * c.
Proof.
  induction fuel as [|f IH]; intros l Hl.
  - destruct l; cbn [length] in *; [|lia]. cbn [chunks_aux length]. lia.
  - cbn [chunks_aux]. destruct l as [|x l']; [cbn [length]; lia|].
    set (l := x :: l') in *.
    assert (Hn : 1 <= length l) by (subst l; cbn [length]; lia).
    assert (Hs : length (skipn c l) <= f) by (rewrite skipn_length; lia).
    specialize (IH (skipn c l) Hs). rewrite skipn_length in IH.
    cbn [length]. destruct IH as [I1 I2].
    destruct (Nat.le_gt_cases (length l) c) as [Hle|Hgt].
    + replace (length l - c) with 0 in * by lia.
      assert (length (chunks_aux f c (skipn c l)) = 0) by nia. nia.
    + nia.
Qed.

Lemma chunks_count_le_threads (a n t : nat) :
  1 <= t -> 1 <= n ->
  length (chunks_mut (div_ceil n t) (seq a n)) <= t.
Proof.
  intros Ht Hn. unfold chunks_mut.
  pose proof (div_ceil_ge n t Ht) as Hge. pose proof (div_ceil_pos n t Ht Hn) as Hpos.
  set (c := div_ceil n t) in *.
  destruct (chunks_aux_count c Hpos (length (seq a n)) (seq a n) (le_n _)) as [H1 H2].
  rewrite seq_length in *. set (k := length (chunks_aux n c (seq a n))) in *. nia.
Qed.

(* inside one chunk: enumerate pairs position `idx` with slot a+idx, the formula k+idx hits the same number *)
Lemma items_of_chunk (m : nat) : forall s a k,
  k + s = a ->
  map (fun q : nat * nat => (snd q, k + fst q)) (combine (seq s m) (seq a m)) = map (fun j => (j, j)) (seq a m).
Proof.
  induction m as [|m IH]; intros s a k Hk; [reflexivity|].
  cbn [seq combine map fst snd]. f_equal.
  - f_equal; lia.
  - apply IH. lia.
Qed.

Definition dup (j : nat) : item := (j, j).

(* the per-thread item lists, generic in the base index: thread s+i gets chunk i of seq a n where a = base + s*c *)
Lemma work_of_chunks (c base : nat) (Hc : 1 <= c) : forall fuel s a n,
  n <= fuel -> a = base + s * c ->
  map (fun p : nat * list nat => map (fun q : nat * nat => (snd q, base + fst p * c + fst q)) (enumerate (snd p)))
      (combine (seq s (length (chunks_aux fuel c (seq a n)))) (chunks_aux fuel c (seq a n)))
  = map (map dup) (chunks_aux fuel c (seq a n)).
Proof.
  induction fuel as [|f IH]; intros s a n Hn Ha; [reflexivity|].
  destruct n as [|n'].
  - reflexivity.
  - assert (E : chunks_aux (S f) c (seq a (S n'))
                = firstn c (seq a (S n')) :: chunks_aux f c (skipn c (seq a (S n')))) by reflexivity.
    set (n := S n') in *. rewrite E. clear E.
    cbn [length seq combine map fst snd].
    match goal with |- ?x :: ?xs = ?y :: ?ys => cut (x = y /\ xs = ys); [intros [-> ->]; reflexivity|split] end.
    + rewrite firstn_seq'. unfold enumerate. rewrite seq_length.
      apply items_of_chunk. lia.
    + rewrite skipn_seq'.
      destruct (Nat.le_gt_cases n c) as [Hle|Hgt].
      * replace (n - c) with 0 by lia. cbn [seq]. destruct f; reflexivity.
      * apply IH; [lia|]. lia.
Qed.

Lemma eval_work_closed (threads n : nat) :
  1 <= threads -> 1 <= n ->
  eval_work threads n = Some (map (map dup) (chunks_mut (div_ceil n threads) (seq 0 n))).
Proof.
  intros Ht Hn. unfold eval_work.
  destruct (threads =? 0) eqn:E0; [apply Nat.eqb_eq in E0; lia|].
  pose proof (div_ceil_pos n threads Ht Hn) as Hpos.
  destruct (div_ceil n threads =? 0) eqn:E1; [apply Nat.eqb_eq in E1; lia|].
  apply (f_equal (@Some (list (list item)))). unfold zip_enum. rewrite firstn_all2 by (apply chunks_count_le_threads; auto).
  unfold enumerate. unfold chunks_mut. rewrite seq_length.
  exact (work_of_chunks (div_ceil n threads) 0 Hpos n 0 0 n (le_n _) eq_refl).
Qed.

Lemma prepare_work_closed (threads bits start count : nat) :
  1 <= threads -> 1 <= count -> start + count <= bits ->
  prepare_work threads bits start count = Some (map (map dup) (chunks_mut (div_ceil count threads) (seq start count))).
Proof.
  intros Ht Hn Hb. unfold prepare_work.
  destruct (bits <? start + count) eqn:Eb; [apply Nat.ltb_lt in Eb; lia|].
  destruct (threads =? 0) eqn:E0; [apply Nat.eqb_eq in E0; lia|].
  pose proof (div_ceil_pos count threads Ht Hn) as Hpos.
  destruct (div_ceil count threads =? 0) eqn:E1; [apply Nat.eqb_eq in E1; lia|].
  apply (f_equal (@Some (list (list item)))). unfold zip_enum. rewrite firstn_all2 by (apply chunks_count_le_threads; auto).
  unfold enumerate. unfold chunks_mut. rewrite seq_length.
  cbn zeta.
  exact (work_of_chunks (div_ceil count threads) start Hpos count 0 start count (le_n _) ltac:(lia)).
Qed.

(* the guards: what makes the Rust code panic *)
Lemma eval_work_guard (threads n : nat) : threads = 0 \/ n = 0 -> eval_work threads n = None.
Proof.
  intros [->| ->]; unfold eval_work; [reflexivity|].
  destruct (threads =? 0) eqn:E; [reflexivity|].
  apply Nat.eqb_neq in E. rewrite div_ceil_zero by lia. reflexivity.
Qed.

Lemma prepare_work_guard (threads bits start count : nat) :
  threads = 0 \/ count = 0 \/ bits < start + count -> prepare_work threads bits start count = None.
Proof.
  intros H. unfold prepare_work.
  destruct (bits <? start + count) eqn:Eb; [reflexivity|]. apply Nat.ltb_ge in Eb.
  destruct (threads =? 0) eqn:E; [reflexivity|]. apply Nat.eqb_neq in E.
  destruct H as [H|[H|H]]; try lia. subst count. rewrite div_ceil_zero by lia. reflexivity.
Qed.

(* a run exists only under the guard, and then the work lists are the chunks *)
Lemma eval_work_some (threads n : nat) (w : list (list item)) : eval_work threads n = Some w ->
  1 <= threads /\ 1 <= n /\ w = map (map dup) (chunks_mut (div_ceil n threads) (seq 0 n)).
Proof.
  intros H. destruct (Nat.eq_dec threads 0) as [->|Ht]; [rewrite eval_work_guard in H by auto; discriminate|].
  destruct (Nat.eq_dec n 0) as [->|Hn]; [rewrite eval_work_guard in H by auto; discriminate|].
  rewrite eval_work_closed in H by lia. inversion H. repeat split; lia.
Qed.

Lemma prepare_work_some (threads bits start count : nat) (w : list (list item)) : prepare_work threads bits start count = Some w ->
  1 <= threads /\ 1 <= count /\ start + count <= bits /\ w = map (map dup) (chunks_mut (div_ceil count threads) (seq start count)).
Proof.
  intros H. destruct (Nat.eq_dec threads 0) as [->|Ht]; [rewrite prepare_work_guard in H by auto; discriminate|].
  destruct (Nat.eq_dec count 0) as [->|Hn]; [rewrite prepare_work_guard in H by auto; discriminate|].
  destruct (Nat.lt_ge_cases bits (start + count)) as [Hb|Hb]; [rewrite prepare_work_guard in H by auto; discriminate|].
  rewrite prepare_work_closed in H by lia. inversion H. repeat split; lia.
Qed.

Lemma chunks_mut_concat (n threads base : nat) : 1 <= threads -> 1 <= n ->
  concat (chunks_mut (div_ceil n threads) (seq base n)) = seq base n.
Proof. intros Ht Hn. unfold chunks_mut. apply chunks_aux_concat; [apply div_ceil_pos; assumption | apply le_n]. Qed.

Lemma NoDup_app_disjoint {A : Type} (l1 l2 : list A) (x : A) :
  NoDup (l1 ++ l2) -> In x l1 -> In x l2 -> False.
Proof.
  induction l1 as [|y l1 IH]; intros Hnd H1 H2; [contradiction|].
  cbn [app] in Hnd. inversion Hnd as [|? ? Hnotin Hnd']; subst.
  destruct H1 as [->|H1].
  - apply Hnotin. apply in_or_app. right; exact H2.
  - eapply IH; eauto.
Qed.

Lemma NoDup_app_r {A : Type} (l1 l2 : list A) : NoDup (l1 ++ l2) -> NoDup l2.
Proof.
  induction l1 as [|y l1 IH]; intros H; [exact H|]. inversion H; subst. auto.
Qed.

Lemma concat_NoDup_disjoint {A : Type} (cs : list (list A)) : forall i j x,
  NoDup (concat cs) -> i < j -> In x (nth i cs []) -> In x (nth j cs []) -> False.
Proof.
  induction cs as [|ch cs IH]; intros i j x Hnd Hij Hi Hj.
  - destruct i; contradiction.
  - cbn [concat] in Hnd. destruct j as [|j]; [lia|]. destruct i as [|i]; cbn [nth] in *.
    + eapply NoDup_app_disjoint; eauto.
      destruct (Nat.lt_ge_cases j (length cs)) as [Hlt|Hge].
      * apply in_concat. exists (nth j cs []). split; [apply nth_In; exact Hlt|exact Hj].
      * rewrite nth_overflow in Hj by lia. contradiction.
    + apply (IH i j x); [eapply NoDup_app_r; exact Hnd | lia | exact Hi | exact Hj].
Qed.

(* a list of chunks whose concatenation is seq base n is a partition of base .. base+n-1 *)
Definition is_partition (base n threads : nat) (cs : list (list nat)) : Prop :=
  length cs <= threads /\
  (forall ch, In ch cs -> ch <> []) /\
  concat cs = seq base n /\
  (forall i j x, i <> j -> In x (nth i cs []) -> ~ In x (nth j cs [])) /\
  (forall x, base <= x < base + n -> exists i, i < length cs /\ In x (nth i cs []) /\
                                                forall i', In x (nth i' cs []) -> i' = i).

Lemma partition_of_concat (base n threads : nat) (cs : list (list nat)) :
  length cs <= threads -> (forall ch, In ch cs -> ch <> []) -> concat cs = seq base n ->
  is_partition base n threads cs.
Proof.
  intros Hlen Hne Hcat.
  assert (Hnd : NoDup (concat cs)) by (rewrite Hcat; apply seq_NoDup).
  assert (Hdis : forall i j x, i <> j -> In x (nth i cs []) -> ~ In x (nth j cs [])).
  { intros i j x Hij Hi Hj.
    destruct (Nat.lt_gt_cases i j) as [H _]. specialize (H Hij). destruct H as [H|H].
    - eapply (concat_NoDup_disjoint cs i j x); eauto.
    - eapply (concat_NoDup_disjoint cs j i x); eauto. }
  repeat split; auto.
  intros x Hx.
  assert (Hin : In x (concat cs)) by (rewrite Hcat; apply in_seq; lia).
  apply in_concat in Hin. destruct Hin as (ch & Hch & Hxch).
  destruct (In_nth cs ch [] Hch) as (i & Hi & Hnth).
  exists i. split; [exact Hi|]. split; [rewrite Hnth; exact Hxch|].
  intros i' Hi'. destruct (Nat.eq_dec i' i) as [|Hne']; [assumption|].
  exfalso. eapply (Hdis i' i x); eauto. rewrite Hnth; exact Hxch.
Qed.

Lemma map_map_fst_dup (cs : list (list nat)) : map (map fst) (map (map dup) cs) = cs.
Proof.
  induction cs as [|ch cs IH]; [reflexivity|]. cbn [map]. rewrite IH. f_equal.
  induction ch as [|x ch IHc]; [reflexivity|]. cbn [map dup fst]. f_equal. exact IHc.
Qed.
Lemma map_map_snd_dup (cs : list (list nat)) : map (map snd) (map (map dup) cs) = cs.
Proof.
  induction cs as [|ch cs IH]; [reflexivity|]. cbn [map]. rewrite IH. f_equal.
  induction ch as [|x ch IHc]; [reflexivity|]. cbn [map dup snd]. f_equal. exact IHc.
Qed.

Lemma chunks_mut_partition (base n threads : nat) :
  1 <= threads -> 1 <= n ->
  is_partition base n threads (chunks_mut (div_ceil n threads) (seq base n)).
Proof.
  intros Ht Hn. pose proof (div_ceil_pos n threads Ht Hn) as Hpos.
  apply partition_of_concat.
  - apply chunks_count_le_threads; auto.
  - intros ch Hin. eapply chunks_aux_nonempty; eauto.
  - unfold chunks_mut. apply chunks_aux_concat; auto.
Qed.

(* C20_chunks_partition *)
Lemma chunks_partition (items threads : nat) :
  1 <= items -> 1 <= threads ->
  exists cs, chunks items threads = Some cs /\ is_partition 0 items threads cs.
Proof.
  intros Hn Ht. unfold chunks. rewrite eval_work_closed by auto. cbn [option_map].
  rewrite map_map_fst_dup. eexists; split; [reflexivity|]. apply chunks_mut_partition; auto.
Qed.

Lemma chunks_prepare_partition (threads bits start count : nat) :
  1 <= count -> 1 <= threads -> start + count <= bits ->
  exists cs, chunks_prepare threads bits start count = Some cs /\ is_partition start count threads cs.
Proof.
  intros Hn Ht Hb. unfold chunks_prepare. rewrite prepare_work_closed by auto. cbn [option_map].
  rewrite map_map_fst_dup. eexists; split; [reflexivity|]. apply chunks_mut_partition; auto.
Qed.

(* C20_index_formula_enumerates: in both call sites the index handed to the per-item computation
   (thread_idx*chunk_size+idx, resp. bit_start+thread_index*chunk_size+local_bit: literally the closures of
   eval_work / prepare_work, see eval_work_closed / prepare_work_closed) is the absolute position of the output slot being
   written, and the indices of thread 0, then thread 1, ... are base, base+1, ..., base+n-1: each exactly once and nothing else *)
Lemma index_formula_chunks (base n threads : nat) : 1 <= n -> 1 <= threads ->
  let w := map (map dup) (chunks_mut (div_ceil n threads) (seq base n)) in
  length w <= threads /\
  map (map snd) w = map (map fst) w /\
  concat (map (map snd) w) = seq base n /\
  concat w = map (fun j => (j, j)) (seq base n).
Proof.
  intros Hn Ht w. unfold w. rewrite map_map_fst_dup, map_map_snd_dup, map_length, <- concat_map, chunks_mut_concat by assumption.
  split; [apply chunks_count_le_threads; assumption|]. repeat split.
Qed.

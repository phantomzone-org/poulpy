(* C11, independence for the flat-memory operations built on col_op (all C08 vector operations):
   - the selected column of the result is the per-coefficient function of (selected input column, prior selected column);
   - overwriting forms (8101 normalize, 8104 lsh, 8108 rsh, 8201 big_normalize, 8204 big_normalize_negate):
     the result column is the same for ANY two destination buffers;
   - accumulate / in-place forms: same for destination buffers that agree on the selected column. *)
From PV Require Import Base.MachineInt Model.Znx Model.Limbs Model.LimbsBig Model.Flat Model.C09Run Model.C08Run
  Proofs.C11Frame Proofs.C11Read Proofs.C11Coeff.
From Coq Require Import Arith PeanoNat List Bool.
Open Scope nat_scope.

Lemma col_op_write f rs as_ res a res' : col_op f rs as_ res a = Some res' ->
  col_write rs (lift_coeff f (s_n rs) (s_size rs) (getcol as_ a)) res res'.
Proof.
  unfold col_op. destruct (shape_ok rs res) eqn:Hrs; cbn [andb]; [|discriminate].
  destruct (shape_ok as_ a); cbn [andb]; [|discriminate].
  destruct (Nat.eqb (s_n rs) (s_n as_)); [|discriminate].
  destruct (lift_coeff _ _ _ _ _) as [limbs|] eqn:Hl; [|discriminate]. intros [= <-].
  exists limbs. split; [exact Hl|]. split; [apply (lift_coeff_length _ _ _ _ _ _ Hl)|]. split; [exact Hrs | reflexivity].
Qed.

Theorem col_op_frame f rs as_ res a res' :
  0 < s_n rs ->
  col_op f rs as_ res a = Some res' ->
  length res' = length res /\
  forall idx d, in_col (s_n rs) (s_cols rs) (s_size rs) (s_col rs) idx = false -> nth idx res' d = nth idx res d.
Proof. intros Hn H. exact (col_write_frame _ _ _ _ Hn (col_op_write _ _ _ _ _ _ H)). Qed.

(* the limbs produced by lift_coeff have n words each: the read-back is exact when f keeps the number of limbs *)
Lemma lift_coeff_limb_length f n rsize al rl limbs :
  lift_coeff f n rsize al rl = Some limbs -> Forall (fun l => length l = n) limbs.
Proof.
  intros H. destruct (lift_coeff_some _ _ _ _ _ _ H) as (cs & Lcs & -> & _).
  apply Forall_forall. intros l Hin. apply in_map_iff in Hin as (j & <- & _). rewrite map_length. exact Lcs.
Qed.

(* f looks at the prior limbs of a coefficient only through their number *)
Definition len_only (f : list Z -> list Z -> option (list Z)) : Prop :=
  forall x r r', length r = length r' -> f x r = f x r'.

Lemma combine_map_same (A B C : Type) (F : C -> A) (G : C -> B) (l : list C) :
  combine (map F l) (map G l) = map (fun i => (F i, G i)) l.
Proof. induction l as [|x l IH]; cbn [map combine]; [reflexivity|]. rewrite IH. reflexivity. Qed.

Lemma lift_coeff_len_only f n rsize al (rl rl' : list (list Z)) :
  len_only f -> length rl = length rl' -> lift_coeff f n rsize al rl = lift_coeff f n rsize al rl'.
Proof.
  intros Hf Hl. unfold lift_coeff, transpose.
  rewrite !combine_map_same, !map_map. cbn [fst snd].
  rewrite (map_ext_in _ (fun i => f (map (fun l => nthZ l i) al) (map (fun l => nthZ l i) rl'))); [reflexivity|].
  intros i _. apply Hf. rewrite !map_length. exact Hl.
Qed.

Lemma one_inv (o : option (list Z)) x t : one o = Some (x :: t) -> o = Some x /\ t = [].
Proof. destruct o; cbn; intros H; inversion H; auto. Qed.

Definition c08_flat_codes : list Z :=
  [8101; 8102; 8103; 8104; 8105; 8106; 8107; 8108; 8109; 8110; 8201; 8202; 8203; 8204]%Z.
Definition c08_overwrite_codes : list Z := [8101; 8104; 8108; 8201; 8204]%Z.
Definition c08_accum_codes : list Z := [8102; 8103; 8105; 8106; 8107; 8109; 8110; 8202; 8203]%Z.

(* evaluates the comparisons between opcode literals in the goal *)
Ltac eval_lit_eqb :=
  repeat match goal with
  | |- context [Z.eqb (Zpos ?a) (Zpos ?b)] =>
      let v := eval vm_compute in (Z.eqb (Zpos a) (Zpos b)) in change (Z.eqb (Zpos a) (Zpos b)) with v
  end; cbv iota.

Theorem c08_indep_agree code ps res1 res2 rest res1' res2' :
  In code c08_flat_codes ->
  getcol (rshape ps) res1 = getcol (rshape ps) res2 ->
  run_c08_vec code ps (res1 :: rest) = Some [res1'] ->
  run_c08_vec code ps (res2 :: rest) = Some [res2'] ->
  getcol (rshape ps) res1' = getcol (rshape ps) res2'.
Proof.
  intros Hin Hag H1 H2. unfold c08_flat_codes in Hin. cbn [In] in Hin.
  repeat (destruct Hin as [Hc | Hin];
          [subst code; cbv beta iota zeta delta [run_c08_vec v nth] in H1, H2;
           apply one_inv in H1 as [H1 _]; apply one_inv in H2 as [H2 _];
           apply (col_write_same _ _ _ _ _ _ _ (col_op_write _ _ _ _ _ _ H1) (col_op_write _ _ _ _ _ _ H2));
           rewrite Hag; reflexivity |]).
  contradiction.
Qed.

Theorem c08_indep_overwrite code ps res1 res2 rest res1' res2' :
  In code c08_overwrite_codes ->
  run_c08_vec code ps (res1 :: rest) = Some [res1'] ->
  run_c08_vec code ps (res2 :: rest) = Some [res2'] ->
  getcol (rshape ps) res1' = getcol (rshape ps) res2'.
Proof.
  intros Hin H1 H2. unfold c08_overwrite_codes in Hin. cbn [In] in Hin.
  repeat (destruct Hin as [Hc | Hin];
          [subst code; cbv beta iota zeta delta [run_c08_vec v nth] in H1, H2;
           apply one_inv in H1 as [H1 _]; apply one_inv in H2 as [H2 _];
           apply (col_write_same _ _ _ _ _ _ _ (col_op_write _ _ _ _ _ _ H1) (col_op_write _ _ _ _ _ _ H2));
           apply lift_coeff_len_only; [|rewrite !getcol_length; reflexivity];
           intros x r r' Hl; cbv beta |]);
  [ | | | | | contradiction].
  - (* 8101 normalize *) apply normalize_indep. exact Hl.
  - (* 8104 lsh, overwrite *) f_equal. apply lsh_ov_indep. exact Hl.
  - (* 8108 rsh, overwrite *) f_equal. apply rsh_ov_indep. exact Hl.
  - (* 8201 big normalize *) eval_lit_eqb. rewrite (map_const_length _ _ 0%Z r r' Hl). reflexivity.
  - (* 8204 big normalize, negated *) eval_lit_eqb. rewrite (map_const_length _ _ 0%Z r r' Hl). reflexivity.
Qed.

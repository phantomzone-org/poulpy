(* C02: `column_value_ok` discharged with C08's per-coefficient value theorems (same radix):
   rsh_assign_value, lsh_assign_value, lsh_value, lsh_sub_value, normalize_inter_value (offset 0), normalize_assign_value.
   Result: unconditional C02_phase_shift / C02_phase_normalize for res and a in the same radix 2^b, 1 <= b <= 62,
   every stored word below 2^62 in magnitude.  What stays behind the hypothesis: glwe_normalize between DIFFERENT radices
   (the cross-radix value theorems of Proofs/C08CrossTheorem.v and C08CrossNegTheorem.v are not used here). *)
From PV Require Import Proofs.C08Chain Proofs.C08Value Proofs.C08Normalize Proofs.C08ShiftValue.
From PV Require Import Proofs.C02Poly Proofs.C02Exact Proofs.C02Canon Proofs.C02Phase Proofs.C02Value Proofs.C02Main.
From PV Require Import Base.MachineInt Model.Znx Model.Limbs Model.Flat Model.Ring Model.DftAbs Model.C08Oracle Model.C02Ops.
Open Scope Z_scope.

Lemma sumn_zsum n f : C08Chain.sumn n f = zsum f n.
Proof. induction n as [|n IH]; cbn [C08Chain.sumn zsum]; [reflexivity|]. rewrite IH. reflexivity. Qed.

Lemma val_scaled_val_of P b l : val_scaled P b l = val_of P b l.
Proof.
  rewrite val_scaled_sumn, sumn_zsum, val_of_sum. apply zsum_ext. intros i _. reflexivity.
Qed.

(* a torus distance of at most U, and of 0 in the exact case, as an error term e and a multiple of 2^P *)
Lemma tor_split P x U (ex : bool) : 1 <= P -> tor_abs P x <= U -> (ex = true -> tor_abs P x = 0) ->
  exists e m, x = e + m * 2 ^ P /\ Z.abs e <= (if ex then 0 else U).
Proof.
  intros HP H H0. unfold tor_abs in *. destruct (wrap_exists P x HP) as [q Hq].
  exists (wrap P x), q. split; [lia|]. destruct ex; [rewrite H0 by reflexivity; lia | exact H].
Qed.

Definition sn_guard (opc : Z) (rsz asz : nat) (a r0 : list Z) : Prop :=
  hr62 a /\ hr62 r0 /\ length r0 = rsz /\ length a = asz /\ (sn_inplace opc = true -> a = r0).

(* nothing is truncated: every bit of the shifted operand fits in the result *)
Definition sn_exactb (opc b k : Z) (rsz asz : nat) : bool :=
  match opc with
  | 13 => k =? 0
  | 15 | 16 | 17 => Z.of_nat asz * b - k <=? Z.of_nat rsz * b
  | 18 => Z.of_nat asz * b <=? Z.of_nat rsz * b
  | _ => true
  end.
Definition sn_u (opc b k : Z) (rsz asz : nat) (P : Z) : Z :=
  if sn_exactb opc b k rsz asz then 0 else 2 ^ (P - Z.of_nat rsz * b).

Lemma sn_u_nonneg opc b k rsz asz P : 0 <= sn_u opc b k rsz asz P.
Proof. unfold sn_u. destruct (sn_exactb _ _ _ _ _); [lia|]. apply Z.pow_nonneg. lia. Qed.

Theorem sn_column_value opc b k (rsz asz : nat) P :
  13 <= opc <= 19 -> 1 <= b <= 62 -> 0 <= k -> 1 <= P ->
  2 * Z.of_nat rsz * b + Z.of_nat asz * b + k <= P ->
  column_value_stmt b b (sn_off opc k) (sn_keep opc) (sn_sgn opc) P (sn_u opc b k rsz asz P)
                    (sn_kernel opc b b k) (sn_guard opc rsz asz).
Proof.
  intros Ho Hb Hk HP HPm a r0 out Hf (Ha & Hr & Lr & La & Hip).
  assert (Hnn : 0 <= Z.of_nat asz * b) by nia. assert (Hnr : 0 <= Z.of_nat rsz * b) by nia.
  assert (Hcases : opc = 13 \/ opc = 14 \/ opc = 15 \/ opc = 16 \/ opc = 17 \/ opc = 18 \/ opc = 19) by lia.
  unfold sn_u.
  destruct Hcases as [-> | [-> | [-> | [-> | [-> | [-> | ->]]]]]];
    cbn [sn_kernel sn_off sn_keep sn_sgn sn_exactb sn_inplace Z.eqb Pos.eqb orb] in *; unfold W64 in Hf.
  - (* rsh_assign *) injection Hf as <-. specialize (Hip eq_refl). subst a.
    destruct (rsh_assign_value b Hb k r0 Hk Hr) as (Hl & _ & HV). split; [exact Hl|].
    destruct (HV P ltac:(unfold zn; rewrite Lr; lia)) as (HD & H0).
    destruct (tor_split P _ _ (k =? 0) HP HD ltac:(intros E; apply H0; lia)) as (e & m & He & Hbnd).
    unfold zn in Hbnd. rewrite Lr in Hbnd.
    exists e, m. split; [|exact Hbnd]. rewrite !val_scaled_val_of in He. rewrite Z.add_opp_r. lia.
  - (* lsh_assign *) injection Hf as <-. specialize (Hip eq_refl). subst a.
    destruct (lsh_assign_value b Hb k r0 Hk Hr) as (Hl & _ & HV). split; [exact Hl|].
    pose proof (HV P ltac:(unfold zn; rewrite Lr; lia)) as HD.
    destruct (tor_split P _ 0 true HP (Z.eq_le_incl _ _ HD) (fun _ => HD)) as (e & m & He & Hbnd).
    exists e, m. split; [|exact Hbnd]. rewrite !val_scaled_val_of in He. lia.
  - (* lsh, overwrite *) injection Hf as <-.
    destruct (lsh_value b Hb true k a r0 Hk Ha ltac:(discriminate)) as (Hl & _ & HV). split; [exact Hl|].
    destruct (HV P ltac:(unfold zn; rewrite Lr, La; lia)) as (HD & H0). unfold zn in *. rewrite Lr, La in *.
    destruct (tor_split P _ _ (Z.of_nat asz * b - k <=? Z.of_nat rsz * b) HP HD ltac:(intros E; apply H0; lia))
      as (e & m & He & Hbnd).
    exists e, m. split; [|exact Hbnd]. rewrite !val_scaled_val_of in He. lia.
  - (* lsh, add *) injection Hf as <-.
    destruct (lsh_value b Hb false k a r0 Hk Ha ltac:(intros _; exact Hr)) as (Hl & _ & HV). split; [exact Hl|].
    destruct (HV P ltac:(unfold zn; rewrite Lr, La; lia)) as (HD & H0). unfold zn in *. rewrite Lr, La in *.
    destruct (tor_split P _ _ (Z.of_nat asz * b - k <=? Z.of_nat rsz * b) HP HD ltac:(intros E; apply H0; lia))
      as (e & m & He & Hbnd).
    exists e, m. split; [|exact Hbnd]. rewrite !val_scaled_val_of in He. lia.
  - (* lsh_sub *) injection Hf as <-.
    destruct (lsh_sub_value b Hb k a r0 Hk Ha Hr) as (Hl & HV). split; [exact Hl|].
    destruct (HV P ltac:(unfold zn; rewrite Lr, La; lia)) as (HD & H0). unfold zn in *. rewrite Lr, La in *.
    destruct (tor_split P _ _ (Z.of_nat asz * b - k <=? Z.of_nat rsz * b) HP HD ltac:(intros E; apply H0; lia))
      as (e & m & He & Hbnd).
    exists e, m. split; [|exact Hbnd]. rewrite !val_scaled_val_of in He. lia.
  - (* normalize, same radix, offset 0 *) unfold normalize in Hf. rewrite Z.eqb_refl in Hf. injection Hf as <-.
    destruct (normalize_inter_value b Hb 0 a r0 Ha) as (Hl & _ & _ & HV). split; [exact Hl|].
    destruct (HV P ltac:(unfold zn; rewrite Lr, La; lia)) as (HD & H0). unfold zn in *. rewrite Lr, La in *.
    destruct (tor_split P _ _ (Z.of_nat asz * b <=? Z.of_nat rsz * b) HP HD ltac:(intros E; apply H0; lia))
      as (e & m & He & Hbnd).
    exists e, m. split; [|exact Hbnd]. rewrite !val_scaled_val_of in He. lia.
  - (* normalize_assign *) injection Hf as <-. specialize (Hip eq_refl). subst a.
    destruct (normalize_assign_value b Hb r0 Hr) as (Hl & _ & HV). split; [exact Hl|].
    pose proof (HV P ltac:(unfold zn; rewrite Lr; lia)) as HD.
    destruct (tor_split P _ 0 true HP (Z.eq_le_incl _ _ HD) (fun _ => HD)) as (e & m & He & Hbnd).
    exists e, m. split; [|exact Hbnd]. rewrite !val_scaled_val_of in He. rewrite Z.add_0_r. lia.
Qed.

Lemma hr62_coeff_limbs g i t : gsmall g -> hr62 (coeff_limbs (gcol g i) t).
Proof.
  intros Hs. unfold hr62, coeff_limbs. rewrite Forall_forall. intros x Hx. apply in_map_iff in Hx.
  destruct Hx as (l & <- & Hl).
  assert (Sl : small l).
  { unfold gsmall in Hs. unfold gcol in Hl.
    destruct (Nat.lt_ge_cases i (length (g_cols g))) as [Hi|Hi].
    - rewrite Forall_forall in Hs. specialize (Hs _ (nth_In _ [] Hi)). rewrite Forall_forall in Hs. apply Hs. exact Hl.
    - rewrite (nth_overflow _ _ Hi) in Hl. destruct Hl. }
  pose proof (small_nth l t Sl). lia.
Qed.

Lemma sn_kernel_ab opc rb ab ab' k : opc <> 18 -> sn_kernel opc rb ab k = sn_kernel opc rb ab' k.
Proof.
  intros H. unfold sn_kernel. destruct opc as [|p|p]; try reflexivity.
  repeat (match goal with q : positive |- _ => destruct q end; try reflexivity). contradiction H. reflexivity.
Qed.

Theorem phase_shift_normalize_same_radix n s opc scr k res a b r P :
  13 <= opc <= 19 -> 1 <= g_b res <= 62 -> 0 <= k ->
  (sn_inplace opc = false -> g_b a = g_b res) ->
  secret_ok n s -> wf_glwe n res -> wf_glwe n a -> gsmall res -> gsmall (sn_src opc res a) ->
  1 <= P -> 2 * Z.of_nat (g_size res) * g_b res + Z.of_nat (g_size (sn_src opc res a)) * g_b res + k <= P ->
  exec_op opc n scr k res a b = Some r ->
  wf_glwe n r /\
  forall t, exists E M,
    nthZ (valp P (g_b res) n (phase n s r)) t =
      sn_keep opc * nthZ (valp P (g_b res) n (phase n s res)) t +
      sn_sgn opc * nthZ (valp (P + sn_off opc k) (g_b res) n (phase n s (sn_src opc res a))) t +
      E + M * 2 ^ P /\
    Z.abs E <= err_bound (sn_u opc (g_b res) k (g_size res) (g_size (sn_src opc res a)) P) s (g_ncols (sn_src opc res a)).
Proof.
  intros Ho Hb Hk Hba Hs Hres Ha Sres Ssrc HP HPm He.
  assert (Wsrc : wf_glwe n (sn_src opc res a)) by (unfold sn_src; destruct (sn_inplace opc); assumption).
  assert (Bsrc : g_b (sn_src opc res a) = g_b res).
  { unfold sn_src. destruct (sn_inplace opc) eqn:Ei; [reflexivity | apply Hba; reflexivity]. }
  assert (Hker : sn_kernel opc (g_b res) (g_b a) k = sn_kernel opc (g_b res) (g_b res) k).
  { destruct (Z.eq_dec opc 18) as [->|Hne]; [|apply sn_kernel_ab; exact Hne].
    rewrite (Hba eq_refl). reflexivity. }
  destruct (exec_op_colloop n opc scr k res a b r Ho Hres Ha He) as (_ & Hc & _).
  pose proof (exec_op_phase_value_limbs n s opc scr k res a b r P
                (sn_u opc (g_b res) k (g_size res) (g_size (sn_src opc res a)) P)
                (sn_guard opc (g_size res) (g_size (sn_src opc res a))) Ho (sn_u_nonneg _ _ _ _ _ _)) as HT.
  rewrite Bsrc, Hker in HT.
  apply HT; try assumption.
  - apply sn_column_value; assumption.
  - intros i t Hi Ht. unfold sn_guard. repeat split.
    + apply hr62_coeff_limbs. exact Ssrc.
    + apply hr62_coeff_limbs. exact Sres.
    + unfold coeff_limbs. rewrite map_length. apply (gcol_length n res i Hres). lia.
    + unfold coeff_limbs. rewrite map_length. apply (gcol_length n _ i Wsrc). exact Hi.
    + intros Ei. unfold sn_src. rewrite Ei. reflexivity.
Qed.

(* the shift calls assert equal radices themselves *)
Lemma shift_same_radix n opc scr k res a b r : 15 <= opc <= 17 -> exec_op opc n scr k res a b = Some r -> g_b a = g_b res.
Proof.
  intros Ho He. assert (Hc : opc = 15 \/ opc = 16 \/ opc = 17) by lia.
  destruct Hc as [-> | [-> | ->]]; cbn [exec_op] in He;
    unfold glwe_lsh, glwe_lsh_add, glwe_lsh_sub, glwe_lsh_gen in He;
    destruct (_ && _)%bool eqn:E; try discriminate; split_andb E; apply Z.eqb_eq in E1; lia.
Qed.

(* C02: the named phase theorems, the in-place = out-of-place theorem, the sufficient no-wrap condition, the operands of
   the rank-0 instance of glwe_sub_negate_assign, and the GGSW operations entry by entry. *)
From PV Require Import Proofs.C11Frame Proofs.C02Poly Proofs.C02Exact Proofs.C02Canon Proofs.C02Phase Proofs.C02Value.
From PV Require Import Base.MachineInt Model.Znx Model.Limbs Model.Flat Model.Ring Model.DftAbs Model.C02Ops.
Open Scope Z_scope.

(* each named theorem is `exec_op_phase` at one opcode: `step_exact` and `exec_op` compute to its hypotheses *)
Section Named.
Variables (n : nat) (s : list (list Z)).
Hypothesis Hs : secret_ok n s.

Theorem phase_add res a b r : wf_glwe n res -> wf_glwe n a -> wf_glwe n b ->
  (forall i j, vadd W64 (gl n a i j) (gl n b i j) = padd (gl n a i j) (gl n b i j)) ->
  glwe_add_into n res a b = Some r ->
  phase n s r = pt_map2 Fadd n (g_size res) (phase n s a) (phase n s b).
Proof. intros Hr Ha Hb Hw He. exact (proj2 (exec_op_phase n s Hs 1 0 0 res a b r _ _ _ eq_refl Hr Ha Hb Hw He)). Qed.

Theorem phase_sub res a b r : wf_glwe n res -> wf_glwe n a -> wf_glwe n b ->
  (forall i j, vsub W64 (gl n a i j) (gl n b i j) = psub (gl n a i j) (gl n b i j)) ->
  glwe_sub n res a b = Some r ->
  phase n s r = pt_map2 Fsub n (g_size res) (phase n s a) (phase n s b).
Proof. intros Hr Ha Hb Hw He. exact (proj2 (exec_op_phase n s Hs 3 0 0 res a b r _ _ _ eq_refl Hr Ha Hb Hw He)). Qed.

Theorem phase_negate res a r : wf_glwe n res -> wf_glwe n a ->
  (forall i j, vneg W64 (gl n a i j) = pneg (gl n a i j)) ->
  glwe_negate n res a = Some r ->
  phase n s r = pt_map2 Fneg n (g_size res) (phase n s a) (phase n s a).
Proof. intros Hr Ha Hw He. exact (proj2 (exec_op_phase n s Hs 6 0 0 res a a r _ _ _ eq_refl Hr Ha Ha Hw He)). Qed.

Theorem phase_copy res a r : wf_glwe n res -> wf_glwe n a ->
  glwe_copy n res a = Some r ->
  phase n s r = pt_map2 Fid n (g_size res) (phase n s a) (phase n s a).
Proof. intros Hr Ha He. exact (proj2 (exec_op_phase n s Hs 8 0 0 res a a r _ _ _ eq_refl Hr Ha Ha (fun _ _ => eq_refl) He)). Qed.

(* every k in Z *)
Theorem phase_rotate k res a r : wf_glwe n res -> wf_glwe n a ->
  (forall i j, znx_rotate W64 k (gl n a i j) = xmono k (gl n a i j)) ->
  glwe_rotate n k res a = Some r ->
  phase n s r = pt_map2 (Frot k) n (g_size res) (phase n s a) (phase n s a).
Proof. intros Hr Ha Hw He. exact (proj2 (exec_op_phase n s Hs 9 0 k res a a r _ _ _ eq_refl Hr Ha Ha Hw He)). Qed.

Theorem phase_mul_xp_minus_one k res a r : wf_glwe n res -> wf_glwe n a ->
  (forall i j, vsub W64 (znx_rotate W64 k (gl n a i j)) (gl n a i j) = xmono_m1 k (gl n a i j)) ->
  glwe_mul_xp_minus_one n k res a = Some r ->
  phase n s r = pt_map2 (Fmx1 k) n (g_size res) (phase n s a) (phase n s a).
Proof. intros Hr Ha Hw He. exact (proj2 (exec_op_phase n s Hs 11 0 k res a a r _ _ _ eq_refl Hr Ha Ha Hw He)). Qed.

Lemma pt_map2_same_size F g : pt_map2 F n (g_size g) (phase n s g) (phase n s g) = map (fun l => F l l) (phase n s g).
Proof.
  unfold pt_map2. rewrite (map_as_build (fun l => F l l)). rewrite phase_length. apply build_ext. intros j Hj.
  rewrite cl_in by (rewrite phase_length; exact Hj). reflexivity.
Qed.

End Named.

(* the out-of-place call that an in-place opcode stands for *)
Definition as_out_of_place (opc : Z) (n : nat) (k : Z) (res a : glwe) : option glwe :=
  match opc with
  | 2 => glwe_add_into n res res a
  | 4 => glwe_sub n res res a
  | 5 => glwe_sub n res a res
  | 7 => glwe_negate n res res
  | 10 => glwe_rotate n k res res
  | 12 => glwe_mul_xp_minus_one n k res res
  | _ => None
  end.

(* both calls return the canonical map of the same F on the same operands *)
Theorem assign_eq n opc scr k res a b r1 r2 :
  wf_glwe n res -> wf_glwe n a -> wf_glwe n b ->
  step_exact n opc k res a b ->
  exec_op opc n scr k res a b = Some r1 ->
  as_out_of_place opc n k res a = Some r2 ->
  r1 = r2.
Proof.
  intros Hres Ha Hb Hw H1 H2. unfold step_exact in Hw.
  destruct (exact_F opc k) as [[[F ix] iy]|] eqn:HF; [|contradiction].
  revert opc F ix iy HF Hw H1 H2. refine (exact_F_ind k _ _ _ _ _ _ _ _ _ _ _ _ _); try discriminate; cbn [Fw pick3]; intros Hw H1 H2.
  - destruct (exec_op_canon n 2 scr k res a b r1 _ _ _ eq_refl Hres Ha Hb Hw H1) as (-> & _).
    destruct (exec_op_canon n 1 scr k res res a r2 _ _ _ eq_refl Hres Hres Ha Hw H2) as (-> & _). reflexivity.
  - destruct (exec_op_canon n 4 scr k res a b r1 _ _ _ eq_refl Hres Ha Hb Hw H1) as (-> & _).
    destruct (exec_op_canon n 3 scr k res res a r2 _ _ _ eq_refl Hres Hres Ha Hw H2) as (-> & _). reflexivity.
  - destruct (exec_op_canon n 5 scr k res a b r1 _ _ _ eq_refl Hres Ha Hb Hw H1) as (-> & _).
    destruct (exec_op_canon n 3 scr k res a res r2 _ _ _ eq_refl Hres Ha Hres Hw H2) as (-> & _). reflexivity.
  - destruct (exec_op_canon n 7 scr k res a b r1 _ _ _ eq_refl Hres Ha Hb Hw H1) as (-> & _).
    destruct (exec_op_canon n 6 scr k res res res r2 _ _ _ eq_refl Hres Hres Hres Hw H2) as (-> & _). reflexivity.
  - destruct (exec_op_canon n 10 scr k res a b r1 _ _ _ eq_refl Hres Ha Hb Hw H1) as (-> & _).
    destruct (exec_op_canon n 9 scr k res res res r2 _ _ _ eq_refl Hres Hres Hres Hw H2) as (-> & _). reflexivity.
  - destruct (exec_op_canon n 12 scr k res a b r1 _ _ _ eq_refl Hres Ha Hb Hw H1) as (-> & _).
    destruct (exec_op_canon n 11 scr k res res res r2 _ _ _ eq_refl Hres Hres Hres Hw H2) as (-> & _). reflexivity.
Qed.

(* every stored word has magnitude below 2^62 (library digits are below 2^(base2k-1), base2k <= 62) *)
Definition gsmall (g : glwe) : Prop := Forall (Forall small) (g_cols g).

Lemma gsmall_gl n g i j : gsmall g -> small (gl n g i j).
Proof.
  intros H. unfold gl. destruct (_ && _)%bool; [|apply small_pzero].
  unfold gcol. unfold gsmall in H.
  destruct (Nat.lt_ge_cases i (length (g_cols g))) as [Hi|Hi].
  - rewrite Forall_forall in H. specialize (H _ (nth_In _ [] Hi)).
    destruct (Nat.lt_ge_cases j (length (nth i (g_cols g) []))) as [Hj|Hj].
    + rewrite Forall_forall in H. apply H. apply nth_In. exact Hj.
    + rewrite (nth_overflow _ _ Hj). constructor.
  - rewrite (nth_overflow _ _ Hi). destruct j; constructor.
Qed.

(* res of rank 1, a of rank 0 (a plaintext), n = 1, one limb:  res = (5, 7), a = (1), s = (1).
   Before repair efc2285 the mask 7 kept its sign (phase 3); now phase = (1 - 5) - 7 = -11 = a - phase(res). *)
Definition cx_res : glwe := {| g_b := 10; g_n := 1; g_size := 1; g_cols := [[[5]]; [[7]]] |}.
Definition cx_a : glwe := {| g_b := 10; g_n := 1; g_size := 1; g_cols := [[[1]]] |}.

Lemma ggsw_map_opt_entry res f r : ggsw_map_opt res f = Some r ->
  gs_rank r = gs_rank res /\ gs_dnum r = gs_dnum res /\
  forall row col, (row < gs_dnum res)%nat -> (col <= gs_rank res)%nat -> f row col (gs_at res row col) = Some (gs_at r row col).
Proof.
  unfold ggsw_map_opt. destruct (sequence _) as [rows|] eqn:E; [|discriminate]. intros [= <-]. cbn [gs_rank].
  destruct (sequence_some _ _ E) as [Hl Hn]. rewrite map_seq_length in Hl.
  split; [reflexivity|]. split; [exact Hl|]. intros row col Hrow Hcol.
  specialize (Hn row None [] ltac:(rewrite map_seq_length; exact Hrow)).
  rewrite nth_map_seq in Hn by exact Hrow.
  destruct (sequence_some _ _ Hn) as [Hl2 Hn2]. rewrite map_seq_length in Hl2.
  specialize (Hn2 col None (zero_glwe 0 0 0 0) ltac:(rewrite map_seq_length; lia)).
  rewrite nth_map_seq in Hn2 by lia. exact Hn2.
Qed.

Theorem ggsw_rotate_entrywise n k res a r : ggsw_rotate n k res a = Some r ->
  gs_rank r = gs_rank res /\ gs_dnum r = gs_dnum res /\
  forall row col, (row < gs_dnum res)%nat -> (col <= gs_rank res)%nat ->
    glwe_rotate n k (gs_at res row col) (gs_at a row col) = Some (gs_at r row col).
Proof. unfold ggsw_rotate. destruct (_ && _)%bool; [|discriminate]. apply ggsw_map_opt_entry. Qed.

Theorem ggsw_rotate_assign_entrywise n scr k res r : ggsw_rotate_assign n scr k res = Some r ->
  gs_rank r = gs_rank res /\ gs_dnum r = gs_dnum res /\
  forall row col, (row < gs_dnum res)%nat -> (col <= gs_rank res)%nat ->
    glwe_rotate_assign n scr k (gs_at res row col) = Some (gs_at r row col).
Proof. unfold ggsw_rotate_assign. destruct (_ <=? _); [|discriminate]. apply ggsw_map_opt_entry. Qed.

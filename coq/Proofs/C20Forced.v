(* C20 — the schedules the harness forces through the yield hook (Model.C20Threads.forced_sched: any policy number,
   any random stream) are complete executions of the small-step system: every decision picks a worker that still has
   an item, and after `total w` decisions nothing is pending.  Hence every forced record is an instance of the
   schedules quantified over by C20_any_schedule_eq_sequential / C20_each_item_once / C20_tail_zeroed. *)
From PV Require Import Base.MachineInt Model.C20Threads Proofs.C20Partition Proofs.C20Sched.
From Coq Require Import Arith PeanoNat Permutation.
Local Open Scope nat_scope.

Lemma hd_In (l : list nat) : l <> [] -> In (hd 0 l) l.
Proof. destruct l; [congruence|]. intros _. left. reflexivity. Qed.

Lemma last_In (l : list nat) : l <> [] -> In (last l 0) l.
Proof.
  induction l as [|a l IH]; [congruence|]. intros _.
  destruct l as [|b l]; [left; reflexivity|]. right. apply IH. discriminate.
Qed.

Lemma rnd_In (l : list nat) (q : Z) : l <> [] -> In (nth (Z.to_nat (q mod Z.of_nat (length l))) l (hd 0 l)) l.
Proof.
  intros Hl. apply nth_In.
  assert (0 < length l) by (destruct l; [congruence|cbn [length]; lia]).
  pose proof (Z.mod_pos_bound q (Z.of_nat (length l)) ltac:(lia)). lia.
Qed.

Lemma find_In (P : nat -> bool) (l : list nat) t : find P l = Some t -> In t l.
Proof. intros H. apply find_some in H. tauto. Qed.

Lemma existsb_eqb_In (x : nat) (l : list nat) : existsb (Nat.eqb x) l = true -> In x l.
Proof. intros H. apply existsb_exists in H. destruct H as (y & Hy & He). apply Nat.eqb_eq in He. subst. exact Hy. Qed.

Lemma pick_in_live (policy : Z) (n : nat) (live : list nat) (last : option nat) (k : nat) (r : Z) :
  live <> [] -> In (pick policy n live last k r) live.
Proof.
  intros Hl. pose proof (hd_In _ Hl) as Hh. pose proof (last_In _ Hl) as Hla.
  pose proof (fun q => rnd_In live q Hl) as Hr.
  unfold pick.
  repeat match goal with
         | |- In (match ?x with _ => _ end) _ => destruct x eqn:?
         | |- In (if ?b then _ else _) _ => destruct b eqn:?
         end;
    try exact Hh; try exact Hla; try apply Hr;
    try (eapply find_In; eassumption);
    try (apply in_rev; eapply find_In; eassumption);
    try (apply existsb_eqb_In; assumption);
    try (apply andb_prop in Heqb; destruct Heqb as [He _]; apply existsb_eqb_In; exact He).
Qed.

Lemma live_threads_In (rem : list nat) t : In t (live_threads rem) <-> t < length rem /\ 0 < nth t rem 0.
Proof.
  unfold live_threads. rewrite filter_In, in_seq, Nat.ltb_lt. lia.
Qed.

Lemma live_threads_nil (rem : list nat) : live_threads rem = [] -> forall t, nth t rem 0 = 0.
Proof.
  intros H t. destruct (Nat.lt_ge_cases t (length rem)) as [Hlt|Hge].
  - destruct (nth t rem 0) eqn:E; [reflexivity|].
    assert (In t (live_threads rem)) by (apply live_threads_In; lia). rewrite H in *. contradiction.
  - apply nth_overflow. exact Hge.
Qed.

Lemma dec_nth_map_length {X : Type} (p : list (list X)) : forall t x r,
  nth_error p t = Some (x :: r) -> map (@length X) (set_nth t r p) = dec_nth t (map (@length X) p).
Proof.
  unfold dec_nth. induction p as [|l p IH]; intros t x r H; [destruct t; discriminate|].
  destruct t as [|t]; cbn [nth_error] in H.
  - inversion H; subst. reflexivity.
  - cbn [set_nth map nth]. f_equal. apply IH with x. exact H.
Qed.

Section Forced.
Variables V Sc : Type.
Variable g : nat -> Sc -> V * Sc.
Notation state := (state V Sc).
Notation step := (step V Sc g).
Notation exec := (exec V Sc g).
Notation finished := (finished V Sc).

Lemma lens_zero_finished (p : list (list item)) :
  (forall t, nth t (map (@length item) p) 0 = 0) -> forallb (fun l => match l with [] => true | _ => false end) p = true.
Proof.
  induction p as [|l p IH]; intros H; [reflexivity|]. cbn [forallb].
  pose proof (H 0) as H0. cbn [map nth] in H0. destruct l; [|discriminate]. cbn [andb].
  apply IH. intros t. exact (H (S t)).
Qed.

Lemma live_step (p : list (list item)) t :
  In t (live_threads (map (@length item) p)) -> exists x r, nth_error p t = Some (x :: r).
Proof.
  intros H. apply live_threads_In in H. destruct H as [Hlt Hpos]. rewrite map_length in Hlt.
  destruct (nth_error p t) as [l|] eqn:E; [|apply nth_error_None in E; lia].
  pose proof (nth_error_nth _ _ 0 (map_nth_error (@length item) _ _ E)) as Hn. rewrite Hn in Hpos.
  destruct l as [|x r]; [cbn [length] in Hpos; lia|]. exists x, r. reflexivity.
Qed.

Lemma policy_sched_complete (policy : Z) (n : nat) (fuel : nat) : forall (st : state) last k rs,
  total (pend V Sc st) <= fuel ->
  exists st', exec (policy_sched fuel policy n (map (@length item) (pend V Sc st)) last k rs) st = Some st'
              /\ finished st' = true.
Proof.
  induction fuel as [|fuel IH]; intros st last k rs Ht.
  - exists st. split; [reflexivity|]. unfold C20Threads.finished.
    apply lens_zero_finished. intros t.
    unfold total in Ht. assert (Hc : concat (pend V Sc st) = []) by (destruct (concat (pend V Sc st)); [reflexivity|cbn [length] in Ht; lia]).
    destruct (Nat.lt_ge_cases t (length (map (@length item) (pend V Sc st)))) as [Hlt|Hge]; [|apply nth_overflow; exact Hge].
    rewrite map_length in Hlt.
    destruct (nth_error (pend V Sc st) t) as [l|] eqn:E; [|apply nth_error_None in E; lia].
    rewrite (nth_error_nth _ _ 0 (map_nth_error (@length item) _ _ E)).
    destruct l as [|x r]; [reflexivity|].
    pose proof (Permutation_length (set_nth_perm _ _ _ _ E)) as Hl. rewrite Hc in Hl. discriminate.
  - cbn [policy_sched].
    destruct (live_threads (map (@length item) (pend V Sc st))) as [|a live] eqn:El.
    + exists st. split; [reflexivity|]. apply lens_zero_finished. apply live_threads_nil. exact El.
    + set (t := pick policy n (a :: live) last k (hd 0%Z rs)).
      assert (Hin : In t (live_threads (map (@length item) (pend V Sc st)))).
      { rewrite El. apply pick_in_live. discriminate. }
      destruct (live_step _ _ Hin) as (x & r & En).
      destruct (step_live V Sc g st t x r En) as (st1 & Hs & Hp & Hl).
      destruct (IH st1 (Some t) (S k) (tl rs) ltac:(lia)) as (st' & He & Hf).
      exists st'. split; [|exact Hf]. cbn [C20Threads.exec]. rewrite Hs.
      rewrite <- (dec_nth_map_length _ _ _ _ En), <- Hp. exact He.
Qed.

Lemma forced_sched_complete (policy : Z) (rs : list Z) (w : list (list item)) (init : nat -> V) (scr0 : nat -> Sc) :
  exists st, run_mt V Sc g (Some w) init scr0 (forced_sched policy rs w) = Some st.
Proof.
  destruct (policy_sched_complete policy (length w) (total w) (init_state V Sc w init scr0) None 0 rs (le_n _))
    as (st' & He & Hf).
  exists st'. unfold run_mt, forced_sched. cbn [pend init_state] in He. rewrite He, Hf. reflexivity.
Qed.

End Forced.

Section ForcedEntry.
Variables V Sc : Type.
Variable g : nat -> Sc -> V * Sc.
Variable f : nat -> V.
Hypothesis Hg : forall i s, fst (g i s) = f i.
Variable zero : V.

Lemma eval_forced (policy : Z) (rs : list Z) (threads out_len output_size : nat) (init : nat -> V) (scr0 : nat -> Sc) :
  1 <= threads -> 1 <= output_size <= out_len ->
  exists w st o,
    eval_work threads output_size = Some w /\
    run_mt V Sc g (Some w) init scr0 (forced_sched policy rs w) = Some st /\
    eval_mt V Sc g zero threads out_len output_size init scr0 (forced_sched policy rs w) = Some o /\
    forall j, o j = if j <? output_size then f j else if j <? out_len then zero else init j.
Proof.
  intros Ht Ho. pose proof (eval_work_closed threads output_size Ht ltac:(lia)) as Ew.
  set (w := map (map dup) _) in Ew.
  destruct (forced_sched_complete V Sc g policy rs w init scr0) as (st & Hr).
  assert (He : eval_mt V Sc g zero threads out_len output_size init scr0 (forced_sched policy rs w)
               = Some (zero_range V zero output_size (out_len - output_size) (outs V Sc st))).
  { unfold eval_mt. rewrite Ew, Hr. destruct (Nat.ltb_spec out_len output_size); [lia | reflexivity]. }
  exists w, st. eexists. split; [exact Ew|]. split; [exact Hr|]. split; [exact He|].
  apply (eval_mt_closed V Sc g f Hg zero _ _ _ _ _ _ _ He).
Qed.

Lemma prepare_forced (policy : Z) (rs : list Z) (threads bits start count : nat) (init : nat -> V) (scr0 : nat -> Sc) :
  1 <= threads -> 1 <= count -> start + count <= bits ->
  exists w st o,
    prepare_work threads bits start count = Some w /\
    run_mt V Sc g (Some w) init scr0 (forced_sched policy rs w) = Some st /\
    prepare_mt V Sc g zero threads bits start count init scr0 (forced_sched policy rs w) = Some o /\
    forall j, o j = if (start <=? j) && (j <? start + count) then f j else if j <? bits then zero else init j.
Proof.
  intros Ht Hc Hb. pose proof (prepare_work_closed threads bits start count Ht Hc Hb) as Ew.
  set (w := map (map dup) _) in Ew.
  destruct (forced_sched_complete V Sc g policy rs w init scr0) as (st & Hr).
  assert (He : exists o, prepare_mt V Sc g zero threads bits start count init scr0 (forced_sched policy rs w) = Some o).
  { unfold prepare_mt. rewrite Ew, Hr. eexists. reflexivity. }
  destruct He as (o & He).
  exists w, st, o. split; [exact Ew|]. split; [exact Hr|]. split; [exact He|].
  apply (prepare_mt_closed V Sc g f Hg zero _ _ _ _ _ _ _ _ He).
Qed.

End ForcedEntry.

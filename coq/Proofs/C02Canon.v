(* C02: every exact GLWE operation of C02Ops.v, when it accepts its operands and no 64-bit wrap occurs, returns the
   canonical column-wise map `gmap2 F n res x y` of its operands (x, y as listed in C02Ops.exact_F). *)
From PV Require Import Proofs.C02Poly Proofs.C02Exact.
From PV Require Import Base.MachineInt Model.Znx Model.Limbs Model.Flat Model.Ring Model.DftAbs Model.C02Ops.
Open Scope Z_scope.

Lemma gmap2_cols F n res a b : wf_glwe n a -> wf_glwe n b ->
  gmap2 F n res a b =
  with_cols res (map (fun i => build (g_size res) (fun j => F (cl n (gcol a i) j) (cl n (gcol b i) j))) (seq 0 (g_ncols res))).
Proof.
  intros Ha Hb. unfold gmap2. f_equal. apply map_seq_ext. intros i _. apply build_ext. intros j _.
  rewrite !gl_cl by assumption. reflexivity.
Qed.

Lemma ncols_rank n g : wf_glwe n g -> g_ncols g = S (g_rank g).
Proof. intros (_ & H & _). unfold g_rank. lia. Qed.

Ltac split_andb E :=
  repeat match type of E with
         | (_ && _)%bool = true => let E1 := fresh "E" in apply andb_prop in E; destruct E as [E E1]
         end.

(* the word-level limb function each opcode applies *)
Definition Fw (opc k : Z) : option (list Z -> list Z -> list Z) :=
  match opc with
  | 1 | 2 => Some (vadd W64)
  | 3 | 4 | 5 => Some (vsub W64)
  | 6 | 7 => Some (fun x _ => vneg W64 x)
  | 8 => Some (fun x _ => x)
  | 9 | 10 => Some (fun x _ => znx_rotate W64 k x)
  | 11 | 12 => Some (fun x _ => vsub W64 (znx_rotate W64 k x) x)
  | _ => None
  end.

(* "this call is exact": no 64-bit wrap on any (zero-extended) limb pair the call combines *)
Definition step_exact (n : nat) (opc k : Z) (res a b : glwe) : Prop :=
  match exact_F opc k, Fw opc k with
  | Some (F, ix, iy), Some fw =>
      let x := pick3 ix res a b in let y := pick3 iy res a b in
      forall i j, fw (gl n x i j) (gl n y i j) = F (gl n x i j) (gl n y i j)
  | _, _ => False
  end.

(* case analysis over the twelve exact opcodes *)
Lemma exact_F_ind (k : Z) (P : Z -> (list Z -> list Z -> list Z) -> nat -> nat -> Prop) :
  P 1 Fadd 1%nat 2%nat -> P 2 Fadd 0%nat 1%nat -> P 3 Fsub 1%nat 2%nat -> P 4 Fsub 0%nat 1%nat -> P 5 Fsub 1%nat 0%nat ->
  P 6 Fneg 1%nat 1%nat -> P 7 Fneg 0%nat 0%nat -> P 8 Fid 1%nat 1%nat -> P 9 (Frot k) 1%nat 1%nat -> P 10 (Frot k) 0%nat 0%nat ->
  P 11 (Fmx1 k) 1%nat 1%nat -> P 12 (Fmx1 k) 0%nat 0%nat ->
  forall opc F ix iy, exact_F opc k = Some (F, ix, iy) -> P opc F ix iy.
Proof.
  intros P1 P2 P3 P4 P5 P6 P7 P8 P9 P10 P11 P12 opc F ix iy H. unfold exact_F in H.
  destruct opc as [|p|p]; try discriminate.
  repeat (match goal with q : positive |- _ => destruct q end; try discriminate); injection H as <- <- <-; assumption.
Qed.

Section Canon.
Variable n : nat.

Lemma cl_gcol_length g i : wf_glwe n g -> forall j, length (cl n (gcol g i) j) = n.
Proof. intros Hw j. rewrite <- gl_cl by exact Hw. apply gl_length. exact Hw. Qed.

Lemma rank_rule3_le res a b : wf_glwe n res -> wf_glwe n a -> wf_glwe n b -> rank_rule3 res a b = true ->
  (g_ncols a <= g_ncols res)%nat /\ (g_ncols b <= g_ncols res)%nat.
Proof.
  intros Hres Ha Hb H. pose proof (ncols_rank n res Hres). pose proof (ncols_rank n a Ha). pose proof (ncols_rank n b Hb).
  unfold rank_rule3 in H.
  destruct (Nat.eqb_spec (g_rank a) 0); [apply Nat.eqb_eq in H; lia|].
  destruct (Nat.eqb_spec (g_rank b) 0); [apply Nat.eqb_eq in H; lia|].
  apply andb_prop in H. destruct H as [X Y]. apply Nat.eqb_eq in X, Y. lia.
Qed.

Lemma rank_eq_or_0_le res a : wf_glwe n res -> wf_glwe n a -> rank_eq_or_0 res a = true -> (g_ncols a <= g_ncols res)%nat.
Proof.
  intros Hres Ha H. pose proof (ncols_rank n res Hres). pose proof (ncols_rank n a Ha).
  unfold rank_eq_or_0 in H. apply orb_prop in H. destruct H as [H|H]; apply Nat.eqb_eq in H; lia.
Qed.

(* a column loop over res is `gmap2 F` as soon as each column it writes is F, limb by limb, of the zero-extended
   columns of x and y; the no-wrap hypothesis is handed to the column in terms of `cl` *)
Lemma mapi_cols_gmap2 (fw F : list Z -> list Z -> list Z) res x y f :
  wf_glwe n res -> wf_glwe n x -> wf_glwe n y ->
  (forall i j, fw (gl n x i j) (gl n y i j) = F (gl n x i j) (gl n y i j)) ->
  (forall i, (i < g_ncols res)%nat ->
     (forall j, fw (cl n (gcol x i) j) (cl n (gcol y i) j) = F (cl n (gcol x i) j) (cl n (gcol y i) j)) ->
     f i (gcol res i) = build (length (gcol res i)) (fun j => F (cl n (gcol x i) j) (cl n (gcol y i) j))) ->
  mapi_cols res f = gmap2 F n res x y.
Proof.
  intros Hres Hx Hy Hw Hf. rewrite gmap2_cols by assumption. unfold mapi_cols. f_equal. apply map_seq_ext. intros i Hi.
  rewrite <- (gcol_length n res i Hres Hi). apply Hf; [exact Hi|]. intros j. rewrite <- !gl_cl by assumption. apply Hw.
Qed.

Theorem exec_op_canon opc scr k res a b r F ix iy :
  exact_F opc k = Some (F, ix, iy) ->
  wf_glwe n res -> wf_glwe n a -> wf_glwe n b ->
  step_exact n opc k res a b ->
  exec_op opc n scr k res a b = Some r ->
  r = gmap2 F n res (pick3 ix res a b) (pick3 iy res a b) /\
  (g_ncols (pick3 ix res a b) <= g_ncols res)%nat /\ (g_ncols (pick3 iy res a b) <= g_ncols res)%nat.
Proof.
  intros HF Hres Ha Hb. unfold step_exact. rewrite HF.
  pose proof (ncols_rank n res Hres) as Nr. pose proof (ncols_rank n a Ha) as Na. pose proof (ncols_rank n b Hb) as Nb.
  revert opc F ix iy HF. refine (exact_F_ind k _ _ _ _ _ _ _ _ _ _ _ _ _); cbn [Fw pick3 exec_op]; intros Hw.
  - (* add_into *)
    unfold glwe_add_into.
    destruct (_ && _)%bool eqn:E; [|discriminate]. intros [= <-]. split_andb E.
    split; [|apply rank_rule3_le; assumption].
    apply (mapi_cols_gmap2 (vadd W64)); try assumption. intros i Hi Hc. unfold Fadd.
    destruct (Nat.ltb_spec i (S (Nat.min (g_rank a) (g_rank b)))) as [H1|H1].
    { exact (col_add n _ _ _ (cl_gcol_length a i Ha) (cl_gcol_length b i Hb) Hc). }
    destruct (Nat.ltb_spec i (S (Nat.max (g_rank a) (g_rank b)))) as [H2|H2].
    + unfold vec_copy. destruct (Nat.ltb_spec (g_rank b) (g_rank a)) as [H3|H3];
        rewrite (col_unary n (fun l => l) (fun l => l)) by reflexivity; apply build_ext; intros j _.
      * rewrite (gcol_out b i) by lia. rewrite cl_nil. rewrite padd_pzero_r by (apply cl_gcol_length, Ha). reflexivity.
      * rewrite (gcol_out a i) by lia. rewrite cl_nil. rewrite padd_pzero_l by (apply cl_gcol_length, Hb). reflexivity.
    + rewrite col_zero. apply build_ext. intros j _.
      rewrite (gcol_out a i), (gcol_out b i) by lia. rewrite !cl_nil. rewrite padd_pzero_r by apply pzero_length. reflexivity.
  - (* add_assign *)
    unfold glwe_add_assign.
    destruct (_ && _)%bool eqn:E; [|discriminate]. intros [= <-]. split_andb E.
    apply Nat.leb_le in E0. split; [|lia].
    apply (mapi_cols_gmap2 (vadd W64)); try assumption. intros i Hi Hc. unfold Fadd.
    destruct (Nat.leb_spec i (g_rank a)) as [H1|H1].
    { exact (col_assign n (vadd W64) padd _ _ (padd_pzero_r n) (cl_gcol_length res i Hres) Hc). }
    rewrite (gcol_out a i) by lia. apply (nth_ext _ _ [] []); [rewrite build_length; reflexivity|].
    intros j Hj. rewrite build_nth by exact Hj. rewrite cl_nil.
    rewrite padd_pzero_r by (apply cl_gcol_length, Hres). rewrite cl_in by exact Hj. reflexivity.
  - (* sub *)
    unfold glwe_sub.
    destruct (_ && _)%bool eqn:E; [|discriminate]. intros [= <-]. split_andb E.
    split; [|apply rank_rule3_le; assumption].
    apply (mapi_cols_gmap2 (vsub W64)); try assumption. intros i Hi Hc. unfold Fsub.
    destruct (Nat.ltb_spec i (S (Nat.min (g_rank a) (g_rank b)))) as [H1|H1].
    { exact (col_sub n _ _ _ (cl_gcol_length a i Ha) (cl_gcol_length b i Hb) Hc). }
    destruct (Nat.ltb_spec i (S (Nat.max (g_rank a) (g_rank b)))) as [H2|H2].
    + destruct (Nat.ltb_spec (g_rank b) (g_rank a)) as [H3|H3].
      * unfold vec_copy. rewrite (col_unary n (fun l => l) (fun l => l)) by reflexivity. apply build_ext. intros j _.
        rewrite (gcol_out b i) by lia. rewrite cl_nil. rewrite psub_pzero_r by (apply cl_gcol_length, Ha). reflexivity.
      * rewrite (gcol_out a i) in * by lia. apply (col_neg_as_sub n); [exact Hc | apply cl_gcol_length, Hb].
    + rewrite col_zero. apply build_ext. intros j _.
      rewrite (gcol_out a i), (gcol_out b i) by lia. rewrite !cl_nil. rewrite psub_pzero_r by apply pzero_length. reflexivity.
  - (* sub_assign *)
    unfold glwe_sub_assign.
    destruct (_ && _)%bool eqn:E; [|discriminate]. intros [= <-]. split_andb E.
    pose proof (rank_eq_or_0_le res a Hres Ha E0). split; [|lia].
    apply (mapi_cols_gmap2 (vsub W64)); try assumption. intros i Hi Hc. unfold Fsub.
    destruct (Nat.leb_spec i (g_rank a)) as [H1|H1].
    { exact (col_assign n (vsub W64) psub _ _ (psub_pzero_r n) (cl_gcol_length res i Hres) Hc). }
    rewrite (gcol_out a i) by lia. apply (nth_ext _ _ [] []); [rewrite build_length; reflexivity|].
    intros j Hj. rewrite build_nth by exact Hj. rewrite cl_nil.
    rewrite psub_pzero_r by (apply cl_gcol_length, Hres). rewrite cl_in by exact Hj. reflexivity.
  - (* sub_negate_assign: the columns of res beyond a.rank are negated (a's missing columns read as 0) *)
    unfold glwe_sub_negate_assign.
    destruct (_ && _)%bool eqn:E; [|discriminate]. intros [= <-]. split_andb E.
    pose proof (rank_eq_or_0_le res a Hres Ha E0). split; [|lia].
    apply (mapi_cols_gmap2 (vsub W64)); try assumption. intros i Hi Hc. unfold Fsub.
    destruct (Nat.leb_spec i (g_rank a)) as [H1|H1].
    { exact (col_sub_negate_assign n _ _ (cl_gcol_length res i Hres) Hc). }
    rewrite (gcol_out a i) in * by lia. apply (col_neg_assign_as_sub n); [exact Hc | apply cl_gcol_length, Hres].
  - (* negate *)
    unfold glwe_negate.
    destruct (_ && _)%bool eqn:E; [|discriminate]. intros [= <-]. split_andb E.
    apply Nat.eqb_eq in E0. split; [|lia].
    apply (mapi_cols_gmap2 (fun x _ => vneg W64 x)); try assumption. intros i Hi Hc.
    exact (col_unary n (vneg W64) pneg _ _ (pneg_pzero n) Hc).
  - (* negate_assign *)
    unfold glwe_negate_assign.
    destruct (same_n n res); [|discriminate]. intros [= <-]. split; [|lia].
    apply (mapi_cols_gmap2 (fun x _ => vneg W64 x)); try assumption. intros i Hi Hc.
    exact (col_unary_assign n (vneg W64) pneg _ Hc).
  - (* copy *)
    unfold glwe_copy.
    destruct (_ && _)%bool eqn:E; [|discriminate]. intros [= <-]. split_andb E.
    pose proof (rank_eq_or_0_le res a Hres Ha E0). split; [|lia].
    apply (mapi_cols_gmap2 (fun x _ => x)); try assumption. intros i Hi _. unfold Fid.
    destruct (Nat.ltb_spec i (S (Nat.min (g_rank res) (g_rank a)))) as [H1|H1].
    + exact (col_unary n (fun l => l) (fun l => l) _ _ eq_refl (fun _ => eq_refl)).
    + rewrite col_zero. apply build_ext. intros j _. rewrite (gcol_out a i) by lia. rewrite cl_nil. reflexivity.
  - (* rotate *)
    unfold glwe_rotate.
    destruct (_ && _)%bool eqn:E; [|discriminate]. intros [= <-]. split_andb E.
    pose proof (rank_eq_or_0_le res a Hres Ha E0). split; [|lia].
    apply (mapi_cols_gmap2 (fun x _ => znx_rotate W64 k x)); try assumption. intros i Hi Hc. unfold Frot.
    destruct (Nat.ltb_spec i (g_ncols a)) as [H1|H1].
    + exact (col_unary n (znx_rotate W64 k) (xmono k) _ _ (xmono_pzero k n) Hc).
    + rewrite col_zero. apply build_ext. intros j _. rewrite (gcol_out a i) by lia. rewrite cl_nil, xmono_pzero. reflexivity.
  - (* rotate_assign *)
    unfold glwe_rotate_assign.
    destruct (_ <=? _); [|discriminate]. intros [= <-]. split; [|lia].
    apply (mapi_cols_gmap2 (fun x _ => znx_rotate W64 k x)); try assumption. intros i Hi Hc.
    exact (col_unary_assign n (znx_rotate W64 k) (xmono k) _ Hc).
  - (* mul_xp_minus_one *)
    unfold glwe_mul_xp_minus_one.
    destruct (_ && _)%bool eqn:E; [|discriminate]. intros [= <-]. split_andb E.
    apply Nat.eqb_eq in E0. split; [|lia].
    apply (mapi_cols_gmap2 (fun x _ => vsub W64 (znx_rotate W64 k x) x)); try assumption. intros i Hi Hc.
    exact (col_mul_xp n k _ _ Hc).
  - (* mul_xp_minus_one_assign *)
    unfold glwe_mul_xp_minus_one_assign.
    destruct (_ && _)%bool; [|discriminate]. intros [= <-]. split; [|lia].
    apply (mapi_cols_gmap2 (fun x _ => vsub W64 (znx_rotate W64 k x) x)); try assumption. intros i Hi Hc.
    exact (col_mul_xp_assign n k _ Hc).
Qed.

End Canon.

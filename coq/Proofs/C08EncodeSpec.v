(* C08 encoding: balanced radix-2^b expansions as lists (pure arithmetic, no machine words).
     ldigs b n N   the n balanced digits of N, least significant first
     lvalr b l     value of a least-significant-first digit list
     glo / ghi     the smallest / largest value n balanced digits can represent *)
From PV Require Import Base.MachineInt Model.Znx Model.Limbs Model.C08Encode Proofs.ZnxDigit Proofs.C08Steps.
Open Scope Z_scope.

Fixpoint ldigs (b : Z) (n : nat) (N : Z) : list Z :=
  match n with O => [] | S m => wrap b N :: ldigs b m (bdiv b N) end.

Fixpoint lvalr (b : Z) (l : list Z) : Z :=
  match l with [] => 0 | x :: t => x + 2 ^ b * lvalr b t end.

Fixpoint bdivn (b : Z) (n : nat) (N : Z) : Z :=
  match n with O => N | S m => bdivn b m (bdiv b N) end.

(* 1 + 2^b + ... + 2^((n-1) b) *)
Fixpoint geom (b : Z) (n : nat) : Z := match n with O => 0 | S m => 1 + 2 ^ b * geom b m end.

Definition glo (b : Z) (n : nat) : Z := - 2 ^ (b - 1) * geom b n.
Definition ghi (b : Z) (n : nat) : Z := (2 ^ (b - 1) - 1) * geom b n.

Lemma pow_nb (b : Z) (n : nat) : 0 <= b -> 2 ^ (Z.of_nat (S n) * b) = 2 ^ b * 2 ^ (Z.of_nat n * b).
Proof. intros Hb. rewrite <- Z.pow_add_r by lia. f_equal. lia. Qed.

Lemma pow_nb_pos (b : Z) (n : nat) : 0 <= b -> 0 < 2 ^ (Z.of_nat n * b).
Proof. intros; apply pow2_pos; lia. Qed.

Lemma ldigs_length (b : Z) (n : nat) (N : Z) : length (ldigs b n N) = n.
Proof. revert N; induction n as [|n IH]; intros N; cbn [ldigs length]; auto. Qed.

Lemma ldigs_balanced (b : Z) (n : nat) (N : Z) : 1 <= b -> Forall (in_range b) (ldigs b n N).
Proof.
  intros Hb. revert N; induction n as [|n IH]; intros N; cbn [ldigs]; constructor; auto.
  apply wrap_range; auto.
Qed.

(* digits + dropped carry = the number *)
Lemma ldigs_value (b : Z) (n : nat) (N : Z) : 1 <= b ->
  lvalr b (ldigs b n N) + 2 ^ (Z.of_nat n * b) * bdivn b n N = N.
Proof.
  intros Hb. revert N; induction n as [|n IH]; intros N; cbn [ldigs lvalr bdivn].
  - change (Z.of_nat 0) with 0. rewrite Z.mul_0_l, Z.pow_0_r. lia.
  - rewrite pow_nb by lia. pose proof (wrap_bdiv b N Hb). specialize (IH (bdiv b N)). nia.
Qed.

(* the expansion only depends on N modulo 2^(n b) *)
Lemma ldigs_periodic (b : Z) (n : nat) (N t : Z) : 1 <= b ->
  ldigs b n (N + 2 ^ (Z.of_nat n * b) * t) = ldigs b n N.
Proof.
  intros Hb. revert N t; induction n as [|n IH]; intros N t; cbn [ldigs]; [reflexivity|].
  rewrite pow_nb by lia.
  replace (N + 2 ^ b * 2 ^ (Z.of_nat n * b) * t) with (N + 2 ^ b * (2 ^ (Z.of_nat n * b) * t)) by ring.
  rewrite wrap_add_mul, bdiv_add_mul by auto. rewrite IH. reflexivity.
Qed.

Lemma ldigs_congr (b : Z) (n : nat) (N M : Z) : 1 <= b ->
  (N - M) mod 2 ^ (Z.of_nat n * b) = 0 -> ldigs b n N = ldigs b n M.
Proof.
  intros Hb H. pose proof (pow_nb_pos b n ltac:(lia)) as Hp.
  apply Z.mod_divide in H; [|lia]. destruct H as [q Hq].
  replace N with (M + 2 ^ (Z.of_nat n * b) * q) by lia. apply ldigs_periodic; auto.
Qed.

Fixpoint nchain (b : Z) (l : list Z) (c : Z) : list Z :=
  match l with [] => [] | x :: t => wrap b (x + c) :: nchain b t (bdiv b (x + c)) end.

Lemma nchain_ldigs (b : Z) (l : list Z) (c : Z) : 1 <= b ->
  nchain b l c = ldigs b (length l) (lvalr b l + c).
Proof.
  intros Hb. revert c; induction l as [|x t IH]; intros c; cbn [nchain ldigs lvalr length]; [reflexivity|].
  replace (x + 2 ^ b * lvalr b t + c) with (x + c + 2 ^ b * lvalr b t) by ring.
  rewrite wrap_add_mul, bdiv_add_mul by auto. rewrite IH. f_equal. f_equal. ring.
Qed.

Lemma geom_closed (b : Z) (n : nat) : 0 <= b -> (2 ^ b - 1) * geom b n = 2 ^ (Z.of_nat n * b) - 1.
Proof.
  intros Hb. induction n as [|n IH]; cbn [geom].
  - change (Z.of_nat 0) with 0. rewrite Z.mul_0_l, Z.pow_0_r. lia.
  - rewrite pow_nb by lia. nia.
Qed.

Lemma geom_nonneg (b : Z) (n : nat) : 0 <= b -> 0 <= geom b n.
Proof. intros Hb. induction n as [|n IH]; cbn [geom]; [lia|]. pose proof (pow2_pos b Hb). nia. Qed.

Lemma geom_ge_pow (b : Z) (n : nat) : 0 <= b -> 2 ^ (Z.of_nat n * b) <= geom b (S n).
Proof.
  intros Hb. induction n as [|n IH].
  - cbn [geom]. change (Z.of_nat 0) with 0. rewrite Z.mul_0_l, Z.pow_0_r, Z.mul_0_r. lia.
  - change (geom b (S (S n))) with (1 + 2 ^ b * geom b (S n)). rewrite pow_nb by lia.
    pose proof (pow2_pos b Hb). nia.
Qed.

Lemma ghi_glo (b : Z) (n : nat) : 1 <= b -> ghi b n - glo b n = 2 ^ (Z.of_nat n * b) - 1.
Proof.
  intros Hb. unfold ghi, glo. pose proof (geom_closed b n ltac:(lia)). pose proof (pow2_split b Hb). nia.
Qed.

Lemma glo_S (b : Z) (n : nat) : glo b (S n) = - 2 ^ (b - 1) + 2 ^ b * glo b n.
Proof. unfold glo. cbn [geom]. ring. Qed.
Lemma ghi_S (b : Z) (n : nat) : ghi b (S n) = (2 ^ (b - 1) - 1) + 2 ^ b * ghi b n.
Proof. unfold ghi. cbn [geom]. ring. Qed.

Lemma lvalr_range (b : Z) (l : list Z) : 1 <= b -> Forall (in_range b) l ->
  glo b (length l) <= lvalr b l <= ghi b (length l).
Proof.
  intros Hb H. induction H as [|x t [Hx1 Hx2] Ht IH]; cbn [lvalr length].
  - unfold glo, ghi. cbn [geom]. lia.
  - rewrite glo_S, ghi_S. pose proof (pow2_pos b ltac:(lia)). nia.
Qed.

(* a number inside the range is its own expansion: the dropped carry is zero *)
Lemma fits_bdivn (b : Z) (n : nat) (N : Z) : 1 <= b -> glo b n <= N <= ghi b n -> bdivn b n N = 0.
Proof.
  intros Hb. revert N; induction n as [|n IH]; intros N HN; cbn [bdivn].
  - unfold glo, ghi in HN. cbn [geom] in HN. lia.
  - apply IH. rewrite glo_S, ghi_S in HN.
    pose proof (wrap_bdiv b N Hb) as Hd. pose proof (wrap_range b N Hb) as [Hw1 Hw2].
    pose proof (pow2_pos b ltac:(lia)) as Hp. pose proof (pow2_split b Hb) as Hs.
    split; nia.
Qed.

Lemma fits_exact (b : Z) (n : nat) (N : Z) : 1 <= b -> glo b n <= N <= ghi b n -> lvalr b (ldigs b n N) = N.
Proof.
  intros Hb HN. pose proof (ldigs_value b n N Hb) as H. rewrite fits_bdivn in H by auto. lia.
Qed.

(* for b >= 2 a third of the full range lies on each side of zero *)
Lemma geom_third (b : Z) (n : nat) : 2 <= b -> 2 ^ (Z.of_nat n * b) - 1 <= 3 * ghi b n.
Proof.
  intros Hb. unfold ghi. pose proof (geom_closed b n ltac:(lia)) as Hc.
  pose proof (geom_nonneg b n ltac:(lia)) as Hg. pose proof (pow2_split b ltac:(lia)) as Hs.
  assert (2 <= 2 ^ (b - 1)).
  { replace 2 with (2 ^ 1) at 1 by reflexivity. apply Z.pow_le_mono_r; lia. }
  nia.
Qed.

Lemma glo_third (b : Z) (n : nat) : 1 <= b -> 3 * glo b n <= - (2 ^ (Z.of_nat n * b) - 1).
Proof.
  intros Hb. unfold glo. pose proof (geom_closed b n ltac:(lia)) as Hc.
  pose proof (geom_nonneg b n ltac:(lia)) as Hg. pose proof (pow2_split b ltac:(lia)) as Hs.
  pose proof (pow2_pos (b - 1) ltac:(lia)). nia.
Qed.

(* most-significant-first lists: the layout of a coefficient's limbs *)
Lemma lval_app1 (b : Z) (l : list Z) (x : Z) : e_lval b (l ++ [x]) = e_lval b l * 2 ^ b + x.
Proof. unfold e_lval. rewrite fold_left_app. reflexivity. Qed.

Lemma lval_rev (b : Z) (l : list Z) : e_lval b (rev l) = lvalr b l.
Proof.
  induction l as [|x t IH]; [reflexivity|]. cbn [rev lvalr]. rewrite lval_app1, IH. ring.
Qed.

Lemma lvalr_repeat (b x : Z) (n : nat) : lvalr b (repeat x n) = x * geom b n.
Proof. induction n as [|n IH]; cbn [repeat lvalr geom]; [ring|]. rewrite IH. ring. Qed.

Lemma rev_repeat {A} (x : A) (n : nat) : rev (repeat x n) = repeat x n.
Proof.
  induction n as [|n IH]; [reflexivity|]. cbn [repeat rev]. rewrite IH.
  clear IH. induction n as [|n IH]; [reflexivity|]. cbn [repeat app]. f_equal. exact IH.
Qed.

Lemma lval_repeat (b x : Z) (n : nat) : e_lval b (repeat x n) = x * geom b n.
Proof. rewrite <- (rev_repeat x n), lval_rev. apply lvalr_repeat. Qed.

Lemma lvalr_zeros (b : Z) (n : nat) : lvalr b (zeros n) = 0.
Proof. unfold zeros. rewrite lvalr_repeat. ring. Qed.

Lemma lvalr_scale (b s : Z) (l : list Z) : lvalr b (map (fun x => x * s) l) = lvalr b l * s.
Proof. induction l as [|x t IH]; cbn [map lvalr]; [ring|]. rewrite IH. ring. Qed.

(* cutting  hi ++ x :: rest  just after x *)
Lemma split_after {A} (hi : list A) (x : A) (rest : list A) (n : nat) : n = S (length hi) ->
  firstn n (hi ++ x :: rest) = hi ++ [x] /\ skipn n (hi ++ x :: rest) = rest.
Proof.
  intros ->. replace (hi ++ x :: rest) with ((hi ++ [x]) ++ rest) by (rewrite <- app_assoc; reflexivity).
  replace (S (length hi)) with (length (hi ++ [x])) by (rewrite app_length; cbn [length]; lia).
  rewrite firstn_app, firstn_all, skipn_app, skipn_all, Nat.sub_diag. cbn [firstn skipn app]. rewrite app_nil_r. auto.
Qed.

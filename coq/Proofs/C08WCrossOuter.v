(* C08, cross-radix normalisation at any word width: one run of the inner loop seen from the outer loop.
   OuterW / EntryW are Outer / Entry of Proofs/C08CrossOuter.v with the headroom 2^(wd-2) in place of 2^62. *)
From PV Require Import Base.MachineInt Model.Znx Model.Limbs Model.C08Oracle
  Proofs.ZnxDigit Proofs.C08Steps Proofs.C08Chain Proofs.C08Loops Proofs.C08Value Proofs.C08Normalize Proofs.C08CrossInner Proofs.C08CrossGeom Proofs.C08CrossOuter
  Proofs.C08WChain Proofs.C08WLoops Proofs.C08WCrossInner.
Open Scope Z_scope.

Section Outer.
Variable wd : Z.
Variables rb ab : Z.
Hypothesis Hrb : 1 <= rb <= wd - 2.
Hypothesis Hab : 1 <= ab <= wd - 2.
Variable a : list Z.
Variable lsh : Z.
Variable rsz : nat.
Variables z g lo : Z.
Hypothesis Hz : 0 <= z.
Hypothesis Hg : 0 <= g.
Hypothesis Hgeo : (zn (length a) - lo) * ab = zn rsz * rb + g - z.

Let Hab1 : 1 <= ab. Proof. lia. Qed.

Local Notation Lval := (C08CrossOuter.Lval ab a lsh).
Local Notation dropok := (C08CrossOuter.dropok lsh g).
Local Notation Final := (C08CrossOuter.Final rb ab a lsh rsz z g).

Definition OuterW (t : nat) (s : cstate) : Prop :=
  shape rb rsz s /\ 0 < c_racc s <= rb /\ c_rcarry s = 0 /\ Z.abs (c_acarry s) <= 2 ^ (wd - 2) /\
  Fpos rb rsz s + g = z + zn t * ab /\
  exists drop, dropok drop /\
    2 ^ z * Lval t = 2 ^ z * drop + 2 ^ g * Vres rb rsz (c_res s) + 2 ^ (z + zn t * ab) * c_acarry s.

Definition EntryW (t : nat) (s : cstate) : Prop :=
  shape rb rsz s /\ 0 < c_racc s <= rb /\ 0 < c_atake s <= ab /\ Z.abs (c_anorm s) <= 2 ^ c_atake s /\
  Z.abs (c_acarry s) <= 2 ^ (wd - 2) /\ c_rcarry s = 0 /\
  Fpos rb rsz s + g = z + (zn t + 1) * ab - c_atake s /\
  exists drop X low, dropok drop /\
    2 ^ z * Lval (S t) = 2 ^ z * drop + 2 ^ g * Vres rb rsz (c_res s)
                         + 2 ^ (g + Fpos rb rsz s) * c_anorm s + 2 ^ (z + (zn t + 1) * ab) * c_acarry s /\
    Z.abs X <= 2 ^ (wd - 2) * 2 ^ (ab - 1) + 2 ^ (wd - 2) /\
    X = low + 2 ^ (ab - c_atake s) * c_anorm s + 2 ^ ab * c_acarry s /\
    2 * Z.abs low <= 2 ^ (ab - c_atake s).

(* One run of the inner loop on digit t; lo may have either sign, but a-limb 0 is reached with the top of the
   stream at the top of res (lo = 0).  A break means that res is full. *)
Lemma entry_stepW (t : nat) (s : cstate) (fuel : nat) :
  EntryW t s -> (t < length a)%nat -> (S t = length a -> lo = 0) -> ab <= Z.of_nat fuel ->
  let r := cross_inner wd fuel rb ab (length a - 1 - t) s in
  snd r <> Fuel /\ (snd r = InnerDone -> OuterW (S t) (fst r)) /\
  (snd r = OuterBreak -> zn (length a) - lo <= zn t + 1 /\ Final (c_res (fst r))).
Proof.
  intros (Sh & Hr & Hat & Hn & Hc & Hrc & HF & drop & X & low & Hdrop & EV & HX & EX & Hlow) Ht Htl Hfuel.
  cbv zeta.
  assert (HF0 : 0 <= Fpos rb rsz s).
  { apply (Fpos_nonnegW wd rb Hrb); [apply Sh|lia]. }
  assert (Hpre : preW wd rb ab rsz (length a - 1 - t) s).
  { unfold preW. split; [exact Sh|]. split; [exact Hr|]. split; [exact Hat|]. split; [exact Hn|].
    split; [exact Hc|]. split; [exact Hrc|]. intros E0.
    assert (Elo : lo = 0) by (apply Htl; clear - E0 Ht; lia).
    assert (EtA : zn t + 1 = zn (length a)) by (clear - E0 Ht; unfold zn; lia).
    clear - HF Hgeo Elo EtA. rewrite Elo in Hgeo. rewrite EtA in HF. lia. }
  pose proof (cross_inner_specW wd rb ab Hrb Hab rsz (length a - 1 - t) fuel s Hpre ltac:(lia)) as (P1 & P2 & P3).
  set (s' := fst (cross_inner wd fuel rb ab (length a - 1 - t) s)) in *.
  set (o := snd (cross_inner wd fuel rb ab (length a - 1 - t) s)) in *.
  clearbody s' o. clear Hpre.
  split; [exact P1|]. split.
  - intros Ho. destruct (P2 Ho) as (Pi & Q1 & Q2 & Q3 & Q4 & Q5 & Q6 & Q7 & Q8). clear P2 P3.
    set (Dl := c_acarry s' - c_acarry s) in *.
    assert (Eacc : c_acarry s' = c_acarry s + Dl) by (unfold Dl; ring).
    set (e := ab - c_atake s) in *.
    assert (He : 0 <= e) by (unfold e; lia).
    assert (Eab : 2 ^ ab = 2 ^ e * 2 ^ c_atake s).
    { rewrite <- pow2_add by (clear - He Hat; lia). f_equal. unfold e. ring. }
    unfold OuterW. split; [exact Q5|]. split; [exact Q6|]. split; [exact Q7|]. split.
    { (* bound of the new carry *)
      apply (carry_after_pieces ab (2 ^ (wd - 2)) X (low + 2 ^ e * Pi) (c_acarry s')); [lia|cbn; lia|exact HX| |].
      - rewrite EX, Q1, Eacc, Eab. ring.
      - rewrite Eab. apply pt_bound; [exact He|lia|exact Hlow|exact Q2]. }
    split.
    { rewrite Q4. replace (zn (S t)) with (zn t + 1) by (unfold zn; lia). clear - HF. lia. }
    exists drop. split; [exact Hdrop|].
    replace (zn (S t)) with (zn t + 1) by (unfold zn; lia).
    rewrite EV, Q3, Q1, Eacc.
    assert (EgF : 2 ^ (g + Fpos rb rsz s) = 2 ^ g * 2 ^ Fpos rb rsz s) by (apply pow2_add; lia).
    assert (ET : 2 ^ (z + (zn t + 1) * ab) = 2 ^ (g + Fpos rb rsz s) * 2 ^ c_atake s).
    { rewrite <- pow2_add by (clear - Hg HF0 Hat; lia). f_equal. clear - HF. lia. }
    rewrite ET, EgF. ring.
  - intros Ho. destruct (P3 Ho) as (Q0 & QL & K & Q). clear P2 P3.
    split.
    { assert (Hle : (zn (length a) - lo) * ab <= (zn t + 1) * ab) by (clear - Q0 HF Hgeo; lia).
      apply Z.mul_le_mono_pos_r in Hle; [exact Hle|clear - Hab; lia]. }
    unfold Final. split; [exact QL|].
    destruct (ival_split ab Hab1 (vin a lsh) (length a) (fun u Hu => vin_zero a lsh u Hu) (S t)) as [Y HY].
    fold (Lval (length a)) in HY. fold (Lval (S t)) in HY.
    set (e2 := Fpos rb rsz s + c_atake s - zn rsz * rb).
    assert (He2 : 0 <= e2) by (unfold e2; lia).
    exists drop, (- K + 2 ^ e2 * (c_acarry s + Y)). split; [exact Hdrop|].
    rewrite HY, Z.mul_add_distr_l, EV, Q.
    assert (EgF : 2 ^ (g + Fpos rb rsz s) = 2 ^ g * 2 ^ Fpos rb rsz s) by (apply pow2_add; lia).
    assert (HRrb : 0 <= zn rsz * rb) by (apply Z.mul_nonneg_nonneg; unfold zn; lia).
    assert (HStab : 0 <= zn (S t) * ab) by (apply Z.mul_nonneg_nonneg; unfold zn; lia).
    assert (ER : 2 ^ (g + zn rsz * rb) = 2 ^ g * 2 ^ (zn rsz * rb)) by (apply pow2_add; [exact Hg|exact HRrb]).
    assert (ET : 2 ^ (z + (zn t + 1) * ab) = 2 ^ (g + zn rsz * rb) * 2 ^ e2).
    { rewrite <- pow2_add by (clear - Hg HRrb He2; lia). f_equal. unfold e2. clear - HF. lia. }
    assert (ES : 2 ^ z * 2 ^ (zn (S t) * ab) = 2 ^ (z + (zn t + 1) * ab)).
    { rewrite <- pow2_add by (clear - Hz HStab; lia). f_equal. unfold zn. clear. lia. }
    replace (2 ^ z * (2 ^ (zn (S t) * ab) * Y)) with (2 ^ z * 2 ^ (zn (S t) * ab) * Y) by ring.
    rewrite ES, ET, EgF, ER. ring.
Qed.

End Outer.

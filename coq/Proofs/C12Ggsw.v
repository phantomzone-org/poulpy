(* C12 - GGSW row expansion and the operations built on it (ggsw_from_gglwe, ggsw_keyswitch, ggsw_automorphism): the declared
   size suffices on ring degrees that are multiples of 8. *)
From PV Require Import Base.MachineInt Model.C12Scratch Gen.C12TmpBytes_gen Model.C12Trees
  Proofs.C12Arena Proofs.C12Hal Proofs.C12Core Proofs.C12KeySwitch Proofs.C12More Proofs.C12Conv.
Open Scope Z_scope.

Section Ggsw.
  Variables fam n : Z.
  Hypothesis Hf : is_fam fam.
  Hypothesis Hn0 : 0 <= n.
  Hypothesis Hn8 : n mod 8 = 0.

  Lemma product_res_indep (rs rs' s : Z) (key : infos) :
    gglwe_product_dft_tmp_bytes fam n rs s key = gglwe_product_dft_tmp_bytes fam n rs' s key.
  Proof using Hf Hn0 Hn8.
    unfold gglwe_product_dft_tmp_bytes. cbv zeta.
    destruct (i_dsize key =? 1); rewrite (vmp_bytes_res_indep fam n Hf Hn0 Hn8 rs rs'); reflexivity.
  Qed.

  Lemma expand_rows_spec (res tsk : infos) : wf_infos res -> wf_infos tsk -> i_rank res = i_rank_in tsk ->
    budget (t_ggsw_expand_rows fam n res tsk) (ggsw_expand_rows_tmp_bytes fam n res tsk).
  Proof using Hf Hn0 Hn8.
    intros Hr Ht Hrk.
    assert (Htb : 1 <= i_base2k tsk) by (destruct Ht; lia).
    assert (Hts : 0 <= i_size tsk) by (destruct Ht as (_&?&_); lia).
    assert (Hrr : 0 <= i_rank res) by (destruct Hr as (_&_&?&_); lia).
    assert (Hmk : 0 <= i_max_k res) by (destruct Hr as (?&?&_); unfold i_max_k; nia).
    set (a_size := div_ceil (i_max_k res) (i_base2k tsk)).
    assert (Ha0 : 0 <= a_size) by (apply div_ceil_nonneg; lia).
    pose proof (gglwe_product_spec fam n Hf Hn0 Hn8 (i_size tsk) a_size tsk Ht Ha0) as Bp.
    rewrite (product_res_indep (i_size tsk) (i_size res)) in Bp.
    pose proof (budget_nonneg _ _ Bp).
    pose proof (budget_big_normalize fam n Hf Hn0 Hn8) as Bb. pose proof (budget_normalize fam n Hf Hn0 Hn8) as Bn.
    pose proof (nn_norm fam n Hf Hn0 Hn8). pose proof (nn_bnorm fam n Hf Hn0 Hn8).
    pose proof (al_dft fam n Hf Hn0 Hn8 (i_rank res) a_size Hrr Ha0) as HD1.
    pose proof (al_vec_znx fam n Hf Hn0 Hn8 1 a_size ltac:(lia) Ha0) as HV.
    pose proof (al_dft fam n Hf Hn0 Hn8 (i_rank res + 1) (i_size tsk) ltac:(lia) Hts) as HD2.
    unfold t_ggsw_expand_rows, ggsw_expand_rows_tmp_bytes. cbv zeta. fold a_size.
    replace (i_rank res + 1 - 1) with (i_rank res) by lia. rewrite Hrk in *.
    destruct (i_base2k res =? i_base2k tsk); cbn [budget persist].
    all: leaves.
    all: eapply budget_mono; [eassumption | lia].
  Qed.

  Lemma suffices_ggsw_from_gglwe (res tsk : infos) : wf_infos res -> wf_infos tsk -> i_rank res = i_rank_in tsk ->
    run_takes (tree_ggsw_from_gglwe fam n res tsk) (0, ggsw_from_gglwe_tmp_bytes fam n res tsk) <> None.
  Proof using Hf Hn0 Hn8.
    intros Hr Ht Hrk. pose proof (expand_rows_spec res tsk Hr Ht Hrk) as Be. pose proof (budget_nonneg _ _ Be).
    apply budget_suffices; unfold tree_ggsw_from_gglwe, ggsw_from_gglwe_tmp_bytes; cbv zeta; cbn [budget persist].
    split; [lia|]. eapply budget_mono; [exact Be | lia].
  Qed.

  (* rows first (each on the whole scratch), then the expansion (on the whole scratch) *)
  Lemma rows_then_expand (F : Z) (k : nat) (row ex : tree) : budget row F -> budget ex F ->
    budget (Seq (Need F) (Seq (Loop k (Scoped row)) (Scoped ex))) F.
  Proof.
    intros Br Be. pose proof (budget_nonneg _ _ Br). cbn [budget persist]. rewrite !Z.sub_0_r.
    split; [lia | split; assumption].
  Qed.

  Lemma suffices_ggsw_keyswitch (res a key tsk : infos) :
    wf_infos res -> wf_infos a -> wf_infos key -> wf_infos tsk -> i_n a = n -> i_rank a = i_rank_in key -> i_rank res = i_rank_in tsk ->
    run_takes (tree_ggsw_keyswitch fam n res a key tsk) (0, ggsw_keyswitch_tmp_bytes fam n res a key tsk) <> None.
  Proof using Hf Hn0 Hn8.
    intros Hr Ha Hk Ht Hn Hrk Hrt.
    apply budget_suffices, rows_then_expand.
    - eapply budget_mono; [exact (keyswitch_spec fam n Hf Hn0 Hn8 res a key Hr Ha Hk Hn Hrk) | apply Z.le_max_l].
    - eapply budget_mono; [exact (expand_rows_spec res tsk Hr Ht Hrt) | apply Z.le_max_r].
  Qed.

  Lemma ggsw_automorphism_spec (res a key tsk : infos) :
    wf_infos res -> wf_infos a -> wf_infos key -> wf_infos tsk -> i_n a = n -> i_rank a = i_rank_in key -> i_rank res = i_rank_in tsk ->
    budget (tree_ggsw_automorphism fam n res a key tsk) (ggsw_automorphism_tmp_bytes fam n res a key tsk).
  Proof using Hf Hn0 Hn8.
    intros Hr Ha Hk Ht Hn Hrk Hrt.
    apply rows_then_expand.
    - eapply budget_mono; [exact (automorphism_spec fam n Hf Hn0 Hn8 res a key Hr Ha Hk Hn Hrk) | apply Z.le_max_l].
    - eapply budget_mono; [exact (expand_rows_spec res tsk Hr Ht Hrt) | apply Z.le_max_r].
  Qed.

  Lemma suffices_ggsw_automorphism (res a key tsk : infos) :
    wf_infos res -> wf_infos a -> wf_infos key -> wf_infos tsk -> i_n a = n -> i_rank a = i_rank_in key -> i_rank res = i_rank_in tsk ->
    run_takes (tree_ggsw_automorphism fam n res a key tsk) (0, ggsw_automorphism_tmp_bytes fam n res a key tsk) <> None.
  Proof using Hf Hn0 Hn8. intros. apply budget_suffices, ggsw_automorphism_spec; assumption. Qed.
End Ggsw.

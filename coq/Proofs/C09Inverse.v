(* C09: composition of two automorphism loops, whatever the destinations held before (item 4 on the code's shape). *)
From PV Require Import Base.MachineInt Model.Znx Model.Limbs Model.Ring Model.Poly
  Proofs.C09Lists Proofs.C09Ring Proofs.C09Sigma.
Open Scope Z_scope.

Theorem automorphism_compose w g h m r0 r1 r2 a :
  1 <= w -> 0 <= m -> Z.of_nat (length a) = 2 ^ m -> Z.odd g = true -> Z.odd h = true ->
  Forall (in_range w) a -> length r0 = length a -> length r1 = length a -> length r2 = length a ->
  znx_automorphism_onto w g r1 (znx_automorphism_onto w h r0 a) = znx_automorphism_onto w (g * h) r2 a.
Proof.
  intros Hw Hm Hn Hg Hh Hr H0 H1 H2.
  rewrite (automorphism_is_sigma w h m r0 a) by auto.
  rewrite (automorphism_is_sigma w g m r1 (sigma w h a)) by (rewrite ?sigma_length; auto).
  rewrite (automorphism_is_sigma w (g * h) m r2 a)
    by (auto; rewrite Z.odd_mul, Hg, Hh; reflexivity).
  apply (sigma_compose w g h m); auto.
Qed.

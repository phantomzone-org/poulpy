(* C08: vec_znx_normalize_inter_base2k at any word width w (same radix, any signed bit offset), per
   coefficient, with a parametric cap on the gap propagation.  Closed form: the output limbs are a window of
   the balanced expansion of the shifted input. *)
From PV Require Import Base.MachineInt Model.Znx Model.Limbs Model.LimbsBig Model.C08Oracle
  Proofs.ZnxDigit Proofs.C08Steps Proofs.C08Chain Proofs.C08Value Proofs.C08WChain Proofs.C08WLoops.
Open Scope Z_scope.

(* Rust's truncating % and / with the correction for negative offsets = floor division *)
Lemma split_offset_spec (b off : Z) : 1 <= b -> split_offset b off = (off mod b, off / b).
Proof.
  intros Hb. unfold split_offset.
  pose proof (Z.quot_rem' off b) as Hqr.
  set (r := Z.rem off b) in *. set (q := Z.quot off b) in *.
  destruct (Z.ltb_spec off 0) as [Hneg|Hpos]; cbn [andb].
  - pose proof (Z.rem_bound_pos_neg off b ltac:(lia) ltac:(lia)) as Hr. fold r in Hr.
    destruct (Z.eqb_spec r 0) as [E|E]; cbn [negb].
    + f_equal; [apply (Z.mod_unique off b q r)|apply (Z.div_unique off b q r)]; lia.
    + rewrite Z.rem_small by lia.
      f_equal; [apply (Z.mod_unique off b (q - 1) (r + b))|apply (Z.div_unique off b (q - 1) (r + b))]; lia.
  - pose proof (Z.rem_bound_pos off b ltac:(lia) ltac:(lia)) as Hr. fold r in Hr.
    f_equal; [apply (Z.mod_unique off b q r)|apply (Z.div_unique off b q r)]; lia.
Qed.

Lemma natc_cases (x : Z) (n : nat) :
  (x <= 0 /\ natc x 0 (zn n) = 0%nat) \/ (0 < x < zn n /\ zn (natc x 0 (zn n)) = x) \/
  (zn n <= x /\ natc x 0 (zn n) = n).
Proof. unfold natc, clampZ, zn. lia. Qed.

(* the index arithmetic of normalize_inter *)
Lemma inter_shape (lo : Z) (rsz asz : nat) :
  let res_end := natc (- lo) 0 (zn rsz) in
  let res_start := natc (zn asz - lo) 0 (zn rsz) in
  let a_end := natc lo 0 (zn asz) in
  let a_start := natc (zn rsz + lo) 0 (zn asz) in
  let a_out := (asz - a_start)%nat in
  let mid := (a_start - a_end)%nat in
  ((a_start <= asz)%nat /\ (mid <= a_start)%nat /\ (mid <= res_start)%nat /\
   (res_start - mid = res_end)%nat /\ (res_start <= rsz)%nat /\ (res_end <= rsz)%nat) /\
  ((0 < mid)%nat -> zn a_out + zn res_start = zn asz - lo) /\
  ((0 < res_end)%nat -> lo < 0 /\ (a_out + mid = asz)%nat /\
                   zn (Z.to_nat (- lo) - rsz) + zn res_end = - lo) /\
  (forall i, (res_start <= i < rsz)%nat -> zn asz - lo - 1 - zn i < 0).
Proof.
  intros res_end res_start a_end a_start a_out mid. unfold mid, a_out.
  (* three cases per clamp; the combinations that contradict each other on the position of lo are discarded
     as soon as they arise, which leaves about a third of the 81 *)
  destruct (natc_cases (-lo) rsz) as [[? E1]|[[? E1]|[? E1]]];
  destruct (natc_cases lo asz) as [[? E3]|[[? E3]|[? E3]]]; try (exfalso; unfold zn in *; lia);
  destruct (natc_cases (zn asz - lo) rsz) as [[? E2]|[[? E2]|[? E2]]]; try (exfalso; unfold zn in *; lia);
  destruct (natc_cases (zn rsz + lo) asz) as [[? E4]|[[? E4]|[? E4]]]; try (exfalso; unfold zn in *; lia);
  fold res_end in E1; fold res_start in E2; fold a_end in E3; fold a_start in E4;
  clearbody res_end res_start a_end a_start; unfold zn in *;
  (split; [lia|split; [lia|split; [lia|intros i Hi; lia]]]).
Qed.

Section Pieces.
Variable b : Z.

(* a run of steps whose inputs are a piece of the global sequence *)
Lemma car_piece (u : nat -> Z) (a : list Z) (lsh : Z) (p cnt : nat) :
  (forall t, (t < cnt)%nat -> u t = vin a lsh (p + t)) ->
  car b u (car b (vin a lsh) 0 p) cnt = car b (vin a lsh) 0 (p + cnt).
Proof. intros Hu. rewrite car_shift. apply car_ext. exact Hu. Qed.

Lemma dig_piece (u : nat -> Z) (a : list Z) (lsh : Z) (p cnt s : nat) :
  (forall t, (t < cnt)%nat -> u t = vin a lsh (p + t)) -> (s < cnt)%nat ->
  dig b u (car b (vin a lsh) 0 p) s = dig b (vin a lsh) 0 (p + s).
Proof. intros Hu Hs. rewrite dig_shift. apply dig_ext. intros t Ht. apply Hu. lia. Qed.

Lemma vin_at (a : list Z) (lsh : Z) (t k : nat) : (t < length a)%nat -> k = (length a - 1 - t)%nat ->
  vin a lsh t = nthZ a k * 2 ^ lsh.
Proof. intros Ht ->. unfold vin. destruct (Nat.ltb_spec t (length a)); [reflexivity|lia]. Qed.

End Pieces.

(* LimbsBig.normalize_inter_c: the gap cap is a parameter; Limbs.normalize_inter is the instance cap = 64 *)
Lemma normalize_inter_c_64 (w b off : Z) (a r0 : list Z) :
  normalize_inter w b off a r0 = normalize_inter_c w 64 b off a r0.
Proof. reflexivity. Qed.

Section Inter.
Variable w : Z.
Variable b : Z.
Hypothesis Hb : 1 <= b <= w - 2.
Variable cap : nat.

Let Hb1 : 1 <= b. Proof. lia. Qed.

(* the per-phase input sequences are pieces of the global sequence vin *)
Lemma car_lowW (lsh : Z) (a : list Z) (cnt : nat) : (cnt <= length a)%nat ->
  car b (fun t => nthZ a (length a - t - 1) * 2 ^ lsh) 0 cnt = car b (vin a lsh) 0 cnt.
Proof.
  intros Hc. apply car_ext. intros t Ht. unfold vin.
  destruct (Nat.ltb_spec t (length a)); [|lia]. f_equal. f_equal. lia.
Qed.

(* continuing the chain above the top limb of a: zero inputs *)
Lemma car_above (lsh : Z) (a : list Z) (g : nat) :
  car b zseq (car b (vin a lsh) 0 (length a)) g = car b (vin a lsh) 0 (length a + g).
Proof.
  rewrite car_shift. apply car_ext. intros t Ht. rewrite vin_zero by lia. reflexivity.
Qed.

Lemma dig_above (lsh : Z) (a : list Z) (p s : nat) (u : nat -> Z) : (length a <= p)%nat ->
  (forall t, u t = 0) ->
  dig b u (car b (vin a lsh) 0 p) s = dig b (vin a lsh) 0 (p + s).
Proof.
  intros Hp Hu. rewrite dig_shift. apply dig_ext. intros t Ht. rewrite vin_zero by lia. apply Hu.
Qed.

Lemma vboundW_vin (lsh : Z) (a : list Z) : 0 <= lsh < b -> hrlw w a -> vboundW w b (vin a lsh).
Proof.
  intros Hl Ha t. unfold vin. destruct (Nat.ltb_spec t (length a)).
  - apply shifted_bound; auto. pose proof (HW_pos w b Hb); lia.
  - pose proof (pow2_pos (b - 1) ltac:(lia)). pose proof (HW_pos w b Hb). cbn [Z.abs]. nia.
Qed.

Lemma car_vin_hrW (lsh : Z) (a : list Z) (j : nat) : 0 <= lsh < b -> hrlw w a ->
  Z.abs (car b (vin a lsh) 0 j) <= 2 ^ (w - 2).
Proof.
  intros Hl Ha. apply car_hrW; auto. apply vboundW_vin; auto. pose proof (HW_pos w b Hb); cbn [Z.abs]; lia.
Qed.

(* closed form of normalize_inter *)
Theorem normalize_inter_c_nth (off : Z) (a r0 : list Z) : hrlw w a ->
  w - 2 <= (zn cap - 1) * b \/ - (off / b) - zn (length r0) <= zn cap ->
  let out := normalize_inter_c w cap b off a r0 in
  length out = length r0 /\
  forall i, (i < length r0)%nat ->
    nthZ out i = dgz b (vin a (off mod b)) (zn (length a) - off / b - 1 - zn i).
Proof.
  intros Ha Hcap. cbv zeta. unfold normalize_inter_c.
  rewrite (split_offset_spec b off) by lia.
  assert (Hl : 0 <= off mod b < b) by (apply Z.mod_pos_bound; lia).
  set (lsh := off mod b) in *. set (lo := off / b) in *. clearbody lsh lo.
  set (rsz := length r0). set (asz := length a).
  set (res_end := natc (- lo) 0 (zn rsz)).
  set (res_start := natc (zn asz - lo) 0 (zn rsz)).
  set (a_end := natc lo 0 (zn asz)).
  set (a_start := natc (zn rsz + lo) 0 (zn asz)).
  set (a_out := (asz - a_start)%nat).
  set (mid := (a_start - a_end)%nat).
  set (V := vin a lsh).
  (* shape arithmetic *)
  destruct (inter_shape lo rsz asz) as (Hshape & Hpos_mid & Htop & Hzero).
  fold res_end res_start a_end a_start a_out mid in Hshape, Hpos_mid, Htop, Hzero.
  destruct Hshape as (S1 & S2 & S3 & S4 & S5 & S6).
  assert (Eao : a_out = (asz - a_start)%nat) by reflexivity.
  assert (Emd : mid = (a_start - a_end)%nat) by reflexivity.
  clearbody res_end res_start a_end a_start a_out mid.
  (* phases *)
  rewrite (carry_phase_carW w b Hb lsh a asz a_out Hl Ha).
  pose proof (car_lowW lsh a a_out ltac:(unfold asz in *; lia)) as CL. fold asz V in CL.
  rewrite CL. clear CL.
  destruct (zero_range_spec r0 res_start rsz) as [Z1 Z2].
  set (r1 := zero_range r0 res_start rsz) in *.
  assert (Hc0 : Z.abs (car b V 0 a_out) <= 2 ^ (w - 2)) by (apply car_vin_hrW; auto).
  destruct (mid_phase_specW w b Hb true lsh a res_start a_start mid r1 (car b V 0 a_out) Hl Ha
              ltac:(discriminate) Hc0 S3) as (M1 & M2 & M3).
  destruct (mid_phase w true b lsh a res_start a_start mid (r1, car b V 0 a_out)) as [r2 c2].
  cbn [fst snd] in M1, M2, M3. cbv beta iota.
  assert (Hu : forall t, (t < mid)%nat -> nthZ a (a_start - t - 1) * 2 ^ lsh = vin a lsh (a_out + t)%nat).
  { intros t Ht. symmetry. apply vin_at; fold asz; clear - Ht S1 S2 Eao; lia. }
  pose proof (car_piece b _ a lsh a_out mid Hu) as CM. fold V in CM. rewrite CM in M1. clear CM.
  assert (Hc2 : Z.abs c2 <= 2 ^ (w - 2)) by (rewrite M1; apply car_vin_hrW; auto).
  set (gap := (Z.to_nat (- lo) - rsz)%nat) in *.
  assert (Egap : gap = (Z.to_nat (- lo) - rsz)%nat) by reflexivity. clearbody gap.
  set (c3 := if lo <? 0 then gap_phase_c w cap b gap c2 else c2).
  assert (Hc3 : c3 = if lo <? 0 then car b zseq c2 gap else c2).
  { unfold c3. destruct (lo <? 0); [|reflexivity]. apply (gap_phase_carW w b Hb); [exact Hc2|].
    destruct Hcap as [Hcap|Hcap]; [left; exact Hcap|right]. clear - Hcap Egap. unfold rsz, zn in *. lia. }
  clear Hcap.
  assert (Hc3b : Z.abs c3 <= 2 ^ (w - 2)).
  { rewrite Hc3. destruct (lo <? 0); [|exact Hc2]. apply car_hrW; auto. apply vboundW_zseq; auto. }
  destruct (top_phase_specW w b Hb true lsh res_end r2 c3 Hl ltac:(discriminate) Hc3b) as [T1 T2].
  cbv beta in T2.
  set (out := fst (top_phase w true b lsh res_end (r2, c3))) in *.
  clear Hc0 Hc2 Hc3b.
  split; [rewrite T1, M2; exact Z1|].
  intros i Hi. rewrite T2, M2, Z1.
  destruct (Nat.ltb_spec i res_end) as [Htp|Htp].
  - (* top limbs: carries only *)
    destruct (Nat.ltb_spec i (length r0)) as [_|]; [|unfold rsz in *; lia]. cbn [andb].
    destruct (Htop ltac:(lia)) as (Hlo & Ham & Hg).
    rewrite Hc3. destruct (Z.ltb_spec lo 0) as [_|]; [|lia].
    rewrite M1, Ham.
    pose proof (car_above lsh a gap) as CA. fold asz V in CA. rewrite CA. clear CA.
    pose proof (dig_above lsh a (asz + gap) (res_end - 1 - i)
                  (fun t : nat => if Nat.ltb t res_end then 0 * 2 ^ lsh else 0)
                  ltac:(unfold asz; lia) ltac:(intros t; cbv beta; destruct (Nat.ltb t res_end); [apply Z.mul_0_l|reflexivity])) as DA. fold V in DA. rewrite DA. clear DA.
    rewrite dgz_nonneg by (clear - Hg Htp; unfold zn in *; lia).
    f_equal. clear - Hg Htp. unfold zn in *. lia.
  - rewrite M3, Z1. fold rsz.
    destruct (Nat.ltb_spec i res_start) as [Hmd|Hmd].
    + (* limbs computed from a *)
      destruct (Nat.leb_spec (res_start - mid) i) as [_|]; [|lia].
      destruct (Nat.ltb_spec i rsz) as [_|]; [|unfold rsz in *; lia]. cbn [andb].
      rewrite Z.add_0_l.
      pose proof (dig_piece b _ a lsh a_out mid (res_start - 1 - i) Hu ltac:(clear - Hmd Htp S4; lia)) as DM.
      fold V in DM. rewrite DM. clear DM. specialize (Hpos_mid ltac:(lia)).
      rewrite dgz_nonneg by (clear - Hpos_mid Hmd; unfold zn in *; lia).
      f_equal. clear - Hpos_mid Hmd. unfold zn in *. lia.
    + (* limbs below the precision of a: zero *)
      rewrite Bool.andb_false_r. cbn [andb]. rewrite Z2.
      destruct (Nat.leb_spec res_start i) as [_|]; [|lia].
      destruct (Nat.ltb_spec i rsz) as [_|]; [|unfold rsz in *; lia]. cbn [andb].
      rewrite dgz_neg; [reflexivity|]. apply Hzero; lia.
Qed.

End Inter.


Section InterValueW.
Variable w : Z.
Variable b : Z.
Hypothesis Hb : 1 <= b <= w - 2.
Variable cap : nat.

(* the cap is large enough: either it saturates every carry within the headroom, or the gap is below it *)
Definition gap_cap_ok (off : Z) (rsz : nat) : Prop :=
  w - 2 <= (zn cap - 1) * b \/ - (off / b) - zn rsz <= zn cap.

Theorem normalize_inter_c_value (off : Z) (a r0 : list Z) :
  Forall (fun x => Z.abs x <= 2 ^ (w - 2)) a -> gap_cap_ok off (length r0) ->
  let out := normalize_inter_c w cap b off a r0 in
  length out = length r0 /\
  Forall (in_range b) out /\
  out = normalize_inter_c w cap b off a (zeros (length r0)) /\
  forall P, zn (length r0) * b + zn (length a) * b + Z.abs off <= P ->
    let D := tor_abs P (val_scaled P b out - val_scaled (P + off) b a) in
    D <= 2 ^ (P - zn (length r0) * b) /\
    (zn (length a) * b - off <= zn (length r0) * b -> D = 0).
Proof.
  intros HF Hcap. apply hrlw_of_Forall in HF. cbv zeta.
  destruct (normalize_inter_c_nth w b Hb cap off a r0 HF Hcap) as [L1 N1].
  destruct (normalize_inter_c_nth w b Hb cap off a (zeros (length r0)) HF
              ltac:(rewrite zeros_length; exact Hcap)) as [L2 N2].
  rewrite zeros_length in L2, N2.
  split; [exact L1|]. split; [|split].
  - apply Forall_of_nth. intros i Hi. rewrite N1 by lia. apply dgz_range; lia.
  - apply nthZ_ext; [lia|]. intros i Hi. rewrite N1, N2 by lia. reflexivity.
  - intros P HP.
    pose proof (Z.div_mod off b ltac:(lia)) as Hoff.
    assert (Hl : 0 <= off mod b < b) by (apply Z.mod_pos_bound; lia).
    assert (Eo : off / b * b + off mod b = off) by lia.
    pose proof (window_value b P (off / b) (off mod b) a (normalize_inter_c w cap b off a r0)
                  ltac:(lia) Hl ltac:(intros i Hi; apply N1; lia)) as W.
    rewrite Eo, L1 in W. apply W. exact HP.
Qed.

End InterValueW.

(* the i64 routine (cap 64) at any width w with w - 2 <= 63 b; in particular w = 64 *)
Theorem normalize_inter_value_w (w b : Z) (off : Z) (a r0 : list Z) : 1 <= b <= w - 2 ->
  w - 2 <= 63 * b \/ - (off / b) - zn (length r0) <= 64 ->
  Forall (fun x => Z.abs x <= 2 ^ (w - 2)) a ->
  let out := normalize_inter w b off a r0 in
  length out = length r0 /\
  Forall (in_range b) out /\
  out = normalize_inter w b off a (zeros (length r0)) /\
  forall P, zn (length r0) * b + zn (length a) * b + Z.abs off <= P ->
    let D := tor_abs P (val_scaled P b out - val_scaled (P + off) b a) in
    D <= 2 ^ (P - zn (length r0) * b) /\
    (zn (length a) * b - off <= zn (length r0) * b -> D = 0).
Proof.
  intros Hb Hcap HF. rewrite !normalize_inter_c_64.
  apply (normalize_inter_c_value w b Hb 64 off a r0 HF). exact Hcap.
Qed.

(* the i128 routine of the NTT120 family: width 128, cap 128, every radix 1..126, every offset *)
Theorem normalize_inter_value_128 (b : Z) (off : Z) (a r0 : list Z) : 1 <= b <= 126 ->
  Forall (fun x => Z.abs x <= 2 ^ 126) a ->
  let out := normalize_inter_c 128 128 b off a r0 in
  length out = length r0 /\
  Forall (in_range b) out /\
  out = normalize_inter_c 128 128 b off a (zeros (length r0)) /\
  forall P, zn (length r0) * b + zn (length a) * b + Z.abs off <= P ->
    let D := tor_abs P (val_scaled P b out - val_scaled (P + off) b a) in
    D <= 2 ^ (P - zn (length r0) * b) /\
    (zn (length a) * b - off <= zn (length r0) * b -> D = 0).
Proof.
  intros Hb HF.
  apply (normalize_inter_c_value 128 b ltac:(lia) 128 off a r0 HF). left. change (zn 128) with 128. lia.
Qed.

(* the dispatcher of the NTT120 family on equal radices *)
Theorem normalize_big_same_value (b : Z) (off : Z) (a r0 : list Z) : 1 <= b <= 126 ->
  Forall (fun x => Z.abs x <= 2 ^ 126) a ->
  exists out, normalize_big 128 b b off a r0 = Some out /\
  length out = length r0 /\
  Forall (in_range b) out /\
  normalize_big 128 b b off a (zeros (length r0)) = Some out /\
  forall P, zn (length r0) * b + zn (length a) * b + Z.abs off <= P ->
    let D := tor_abs P (val_scaled P b out - val_scaled (P + off) b a) in
    D <= 2 ^ (P - zn (length r0) * b) /\
    (zn (length a) * b - off <= zn (length r0) * b -> D = 0).
Proof.
  intros Hb HF. unfold normalize_big. rewrite Z.eqb_refl.
  destruct (normalize_inter_value_128 b off a r0 Hb HF) as (L & B & I & V).
  exists (normalize_inter_c 128 128 b off a r0).
  split; [reflexivity|]. split; [exact L|]. split; [exact B|]. split; [f_equal; symmetry; exact I|exact V].
Qed.

(* C08 encoding: arbitrary-precision decoding (decode_vec_float) is the exact rational value of the limbs:
   value = num / 2^e with e = size * b and num = sum_j limb_j 2^((size-1-j) b) = val_scaled (size b) b limbs. *)
From PV Require Import Base.MachineInt Model.Znx Model.Limbs Model.C08Encode Model.C08Oracle Proofs.C08EncodeSpec.
Open Scope Z_scope.

Lemma dec_float_aux (b : Z) (l : list Z) (n e : Z) : 0 <= b -> 0 <= e ->
  fold_left (fun (s : Z * Z) x => (fst s + x * 2 ^ (snd s), snd s + b)) l (n, e)
  = (n + 2 ^ e * lvalr b l, e + b * Z.of_nat (length l)).
Proof.
  intros Hb. revert n e; induction l as [|x t IH]; intros n e He.
  - cbn [fold_left lvalr length]. f_equal; cbn; lia.
  - cbn [fold_left fst snd lvalr]. rewrite IH by lia. rewrite Z.pow_add_r by lia.
    f_equal; [ring|]. cbn [length]. lia.
Qed.

Theorem dec_float_lval (b : Z) (l : list Z) : 0 <= b ->
  dec_float b l = (e_lval b l, Z.of_nat (length l) * b).
Proof.
  intros Hb. unfold dec_float. rewrite dec_float_aux by lia.
  rewrite <- lval_rev, rev_involutive, rev_length, Z.pow_0_r. f_equal; lia.
Qed.

Lemma lval_acc (b : Z) (l : list Z) (a : Z) : 0 <= b ->
  fold_left (fun acc x => acc * 2 ^ b + x) l a = a * 2 ^ (Z.of_nat (length l) * b) + e_lval b l.
Proof.
  intros Hb. revert a; induction l as [|x t IH]; intros a.
  - cbn [fold_left length]. unfold e_lval. cbn [fold_left]. change (Z.of_nat 0) with 0. rewrite Z.mul_0_l, Z.pow_0_r. ring.
  - unfold e_lval. cbn [fold_left]. rewrite !IH. cbn [length].
    replace (Z.of_nat (S (length t)) * b) with (b + Z.of_nat (length t) * b) by lia.
    rewrite Z.pow_add_r by lia. ring.
Qed.

Lemma lval_cons (b x : Z) (t : list Z) : 0 <= b -> e_lval b (x :: t) = x * 2 ^ (Z.of_nat (length t) * b) + e_lval b t.
Proof. intros Hb. unfold e_lval at 1. cbn [fold_left]. rewrite lval_acc by lia. ring. Qed.

Lemma val_scaled_acc (b : Z) (l : list Z) (acc j : Z) : 0 <= b ->
  fst (fold_left (fun (s : Z * Z) x => (fst s + x * 2 ^ ((j + Z.of_nat (length l)) * b - (snd s + 1) * b), snd s + 1)) l (acc, j))
  = acc + e_lval b l.
Proof.
  intros Hb. revert acc j; induction l as [|x t IH]; intros acc j.
  - cbn [fold_left fst]. unfold e_lval. cbn [fold_left]. lia.
  - cbn [fold_left fst snd length].
    replace (j + Z.of_nat (S (length t))) with ((j + 1) + Z.of_nat (length t)) by lia.
    rewrite IH. rewrite lval_cons by lia.
    replace (((j + 1 + Z.of_nat (length t)) * b - (j + 1) * b)) with (Z.of_nat (length t) * b) by ring. ring.
Qed.

Lemma val_scaled_lval (b : Z) (l : list Z) : 0 <= b -> val_scaled (Z.of_nat (length l) * b) b l = e_lval b l.
Proof.
  intros Hb. unfold val_scaled.
  pose proof (val_scaled_acc b l 0 0 Hb) as H. rewrite Z.add_0_l in H. exact H.
Qed.


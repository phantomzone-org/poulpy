(* C05 — what Props/C05.v needs to compose the relinearisation theorem of Proofs/C05Relin.v with the tensor phase theorem:
   the two sums of the former are the phase of the whole tensor; the tensor is a well-formed column list. *)
From PV Require Import Base.MachineInt Model.Znx Model.Limbs Model.LimbsBig Model.Flat Model.Ring Model.Poly Model.DftAbs
  Model.C05Cnv Model.C05Spec Model.C05Core Model.Gadget Model.GadgetSpec Model.C05Relin.
From PV Require Import Proofs.C07Dft Proofs.C07Ring.
From PV Require Proofs.C05Cnv Proofs.C05Core.
From PV Require Import Proofs.GadgetDecomp Proofs.GadgetPhase Proofs.C03Phase Proofs.GadgetNorm Proofs.C05Relin.
From PV Require Proofs.ListFacts.
Open Scope Z_scope.

(* the C05 spec notions and the gadget spec notions are the same functions *)
Lemma psumf_same n f m : C05Cnv.psumf n f m = GadgetSpec.psumf n f m.
Proof. reflexivity. Qed.
Lemma pval_same n P b (l : plimbs) : C05Spec.pval n P b l = GadgetSpec.pval P b n (lim l) (length l).
Proof. reflexivity. Qed.

Lemma fold_map_nth {X} (g : X -> list Z) (l : list X) d acc :
  fold_left padd (map g l) acc = fold_left (fun a i => padd a (g (nth i l d))) (seq 0 (length l)) acc.
Proof.
  revert acc; induction l as [|x l IH]; intros acc; [reflexivity|].
  cbn [map fold_left length seq nth]. rewrite IH. rewrite <- seq_shift.
  generalize (padd acc (g x)) as a0. generalize (seq 0 (length l)) as s.
  induction s as [|i s IHs]; intros a0; [reflexivity|]. cbn [map fold_left nth]. apply IHs.
Qed.

(* the phase of C05Spec (list of columns paired with a list of keys) as a sum over column indices *)
Lemma phase_as_psumf n P b (T : cols_t) (keys : list (list Z)) m a_size :
  wf_cols n m a_size T -> length keys = m ->
  C05Spec.phase n P b T keys = GadgetSpec.psumf n (fun c => pmul (GadgetSpec.pval P b n (acol n T c) a_size) (nth c keys [])) m.
Proof.
  intros [LT CT] Lk. unfold C05Spec.phase, plsum.
  rewrite (fold_map_nth (X := plimbs * list Z) _ _ ([], [])). rewrite combine_length, LT, Lk, Nat.min_id.
  unfold GadgetSpec.psumf.
  assert (G : forall l acc, (forall c, In c l -> (c < m)%nat) ->
     fold_left (fun a i => padd a (pmul (C05Spec.pval n P b (fst (nth i (combine T keys) ([], [])))) (snd (nth i (combine T keys) ([], []))))) l acc
     = fold_left (fun a c => padd a (pmul (GadgetSpec.pval P b n (acol n T c) a_size) (nth c keys []))) l acc).
  { induction l as [|c l IH]; intros acc Hin; [reflexivity|]. cbn [fold_left].
    rewrite IH by (intros; apply Hin; right; assumption). f_equal. f_equal.
    assert (Hc : (c < m)%nat) by (apply Hin; left; reflexivity).
    rewrite combine_nth by (transitivity m; [exact LT|symmetry; exact Lk]). cbn [fst snd]. f_equal.
    rewrite pval_same. destruct (CT c Hc) as [Lc _]. change (nth c T []) with (col T c). rewrite Lc.
    unfold GadgetSpec.pval. apply GadgetDecomp.psumf_ext. intros j Hj. f_equal.
    unfold acol, limz. rewrite Lc. replace (Nat.ltb j a_size) with true by (symmetry; apply Nat.ltb_lt; exact Hj). reflexivity. }
  apply G. intros c Hc. apply in_seq in Hc. lia.
Qed.

(* the phase of a column list under (Sk_0 .. Sk_{cols-1}, s_in_0 .. s_in_{pairs-1}) is the phase of its first cols columns under Sk
   plus the phase of the others under s_in *)
Lemma phase_cols_split n P b cols pairs a_size (T : cols_t) (Sk s_in : nat -> list Z) :
  wf_cols n (cols + pairs) a_size T ->
  C05Spec.phase n P b T (map Sk (seq 0 cols) ++ map s_in (seq 0 pairs))
  = padd (GadgetSpec.psumf n (fun co => pmul (GadgetSpec.pval P b n (acol n T co) a_size) (Sk co)) cols)
         (GadgetSpec.psumf n (fun ci => pmul (GadgetSpec.pval P b n (acol n (skipn cols T) ci) a_size) (s_in ci)) pairs).
Proof.
  intros HT.
  rewrite (phase_as_psumf n P b T _ (cols + pairs) a_size HT) by (rewrite app_length, !map_length, !seq_length; reflexivity).
  pose proof (acol_length n (cols + pairs) a_size T HT) as LB.
  rewrite GadgetDecomp.psumf_app by (intros c Hc; rewrite pmul_length; apply GadgetPhase.pval_length; intros; apply LB).
  f_equal; apply GadgetDecomp.psumf_ext; intros c Hc.
  - rewrite app_nth1, (ListFacts.nth_map_seq Sk) by (rewrite ?map_length, ?seq_length; exact Hc). reflexivity.
  - rewrite app_nth2, map_length, seq_length by (rewrite map_length, seq_length; lia).
    replace (cols + c - cols)%nat with c by lia. rewrite (ListFacts.nth_map_seq s_in) by exact Hc.
    f_equal. unfold GadgetSpec.pval. apply GadgetDecomp.psumf_ext. intros j _. rewrite acol_skipn. reflexivity.
Qed.

Lemma shaped_wf_cols n rsz m (T : list limbs) : length T = m -> (forall c, In c T -> C05Core.shaped n rsz c) -> wf_cols n m rsz T.
Proof.
  intros L H. split; [exact L|]. intros ci Hci.
  assert (Hin : In (col T ci) T) by (unfold col; apply nth_In; exact (eq_ind_r (fun x => (ci < x)%nat) Hci L)).
  destruct (H _ Hin) as [L1 L2]. split; [exact L1|]. intros l Hl. apply (L2 l Hl).
Qed.

(* the tensor of the model is a well-formed column list for the key switch *)
Lemma tensor_gen_wf_cols fft n rsz b lo dsz hi (A B : list plimbs) cols pairs (res0 : list limbs) :
  length (tpairs cols) = (cols + pairs)%nat -> length res0 = length (tpairs cols) -> (forall r, In r res0 -> length r = rsz) ->
  wf_cols n (cols + pairs) rsz (tensor_gen (cell_apply fft n (big_nrm fft n rsz b b lo) dsz hi A B) cols res0).
Proof.
  intros Hpairs HL Hr. apply shaped_wf_cols.
  - rewrite <- Hpairs. unfold tensor_gen. rewrite map_length, combine_length. lia.
  - intros c Hc. unfold tensor_gen in Hc. apply in_map_iff in Hc. destruct Hc as ([[i j] r] & <- & Hin). cbn [fst snd].
    apply C05Core.cell_apply_shape; [intros D; apply C05Core.big_nrm_shape_same_radix|].
    apply Hr. eapply in_combine_r. exact Hin.
Qed.

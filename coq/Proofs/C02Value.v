(* C02: shift / normalise commute with the phase up to one unit of the last limb per truncated column.

   The per-column, per-coefficient value statement is C08's business (normalize_inter_value, lsh_value, rsh_*_value in
   Proofs/C08*.v).  This file does NOT depend on those files: the statement enters as the Section hypothesis
   `column_value_ok` and the GLWE-level theorem is derived from it; Proofs/C02Discharge.v discharges the hypothesis with
   C08's theorems for equal radices (one instantiation per kernel: f, rb, ab, off, keep, sgn, guard, u).

   Bound: if every column c of the result satisfies  val(out_c) = keep*val(res_c) + sgn*2^off*val(a_c) + e_c (mod 1)
   with |e_c| <= u coefficient-wise, then the phase satisfies the same relation with the error polynomial
   e_0 + sum_i s_i * e_i, whose coefficients are bounded by  u * (1 + sum_i ||s_i||_1)  (|(s*e)_t| <= ||s||_1 ||e||_inf):
   one unit per truncated column, reaching the phase through the secret.  u = 0 when nothing is truncated. *)
From PV Require Import Proofs.C11Frame Proofs.C02Poly Proofs.C02Exact Proofs.C02Canon Proofs.C02Phase.
From PV Require Import Base.MachineInt Model.Znx Model.Limbs Model.Flat Model.Ring Model.DftAbs Model.C02Ops.
Open Scope Z_scope.

Lemma coeff_untranspose rsize cs t : (t < length cs)%nat -> length (nth t cs []) = rsize ->
  coeff_limbs (untranspose rsize cs) t = nth t cs [].
Proof.
  intros Ht Hl. unfold coeff_limbs, untranspose. rewrite map_map.
  transitivity (map (fun i => nthZ (nth t cs []) i) (seq 0 (length (nth t cs [])))); [|symmetry; apply list_as_map_seq].
  rewrite Hl. apply map_seq_ext. intros j _.
  unfold nthZ at 1. rewrite (nth_indep _ 0 ((fun c => nthZ c j) [])) by (rewrite map_length; exact Ht).
  rewrite (map_nth (fun c => nthZ c j)). reflexivity.
Qed.

Lemma valp_length P b n c : length (valp P b n c) = n.
Proof. unfold valp. apply map_seq_length. Qed.
Lemma valp_nth P b n c t : (t < n)%nat -> nthZ (valp P b n c) t = val_of P b (coeff_limbs c t).
Proof. intros H. unfold valp. rewrite nthZ_map_seq by exact H. reflexivity. Qed.
Lemma valp_nil P b n t : nthZ (valp P b n []) t = 0.
Proof.
  destruct (Nat.lt_ge_cases t n) as [H|H].
  - rewrite valp_nth by exact H. reflexivity.
  - apply nthZ_overflow. rewrite valp_length. exact H.
Qed.

Lemma zsum_mul_r c f n : zsum (fun i => f i * c) n = zsum f n * c.
Proof. induction n; cbn [zsum]; lia. Qed.

(* sums over an index list *)
Definition lsum (g : nat -> Z) (L : list nat) : Z := fold_right (fun i acc => g i + acc) 0 L.

Lemma psum_nth n (G : nat -> list Z) (L : list nat) t : (forall i, In i L -> length (G i) = n) ->
  nthZ (psum n (map G L)) t = lsum (fun i => nthZ (G i) t) L.
Proof.
  intros HG. induction L as [|i L IH]; cbn [map psum fold_right lsum].
  - apply nthZ_pzero.
  - fold (psum n (map G L)). fold (lsum (fun i => nthZ (G i) t) L).
    rewrite nthZ_padd; [rewrite IH by (intros; apply HG; right; assumption); reflexivity|].
    rewrite HG by (left; reflexivity). apply psum_list_length. intros x Hx. apply in_map_iff in Hx.
    destruct Hx as (u & <- & Hu). apply HG. right. exact Hu.
Qed.

(* coefficient t of sum_i s_i * V_i *)
Lemma nthZ_psum_pmul n s (V : nat -> list Z) t : secret_ok n s ->
  nthZ (psum n (map (fun i => pmul (nth i s []) (V i)) (seq 0 (length s)))) t =
  lsum (fun i => nthZ (pmul (nth i s []) (V i)) t) (seq 0 (length s)).
Proof.
  intros Hs. apply (psum_nth n (fun i => pmul (nth i s []) (V i))). intros i Hi.
  rewrite pmul_length. apply (sec_len n s Hs). apply nth_In. apply in_seq in Hi. lia.
Qed.

Lemma lval_zeros P b j (l : list Z) : (forall x, In x l -> x = 0) -> lval P b j l = 0.
Proof.
  revert j; induction l as [|x t IH]; intros j H; cbn [lval]; [reflexivity|].
  rewrite (H x (or_introl eq_refl)). rewrite IH by (intros; apply H; right; assumption). lia.
Qed.
Lemma valp_vec_zero P b n (r0 : limbs) t : nthZ (valp P b n (vec_zero n r0)) t = 0.
Proof.
  destruct (Nat.lt_ge_cases t n) as [H|H].
  - rewrite valp_nth by exact H. unfold val_of. apply lval_zeros. intros x Hx.
    unfold coeff_limbs, vec_zero in Hx. rewrite map_map in Hx. apply in_map_iff in Hx.
    destruct Hx as (l & <- & _). apply nthZ_zeros.
  - apply nthZ_overflow. rewrite valp_length. exact H.
Qed.

Section Value.
Variables (n : nat) (rb ab off keep sgn P u : Z).
Variable ovz : bool.                                         (* zero-fill (true) or keep (false) the columns of res that a does not have *)
Variable f : list Z -> list Z -> option (list Z).          (* per-coefficient kernel: limbs of a, prior limbs of res -> new limbs of res *)
Variable guard : list Z -> list Z -> Prop.                   (* headroom precondition of the per-coefficient theorem *)
Hypothesis Hu : 0 <= u.

(* value of one coefficient of one column (C02Discharge.sn_column_value provides it for equal radices) *)
Hypothesis column_value_ok : forall a r0 out, f a r0 = Some out -> guard a r0 ->
  length out = length r0 /\
  exists e m, val_of P rb out = keep * val_of P rb r0 + sgn * val_of (P + off) ab a + e + m * 2 ^ P /\ Z.abs e <= u.

(* the relation "X = keep*Y + sgn*Z + E + M*2^P" between four numbers *)
Definition rel (X Y Z E M : Z) : Prop := X = keep * Y + sgn * Z + E + M * 2 ^ P.

Lemma col_value ca r0 c' : col_coeff f n ca r0 = Some c' ->
  (forall t, (t < n)%nat -> guard (coeff_limbs ca t) (coeff_limbs r0 t)) ->
  forall t, exists e m,
    rel (nthZ (valp P rb n c') t) (nthZ (valp P rb n r0) t) (nthZ (valp (P + off) ab n ca) t) e m /\ Z.abs e <= u.
Proof.
  intros Hc Hg t. unfold col_coeff in Hc. destruct (lift_coeff_some _ _ _ _ _ _ Hc) as (cs & Lcs & -> & Hf).
  destruct (Nat.lt_ge_cases t n) as [Ht|Ht].
  - destruct (column_value_ok _ _ _ (Hf t Ht) (Hg t Ht)) as (Hlen & e & m & Hv & He).
    exists e, m. split; [|exact He]. unfold rel. rewrite !valp_nth by exact Ht.
    rewrite coeff_untranspose; [exact Hv | lia |]. rewrite Hlen. unfold coeff_limbs. apply map_length.
  - exists 0, 0. unfold rel. rewrite !nthZ_overflow by (rewrite ?valp_length; lia). split; lia.
Qed.

Lemma zsum_rel (X Y Z B : nat -> Z) m :
  (forall i, (i < m)%nat -> exists E M, rel (X i) (Y i) (Z i) E M /\ Z.abs E <= B i) ->
  exists E M, rel (zsum X m) (zsum Y m) (zsum Z m) E M /\ Z.abs E <= zsum B m.
Proof.
  induction m as [|m IH]; intros H; cbn [zsum].
  - exists 0, 0. unfold rel. split; lia.
  - destruct (IH ltac:(intros; apply H; lia)) as (E1 & M1 & R1 & B1).
    destruct (H m ltac:(lia)) as (E0 & M0 & R0 & B0).
    exists (E1 + E0), (M1 + M0). unfold rel in *. split; lia.
Qed.

(* multiplication by a secret polynomial preserves the relation, coefficient by coefficient: coefficient t of s0 * V is
   a signed sum of coefficients of V, and the errors add up to at most ||s0||_1 * ui *)
Lemma pmul_rel s0 V Y Z ui : length s0 = n -> length V = n -> length Y = n -> length Z = n -> 0 <= ui ->
  (forall t, exists e m, rel (nthZ V t) (nthZ Y t) (nthZ Z t) e m /\ Z.abs e <= ui) ->
  forall t, exists E M,
    rel (nthZ (pmul s0 V) t) (nthZ (pmul s0 Y) t) (nthZ (pmul s0 Z) t) E M /\ Z.abs E <= l1norm s0 * ui.
Proof.
  intros Ls LV LY LZ Hui H t. destruct (Nat.lt_ge_cases t n) as [Ht|Ht].
  - rewrite !pmul_nth by lia. unfold l1norm. rewrite Ls, <- zsum_mul_r.
    apply zsum_rel. intros i Hi. cbv beta.
    destruct (exp_decomp (Z.of_nat n) (Z.of_nat t - Z.of_nat i) ltac:(lia)) as (q & r & Hk & Hr).
    rewrite (xext_at V _ q r), (xext_at Y _ q r), (xext_at Z _ q r) by lia.
    destruct (H r) as (e & m & R & Be).
    exists (nthZ s0 i * sg q * e), (nthZ s0 i * sg q * m). unfold rel in *. split; [rewrite R; ring|].
    rewrite !Z.abs_mul. replace (Z.abs (sg q)) with 1 by (unfold sg; destruct (Z.even q); reflexivity).
    pose proof (Z.abs_nonneg (nthZ s0 i)). nia.
  - exists 0, 0. rewrite !nthZ_overflow by (rewrite pmul_length; lia). unfold rel. split; [lia|].
    pose proof (l1norm_nonneg s0). cbn. nia.
Qed.

Lemma lsum_rel (X Y Z B : nat -> Z) (L : list nat) :
  (forall i, In i L -> exists E M, rel (X i) (Y i) (Z i) E M /\ Z.abs E <= B i) ->
  exists E M, rel (lsum X L) (lsum Y L) (lsum Z L) E M /\ Z.abs E <= lsum B L.
Proof.
  induction L as [|i L IH]; intros H; cbn [lsum fold_right].
  - exists 0, 0. unfold rel. split; lia.
  - fold (lsum X L) (lsum Y L) (lsum Z L) (lsum B L).
    destruct (IH ltac:(intros; apply H; right; assumption)) as (E1 & M1 & R1 & B1).
    destruct (H i (or_introl eq_refl)) as (E0 & M0 & R0 & B0).
    exists (E0 + E1), (M0 + M1). unfold rel in *. split; lia.
Qed.

Variable s : list (list Z).
Hypothesis Hs : secret_ok n s.

Definition err_bound (ncols : nat) : Z :=
  u + lsum (fun i => l1norm (nth i s []) * (if Nat.ltb (S i) ncols then u else 0)) (seq 0 (length s)).

Theorem colloop_phase_value res a r :
  wf_glwe n res -> wf_glwe n a -> (g_ncols a <= g_ncols res)%nat ->
  ((g_ncols a < g_ncols res)%nat -> keep = if ovz then 0 else 1) ->
  (forall i t, (i < g_ncols a)%nat -> (t < n)%nat -> guard (coeff_limbs (gcol a i) t) (coeff_limbs (gcol res i) t)) ->
  colloop f ovz n res a = Some r ->
  forall t, exists E M,
    rel (nthZ (VP P rb n s r) t) (nthZ (VP P rb n s res) t) (nthZ (VP (P + off) ab n s a) t) E M /\
    Z.abs E <= err_bound (g_ncols a).
Proof.
  intros Hres Ha Hc Hk Hg Hl t. unfold colloop, mapi_cols_opt in Hl.
  destruct (sequence _) as [cs|] eqn:E; [|discriminate]. injection Hl as <-.
  destruct (sequence_some _ _ E) as [Lcs Hn]. rewrite map_seq_length in Lcs.
  (* every column index, existing or not, satisfies the column relation *)
  set (r := with_cols res cs).
  assert (Hcol : forall i t', exists e m,
            rel (nthZ (valp P rb n (gcol r i)) t') (nthZ (valp P rb n (gcol res i)) t')
                (nthZ (valp (P + off) ab n (gcol a i)) t') e m /\
            Z.abs e <= if Nat.ltb i (g_ncols a) then u else 0).
  { intros i t'. change (gcol r i) with (nth i cs []). destruct (Nat.ltb_spec i (g_ncols a)) as [Hia|Hia].
    - specialize (Hn i None [] ltac:(rewrite map_seq_length; lia)).
      rewrite nth_map_seq in Hn by lia.
      destruct (Nat.ltb_spec i (g_ncols a)) as [_|]; [|lia].
      apply (col_value _ _ _ Hn). intros t'' Ht''. apply Hg; assumption.
    - exists 0, 0. split; [|lia]. rewrite (gcol_out a) by lia. unfold rel. rewrite valp_nil.
      destruct (Nat.lt_ge_cases i (g_ncols res)) as [Hi|Hi].
      + specialize (Hn i None [] ltac:(rewrite map_seq_length; lia)).
        rewrite nth_map_seq in Hn by lia.
        destruct (Nat.ltb_spec i (g_ncols a)) as [|_]; [lia|]. injection Hn as Hn. rewrite <- Hn.
        rewrite (Hk ltac:(lia)). destruct ovz; [rewrite valp_vec_zero|]; lia.
      + rewrite (nth_overflow cs) by lia. rewrite (gcol_out res) by lia. rewrite !valp_nil. lia. }
  clearbody r.
  assert (Lp : forall (V : nat -> list Z), length (psum n (map (fun i => pmul (nth i s []) (V i)) (seq 0 (length s)))) = n)
    by (intros V; apply psum_pmul_length; exact Hs).
  unfold VP.
  rewrite !nthZ_padd by (rewrite (Lp (fun i => valp _ _ n (gcol _ (S i)))), valp_length; reflexivity).
  rewrite !nthZ_psum_pmul by exact Hs.
  destruct (Hcol 0%nat t) as (e0 & m0 & R0 & B0).
  destruct (lsum_rel
              (fun i => nthZ (pmul (nth i s []) (valp P rb n (gcol r (S i)))) t)
              (fun i => nthZ (pmul (nth i s []) (valp P rb n (gcol res (S i)))) t)
              (fun i => nthZ (pmul (nth i s []) (valp (P + off) ab n (gcol a (S i)))) t)
              (fun i => l1norm (nth i s []) * (if Nat.ltb (S i) (g_ncols a) then u else 0))
              (seq 0 (length s))) as (E1 & M1 & R1 & B1).
  { intros i Hi. apply pmul_rel; try apply valp_length; [| destruct (Nat.ltb_spec (S i) (g_ncols a)); lia | apply Hcol].
    apply (sec_len n s Hs). apply nth_In. apply in_seq in Hi. lia. }
  exists (e0 + E1), (m0 + M1). unfold rel in *. unfold err_bound. split; [lia|].
  destruct (Nat.ltb_spec 0 (g_ncols a)); lia.
Qed.

End Value.

(* the statement C08 has to provide for a per-coefficient kernel f (this is `column_value_ok` above, closed) *)
Definition column_value_stmt (rb ab off keep sgn P u : Z) (f : list Z -> list Z -> option (list Z))
           (guard : list Z -> list Z -> Prop) : Prop :=
  forall a r0 out, f a r0 = Some out -> guard a r0 ->
    length out = length r0 /\
    exists e m, val_of P rb out = keep * val_of P rb r0 + sgn * val_of (P + off) ab a + e + m * 2 ^ P /\ Z.abs e <= u.

(* kernel, source operand and (off, keep, sgn) of the shift / normalise opcodes of exec_op *)
Definition sn_kernel (opc rb ab k : Z) : list Z -> list Z -> option (list Z) :=
  match opc with
  | 13 => fun _ r => Some (rsh_assign W64 rb k r)
  | 14 => fun _ r => Some (lsh_assign W64 rb k r)
  | 15 => fun x r => Some (lsh W64 true rb k x r)
  | 16 => fun x r => Some (lsh W64 false rb k x r)
  | 17 => fun x r => Some (lsh_sub W64 rb k x r)
  | 18 => fun x r => normalize W64 rb ab 0 x r
  | _ => fun _ r => Some (normalize_assign W64 rb r)
  end.
Definition sn_inplace (opc : Z) : bool := (opc =? 13) || (opc =? 14) || (opc =? 19).
Definition sn_off (opc k : Z) : Z := match opc with 13 => - k | 14 | 15 | 16 | 17 => k | _ => 0 end.
Definition sn_keep (opc : Z) : Z := match opc with 16 | 17 => 1 | _ => 0 end.
Definition sn_sgn (opc : Z) : Z := match opc with 17 => -1 | _ => 1 end.

Lemma mapi_cols_opt_ext g (f1 f2 : nat -> limbs -> option limbs) :
  (forall i, (i < g_ncols g)%nat -> f1 i (gcol g i) = f2 i (gcol g i)) -> mapi_cols_opt g f1 = mapi_cols_opt g f2.
Proof.
  intros H. unfold mapi_cols_opt.
  rewrite (map_seq_ext (fun i => f1 i (gcol g i)) (fun i => f2 i (gcol g i))) by exact H. reflexivity.
Qed.

Definition sn_src (opc : Z) (res a : glwe) : glwe := if sn_inplace opc then res else a.
Definition sn_ovz (opc : Z) : bool := opc =? 15.

Lemma exec_op_colloop n opc scr k res a b r : 13 <= opc <= 19 ->
  wf_glwe n res -> wf_glwe n a ->
  exec_op opc n scr k res a b = Some r ->
  colloop (sn_kernel opc (g_b res) (g_b a) k) (sn_ovz opc) n res (sn_src opc res a) = Some r /\
  (g_ncols (sn_src opc res a) <= g_ncols res)%nat /\
  ((g_ncols (sn_src opc res a) < g_ncols res)%nat -> sn_keep opc = if sn_ovz opc then 0 else 1).
Proof.
  intros Ho Hres Ha He.
  pose proof (ncols_rank n res Hres) as Nr. pose proof (ncols_rank n a Ha) as Na.
  assert (Hself : forall f g, (forall i, (i < g_ncols res)%nat -> g i (gcol res i) = col_coeff f n (gcol res i) (gcol res i)) ->
            forall ovz, mapi_cols_opt res g = colloop f ovz n res res).
  { intros f g Hg ovz. unfold colloop. apply mapi_cols_opt_ext. intros i Hi.
    destruct (Nat.ltb_spec i (g_ncols res)); [apply Hg; exact Hi | lia]. }
  assert (Hcases : opc = 13 \/ opc = 14 \/ opc = 15 \/ opc = 16 \/ opc = 17 \/ opc = 18 \/ opc = 19) by lia.
  destruct Hcases as [-> | [-> | [-> | [-> | [-> | [-> | ->]]]]]];
    unfold sn_src, sn_ovz; cbn [exec_op sn_kernel sn_inplace sn_keep Z.eqb Pos.eqb orb] in *.
  - unfold glwe_rsh in He. destruct (_ <=? _); [|discriminate]. repeat split; try lia.
    rewrite <- He. symmetry. apply Hself. intros; reflexivity.
  - unfold glwe_lsh_assign in He. destruct (_ <=? _); [|discriminate]. repeat split; try lia.
    rewrite <- He. symmetry. apply Hself. intros; reflexivity.
  - unfold glwe_lsh, glwe_lsh_gen in He. destruct (_ && _)%bool eqn:E; [|discriminate]. split_andb E.
    apply Nat.leb_le in E0. repeat split; [exact He | lia].
  - unfold glwe_lsh_add, glwe_lsh_gen in He. destruct (_ && _)%bool eqn:E; [|discriminate]. split_andb E.
    apply Nat.leb_le in E0. repeat split; [exact He | lia].
  - unfold glwe_lsh_sub, glwe_lsh_gen in He. destruct (_ && _)%bool eqn:E; [|discriminate]. split_andb E.
    apply Nat.leb_le in E0. repeat split; [exact He | lia].
  - unfold glwe_normalize in He. destruct (_ && _)%bool eqn:E; [|discriminate]. split_andb E.
    apply Nat.eqb_eq in E1. repeat split; try lia.
    rewrite <- He. unfold colloop. apply mapi_cols_opt_ext. intros i Hi.
    destruct (Nat.ltb_spec i (g_ncols a)); [reflexivity | lia].
  - unfold glwe_normalize_assign in He. destruct (_ <=? _); [|discriminate]. repeat split; try lia.
    rewrite <- He. symmetry. apply Hself. intros; reflexivity.
Qed.

Lemma zsum_shift f m : zsum f (S m) = f 0%nat + zsum (fun j => f (S j)) m.
Proof. induction m as [|m IH]; cbn [zsum] in *; lia. Qed.

Definition wgt (P b : Z) (j : nat) : Z := 2 ^ (P - (Z.of_nat j + 1) * b).

Lemma lval_sum P b j0 l : lval P b (Z.of_nat j0) l = zsum (fun j => nthZ l j * wgt P b (j0 + j)) (length l).
Proof.
  revert j0; induction l as [|x t IH]; intros j0; [reflexivity|].
  cbn [lval length]. rewrite zsum_shift.
  replace (Z.of_nat j0 + 1) with (Z.of_nat (S j0)) by lia. rewrite IH.
  unfold nthZ at 2. cbn [nth]. unfold wgt at 2. rewrite Nat.add_0_r. f_equal; [f_equal; f_equal; lia|].
  apply zsum_ext. intros j _. unfold nthZ. cbn [nth]. f_equal. f_equal. lia.
Qed.
Lemma val_of_sum P b l : val_of P b l = zsum (fun j => nthZ l j * wgt P b j) (length l).
Proof. unfold val_of. change 0 with (Z.of_nat 0). rewrite lval_sum. reflexivity. Qed.

Lemma zsum_lsum_swap (Fij : nat -> nat -> Z) (L : list nat) m :
  zsum (fun j => lsum (fun i => Fij i j) L) m = lsum (fun i => zsum (fun j => Fij i j) m) L.
Proof.
  induction L as [|i L IH]; cbn [lsum fold_right].
  - apply zsum_zero.
  - fold (lsum (fun i => zsum (fun j => Fij i j) m) L). rewrite <- IH. rewrite <- zsum_add. reflexivity.
Qed.
Lemma lsum_ext (f g : nat -> Z) L : (forall i, In i L -> f i = g i) -> lsum f L = lsum g L.
Proof.
  induction L as [|i L IH]; intros H; cbn [lsum fold_right]; [reflexivity|].
  fold (lsum f L) (lsum g L). rewrite IH by (intros; apply H; right; assumption).
  rewrite (H i (or_introl eq_refl)). reflexivity.
Qed.

Lemma lsum_mul_r (f : nat -> Z) c L : lsum f L * c = lsum (fun i => f i * c) L.
Proof.
  induction L as [|i L IH]; cbn [lsum fold_right]; [lia|].
  fold (lsum f L) (lsum (fun i => f i * c) L). rewrite <- IH. ring.
Qed.

Section ValPhase.
Variables (n : nat) (s : list (list Z)) (P b : Z) (g : glwe).
Hypothesis Hs : secret_ok n s.
Hypothesis Hg : wf_glwe n g.

Lemma coeff_limbs_nth (c : limbs) t j : (j < length c)%nat -> nthZ (coeff_limbs c t) j = nthZ (nth j c []) t.
Proof.
  intros Hj. unfold coeff_limbs, nthZ at 1.
  rewrite (nth_indep _ 0 ((fun l => nthZ l t) [])) by (rewrite map_length; exact Hj).
  rewrite (map_nth (fun l => nthZ l t)). reflexivity.
Qed.

(* value polynomial of column i = weighted sum of the zero-extended limbs, also for a missing column *)
Lemma valp_gl i t : (t < n)%nat ->
  nthZ (valp P b n (gcol g i)) t = zsum (fun j => nthZ (gl n g i j) t * wgt P b j) (g_size g).
Proof.
  intros Ht. destruct (Nat.lt_ge_cases i (g_ncols g)) as [Hi|Hi].
  - rewrite valp_nth by exact Ht. rewrite val_of_sum. unfold coeff_limbs at 2. rewrite map_length.
    rewrite (gcol_length n g i Hg Hi). apply zsum_ext. intros j Hj.
    rewrite coeff_limbs_nth by (rewrite (gcol_length n g i Hg Hi); exact Hj).
    rewrite gl_cl by exact Hg. rewrite cl_in by (rewrite (gcol_length n g i Hg Hi); exact Hj). reflexivity.
  - rewrite gcol_out by exact Hi. rewrite valp_nil.
    rewrite (zsum_ext _ (fun _ => 0)); [symmetry; apply zsum_zero|].
    intros j _. rewrite gl_col_out by exact Hi. rewrite nthZ_pzero. lia.
Qed.

Lemma xext_valp i m : xext (valp P b n (gcol g i)) m = zsum (fun j => xext (gl n g i j) m * wgt P b j) (g_size g).
Proof.
  destruct (Nat.eq_dec n 0) as [H0|H0].
  - rewrite xext_len0 by (rewrite valp_length; exact H0).
    rewrite (zsum_ext _ (fun _ => 0)); [symmetry; apply zsum_zero|].
    intros j _. rewrite xext_len0 by (rewrite gl_length by exact Hg; exact H0). lia.
  - destruct (exp_decomp (Z.of_nat n) m ltac:(lia)) as (q & r & Hm & Hr).
    rewrite (xext_at (valp P b n (gcol g i)) m q r) by (rewrite valp_length; lia).
    rewrite valp_gl by lia. rewrite <- zsum_mul_l. apply zsum_ext. intros j _.
    rewrite (xext_at (gl n g i j) m q r) by (rewrite gl_length by exact Hg; lia). ring.
Qed.

Lemma pmul_valp t0 i t : In t0 s -> (t < n)%nat ->
  nthZ (pmul t0 (valp P b n (gcol g i))) t = zsum (fun j => nthZ (pmul t0 (gl n g i j)) t * wgt P b j) (g_size g).
Proof.
  intros Hin Ht. pose proof (sec_len n s Hs t0 Hin) as Lt.
  rewrite pmul_nth by (rewrite ?valp_length; lia). rewrite Lt.
  rewrite (zsum_ext _ (fun u => zsum (fun j => nthZ t0 u * xext (gl n g i j) (Z.of_nat t - Z.of_nat u) * wgt P b j) (g_size g))).
  - rewrite zsum_swap. apply zsum_ext. intros j _.
    rewrite pmul_nth by (rewrite ?gl_length by exact Hg; lia). rewrite Lt. rewrite <- zsum_mul_r. reflexivity.
  - intros u _. rewrite xext_valp. rewrite <- zsum_mul_l. apply zsum_ext. intros j _. ring.
Qed.

Theorem value_of_phase t : nthZ (valp P b n (phase n s g)) t = nthZ (VP P b n s g) t.
Proof.
  destruct (Nat.lt_ge_cases t n) as [Ht|Ht].
  2:{ rewrite !nthZ_overflow; try reflexivity.
      - unfold VP. rewrite padd_length, valp_length, psum_pmul_length by exact Hs. lia.
      - rewrite valp_length. exact Ht. }
  unfold VP. rewrite nthZ_padd by (rewrite valp_length; apply psum_pmul_length; exact Hs).
  rewrite nthZ_psum_pmul by exact Hs.
  rewrite valp_nth by exact Ht. rewrite val_of_sum.
  unfold coeff_limbs at 2. rewrite map_length, phase_length.
  rewrite (zsum_ext _ (fun j => nthZ (gl n g 0 j) t * wgt P b j
                               + lsum (fun i => nthZ (pmul (nth i s []) (gl n g (S i) j)) t * wgt P b j) (seq 0 (length s)))).
  - rewrite zsum_add. rewrite valp_gl by exact Ht. f_equal.
    rewrite zsum_lsum_swap. apply lsum_ext. intros i Hi.
    rewrite pmul_valp; [reflexivity | apply nth_In; apply in_seq in Hi; lia | exact Ht].
  - intros j Hj. rewrite coeff_limbs_nth by (rewrite phase_length; exact Hj).
    unfold phase. rewrite nth_map_seq by exact Hj. unfold phase_limb.
    rewrite nthZ_padd by (rewrite gl_length by exact Hg; apply psum_pmul_length; exact Hs).
    rewrite nthZ_psum_pmul by exact Hs.
    rewrite Z.mul_add_distr_r. f_equal. apply lsum_mul_r.
Qed.

End ValPhase.

Lemma colloop_wf f ovz n res a r : wf_glwe n res -> colloop f ovz n res a = Some r -> wf_glwe n r.
Proof.
  intros (Hn & Hc & Hf) Hl. unfold colloop, mapi_cols_opt in Hl.
  destruct (sequence _) as [cs|] eqn:E; [|discriminate]. injection Hl as <-.
  destruct (sequence_some _ _ E) as [Lcs Hnth]. rewrite map_seq_length in Lcs.
  repeat split; cbn [with_cols g_n g_size g_cols].
  - exact Hn.
  - unfold g_ncols. cbn [with_cols g_cols]. rewrite Lcs. exact Hc.
  - rewrite Forall_forall. intros c Hin. destruct (In_nth cs c [] Hin) as (i & Hi & <-).
    specialize (Hnth i None [] ltac:(rewrite map_seq_length; lia)).
    rewrite nth_map_seq in Hnth by lia.
    assert (Hwc : wf_col n (g_size res) (gcol res i)).
    { rewrite Forall_forall in Hf. apply (Hf (gcol res i)). apply nth_In. unfold g_ncols in Lcs. lia. }
    destruct (Nat.ltb i (g_ncols a)).
    + unfold col_coeff in Hnth.
      destruct (lift_coeff_some _ _ _ _ _ _ Hnth) as (cs' & Lcs' & -> & _).
      rewrite (proj1 Hwc). split.
      * unfold untranspose. apply map_seq_length.
      * rewrite Forall_forall. intros l Hl. unfold untranspose in Hl. apply in_map_iff in Hl.
        destruct Hl as (j & <- & _). rewrite map_length. exact Lcs'.
    + injection Hnth as <-. destruct ovz; [|exact Hwc]. split.
      * unfold vec_zero. rewrite map_length. apply Hwc.
      * rewrite Forall_forall. intros l Hl. unfold vec_zero in Hl. apply in_map_iff in Hl.
        destruct Hl as (x & <- & _). apply zeros_length.
Qed.

Theorem exec_op_phase_value_limbs n s opc scr k res a b r P u guard :
  13 <= opc <= 19 -> 0 <= u ->
  column_value_stmt (g_b res) (g_b (sn_src opc res a)) (sn_off opc k) (sn_keep opc) (sn_sgn opc) P u
                    (sn_kernel opc (g_b res) (g_b a) k) guard ->
  secret_ok n s -> wf_glwe n res -> wf_glwe n a ->
  (forall i t, (i < g_ncols (sn_src opc res a))%nat -> (t < n)%nat ->
     guard (coeff_limbs (gcol (sn_src opc res a) i) t) (coeff_limbs (gcol res i) t)) ->
  exec_op opc n scr k res a b = Some r ->
  wf_glwe n r /\
  forall t, exists E M,
    nthZ (valp P (g_b res) n (phase n s r)) t =
      sn_keep opc * nthZ (valp P (g_b res) n (phase n s res)) t +
      sn_sgn opc * nthZ (valp (P + sn_off opc k) (g_b (sn_src opc res a)) n (phase n s (sn_src opc res a))) t +
      E + M * 2 ^ P /\
    Z.abs E <= err_bound u s (g_ncols (sn_src opc res a)).
Proof.
  intros Ho Hu Hcv Hs Hres Ha Hg He.
  destruct (exec_op_colloop n opc scr k res a b r Ho Hres Ha He) as (Hl & Hc & Hk).
  pose proof (colloop_wf _ _ n res _ r Hres Hl) as Wr.
  assert (Wsrc : wf_glwe n (sn_src opc res a)) by (unfold sn_src; destruct (sn_inplace opc); assumption).
  split; [exact Wr|]. intros t. rewrite !value_of_phase by assumption.
  exact (colloop_phase_value n (g_b res) (g_b (sn_src opc res a)) (sn_off opc k) (sn_keep opc) (sn_sgn opc) P u (sn_ovz opc) _ guard
           Hu Hcv s Hs res (sn_src opc res a) r Hres Wsrc Hc Hk Hg Hl t).
Qed.

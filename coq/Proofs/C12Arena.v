(* C12 - facts about the arena machine and the interpreter of take trees (independent of any operation). *)
From PV Require Import Base.MachineInt Model.C12Scratch.
Open Scope Z_scope.

Lemma pad_range (off : Z) : 0 <= pad_of off < 64.
Proof. unfold pad_of, ALIGN. lia. Qed.

Lemma pad_aligned (off : Z) : off mod 64 = 0 -> pad_of off = 0.
Proof. unfold pad_of, ALIGN. lia. Qed.

Lemma pad_makes_aligned (off : Z) : (off + pad_of off) mod 64 = 0.
Proof. unfold pad_of, ALIGN. lia. Qed.

Lemma take_some (k off len : Z) (w : window) (r : arena) :
  take k (off, len) = Some (w, r) ->
  k <= avail (off, len) /\ w = (off + pad_of off, k) /\ r = (off + pad_of off + k, avail (off, len) - k).
Proof.
  unfold take; cbn [fst snd]. destruct (Z.leb_spec k (avail (off, len))) as [Hle|Hgt]; intros H; inversion H; auto.
Qed.

(* every window returned lies inside the parent slice, is 64-byte aligned, and is disjoint from the remainder,
   which itself stays inside the parent *)
Lemma take_in_window (k off len : Z) (w : window) (r : arena) :
  0 <= k -> take k (off, len) = Some (w, r) ->
  snd w = k /\ fst w mod 64 = 0 /\ fst r = fst w + snd w /\ 0 <= snd r /\
  (0 < k -> off <= fst w /\ fst w + snd w <= off + len) /\
  (0 < snd r -> off <= fst r /\ fst r + snd r <= off + len).
Proof.
  intros Hk H. apply take_some in H. destruct H as (Hle & -> & ->). cbn [fst snd].
  pose proof (pad_range off) as Hp. pose proof (pad_makes_aligned off) as Ha.
  unfold avail in *; cbn [fst snd] in *. repeat split; try lia.
Qed.

(* the one irregular case of the real allocator: a zero-length take on a slice shorter than its padding
   succeeds and returns an (empty) window that starts beyond the end of the slice *)
Lemma take_zero_outside_refuted :
  exists off len w r, take 0 (off, len) = Some (w, r) /\ off + len < fst w.
Proof. exists 1, 10, (64, 0), (64, 0). split; [vm_compute; reflexivity | cbn; lia]. Qed.

Lemma avail_mono (off len len' : Z) : len <= len' -> avail (off, len) <= avail (off, len').
Proof. unfold avail; cbn [fst snd]; lia. Qed.

(* monotonicity in the length: what fits in len fits in any len' >= len, with the same windows *)

Lemma iter_scoped_mono (f g : arena -> option (list window * arena)) (n : nat) (s s' : arena) (ws : list window) :
  (forall w r, f s = Some (w, r) -> exists r', g s' = Some (w, r')) ->
  iter_scoped f n s = Some ws -> iter_scoped g n s' = Some ws.
Proof.
  intros Hfg. revert ws. induction n as [|n IH]; intros ws; cbn [iter_scoped]; auto.
  destruct (f s) as [[w r]|] eqn:Ef; [|discriminate].
  destruct (Hfg w r eq_refl) as (r' & ->).
  destruct (iter_scoped f n s) as [ws0|] eqn:Ei; [|discriminate].
  rewrite (IH ws0 eq_refl). auto.
Qed.

Lemma run_mono (t : tree) : forall off len len' ws off2 len2,
  run_tree t (off, len) = Some (ws, (off2, len2)) -> len <= len' ->
  exists len2', len2 <= len2' /\ run_tree t (off, len') = Some (ws, (off2, len2')).
Proof.
  induction t as [|k|k|a IHa b IHb|a IHa|n a IHa|a IHa b IHb]; intros off len len' ws off2 len2 H Hle; cbn [run_tree] in *.
  - injection H as <- <- <-. exists len'; auto.
  - destruct (take k (off, len)) as [[w r]|] eqn:Et; [|discriminate].
    apply take_some in Et. destruct Et as (Hk & Hw & Hr). subst w r. injection H as <- <- <-.
    pose proof (avail_mono off len len' Hle) as Hav.
    exists (avail (off, len') - k). split; [lia|].
    unfold take; cbn [fst snd]. destruct (Z.leb_spec k (avail (off, len'))); [reflexivity|lia].
  - destruct (Z.leb_spec k (avail (off, len))) as [Hk|]; [|discriminate]. injection H as <- <- <-.
    pose proof (avail_mono off len len' Hle). exists len'. split; [lia|].
    destruct (Z.leb_spec k (avail (off, len'))); [reflexivity|lia].
  - destruct (run_tree a (off, len)) as [[wa [o1 l1]]|] eqn:Ea; [|discriminate].
    destruct (run_tree b (o1, l1)) as [[wb [o2 l2]]|] eqn:Eb; [|discriminate].
    injection H as <- <- <-.
    destruct (IHa _ _ len' _ _ _ Ea Hle) as (l1' & Hl1 & ->).
    destruct (IHb _ _ l1' _ _ _ Eb Hl1) as (l2' & Hl2 & ->).
    exists l2'; auto.
  - destruct (run_tree a (off, len)) as [[wa [o1 l1]]|] eqn:Ea; [|discriminate].
    injection H as <- <- <-.
    destruct (IHa _ _ len' _ _ _ Ea Hle) as (l1' & _ & ->). exists len'; split; [lia|reflexivity].
  - destruct (iter_scoped (run_tree a) n (off, len)) as [ws0|] eqn:Ei; [|discriminate].
    injection H as <- <- <-.
    assert (Hstep : forall w r, run_tree a (off, len) = Some (w, r) -> exists r', run_tree a (off, len') = Some (w, r')).
    { intros w [o1 l1] Hr. destruct (IHa _ _ len' _ _ _ Hr Hle) as (l1' & _ & ->). eauto. }
    rewrite (iter_scoped_mono (run_tree a) (run_tree a) n (off, len) (off, len') ws0 Hstep Ei).
    exists len'; split; [lia|reflexivity].
  - destruct (run_tree a (off, len)) as [[wa [o1 l1]]|] eqn:Ea; [|discriminate].
    destruct (run_tree b (off, len)) as [[wb [o2 l2]]|] eqn:Eb; [|discriminate].
    injection H as <- <- <-.
    destruct (IHa _ _ len' _ _ _ Ea Hle) as (l1' & _ & ->).
    destruct (IHb _ _ len' _ _ _ Eb Hle) as (l2' & _ & ->).
    exists len'; split; [lia|reflexivity].
Qed.

(* if a run succeeds with len it succeeds with any len' >= len (same windows, same peak): the maximum of the
   declared sizes of a set of operations serves every one of them *)
Lemma max_serves_all (t : tree) (off len len' : Z) :
  len <= len' -> run_takes t (off, len) <> None -> run_takes t (off, len') = run_takes t (off, len).
Proof.
  intros Hle. unfold run_takes.
  destruct (run_tree t (off, len)) as [[ws [o2 l2]]|] eqn:E; [|congruence]. intros _.
  destruct (run_mono t _ _ len' _ _ _ E Hle) as (l2' & _ & ->). reflexivity.
Qed.

(* fail_kind = 0 exactly when the run succeeds *)

Lemma iter_scoped_none (f : arena -> option (list window * arena)) (n : nat) (s : arena) :
  f s = None -> iter_scoped f (S n) s = None.
Proof. intros H; cbn [iter_scoped]; rewrite H; reflexivity. Qed.

Lemma iter_scoped_some (f : arena -> option (list window * arena)) (n : nat) (s : arena) w r :
  f s = Some (w, r) -> exists ws, iter_scoped f n s = Some ws.
Proof.
  intros H. induction n as [|n [ws IH]]; cbn [iter_scoped]; [eauto|]. rewrite H, IH. eauto.
Qed.

Lemma fail_kind_spec (t : tree) : forall s, fail_kind t s = 0 <-> run_tree t s <> None.
Proof.
  induction t as [|k|k|a IHa b IHb|a IHa|n a IHa|a IHa b IHb]; intros s; cbn [fail_kind run_tree].
  - split; congruence.
  - destruct (take k s) as [[w r]|]; split; congruence.
  - destruct (k <=? avail s); split; congruence.
  - destruct (run_tree a s) as [[wa s1]|] eqn:Ea.
    + rewrite IHb. destruct (run_tree b s1) as [[wb s2]|]; split; congruence.
    + rewrite IHa, Ea. split; congruence.
  - rewrite IHa. destruct (run_tree a s) as [[wa s1]|]; split; congruence.
  - destruct n as [|n]; [cbn; split; congruence|].
    rewrite IHa. destruct (run_tree a s) as [[wa s1]|] eqn:Ea.
    + destruct (iter_scoped_some (run_tree a) (S n) s wa s1 Ea) as (ws & ->). split; congruence.
    + rewrite (iter_scoped_none _ n s Ea). split; congruence.
  - destruct (Z.eqb_spec (fail_kind a s) 0) as [E0|E0].
    + rewrite IHb. apply IHa in E0. destruct (run_tree a s) as [[wa s1]|]; [|congruence].
      destruct (run_tree b s) as [[wb s2]|]; split; congruence.
    + split; [congruence|]. intros H. exfalso. apply E0, IHa. destruct (run_tree a s); congruence.
Qed.

Lemma fail_kind_run_takes (t : tree) (s : arena) : fail_kind t s = 0 <-> run_takes t s <> None.
Proof.
  rewrite fail_kind_spec. unfold run_takes. destruct (run_tree t s) as [[ws r]|]; split; congruence.
Qed.

(* closed form for trees whose takes are all multiples of 64, on a 64-aligned arena *)

Lemma aligned_persist (t : tree) : aligned_tree t -> 0 <= persist t /\ persist t mod 64 = 0 /\ persist t <= demand t.
Proof.
  induction t as [|k|k|a IHa b IHb|a IHa|n a IHa|a IHa b IHb]; cbn [aligned_tree persist demand]; unfold ALIGN; intros H.
  - lia.
  - lia.
  - lia.
  - destruct H as [Ha Hb]. specialize (IHa Ha). specialize (IHb Hb). lia.
  - specialize (IHa H). lia.
  - specialize (IHa H). destruct n; lia.
  - destruct H as [Ha Hb]. specialize (IHa Ha). specialize (IHb Hb). lia.
Qed.

Lemma some_arena_eq (ws : list window) (o l o' l' : Z) :
  o = o' -> l = l' -> Some (ws, (o, l)) = Some (ws, (o', l')).
Proof. intros -> ->; reflexivity. Qed.

Lemma take_aligned (k off len : Z) : off mod 64 = 0 -> 0 <= len ->
  take k (off, len) = if k <=? len then Some ((off, k), (off + k, len - k)) else None.
Proof.
  intros Ho Hl. unfold take, avail; cbn [fst snd]. rewrite (pad_aligned off Ho).
  replace (Z.max 0 (len - 0)) with len by lia. replace (off + 0) with off by lia. reflexivity.
Qed.

Lemma run_aligned (t : tree) : forall off len, aligned_tree t -> off mod 64 = 0 -> 0 <= len ->
  (demand t <= len -> exists ws, run_tree t (off, len) = Some (ws, (off + persist t, len - persist t))) /\
  (len < demand t -> run_tree t (off, len) = None).
Proof.
  induction t as [|k|k|a IHa b IHb|a IHa|n a IHa|a IHa b IHb]; intros off len Hal Ho Hl;
    cbn [aligned_tree persist demand run_tree] in *; unfold ALIGN in *.
  - split; [intros _; exists []; apply some_arena_eq; lia | lia].
  - rewrite take_aligned by assumption. destruct (Z.leb_spec k len); split; intros; try lia; eauto.
  - unfold avail; cbn [fst snd]. rewrite (pad_aligned off Ho).
    destruct (Z.leb_spec k (Z.max 0 (len - 0))); split; intros; try lia; [|reflexivity].
    exists []. apply some_arena_eq; lia.
  - destruct Hal as [Ha Hb].
    pose proof (aligned_persist a Ha) as (Hpa0 & Hpam & Hpad).
    destruct (IHa off len Ha Ho Hl) as [IHa1 IHa2].
    split.
    + intros Hd. destruct (IHa1 ltac:(lia)) as (wa & ->).
      destruct (IHb (off + persist a) (len - persist a) Hb ltac:(lia) ltac:(lia)) as [IHb1 _].
      destruct (IHb1 ltac:(lia)) as (wb & ->). exists (wa ++ wb). apply some_arena_eq; lia.
    + intros Hd. destruct (Z_lt_le_dec len (demand a)) as [Hlt|Hge].
      * rewrite (IHa2 Hlt). reflexivity.
      * destruct (IHa1 Hge) as (wa & ->).
        destruct (IHb (off + persist a) (len - persist a) Hb ltac:(lia) ltac:(lia)) as [_ IHb2].
        rewrite (IHb2 ltac:(lia)). reflexivity.
  - destruct (IHa off len Hal Ho Hl) as [IHa1 IHa2]. split; intros Hd.
    + destruct (IHa1 Hd) as (wa & ->). exists wa. apply some_arena_eq; lia.
    + rewrite (IHa2 Hd). reflexivity.
  - destruct (IHa off len Hal Ho Hl) as [IHa1 IHa2]. destruct n as [|n].
    + split; [intros _; exists []; cbn; apply some_arena_eq; lia | lia].
    + split; intros Hd.
      * destruct (IHa1 Hd) as (wa & Ea).
        destruct (iter_scoped_some (run_tree a) (S n) (off, len) _ _ Ea) as (ws & ->).
        exists ws. apply some_arena_eq; lia.
      * rewrite (iter_scoped_none _ n (off, len) (IHa2 Hd)). reflexivity.
  - destruct Hal as [Ha Hb].
    destruct (IHa off len Ha Ho Hl) as [IHa1 IHa2]. destruct (IHb off len Hb Ho Hl) as [IHb1 IHb2].
    split; intros Hd.
    + destruct (IHa1 ltac:(lia)) as (wa & ->). destruct (IHb1 ltac:(lia)) as (wb & ->).
      exists (wa ++ wb). apply some_arena_eq; lia.
    + destruct (Z_lt_le_dec len (demand a)) as [Hlt|Hge].
      * rewrite (IHa2 Hlt). reflexivity.
      * destruct (IHa1 Hge) as (wa & ->). rewrite (IHb2 ltac:(lia)). reflexivity.
Qed.

(* on an aligned arena of b bytes an aligned tree runs iff its demand is at most b *)
Lemma aligned_suffices (t : tree) (b : Z) :
  aligned_tree t -> demand t <= b -> run_takes t (0, b) <> None.
Proof.
  intros Hal Hd. pose proof (aligned_persist t Hal) as (H0 & _ & Hp).
  destruct (run_aligned t 0 b Hal eq_refl ltac:(lia)) as [H1 _].
  destruct (H1 Hd) as (ws & E). unfold run_takes. rewrite E. congruence.
Qed.

Lemma aligned_too_small (t : tree) (b : Z) :
  aligned_tree t -> 0 <= b < demand t -> run_takes t (0, b) = None.
Proof.
  intros Hal Hb. destruct (run_aligned t 0 b Hal eq_refl ltac:(lia)) as [_ H2].
  unfold run_takes. rewrite (H2 ltac:(lia)). reflexivity.
Qed.

(* budget t b: every take and assertion of t finds its bytes when t starts on an aligned arena of b bytes; what
   reaches a subtree is b less the takes still alive before it.  One linear condition per leaf, where
   demand t <= b carries a maximum per node. *)
Fixpoint budget (t : tree) (b : Z) : Prop :=
  match t with
  | Nop => 0 <= b
  | Take k => 0 <= k <= b /\ k mod 64 = 0
  | Need k => 0 <= k <= b
  | Seq a c => budget a b /\ budget c (b - persist a)
  | Scoped a => budget a b
  | Loop _ a => budget a b
  | Branch a c => budget a b /\ budget c b
  end.

Lemma budget_demand (t : tree) : forall b, budget t b -> aligned_tree t /\ demand t <= b /\ 0 <= b.
Proof.
  induction t as [|k|k|a IHa c IHc|a IHa|n a IHa|a IHa c IHc]; intros b H; cbn [budget aligned_tree demand] in *; unfold ALIGN.
  - lia.
  - lia.
  - lia.
  - destruct H as [Ha Hc]. specialize (IHa _ Ha). specialize (IHc _ Hc). intuition lia.
  - exact (IHa _ H).
  - specialize (IHa _ H). destruct n; intuition lia.
  - destruct H as [Ha Hc]. specialize (IHa _ Ha). specialize (IHc _ Hc). intuition lia.
Qed.

Lemma budget_nonneg (t : tree) (b : Z) : budget t b -> 0 <= b.
Proof. intros H. apply (budget_demand t b H). Qed.

Lemma budget_mono (t : tree) : forall b b', budget t b -> b <= b' -> budget t b'.
Proof.
  induction t as [|k|k|a IHa c IHc|a IHa|n a IHa|a IHa c IHc]; intros b b' H Hle; cbn [budget] in *; try lia; eauto.
  - destruct H as [Ha Hc]. split; [eauto | apply (IHc (b - persist a)); [exact Hc | lia]].
  - destruct H as [Ha Hc]. eauto.
Qed.

Lemma budget_suffices (t : tree) (b : Z) : budget t b -> run_takes t (0, b) <> None.
Proof. intros H. destruct (budget_demand t b H) as (A & D & _). apply aligned_suffices; assumption. Qed.

(* a budget unfolded by cbn [budget persist] is a conjunction with one condition per take or assertion and one budget
   per callee: the former are arithmetic, the latter are left (only written conjunctions are split, so that a callee's
   tree stays folded).  A leaf `k mod 64 = 0` is closed by the hypothesis of that form (from al_vec_znx, al_dft, al_svp ..
   for the container k); a leaf `0 <= k <= F - (takes alive)` by lia from the non-negativity facts and the unfolded declared
   size F, without the divisibility hypotheses (lia is much quicker without them).  What is left is one goal
   `budget callee (F - ..)` per callee; the proofs close it by `eapply budget_mono; [eassumption | lia]`: eassumption finds the
   one hypothesis `budget callee F'` about that callee's tree (posed beforehand from its *_spec / budget_* lemma), lia checks
   F' against what is left. *)
Ltac leaves :=
  repeat match goal with H : _ /\ _ |- _ => destruct H end;
  repeat match goal with |- _ /\ _ => split end;
  try assumption;
  try (repeat match goal with H : _ mod _ = _ |- _ => clear H end; lia).

(* n successive takes of len bytes that all stay alive (take_*_slice, split_mut) *)
Lemma persist_rep (k : nat) (a : tree) : persist (rep k a) = Z.of_nat k * persist a.
Proof. induction k as [|k IH]; cbn [rep persist]; lia. Qed.

Lemma budget_rep_take (k : nat) (len : Z) : 0 <= len -> len mod 64 = 0 ->
  forall b, Z.of_nat k * len <= b -> budget (rep k (Take len)) b.
Proof.
  intros Hl Hm. induction k as [|k IH]; intros b Hb; cbn [rep budget persist]; [lia|].
  split; [nia | apply IH; lia].
Qed.

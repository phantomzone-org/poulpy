(* C10: the SIMD loop skeleton (span = n >> 2 chunks of 4 lanes + scalar tail) computes exactly the map of the
   scalar kernel over the whole slice: nothing skipped, nothing processed twice, for every length. *)
From PV Require Import Base.MachineInt Model.Znx Model.C10AvxLanes.
Open Scope Z_scope.

Lemma shiftr2_div4 (n : nat) : Nat.shiftr n 2 = (n / 4)%nat.
Proof. rewrite Nat.shiftr_div_pow2. reflexivity. Qed.
Lemma shiftl2_mul4 (n : nat) : Nat.shiftl n 2 = (4 * n)%nat.
Proof. rewrite Nat.shiftl_mul_pow2. change (2 ^ 2)%nat with 4%nat. lia. Qed.

Section Simd.
Context {A B : Type}.

Lemma simd_main_firstn (lane_f scalar_f : A -> B) :
  (forall x, lane_f x = scalar_f x) ->
  forall (span : nat) (l : list A), (4 * span <= length l)%nat ->
  simd_main lane_f span l = map scalar_f (firstn (4 * span) l).
Proof.
  intros Heq. induction span as [|s IH]; intros l Hl.
  - reflexivity.
  - replace (4 * S s)%nat with (S (S (S (S (4 * s))))) in * by lia.
    destruct l as [|a0 [|a1 [|a2 [|a3 r]]]]; cbn [length] in Hl; try lia.
    cbn [simd_main firstn map]. rewrite !Heq. rewrite IH by lia. reflexivity.
Qed.

(* the index set [0,n) is split into 4*[0,span) and the tail, nothing lost, nothing twice *)
Lemma simd_loop_split (l : list A) :
  let n := length l in let span := Nat.shiftr n 2 in
  l = firstn (4 * span) l ++ skipn (Nat.shiftl span 2) l /\
  length (firstn (4 * span) l) = (4 * span)%nat /\
  length (skipn (Nat.shiftl span 2) l) = (n mod 4)%nat /\
  (n mod 4 < 4)%nat /\ (4 * span + n mod 4 = n)%nat.
Proof.
  cbv zeta. rewrite shiftr2_div4, shiftl2_mul4.
  pose proof (Nat.div_mod (length l) 4 ltac:(lia)) as Hdm.
  pose proof (Nat.mod_upper_bound (length l) 4 ltac:(lia)) as Hm.
  set (q := (length l / 4)%nat) in *. set (r := (length l mod 4)%nat) in *.
  repeat split.
  - symmetry; apply firstn_skipn.
  - apply firstn_length_le; lia.
  - rewrite skipn_length. lia.
  - exact Hm.
  - lia.
Qed.

Theorem simd_loop_partition (lane_f scalar_f : A -> B) (l : list A) :
  (forall x, lane_f x = scalar_f x) ->
  simd_map lane_f scalar_f l = map scalar_f l.
Proof.
  intros Heq. unfold simd_map.
  destruct (simd_loop_split l) as (Hsplit & Hlen1 & Hlen2 & Hm & Hsum). cbv zeta in *.
  set (span := Nat.shiftr (length l) 2) in *.
  rewrite (simd_main_firstn lane_f scalar_f Heq) by lia.
  destruct (Nat.eqb_spec (length l mod 4) 0) as [Hz|Hnz].
  - rewrite app_nil_r. rewrite firstn_all2 by lia. reflexivity.
  - rewrite <- map_app. rewrite <- Hsplit. reflexivity.
Qed.

Lemma simd_map_length (lane_f scalar_f : A -> B) (l : list A) :
  (forall x, lane_f x = scalar_f x) -> length (simd_map lane_f scalar_f l) = length l.
Proof. intros Heq. rewrite simd_loop_partition by exact Heq. apply map_length. Qed.
End Simd.

(* the lane function is only applied to slice elements: pointwise equality on the elements suffices *)
Lemma simd_loop_partition_in {A B : Type} (lane_f scalar_f : A -> B) (l : list A) :
  (forall x, In x l -> lane_f x = scalar_f x) -> simd_map lane_f scalar_f l = map scalar_f l.
Proof.
  intros Heq.
  assert (H1 : simd_map lane_f scalar_f l = simd_map scalar_f scalar_f l).
  { unfold simd_map. f_equal.
    generalize (Nat.shiftr (length l) 2) as span. intros span. revert l Heq.
    induction span as [|s IH]; intros l Heq; [reflexivity|].
    destruct l as [|a0 [|a1 [|a2 [|a3 r]]]]; try reflexivity.
    cbn [simd_main]. rewrite !Heq by (cbn [In]; auto 6).
    rewrite IH; [reflexivity|]. intros x Hx. apply Heq. cbn [In]. auto 6. }
  rewrite H1. apply simd_loop_partition. reflexivity.
Qed.

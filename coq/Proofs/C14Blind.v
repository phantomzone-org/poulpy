(* C14: the CGGI accumulator loops rotate the table by X^(b + sum a_i s_i). *)
From PV Require Import Base.MachineInt Model.Znx Model.Limbs Model.Ring Model.C14Lut Model.C14Blind.
From PV Require Import Model.Poly Model.C14Spec.
From PV Require Import Proofs.C09Lists Proofs.C09Ring Proofs.C14Rotate Proofs.C14Poly Proofs.C14Approx.
Open Scope Z_scope.

(* the executable standard loop of Model/C14Blind.v *)
Fixpoint dotp (l : list (Z * Z)) : Z := match l with [] => 0 | q :: t => fst q * snd q + dotp t end.
Definition binaryl (l : list (Z * Z)) : Prop := Forall (fun q => snd q = 0 \/ snd q = 1) l.

Lemma cggi_step_rot s a acc : s = 0 \/ s = 1 -> cggi_step s a acc = zrot (a * s) acc.
Proof.
  intros [->| ->]; unfold cggi_step.
  - cbn [Z.eqb]. rewrite Z.mul_0_r, zrot_0. reflexivity.
  - cbn [Z.eqb]. rewrite pscale_1, Z.mul_1_r. pext (length acc). lia.
Qed.

Inductive at_most_one : list (Z * Z) -> Prop :=
| amo_nil : at_most_one []
| amo_zero a t : at_most_one t -> at_most_one ((a, 0) :: t)
| amo_one a t : Forall (fun q => snd q = 0) t -> at_most_one ((a, 1) :: t).

Lemma dotp_zero (t : list (Z * Z)) : Forall (fun q => snd q = 0) t -> dotp t = 0.
Proof. induction 1 as [|q t Hq _ IH]; cbn [dotp]; [reflexivity|]. rewrite Hq, IH. lia. Qed.

Lemma padd_psub_cancel (a b : poly) : length a = length b -> padd a (psub b a) = b.
Proof. intros H. pext (length b). lia. Qed.
Lemma padd_zeros n (a : poly) : length a = n -> padd a (zeros n) = a.
Proof. intros H. pext n. lia. Qed.

(* the terms of the coefficients that are not selected add nothing *)
Lemma fold_padd_zero_terms (n : nat) (two_n : Z) (acc : poly) (t : list (Z * Z)) (y : poly) :
  Forall (fun q => snd q = 0) t -> length y = n ->
  fold_left padd (map (fun q : Z * Z => if snd q =? 0 then zeros n else xp_minus_one ((fst q + two_n) mod two_n) (pscale (snd q) acc)) t) y = y.
Proof.
  intros Ht Hy. induction Ht as [|q t Hq _ IH]; cbn [map fold_left]; [reflexivity|].
  rewrite Hq. cbn [Z.eqb]. rewrite padd_zeros by exact Hy. exact IH.
Qed.

Lemma cggi_block_step_rot (n : nat) (blk : list (Z * Z)) (acc : poly) :
  (0 < n)%nat -> length acc = n -> at_most_one blk ->
  cggi_block_step n blk acc = zrot (dotp blk) acc.
Proof.
  intros Hn Ha Hamo. unfold cggi_block_step, psum. cbv zeta.
  set (two_n := 2 * Z.of_nat n).
  induction Hamo as [|a t Ht IH|a t Ht]; cbn [map fold_left dotp fst snd Z.eqb].
  - rewrite zrot_0. apply padd_zeros. exact Ha.
  - rewrite (padd_zeros n (zeros n)) by apply zeros_length. rewrite Z.mul_0_r, Z.add_0_l. exact IH.
  - rewrite fold_padd_zero_terms by (try exact Ht; zlen n).
    rewrite (dotp_zero t Ht), pscale_1. unfold xp_minus_one.
    rewrite (zrot_congr ((a + two_n) mod two_n) (a * 1 + 0) acc).
    + pext n. lia.
    + rewrite Ha. fold two_n. rewrite Z.mod_mod by (unfold two_n; lia).
      replace (a + two_n) with (a * 1 + 0 + 1 * two_n) by ring. apply Z.mod_add. unfold two_n; lia.
Qed.

Lemma dotp_app l1 l2 : dotp (l1 ++ l2) = dotp l1 + dotp l2.
Proof. induction l1 as [|q t IH]; cbn [app dotp]; [lia|]. rewrite IH. lia. Qed.

(* when the block size divides the number of coefficients, the chunks cover every coefficient *)
Lemma chunks_exact_concat {A} (fuel bs : nat) (l : list A) (k : nat) :
  (0 < bs)%nat -> length l = (k * bs)%nat -> (k <= fuel)%nat -> concat (chunks_exact fuel bs l) = l.
Proof.
  intros Hbs. revert l k. induction fuel as [|f IH]; intros l k Hl Hk.
  - assert (k = 0%nat) by lia. subst. destruct l; [reflexivity|discriminate].
  - cbn [chunks_exact]. destruct k as [|k].
    + destruct l; [|discriminate]. cbn [length]. destruct (Nat.leb_spec bs 0); [lia|reflexivity].
    + destruct (Nat.leb_spec bs (length l)); [|nia].
      cbn [concat]. rewrite (IH (skipn bs l) k) by (rewrite ?skipn_length; nia).
      apply firstn_skipn.
Qed.
Lemma chunks_concat {A} (bs : nat) (l : list A) (k : nat) :
  (0 < bs)%nat -> length l = (k * bs)%nat -> concat (chunks bs l) = l.
Proof. intros Hbs Hl. unfold chunks. apply (chunks_exact_concat _ bs l k); auto. nia. Qed.

(* what one selected coefficient should do to the ext components: the big-ring product Y^a * acc, Y^ext = X *)
Definition ext_rot (n : nat) (a : Z) (acc : list poly) : list poly :=
  let e := Z.of_nat (length acc) in
  let t := 2 * Z.of_nat n * e in
  let a_pos := (a + t) mod t in
  let a_hi := a_pos / e in let a_lo := a_pos mod e in
  map (fun i : nat =>
         if Z.of_nat i <? a_lo then zrot (a_hi + 1) (pnth acc (Z.to_nat (e - a_lo) + i))
         else zrot a_hi (pnth acc (i - Z.to_nat a_lo)))
      (seq 0 (length acc)).

Definition shaped (n : nat) (acc : list poly) : Prop := Forall (fun p : poly => length p = n) acc.

Lemma shaped_nth n acc j : shaped n acc -> (j < length acc)%nat -> length (pnth acc j) = n.
Proof. intros H Hj. unfold shaped in H. rewrite Forall_forall in H. apply H. unfold pnth. apply nth_In. auto. Qed.

Lemma ext_rot_length n a acc : length (ext_rot n a acc) = length acc.
Proof. unfold ext_rot. cbv zeta. apply map_seq_length. Qed.

(* component i of ext_rot is X^p times component j, where i - a = j - p * ext up to a multiple of 2N * ext *)
Lemma ext_rot_nth n a acc i : (0 < n)%nat -> (i < length acc)%nat ->
  exists (j : nat) (p q : Z), (j < length acc)%nat /\
    Z.of_nat i - a = Z.of_nat j - p * Z.of_nat (length acc) + q * (2 * Z.of_nat n * Z.of_nat (length acc)) /\
    nth i (ext_rot n a acc) [] = zrot p (pnth acc j).
Proof.
  intros Hn Hi. unfold ext_rot. cbv zeta. rewrite nth_map_seq by exact Hi.
  set (E := Z.of_nat (length acc)). set (T := 2 * Z.of_nat n * E).
  assert (HE : 0 < E) by (unfold E; lia).
  pose proof (Z.mod_eq (a + T) T ltac:(unfold T; nia)) as Hpos.
  set (a_pos := (a + T) mod T) in *.
  pose proof (Z.div_mod a_pos E ltac:(lia)) as Hsp. pose proof (Z.mod_pos_bound a_pos E HE) as Hlo.
  set (a_hi := a_pos / E) in *. set (a_lo := a_pos mod E) in *.
  revert Hpos. generalize ((a + T) / T). intros d Hpos. clearbody a_hi a_lo a_pos T.
  destruct (Z.ltb_spec (Z.of_nat i) a_lo).
  - exists (Z.to_nat (E - a_lo) + i)%nat, (a_hi + 1), (1 - d). repeat split; unfold E in *; lia.
  - exists (i - Z.to_nat a_lo)%nat, a_hi, (1 - d). repeat split; unfold E in *; lia.
Qed.

Lemma ext_rot_shaped n a acc : (0 < n)%nat -> shaped n acc -> shaped n (ext_rot n a acc).
Proof.
  intros Hn Hs. apply Forall_forall. intros p Hp.
  destruct (In_nth _ _ [] Hp) as [i [Hi <-]]. rewrite ext_rot_length in Hi.
  destruct (ext_rot_nth n a acc i Hn Hi) as (j & r & q & Hj & _ & Hr).
  unfold poly in *. rewrite Hr, zrot_length. apply shaped_nth; auto.
Qed.

Lemma map2_padd_seq (acc : list poly) (g : nat -> poly) :
  map2 padd acc (map g (seq 0 (length acc))) = map (fun i => padd (pnth acc i) (g i)) (seq 0 (length acc)).
Proof.
  assert (HL : length (map2 padd acc (map g (seq 0 (length acc)))) = length acc).
  { unfold map2. rewrite map_length, combine_length, map_length, seq_length. lia. }
  apply (nth_ext _ _ [] []).
  - transitivity (length acc); [exact HL | rewrite map_length, seq_length; reflexivity].
  - intros i Hi0. assert (Hi : (i < length acc)%nat) by (rewrite <- HL; exact Hi0).
    rewrite nth_map_seq by auto. unfold map2.
    set (h := fun p : poly * poly => padd (fst p) (snd p)).
    rewrite (nth_indep _ [] (h ([], []))) by (rewrite map_length, combine_length, map_length, seq_length; lia).
    rewrite (map_nth h). rewrite combine_nth by (rewrite map_length, seq_length; reflexivity).
    rewrite nth_map_seq by auto. reflexivity.
Qed.

Lemma map_pscale_1 (l : list poly) : map (pscale 1) l = l.
Proof. rewrite <- (map_id l) at 2. apply map_ext, pscale_1. Qed.

(* one selected coefficient (s = 1): the code adds exactly (Y^a - 1) * acc, for EVERY a *)
Theorem ext_step_is_rotation (n : nat) (a : Z) (acc : list poly) :
  (0 < n)%nat -> (0 < length acc)%nat -> shaped n acc ->
  map2 padd acc (ext_contrib n a 1 acc) = ext_rot n a acc.
Proof.
  intros Hn He Hacc. unfold ext_contrib, ext_rot. cbv zeta.
  rewrite map_pscale_1.
  rewrite map2_padd_seq. apply map_seq_ext. intros i Hi.
  set (e := Z.of_nat (length acc)).
  set (a_pos := (a + 2 * Z.of_nat n * e) mod (2 * Z.of_nat n * e)).
  assert (Hlo : 0 <= a_pos mod e < e) by (apply Z.mod_pos_bound; unfold e; lia).
  pose proof (shaped_nth n acc i Hacc Hi) as Hli.
  destruct (Z.eqb_spec (a_pos mod e) 0) as [Hz|Hnz].
  - rewrite Hz. destruct (Z.ltb_spec (Z.of_nat i) 0); [lia|].
    replace (i - Z.to_nat 0)%nat with i by lia.
    destruct (Z.eqb_spec (a_pos / e) 0) as [->|_].
    + rewrite zrot_0. apply padd_zeros. exact Hli.
    + apply padd_psub_cancel. rewrite zrot_length. reflexivity.
  - destruct (Z.ltb_spec (Z.of_nat i) (a_pos mod e)).
    + pose proof (shaped_nth n acc (Z.to_nat (e - a_pos mod e) + i)%nat Hacc ltac:(unfold e in *; lia)) as Hlj.
      rewrite (zrot_congr ((a_pos / e + 1) mod (2 * Z.of_nat n)) (a_pos / e + 1)) by (rewrite Hlj; apply Z.mod_mod; lia).
      apply padd_psub_cancel. rewrite zrot_length, Hli, Hlj. reflexivity.
    + apply padd_psub_cancel. rewrite zrot_length, Hli. symmetry. apply shaped_nth; [exact Hacc | lia].
Qed.

(* the ext components are the big-ring polynomial, and ext_rot is multiplication by Y^a there *)
Definition zbig (n : nat) (acc : list poly) : poly := interleave (n * length acc) acc.

Lemma zext_interleave (n : nat) (parts : list (list Z)) (q : Z) (r : nat) :
  (0 < n)%nat -> (r < length parts)%nat -> Forall (fun p : list Z => length p = n) parts ->
  zext (interleave (n * length parts) parts) (q * Z.of_nat (length parts) + Z.of_nat r) = zext (nth r parts []) q.
Proof.
  intros Hn Hr Hall. set (e := length parts) in *.
  assert (Hlen : length (nth r parts []) = n).
  { rewrite Forall_forall in Hall. apply Hall. apply nth_In. exact Hr. }
  destruct (exp_decomp (Z.of_nat n) q ltac:(lia)) as [q1 [c [Hq Hc]]].
  rewrite (zext_at_nat (nth r parts []) q q1 c) by (rewrite Hlen; lia).
  rewrite (zext_at_nat (interleave (n * e) parts) _ q1 (c * e + r)).
  - rewrite interleave_nth by nia. fold e.
    destruct (nat_divmod_lin c e r Hr) as [Hm Hd]. rewrite Hm, Hd. reflexivity.
  - rewrite interleave_length. rewrite Hq. rewrite !Nat2Z.inj_add, !Nat2Z.inj_mul. ring.
  - rewrite interleave_length. nia.
Qed.

Theorem zbig_ext_rot (n : nat) (a : Z) (acc : list poly) :
  (0 < n)%nat -> (0 < length acc)%nat -> shaped n acc ->
  zbig n (ext_rot n a acc) = zrot a (zbig n acc).
Proof.
  intros Hn He Hacc. unfold zbig. rewrite ext_rot_length.
  apply nthZ_ext; [rewrite zrot_length, !interleave_length; reflexivity|].
  intros u Hu. rewrite interleave_length in Hu.
  rewrite zrot_nth by (rewrite interleave_length; exact Hu).
  rewrite interleave_nth, ext_rot_length by exact Hu.
  set (e := length acc) in *.
  assert (Hi : (u mod e < e)%nat) by (apply Nat.mod_upper_bound; lia).
  assert (Ht : (u / e < n)%nat) by (apply Nat.div_lt_upper_bound; lia).
  assert (Hut : Z.of_nat u = Z.of_nat (u / e) * Z.of_nat e + Z.of_nat (u mod e))
    by (pose proof (Nat.div_mod u e ltac:(lia)); lia).
  (* left: coefficient u / e of component u mod e, which is X^p times component j *)
  destruct (ext_rot_nth n a acc (u mod e) Hn Hi) as (j & p & q & Hj & Hij & Hr). fold e in Hij.
  unfold poly in *. rewrite Hr.
  pose proof (shaped_nth n acc j Hacc Hj) as Hlj.
  rewrite zrot_nth by (rewrite Hlj; exact Ht).
  (* right: u - a = (u / e - p) * e + j up to a multiple of 2N * e *)
  replace (Z.of_nat u - a) with ((Z.of_nat (u / e) - p + q * (2 * Z.of_nat n)) * Z.of_nat e + Z.of_nat j) by lia.
  unfold e. rewrite zext_interleave by auto.
  pose proof (zext_period (pnth acc j) (Z.of_nat (u / length acc) - p) q) as HP.
  rewrite Hlj in HP. symmetry. apply HP. lia.
Qed.

Lemma ext_block_zero (n : nat) (t : list (Z * Z)) (acc cur : list poly) :
  Forall (fun q => snd q = 0) t ->
  fold_left (fun (cur : list poly) (q : Z * Z) =>
               if snd q =? 0 then cur else map2 padd cur (ext_contrib n (fst q) (snd q) acc)) t cur = cur.
Proof.
  revert cur. induction t as [|q t IH]; intros cur H; cbn [fold_left]; [reflexivity|].
  inversion H as [|? ? Hq Ht]; subst. rewrite Hq. cbn [Z.eqb]. apply IH. exact Ht.
Qed.

Lemma ext_block_step_rot (n : nat) (blk : list (Z * Z)) (acc : list poly) :
  (0 < n)%nat -> (0 < length acc)%nat -> shaped n acc -> at_most_one blk ->
  length (ext_block_step n blk acc) = length acc /\ shaped n (ext_block_step n blk acc) /\
  zbig n (ext_block_step n blk acc) = zrot (dotp blk) (zbig n acc).
Proof.
  intros Hn He Hacc Hamo. unfold ext_block_step.
  induction Hamo as [|a t Ht IH|a t Ht].
  - cbn [fold_left dotp]. rewrite zrot_0. auto.
  - cbn [fold_left fst snd Z.eqb dotp]. replace (a * 0 + dotp t) with (dotp t) by lia. exact IH.
  - cbn [fold_left fst snd Z.eqb dotp]. rewrite ext_block_zero by exact Ht.
    rewrite (dotp_zero t Ht). replace (a * 1 + 0) with a by lia.
    rewrite ext_step_is_rotation by auto.
    split; [apply ext_rot_length|]. split; [apply ext_rot_shaped; auto|]. apply zbig_ext_rot; auto.
Qed.

Lemma ext_init_is_rot n b lutp : ext_init n b lutp = ext_rot n b lutp.
Proof. reflexivity. Qed.

(* the whole loop: the accumulator is Y^(b + sum a_i s_i) * table in the big ring *)
Theorem cggi_extended_rot (n block : nat) (b : Z) (av sv : list Z) (lutp : list poly) :
  (0 < n)%nat -> (0 < length lutp)%nat -> shaped n lutp ->
  Forall at_most_one (chunks block (combine av sv)) ->
  length (cggi_extended n block b av sv lutp) = length lutp /\
  zbig n (cggi_extended n block b av sv lutp) = zrot (b + dotp (concat (chunks block (combine av sv)))) (zbig n lutp).
Proof.
  intros Hn He Hs. unfold cggi_extended. generalize (chunks block (combine av sv)) as cs. intros cs Hall.
  assert (Hgen : forall acc, (0 < length acc)%nat -> shaped n acc ->
            length (fold_left (fun acc blk => ext_block_step n blk acc) cs acc) = length acc /\
            zbig n (fold_left (fun acc blk => ext_block_step n blk acc) cs acc) = zrot (dotp (concat cs)) (zbig n acc)).
  { induction cs as [|blk t IH]; intros acc Ha Hsa.
    - cbn [fold_left concat dotp]. rewrite zrot_0. auto.
    - inversion Hall as [|? ? Hb Ht]; subst. cbn [fold_left concat].
      destruct (ext_block_step_rot n blk acc Hn Ha Hsa Hb) as [H1 [H2 H3]].
      destruct (IH Ht (ext_block_step n blk acc) ltac:(rewrite H1; auto) H2) as [H4 H5].
      split; [rewrite H4; exact H1|]. rewrite H5, H3, zrot_compose, dotp_app. f_equal. lia. }
  rewrite ext_init_is_rot.
  destruct (Hgen (ext_rot n b lutp) ltac:(rewrite ext_rot_length; auto) (ext_rot_shaped n b lutp Hn Hs)) as [H1 H2].
  split; [rewrite H1; apply ext_rot_length|].
  rewrite H2, zbig_ext_rot by auto. rewrite zrot_compose. f_equal. lia.
Qed.

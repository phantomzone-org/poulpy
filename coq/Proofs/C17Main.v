(* C17 - in-place NTT120 compaction: the index inequalities of Proofs/C17Compact.v in one statement. *)
From PV Require Import Base.MachineInt Model.C12Scratch Model.C17Mem Proofs.C17Compact.
Open Scope Z_scope.

Lemma compact_blocks_safe (n nb k c k' c' : Z) :
  0 < n -> 0 <= k < nb -> 0 <= k' < nb -> 0 <= c < n -> 0 <= c' < n ->
  (0 <= cb_src n k c /\ cb_src n k c + 4 <= 4 * n * nb /\ 0 <= cb_dst n k c /\ cb_dst n k c + 2 <= 2 * n * nb) /\
  (cb_before k c k' c' -> cb_dst n k c + 2 <= cb_src n k' c') /\
  (k < k' -> cb_dst n k c + 2 <= 4 * n * k') /\
  (cb_src n k c < cb_dst n k c + 2 -> k = 0 /\ c = 0).
Proof.
  intros Hn Hk Hk' Hc Hc'.
  split; [apply compact_in_bounds; assumption|].
  split; [intros H; apply compact_write_before_later_src; try assumption; lia|].
  split; [intros H; apply compact_block_intact; try assumption; lia|].
  intros H. apply (compact_self_overlap_only_first n k c Hn); try assumption; lia.
Qed.

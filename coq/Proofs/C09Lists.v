(* C09: list infrastructure beyond Proofs/ListFacts.v (re-exported): upd, folds of upd, injective index maps. *)
From PV Require Import Base.MachineInt Model.Znx Model.Limbs.
From PV Require Export Proofs.ListFacts.
Open Scope Z_scope.

Lemma nthZ_upd_eq l i x : (i < length l)%nat -> nthZ (upd l i x) i = x.
Proof.
  revert i; induction l as [|h t IH]; intros [|i] Hi; cbn [upd length] in *; try lia.
  - reflexivity.
  - unfold nthZ in *. cbn [nth]. apply IH. lia.
Qed.

Lemma nthZ_upd_neq l i j x : i <> j -> nthZ (upd l i x) j = nthZ l j.
Proof.
  revert i j; induction l as [|h t IH]; intros [|i] [|j] Hij; cbn [upd]; try reflexivity; try lia.
  unfold nthZ in *. cbn [nth]. apply IH. lia.
Qed.

Lemma upd_oob l i x : (length l <= i)%nat -> upd l i x = l.
Proof.
  revert i; induction l as [|h t IH]; intros [|i] Hi; cbn [upd length] in *; try reflexivity; try lia.
  f_equal. apply IH. lia.
Qed.

Section FoldUpd.
Variables (pos : nat -> nat) (val : nat -> Z).

Definition fold_upd (js : list nat) (r0 : list Z) : list Z :=
  fold_left (fun r j => upd r (pos j) (val j)) js r0.

Lemma fold_upd_length js r0 : length (fold_upd js r0) = length r0.
Proof.
  revert r0; induction js as [|j js IH]; intros r0; cbn [fold_upd fold_left]; auto.
  unfold fold_upd in IH. rewrite IH. apply upd_length.
Qed.

Lemma fold_upd_other js r0 t :
  (forall j, In j js -> pos j <> t) -> nthZ (fold_upd js r0) t = nthZ r0 t.
Proof.
  revert r0; induction js as [|j js IH]; intros r0 H; cbn [fold_upd fold_left]; auto.
  unfold fold_upd in IH. rewrite IH by (intros; apply H; right; auto).
  apply nthZ_upd_neq. apply H. left; reflexivity.
Qed.

Lemma fold_upd_hit js r0 j :
  NoDup (map pos js) -> In j js -> (pos j < length r0)%nat ->
  nthZ (fold_upd js r0) (pos j) = val j.
Proof.
  revert r0; induction js as [|j0 js IH]; intros r0 Hnd Hin Hlt; [inversion Hin|].
  cbn [map] in Hnd. inversion Hnd as [|x l Hnotin Hnd']; subst.
  cbn [fold_upd fold_left]. destruct Hin as [->|Hin].
  - fold (fold_upd js (upd r0 (pos j) (val j))).
    rewrite fold_upd_other.
    + apply nthZ_upd_eq; exact Hlt.
    + intros j' Hj' Heq. apply Hnotin. rewrite <- Heq. apply in_map; exact Hj'.
  - unfold fold_upd in IH. apply IH; auto. rewrite upd_length; exact Hlt.
Qed.
End FoldUpd.

Lemma NoDup_map_inj_in {A B} (f : A -> B) (l : list A) :
  (forall x y, In x l -> In y l -> f x = f y -> x = y) -> NoDup l -> NoDup (map f l).
Proof.
  induction l as [|a l IH]; intros Hinj Hnd; cbn [map]; [constructor|].
  inversion Hnd as [|x l' Hnotin Hnd']; subst. constructor.
  - intros Hin. apply in_map_iff in Hin. destruct Hin as [y [Hy1 Hy2]].
    assert (y = a) by (apply Hinj; [right; auto|left; auto|auto]). subst. contradiction.
  - apply IH; auto. intros x y Hx Hy. apply Hinj; right; auto.
Qed.

Lemma inj_seq_NoDup (pos : nat -> nat) (n : nat) :
  (forall j1 j2, (j1 < n)%nat -> (j2 < n)%nat -> pos j1 = pos j2 -> j1 = j2) ->
  NoDup (map pos (seq 0 n)).
Proof.
  intros Hinj. apply NoDup_map_inj_in.
  - intros x y Hx Hy. apply in_seq in Hx, Hy. apply Hinj; lia.
  - apply seq_NoDup.
Qed.

(* pigeonhole: an injective map [0,n) -> [0,n) is onto *)
Lemma inj_seq_onto (pos : nat -> nat) (n : nat) :
  (forall j, (j < n)%nat -> (pos j < n)%nat) ->
  (forall j1 j2, (j1 < n)%nat -> (j2 < n)%nat -> pos j1 = pos j2 -> j1 = j2) ->
  forall t, (t < n)%nat -> exists j, (j < n)%nat /\ pos j = t.
Proof.
  intros Hr Hinj t Ht.
  assert (Hnd : NoDup (map pos (seq 0 n))) by (apply inj_seq_NoDup; exact Hinj).
  assert (Hincl : incl (map pos (seq 0 n)) (seq 0 n)).
  { intros x Hx. apply in_map_iff in Hx. destruct Hx as [j [<- Hj]].
    apply in_seq in Hj. apply in_seq. specialize (Hr j). lia. }
  assert (Hback : incl (seq 0 n) (map pos (seq 0 n))).
  { apply NoDup_length_incl; auto. rewrite map_length. lia. }
  assert (Hin : In t (map pos (seq 0 n))) by (apply Hback, in_seq; lia).
  apply in_map_iff in Hin. destruct Hin as [j [Hj1 Hj2]]. apply in_seq in Hj2.
  exists j; split; [lia|exact Hj1].
Qed.

(* Forall in_range helpers *)
Lemma Forall_nthZ (P : Z -> Prop) (l : list Z) i : Forall P l -> (i < length l)%nat -> P (nthZ l i).
Proof.
  intros H Hi. rewrite Forall_forall in H. apply H. apply nth_In; exact Hi.
Qed.

Lemma Forall_of_nthZ (P : Z -> Prop) (l : list Z) :
  (forall i, (i < length l)%nat -> P (nthZ l i)) -> Forall P l.
Proof.
  intros H. apply Forall_forall. intros x Hx.
  destruct (In_nth l x 0 Hx) as [i [Hi <-]]. apply H; exact Hi.
Qed.

(* boolean reflection of the word-range hypothesis, to discharge it on concrete inputs *)
Lemma in_rangeb_sound w x : in_rangeb w x = true -> in_range w x.
Proof.
  unfold in_rangeb, in_range. intros H. apply andb_prop in H. destruct H as [H1 H2].
  apply Z.leb_le in H1. apply Z.ltb_lt in H2. split; assumption.
Qed.

Lemma Forall_in_rangeb w (l : list Z) : forallb (in_rangeb w) l = true -> Forall (in_range w) l.
Proof.
  intros H. apply Forall_forall. intros x Hx.
  rewrite forallb_forall in H. apply in_rangeb_sound. apply H; exact Hx.
Qed.

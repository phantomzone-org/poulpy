(* C13 — soundness of the reflective checker:
     check A hint c = true  ->  forall e, eval_strict c e = Some (run A e)
   for every automaton satisfying [automaton_ok].  The hint is untrusted (no hypothesis about it). *)
From Coq Require Import ZArith List Bool Arith Lia.
From PV Require Import Model.C13Bdd Proofs.C13Eval.
Import ListNotations.

Lemma nth_error_firstn_lt {X} (l : list X) : forall w j, j < w -> nth_error (firstn w l) j = nth_error l j.
Proof.
  induction l as [|x tl IH]; intros w j Hj.
  - rewrite firstn_nil. reflexivity.
  - destruct w; [lia|]. destruct j; cbn; [reflexivity|]. apply IH; lia.
Qed.

Lemma nth_error_seq s n j : j < n -> nth_error (seq s n) j = Some (s + j).
Proof.
  revert s j; induction n; intros s j Hj; [lia|].
  destruct j; cbn; [f_equal; lia|]. rewrite IHn by lia. f_equal; lia.
Qed.

Lemma init_rd w j : j < w -> rd (init_strict w) j = Some (Nat.eqb 1 j).
Proof.
  intros Hj. unfold rd, init_strict, init_buf, init_level; cbn [fst].
  rewrite nth_error_map, nth_error_firstn_lt by exact Hj.
  rewrite (map_nth_error (Nat.eqb 1) j (seq 0 (2 * w)) (d := j)).
  - reflexivity.
  - rewrite nth_error_seq by lia. reflexivity.
Qed.

Lemma run_levels_strict_app nin e l1 : forall St l2,
  run_levels_strict nin e St (l1 ++ l2) =
  match run_levels_strict nin e St l1 with
  | Some S1 => run_levels_strict nin e S1 l2
  | None => None
  end.
Proof.
  induction l1 as [|L tl IH]; intros St l2; cbn; [reflexivity|].
  destruct (level_strict nin e St 0 L); [apply IH | reflexivity].
Qed.

Lemma level_strict_nth nin e St L : forall j0 St',
  level_strict nin e St j0 L = Some St' ->
  forall j nd, nth_error L j = Some nd ->
  exists x, node_strict nin e St (j0 + j) nd = Some x /\ nth_error St' j = Some x.
Proof.
  induction L as [|n0 tl IH]; intros j0 St' H j nd Hj.
  - destruct j; discriminate.
  - cbn [level_strict] in H.
    destruct (node_strict nin e St j0 n0) as [x0|] eqn:H0; [|discriminate].
    destruct (level_strict nin e St (S j0) tl) as [r|] eqn:Hr; [|discriminate].
    injection H as <-. destruct j as [|j]; cbn in Hj.
    + injection Hj as <-. exists x0. rewrite Nat.add_0_r. split; [exact H0 | reflexivity].
    + destruct (IH (S j0) r Hr j nd Hj) as [x [Hx1 Hx2]].
      exists x. split; [|exact Hx2]. replace (j0 + S j) with (S j0 + j) by lia. exact Hx1.
Qed.

Section Sound.
  Variable A : automaton.
  Hypothesis Aok : automaton_ok A.
  Variable hint : list nat.

  Lemma run_fuel_enough e : forall n q f,
    rank A q <= n -> rank A q < f -> run_fuel A f q e = run_fuel A (S (rank A q)) q e.
  Proof.
    induction n as [|n IH]; intros q f Hn Hf.
    - destruct f as [|f]; [lia|]. cbn [run_fuel].
      destruct (next A q) as [b|v q1 q0] eqn:Hq; [reflexivity|].
      destruct (proj2 Aok _ _ _ _ Hq); lia.
    - destruct f as [|f]; [lia|]. cbn [run_fuel].
      destruct (next A q) as [b|v q1 q0] eqn:Hq; [reflexivity|].
      destruct (proj2 Aok _ _ _ _ Hq) as [H1 H0].
      destruct (e v).
      + rewrite (IH q1 f), (IH q1 (rank A q)) by lia. reflexivity.
      + rewrite (IH q0 f), (IH q0 (rank A q)) by lia. reflexivity.
  Qed.

  Lemma run_unfold e q :
    run_from A q e =
    match next A q with
    | Leaf b => b
    | Read v q1 q0 => if e v then run_from A q1 e else run_from A q0 e
    end.
  Proof.
    unfold run_from. cbn [run_fuel].
    destruct (next A q) as [b|v q1 q0] eqn:Hq; [reflexivity|].
    destruct (proj2 Aok _ _ _ _ Hq) as [H1 H0].
    destruct (e v).
    - apply run_fuel_enough with (n := rank A q1); lia.
    - apply run_fuel_enough with (n := rank A q0); lia.
  Qed.

  Lemma leaf_all_sound e : forall f q b, leaf_all A f q b = true -> run_from A q e = b.
  Proof.
    induction f as [|f IH]; intros q b H; [discriminate|].
    cbn [leaf_all] in H. rewrite run_unfold.
    destruct (next A q) as [b'|v q1 q0].
    - apply eqb_prop in H. congruence.
    - apply andb_true_iff in H as [H1 H0]. destruct (e v); auto.
  Qed.

  Lemma pair_eqb_true (p1 p2 : pair A) : pair_eqb A p1 p2 = true -> p1 = p2.
  Proof.
    destruct p1 as [j1 q1], p2 as [j2 q2]. unfold pair_eqb; cbn [fst snd].
    intros H. apply andb_true_iff in H as [Hj Hq].
    apply Nat.eqb_eq in Hj. apply (proj1 Aok) in Hq. congruence.
  Qed.

  Lemma mem_In p l : mem A p l = true -> In p l.
  Proof.
    induction l as [|x tl IH]; cbn [mem]; [discriminate|].
    intros H. apply orb_true_iff in H as [H|H].
    - left. symmetry. apply pair_eqb_true. exact H.
    - right. auto.
  Qed.

  Lemma add_all_incl new : forall acc p, In p new \/ In p acc -> In p (add_all A new acc).
  Proof.
    induction new as [|p0 tl IH]; intros acc p H; cbn [add_all].
    - destruct H as [[]|H]; exact H.
    - destruct (mem A p0 acc) eqn:Hm.
      + apply IH. destruct H as [[<-|H]|H]; auto. right. apply mem_In. exact Hm.
      + apply IH. destruct H as [[<-|H]|H]; [right; left; reflexivity | auto | right; right; exact H].
  Qed.

  Variable nin : nat.
  Variable e : env.

  Lemma expand_sound L lvl St St' :
    level_strict nin e St 0 L = Some St' ->
    forall fuel j q ps,
    expand A hint fuel L lvl j q = Some ps ->
    (forall p, In p ps -> rd St (fst p) = Some (run_from A (snd p) e)) ->
    rd St' j = Some (run_from A q e).
  Proof.
    intros HL. induction fuel as [|f IH]; intros j q ps Hex Hps; [discriminate|].
    cbn [expand] in Hex.
    destruct (nth_error L j) as [nd|] eqn:Hnd; [|discriminate].
    destruct (level_strict_nth _ _ _ _ _ _ HL _ _ Hnd) as [x [Hx Hxj]]. cbn [plus] in Hx.
    assert (Hrd : rd St' j = x) by (unfold rd; rewrite Hxj; destruct x; reflexivity).
    destruct nd as [v hi lo| |]; [| |discriminate].
    - cbn [node_strict] in Hx.
      destruct (v <? nin); [|discriminate].
      destruct (rd St hi) as [h|] eqn:Hh; [|discriminate].
      destruct (rd St lo) as [l|] eqn:Hl; [|discriminate].
      injection Hx as <-. rewrite Hrd.
      assert (Hsame : ps = [(hi, q); (lo, q)] -> Some (if e v then h else l) = Some (run_from A q e)).
      { intros ->.
        pose proof (Hps (hi, q) (or_introl eq_refl)) as E1.
        pose proof (Hps (lo, q) (or_intror (or_introl eq_refl))) as E0.
        cbn [fst snd] in E1, E0. rewrite Hh in E1. rewrite Hl in E0.
        destruct (e v); congruence. }
      rewrite (run_unfold e q).
      destruct (next A q) as [b0|v' q1 q0] eqn:Hq.
      + injection Hex as <-. rewrite Hsame by reflexivity. rewrite (run_unfold e q), Hq. reflexivity.
      + destruct (Nat.eqb v v') eqn:Hv.
        * apply Nat.eqb_eq in Hv. subst v'. injection Hex as <-.
          pose proof (Hps (hi, q1) (or_introl eq_refl)) as E1.
          pose proof (Hps (lo, q0) (or_intror (or_introl eq_refl))) as E0.
          cbn [fst snd] in E1, E0. rewrite Hh in E1. rewrite Hl in E0.
          destruct (e v); congruence.
        * destruct (spec_first hint v' lvl).
          -- destruct (expand A hint f L lvl j q1) as [l1|] eqn:X1; [|discriminate].
             destruct (expand A hint f L lvl j q0) as [l0|] eqn:X0; [|discriminate].
             injection Hex as <-.
             assert (R1 : rd St' j = Some (run_from A q1 e)).
             { apply (IH j q1 l1 X1). intros p Hp. apply Hps. apply in_or_app. left; exact Hp. }
             assert (R0 : rd St' j = Some (run_from A q0 e)).
             { apply (IH j q0 l0 X0). intros p Hp. apply Hps. apply in_or_app. right; exact Hp. }
             rewrite Hrd in R1, R0. destruct (e v'); assumption.
          -- injection Hex as <-. rewrite Hsame by reflexivity. rewrite (run_unfold e q), Hq. reflexivity.
    - cbn [node_strict] in Hx. injection Hex as <-.
      destruct (rd St j) as [y|] eqn:Hy; [|discriminate].
      injection Hx as <-. rewrite Hrd.
      pose proof (Hps (j, q) (or_introl eq_refl)) as E. cbn [fst snd] in E. congruence.
  Qed.

  Lemma expand_all_sound L lvl : forall P acc P',
    expand_all A hint L lvl P acc = Some P' ->
    (forall p, In p acc -> In p P') /\
    (forall p, In p P -> exists ps, expand A hint EF L lvl (fst p) (snd p) = Some ps /\
                                    forall p', In p' ps -> In p' P').
  Proof.
    induction P as [|p0 tl IH]; intros acc P' H; cbn [expand_all] in H.
    - injection H as <-. split; [auto | intros p []].
    - destruct (expand A hint EF L lvl (fst p0) (snd p0)) as [ps|] eqn:Hex; [|discriminate].
      destruct (IH _ _ H) as [Hacc Htl]. split.
      + intros p Hp. apply Hacc. apply add_all_incl. right; exact Hp.
      + intros p [<-|Hp].
        * exists ps. split; [exact Hex|]. intros p' Hp'. apply Hacc. apply add_all_incl. left; exact Hp'.
        * apply Htl. exact Hp.
  Qed.

  Lemma check_levels_sound w : forall lv_rev P,
    check_levels A hint w lv_rev P = true ->
    forall St, run_levels_strict nin e (init_strict w) (rev lv_rev) = Some St ->
    forall p, In p P -> rd St (fst p) = Some (run_from A (snd p) e).
  Proof.
    induction lv_rev as [|L below IH]; intros P Hc St Hrun p Hp.
    - cbn [rev run_levels_strict] in Hrun. injection Hrun as <-. cbn [check_levels] in Hc.
      rewrite forallb_forall in Hc. specialize (Hc p Hp).
      apply andb_true_iff in Hc as [Hlt Hleaf]. apply Nat.ltb_lt in Hlt.
      rewrite init_rd by exact Hlt. f_equal. symmetry. eapply leaf_all_sound. exact Hleaf.
    - cbn [check_levels] in Hc.
      destruct (expand_all A hint L (length (L :: below)) P []) as [P'|] eqn:Hex; [|discriminate].
      cbn [rev] in Hrun. rewrite run_levels_strict_app in Hrun.
      destruct (run_levels_strict nin e (init_strict w) (rev below)) as [S0|] eqn:H0; [|discriminate].
      cbn [run_levels_strict] in Hrun.
      destruct (level_strict nin e S0 0 L) as [S1|] eqn:H1; [|discriminate].
      injection Hrun as <-.
      destruct (expand_all_sound _ _ _ _ _ Hex) as [_ HP].
      destruct (HP p Hp) as [ps [Hps Hin]].
      eapply expand_sound; [exact H1 | exact Hps |].
      intros p' Hp'. eapply IH; [exact Hc | reflexivity | apply Hin; exact Hp'].
  Qed.

  (* the definedness pass guarantees that the strict evaluator does not fail *)
  Definition abs (D : list bool) (St : list slot) : Prop :=
    forall j, nth j D false = true -> exists b, rd St j = Some b.

  Lemma node_def_ok D St j nd d :
    abs D St -> node_def nin D j nd = Some d ->
    exists x, node_strict nin e St j nd = Some x /\ (d = true -> exists b, x = Some b).
  Proof.
    intros Habs H. destruct nd as [v hi lo| |]; cbn [node_def node_strict] in *.
    - destruct (v <? nin); [|discriminate]. cbn [andb] in H.
      destruct (nth hi D false) eqn:Dh; [|discriminate]. cbn [andb] in H.
      destruct (nth lo D false) eqn:Dl; [|discriminate].
      destruct (Habs _ Dh) as [h ->]. destruct (Habs _ Dl) as [l ->].
      eexists; split; [reflexivity|]. intros _; eexists; reflexivity.
    - destruct (nth j D false) eqn:Dj; [|discriminate].
      destruct (Habs _ Dj) as [y ->]. eexists; split; [reflexivity|]. intros _; eexists; reflexivity.
    - injection H as <-. eexists; split; [reflexivity|]. discriminate.
  Qed.

  Lemma level_def_ok D St L : forall j0 D',
    abs D St -> level_def nin D j0 L = Some D' ->
    exists St', level_strict nin e St j0 L = Some St' /\ abs D' St'.
  Proof.
    induction L as [|nd tl IH]; intros j0 D' Habs H; cbn [level_def level_strict] in *.
    - injection H as <-. exists []. split; [reflexivity|]. intros j Hj. destruct j; discriminate.
    - destruct (node_def nin D j0 nd) as [d|] eqn:Hd; [|discriminate].
      destruct (level_def nin D (S j0) tl) as [r|] eqn:Hr; [|discriminate].
      injection H as <-.
      destruct (node_def_ok _ _ _ _ _ Habs Hd) as [x [Hx Hxd]].
      destruct (IH _ _ Habs Hr) as [Sr [HSr Habs']].
      rewrite Hx, HSr. eexists; split; [reflexivity|].
      intros j Hj. destruct j as [|j]; cbn [nth] in Hj.
      + destruct (Hxd Hj) as [b ->]. exists b. reflexivity.
      + exact (Habs' j Hj).
  Qed.

  Lemma run_def_ok lv : forall D St D',
    abs D St -> run_def nin D lv = Some D' ->
    exists St', run_levels_strict nin e St lv = Some St' /\ abs D' St'.
  Proof.
    induction lv as [|L tl IH]; intros D St D' Habs H; cbn [run_def run_levels_strict] in *.
    - injection H as <-. exists St. split; [reflexivity | exact Habs].
    - destruct (level_def nin D 0 L) as [D1|] eqn:H1; [|discriminate].
      destruct (level_def_ok _ _ _ _ _ Habs H1) as [S1 [HS1 Habs1]].
      rewrite HS1. eapply IH; eauto.
  Qed.

  Lemma init_abs w : abs (repeat true w) (init_strict w).
  Proof.
    intros j Hj. destruct (Nat.lt_ge_cases j w) as [Hlt|Hge].
    - eexists. apply init_rd. exact Hlt.
    - rewrite nth_overflow in Hj by (rewrite repeat_length; exact Hge). discriminate.
  Qed.
End Sound.

Theorem check_sound (A : automaton) (hint : list nat) (c : circuit) :
  automaton_ok A -> check A hint c = true -> forall e, eval_strict c e = Some (run A e).
Proof.
  intros Aok Hc e. unfold check in Hc. unfold eval_strict.
  destruct (c_width c) as [|w'] eqn:Hw.
  - f_equal. symmetry. unfold run. eapply leaf_all_sound; eauto.
  - apply andb_true_iff in Hc as [Hwf Hc]. unfold wf in Hwf. rewrite Hw in Hwf.
    destruct (levels_of c) as [lv|]; [|discriminate].
    destruct lv as [|L0 lv']; [discriminate|].
    set (lv := L0 :: lv') in *.
    apply andb_true_iff in Hwf as [Hshape Hdef].
    destruct (run_def (c_nin c) (repeat true (S w')) lv) as [D|] eqn:HD; [|discriminate].
    destruct (run_def_ok (c_nin c) e lv _ _ _ (init_abs (S w')) HD) as [Sf [HSf _]].
    assert (Hroot : rd Sf 0 = Some (run A e)).
    { assert (Hrev : run_levels_strict (c_nin c) e (init_strict (S w')) (rev (rev lv)) = Some Sf)
        by (rewrite rev_involutive; exact HSf).
      exact (check_levels_sound A Aok hint (c_nin c) e (S w') (rev lv) _ Hc Sf Hrev (0, start A) (or_introl eq_refl)). }
    assert (Hne : lv <> []) by discriminate.
    rewrite (app_removelast_last [] Hne) in HSf.
    rewrite run_levels_strict_app in HSf.
    destruct (run_levels_strict (c_nin c) e (init_strict (S w')) (removelast lv)) as [S1|]; [|discriminate].
    cbn [run_levels_strict] in HSf.
    destruct (last lv []) as [|[v hi lo| |] tl]; try discriminate.
    cbn [level_strict node_strict] in HSf. cbn [root_strict].
    destruct (v <? c_nin c); [|discriminate].
    destruct (rd S1 hi) as [h|]; [|discriminate].
    destruct (rd S1 lo) as [l|]; [|discriminate].
    destruct (level_strict (c_nin c) e S1 1 tl) as [r|]; [|discriminate].
    injection HSf as <-. rewrite rd_cons_0 in Hroot. exact Hroot.
Qed.

(* the checker applied to a whole family *)
Lemma check_family_sound (A : nat -> automaton) hints tab :
  (forall i, automaton_ok (A i)) -> check_family A hints tab = true ->
  forall i, i < 32 -> forall e, eval_strict (circuit_at tab i) e = Some (run (A i) e).
Proof.
  intros Aok H i Hi e. unfold check_family in H. rewrite forallb_forall in H.
  apply (check_sound (A i) (nth i hints [])); [apply Aok|].
  apply H. apply in_seq. lia.
Qed.

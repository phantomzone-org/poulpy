(* C19: decompression gives back what standard encryption produces, cell by cell; seed / row order of the gadget objects. *)
From PV Require Import Base.MachineInt Model.Znx Model.Limbs Model.Flat Model.DftAbs Model.EncModel Model.C19Gadget
  Proofs.EncValue Proofs.ListFacts.
Open Scope Z_scope.

Theorem decompress_glwe_eq_standard (wb b : Z) (n size rank : nat) (nk : Z) (pt : option (ccol * nat)) (sk : list poly)
        (us : nat -> Z) (e : poly) (body : ccol) :
  enc_sk_compressed wb b n size rank nk pt sk us e = Some body ->
  enc_sk wb b n size rank nk pt sk us e = Some (decompress_glwe b n size rank body us).
Proof. unfold enc_sk_compressed, enc_sk, decompress_glwe. intros ->. reflexivity. Qed.

Lemma grid_S {T} (A B : nat) (f : nat -> nat -> T) : grid (S A) B f = grid A B f ++ map (f A) (seq 0 B).
Proof. unfold grid. rewrite seq_S. cbn [Nat.add]. rewrite flat_map_app. cbn [flat_map]. rewrite app_nil_r. reflexivity. Qed.

Lemma grid_length {T} (A B : nat) (f : nat -> nat -> T) : length (grid A B f) = (A * B)%nat.
Proof.
  induction A; [reflexivity|]. rewrite grid_S, app_length, IHA, map_length, seq_length. lia.
Qed.

Lemma grid_nth {T} (A B : nat) (f : nat -> nat -> T) (a b : nat) (d : T) : (a < A)%nat -> (b < B)%nat ->
  nth (a * B + b) (grid A B f) d = f a b.
Proof.
  induction A; intros Ha Hb; [lia|]. rewrite grid_S.
  destruct (Nat.eq_dec a A) as [->|Hne].
  - rewrite app_nth2 by (rewrite grid_length; lia). rewrite grid_length.
    replace (A * B + b - A * B)%nat with b by lia. apply nth_map_seq. lia.
  - rewrite app_nth1 by (rewrite grid_length; nia). apply IHA; lia.
Qed.

Lemma nth_combine_seq {T} (l : list T) (i : nat) (d : T) : (i < length l)%nat ->
  nth i (combine (seq 0 (length l)) l) (O, d) = (i, nth i l d).
Proof.
  intros H. rewrite combine_nth by (rewrite seq_length; reflexivity). rewrite seq_nth by lia. reflexivity.
Qed.

Lemma find_slot_app (s : nat) (l : cstore) (q : nat * (list Z * option ccol)) :
  find_slot s (l ++ [q]) = if Nat.eqb (fst q) s then Some (snd q) else find_slot s l.
Proof. unfold find_slot. rewrite fold_left_app. reflexivity. Qed.

Lemma find_slot_unique (s : nat) (d : nat * (list Z * option ccol)) : forall (l : cstore) (i : nat),
  (i < length l)%nat -> fst (nth i l d) = s ->
  (forall j, (j < length l)%nat -> fst (nth j l d) = s -> j = i) ->
  find_slot s l = Some (snd (nth i l d)).
Proof.
  induction l as [|q l IH] using rev_ind; intros i Hi Hs Hu; [cbn [length] in Hi; lia|].
  rewrite find_slot_app. rewrite app_length in *. cbn [length] in *.
  destruct (Nat.eq_dec i (length l)) as [->|Hne].
  - rewrite app_nth2 in * by lia. rewrite Nat.sub_diag in *. cbn [nth] in *. rewrite Hs, Nat.eqb_refl. reflexivity.
  - rewrite app_nth1 in Hs by lia. rewrite app_nth1 by lia.
    destruct (Nat.eqb_spec (fst q) s) as [Hq|Hq].
    + exfalso. apply Hne. symmetry. apply (Hu (length l)); [lia|]. rewrite app_nth2 by lia. rewrite Nat.sub_diag. exact Hq.
    + apply IH; [lia|exact Hs|]. intros j Hj Hjs. apply Hu; [lia|]. rewrite app_nth1 by lia. exact Hjs.
Qed.

(* the cell written at iteration (a, b) of a loop nest is found again under its slot, when no other iteration writes that slot *)
Lemma find_slot_grid {T} (A B : nat) (f : nat -> nat -> T) (g : nat * T -> nat * (list Z * option ccol)) (a b : nat) :
  (a < A)%nat -> (b < B)%nat ->
  (forall a' b', (a' < A)%nat -> (b' < B)%nat ->
     fst (g ((a' * B + b')%nat, f a' b')) = fst (g ((a * B + b)%nat, f a b)) -> a' = a /\ b' = b) ->
  find_slot (fst (g ((a * B + b)%nat, f a b))) (map g (combine (seq 0 (A * B)) (grid A B f)))
  = Some (snd (g ((a * B + b)%nat, f a b))).
Proof.
  intros Ha Hb Hinj.
  set (order := grid A B f).
  assert (Lo : length order = (A * B)%nat) by (unfold order; apply grid_length).
  rewrite <- Lo.
  set (L := map g (combine (seq 0 (length order)) order)).
  assert (LL : length L = (A * B)%nat) by (unfold L; rewrite map_length, combine_length, seq_length; lia).
  set (d0 := g (O, f O O)).
  assert (Nth : forall j, (j < A * B)%nat -> nth j L d0 = g (j, f (j / B)%nat (j mod B)%nat)).
  { intros j Hj. unfold L, d0. rewrite (map_nth g). rewrite (nth_combine_seq order j (f O O)) by lia. f_equal. f_equal.
    pose proof (Nat.div_mod j B ltac:(lia)) as E. pose proof (Nat.mod_upper_bound j B ltac:(lia)) as Hm.
    assert (Hq : (j / B < A)%nat) by (apply Nat.div_lt_upper_bound; lia).
    unfold order. replace j with ((j / B) * B + j mod B)%nat at 1 by lia.
    apply grid_nth; lia. }
  assert (Ed : ((a * B + b) / B = a)%nat).
  { rewrite Nat.add_comm, Nat.div_add by lia. rewrite Nat.div_small by lia. lia. }
  assert (Em : ((a * B + b) mod B = b)%nat).
  { rewrite Nat.add_comm, Nat.mod_add by lia. apply Nat.mod_small. lia. }
  assert (Hi : (a * B + b < A * B)%nat) by nia.
  rewrite (find_slot_unique (fst (g ((a * B + b)%nat, f a b))) d0 L (a * B + b)).
  - rewrite Nth by lia. rewrite Ed, Em. reflexivity.
  - lia.
  - rewrite Nth by lia. rewrite Ed, Em. reflexivity.
  - intros j Hj Hs. rewrite LL in Hj. rewrite Nth in Hs by lia.
    pose proof (Nat.div_mod j B ltac:(lia)) as E. pose proof (Nat.mod_upper_bound j B ltac:(lia)) as Hm.
    assert (Hq : (j / B < A)%nat) by (apply Nat.div_lt_upper_bound; lia).
    replace j with (j / B * B + j mod B)%nat in Hs at 1 by lia.
    destruct (Hinj _ _ Hq Hm Hs) as [E1 E2]. lia.
Qed.

(* decompress_glwe on a stored cell: the standard encryption with the stream of the stored seed *)
Lemma decompress_found (stream_of : list Z -> nat -> Z) (wb b : Z) (n size rank : nat) (nk : Z) (pt : option (ccol * nat))
      (sk : list poly) (e : poly) (obj : cstore) (slot : nat) (seed : list Z) (ct : list ccol) :
  find_slot slot obj = Some (seed, enc_sk_compressed wb b n size rank nk pt sk (stream_of seed) e) ->
  decompress_cell stream_of b n size rank obj slot = Some ct ->
  enc_sk wb b n size rank nk pt sk (stream_of seed) e = Some ct.
Proof.
  intros Hf H. unfold decompress_cell in H. rewrite Hf in H.
  destruct (enc_sk_compressed _ _ _ _ _ _ _ _ _ _) as [body|] eqn:E; [|discriminate].
  inversion H; subst. apply decompress_glwe_eq_standard. exact E.
Qed.

Section Cells.
Variable stream_of : list Z -> nat -> Z.
Variable wb : Z.

(* GGLWE-shaped objects: cell (row, col) is written at slot rank_in*row + col with the seed drawn at position col*dnum + row
   of the parent stream and the error block of the same position *)
Theorem gglwe_store_cell (b : Z) (n size rin rout dnum dsize : nat) (nk : Z) (ms sk : list poly) (parent : nat -> Z)
        (errs : nat -> poly) (row col : nat) : (row < dnum)%nat -> (col < rin)%nat ->
  let i := gglwe_draw_index dnum row col in
  find_slot (gglwe_seed_slot rin row col)
            (gglwe_compressed_encrypt stream_of wb b n size rin rout dnum dsize nk ms sk parent errs)
  = Some (drawn_seed parent i,
          enc_sk_compressed wb b n size rout nk (Some (row_pt b n size dsize row (nth col ms []), O)) sk
            (stream_of (drawn_seed parent i)) (errs i)).
Proof.
  intros Hr Hc. cbv zeta. unfold gglwe_compressed_encrypt.
  refine (find_slot_grid rin dnum (fun col0 row0 => (row0, col0))
            (fun iq => compressed_cell stream_of wb b n size rout dsize nk sk parent errs
                         (gglwe_seed_slot rin (fst (snd iq)) (snd (snd iq))) (fst (snd iq)) O (nth (snd (snd iq)) ms []) (fst iq))
            col row Hc Hr _).
  intros col' row' Hc' Hr' Hs. unfold compressed_cell, gglwe_seed_slot in Hs. cbn [fst snd] in Hs.
  assert (row' = row) by (destruct (Nat.lt_trichotomy row' row) as [Hlt|[Heq|Hgt]]; [nia|exact Heq|nia]).
  subst row'. split; lia.
Qed.

(* GGSW: slot = draw position = row*(rank+1) + col, plaintext on column col *)
Theorem ggsw_store_cell (b : Z) (n size rank dnum dsize : nat) (nk : Z) (m : poly) (sk : list poly) (parent : nat -> Z)
        (errs : nat -> poly) (row col : nat) : (row < dnum)%nat -> (col < S rank)%nat ->
  let i := ggsw_draw_index rank row col in
  find_slot (ggsw_seed_slot rank row col)
            (ggsw_compressed_encrypt stream_of wb b n size rank dnum dsize nk m sk parent errs)
  = Some (drawn_seed parent i,
          enc_sk_compressed wb b n size rank nk (Some (row_pt b n size dsize row m, col)) sk
            (stream_of (drawn_seed parent i)) (errs i)).
Proof.
  intros Hr Hc. cbv zeta. unfold ggsw_compressed_encrypt, ggsw_draw_index, ggsw_seed_slot.
  replace (rank + 1)%nat with (S rank) by lia.
  refine (find_slot_grid dnum (S rank) (fun row0 col0 => (row0, col0))
            (fun iq => compressed_cell stream_of wb b n size rank dsize nk sk parent errs
                         (fst (snd iq) * S rank + snd (snd iq))%nat (fst (snd iq)) (snd (snd iq)) m (fst iq))
            row col Hr Hc _).
  intros row' col' Hr' Hc' Hs. unfold compressed_cell in Hs. cbn [fst snd] in Hs.
  assert (row' = row) by (destruct (Nat.lt_trichotomy row' row) as [Hlt|[Heq|Hgt]]; [nia|exact Heq|nia]).
  subst row'. split; lia.
Qed.

End Cells.

(* decompress_decrypts_same: equal ciphertexts decrypt equally, in particular the decompressed object and the standard one *)
Theorem decompress_decrypts_same (wb b pb : Z) (n size psize rank : nat) (nk : Z) (pt : option (ccol * nat)) (sk : list poly)
        (us : nat -> Z) (e : poly) (body : ccol) (ct : list ccol) :
  enc_sk_compressed wb b n size rank nk pt sk us e = Some body ->
  enc_sk wb b n size rank nk pt sk us e = Some ct ->
  dec_glwe wb b pb n size psize sk (decompress_glwe b n size rank body us) = dec_glwe wb b pb n size psize sk ct.
Proof.
  intros H1 H2. apply decompress_glwe_eq_standard in H1. rewrite H1 in H2. inversion H2. reflexivity.
Qed.

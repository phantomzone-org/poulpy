(* C15 — the bit layout: radix arithmetic, bit_index is a bijection with an explicit inverse, word_of_bits, and the
   encode / decode round trip for any word type whose positions cidx are distinct (the operations on packed words are in
   C15Surgery.v). *)
From Coq Require Import ZArith List Bool Lia.
From PV Require Import Gen.C15_gen Model.C15Uint.
Import ListNotations.
Open Scope Z_scope.

(* Base.MachineInt.pow2_pos is the same statement; importing that file would switch on its zify hook
   (Z.div_mod_to_equations) for every lia below. *)
Lemma pow2_pos' k : 0 <= k -> 0 < 2 ^ k.
Proof. intros; apply Z.pow_pos_nonneg; lia. Qed.

Lemma div_mod_small a b q r : 0 < b -> 0 <= r < b -> a = b * q + r -> a / b = q /\ a mod b = r.
Proof.
  intros Hb Hr E. split.
  - symmetry. apply (Z.div_unique a b q r); [left; lia | exact E].
  - symmetry. apply (Z.mod_unique a b q r); [left; lia | exact E].
Qed.

(* numbers below D * A as two digits (u, i) in radix A *)
Lemma digits_range A D u i : 0 <= u < D -> 0 <= i < A -> 0 <= u * A + i < D * A.
Proof. intros Hu Hi. nia. Qed.

Lemma digits_div_mod A u i : 0 <= i < A -> (u * A + i) / A = u /\ (u * A + i) mod A = i.
Proof. intros Hi. apply div_mod_small; lia. Qed.

Lemma digits_of A D x : 0 < A -> 0 <= x < D * A -> 0 <= x / A < D /\ 0 <= x mod A < A.
Proof.
  intros HA Hx. split; [|apply Z.mod_pos_bound; lia]. split; [apply Z.div_pos; lia | apply Z.div_lt_upper_bound; lia].
Qed.

Lemma land_shiftl_small a n b : 0 <= n -> 0 <= b < 2 ^ n -> Z.land (Z.shiftl a n) b = 0.
Proof.
  intros Hn Hb. apply Z.bits_inj'. intros m Hm. rewrite Z.land_spec, Z.bits_0.
  destruct (Z_lt_le_dec m n).
  - rewrite Z.shiftl_spec_low by lia. reflexivity.
  - replace b with (b mod 2 ^ n) by (apply Z.mod_small; lia).
    rewrite Z.mod_pow2_bits_high by lia. apply andb_false_r.
Qed.

Lemma lor_shiftl_small a n b : 0 <= n -> 0 <= b < 2 ^ n -> Z.lor (Z.shiftl a n) b = a * 2 ^ n + b.
Proof.
  intros Hn Hb. pose proof (land_shiftl_small a n b Hn Hb) as H0.
  rewrite <- (Z.lxor_lor _ _ H0), <- (Z.add_nocarry_lxor _ _ H0), Z.shiftl_mul_pow2 by lia. reflexivity.
Qed.

Lemma bit_index_arith_eq lb i : 0 <= lb -> 0 <= i < 8 * 2 ^ lb -> bit_index lb i = bit_index_arith lb i.
Proof.
  intros Hlb Hi. unfold bit_index, bit_index_arith.
  change 7 with (Z.ones 3). rewrite Z.land_ones by lia. rewrite Z.shiftr_div_pow2 by lia.
  change (2 ^ 3) with 8. apply lor_shiftl_small; [lia|].
  pose proof (pow2_pos' lb Hlb). split; [apply Z.div_pos; lia | apply Z.div_lt_upper_bound; lia].
Qed.

Section Arith.
  Variable P : Z.
  Hypothesis HP : 0 < P.

  Lemma bia_range i : 0 <= i < 8 * P -> 0 <= (i mod 8) * P + i / 8 < 8 * P.
  Proof.
    intros Hi. destruct (digits_of 8 P i ltac:(lia) ltac:(lia)). apply digits_range; assumption.
  Qed.

  Lemma bia_inv_left i : 0 <= i < 8 * P ->
    let c := (i mod 8) * P + i / 8 in 8 * (c mod P) + c / P = i.
  Proof.
    intros Hi c.
    destruct (digits_of 8 P i ltac:(lia) ltac:(lia)).
    destruct (digits_div_mod P (i mod 8) (i / 8) ltac:(lia)) as [E1 E2]. unfold c.
    rewrite E1, E2. pose proof (Z.div_mod i 8 ltac:(lia)). lia.
  Qed.

  Lemma bia_inv_right c : 0 <= c < 8 * P ->
    let i := 8 * (c mod P) + c / P in (i mod 8) * P + i / 8 = c /\ 0 <= i < 8 * P.
  Proof.
    intros Hc i.
    destruct (digits_of P 8 c HP Hc).
    destruct (div_mod_small i 8 (c mod P) (c / P) ltac:(lia) ltac:(lia) ltac:(unfold i; lia)) as [E1 E2].
    rewrite E1, E2. pose proof (Z.div_mod c P ltac:(lia)). split; [lia | unfold i; nia].
  Qed.
End Arith.

Lemma bit_index_range lb i : 0 <= lb -> 0 <= i < 8 * 2 ^ lb -> 0 <= bit_index lb i < 8 * 2 ^ lb.
Proof. intros Hlb Hi. rewrite bit_index_arith_eq by auto. apply bia_range; auto using pow2_pos'. Qed.

Lemma bit_index_inv_left lb i : 0 <= lb -> 0 <= i < 8 * 2 ^ lb -> bit_index_inv lb (bit_index lb i) = i.
Proof. intros Hlb Hi. rewrite bit_index_arith_eq by auto. apply (bia_inv_left (2 ^ lb)); auto using pow2_pos'. Qed.

Lemma bit_index_inv_right lb c : 0 <= lb -> 0 <= c < 8 * 2 ^ lb ->
  bit_index lb (bit_index_inv lb c) = c /\ 0 <= bit_index_inv lb c < 8 * 2 ^ lb.
Proof.
  intros Hlb Hc. destruct (bia_inv_right (2 ^ lb) (pow2_pos' lb Hlb) c Hc) as [E R].
  split; [|exact R]. rewrite bit_index_arith_eq by (auto; exact R). exact E.
Qed.

Lemma bit_index_inj lb i j : 0 <= lb -> 0 <= i < 8 * 2 ^ lb -> 0 <= j < 8 * 2 ^ lb ->
  bit_index lb i = bit_index lb j -> i = j.
Proof.
  intros Hlb Hi Hj E. rewrite <- (bit_index_inv_left lb i), <- (bit_index_inv_left lb j) by auto. now rewrite E.
Qed.

(* a permutation of [0, BITS) *)
Definition bijective_on (bits : Z) (f : Z -> Z) : Prop :=
  (forall i, 0 <= i < bits -> 0 <= f i < bits) /\
  (forall i j, 0 <= i < bits -> 0 <= j < bits -> f i = f j -> i = j) /\
  (forall c, 0 <= c < bits -> exists i, 0 <= i < bits /\ f i = c).

Lemma bit_index_bijective_std lb : 0 <= lb -> bijective_on (8 * 2 ^ lb) (bit_index lb).
Proof.
  intros Hlb. repeat split.
  - apply bit_index_range; auto.
  - apply bit_index_range; auto.
  - intros i j; apply bit_index_inj; auto.
  - intros c Hc. exists (bit_index_inv lb c). destruct (bit_index_inv_right lb c Hlb Hc); auto.
Qed.

(* the generated word types are the documented ones: u8 .. u128 have LOG_BYTES 0 .. 4 and the trait's formula *)
Lemma wtypes_std : wtypes = map std_wty [0; 1; 2; 3; 4].
Proof. reflexivity. Qed.

Lemma wob_range n f : 0 <= word_of_bits n f < 2 ^ Z.of_nat n.
Proof.
  induction n as [|k IH]; [cbn; lia|].
  cbn [word_of_bits]. rewrite Nat2Z.inj_succ, Z.pow_succ_r by lia.
  pose proof (pow2_pos' (Z.of_nat k) ltac:(lia)). destruct (f (Z.of_nat k)); cbn [Z.b2z]; lia.
Qed.

Lemma wob_testbit n f i : 0 <= i < Z.of_nat n -> Z.testbit (word_of_bits n f) i = f i.
Proof.
  induction n as [|k IH]; [lia|]. intros Hi. cbn [word_of_bits].
  pose proof (wob_range k f) as R. pose proof (pow2_pos' (Z.of_nat k) ltac:(lia)) as Hp.
  destruct (Z.eq_dec i (Z.of_nat k)) as [->|Hne].
  - set (X := word_of_bits k f + Z.b2z (f (Z.of_nat k)) * 2 ^ Z.of_nat k).
    assert (E : Z.testbit X (Z.of_nat k) = Z.testbit (X / 2 ^ Z.of_nat k) 0)
      by (rewrite Z.div_pow2_bits by lia; f_equal; lia).
    rewrite E. unfold X. rewrite Z.div_add by lia. rewrite Z.div_small by lia.
    rewrite Z.add_0_l. apply Z.b2z_bit0.
  - assert (E : (word_of_bits k f + Z.b2z (f (Z.of_nat k)) * 2 ^ Z.of_nat k) mod 2 ^ Z.of_nat k = word_of_bits k f)
      by (rewrite Z.mod_add by lia; apply Z.mod_small; lia).
    rewrite <- (Z.mod_pow2_bits_low _ (Z.of_nat k)) by lia. rewrite E. apply IH; lia.
Qed.

Lemma wob_ext n f g : (forall i, 0 <= i < Z.of_nat n -> f i = g i) -> word_of_bits n f = word_of_bits n g.
Proof.
  induction n as [|k IH]; [reflexivity|]. intros H. cbn [word_of_bits].
  rewrite IH by (intros; apply H; lia). rewrite (H (Z.of_nat k)) by lia. reflexivity.
Qed.

Lemma wob_of_testbit n w : 0 <= w < 2 ^ Z.of_nat n -> word_of_bits n (Z.testbit w) = w.
Proof.
  intros Hw. apply Z.bits_inj'. intros i Hi.
  destruct (Z_lt_le_dec i (Z.of_nat n)).
  - apply wob_testbit; lia.
  - pose proof (wob_range n (Z.testbit w)).
    rewrite <- (Z.mod_small (word_of_bits n (Z.testbit w)) (2 ^ Z.of_nat n)) by lia.
    rewrite <- (Z.mod_small w (2 ^ Z.of_nat n)) at 2 by lia.
    rewrite !Z.mod_pow2_bits_high by lia. reflexivity.
Qed.

Lemma in_zseq s n i : In i (zseq s n) <-> s <= i < s + Z.of_nat n.
Proof.
  revert s; induction n as [|k IH]; intros s; cbn [zseq In].
  - lia.
  - rewrite IH. lia.
Qed.

Lemma zseq_length s n : length (zseq s n) = n.
Proof. revert s; induction n; intros; cbn; auto. Qed.

Lemma nth_zseq s n k d : (k < n)%nat -> nth k (zseq s n) d = s + Z.of_nat k.
Proof.
  revert s k; induction n as [|m IH]; intros s k Hk; [lia|].
  destruct k; cbn [zseq nth]; [lia|]. rewrite IH by lia. lia.
Qed.

(* encode / decode for any word type whose positions cidx are distinct *)
Section Enc.
  Variable T : wty.
  Variable logn : Z.
  Hypothesis Hbits : 0 <= w_bits T.
  Hypothesis Hinj : forall i j, 0 <= i < w_bits T -> 0 <= j < w_bits T -> cidx T logn i = cidx T logn j -> i = j.

  Let upd (w : Z) (f : poly) (i : Z) : poly := fun j => if j =? cidx T logn i then bitz w i else f j.

  Lemma enc_fold_off w l f j : (forall i, In i l -> cidx T logn i <> j) -> fold_left (upd w) l f j = f j.
  Proof.
    revert f; induction l as [|x l IH]; intros f H; [reflexivity|].
    cbn [fold_left]. rewrite IH by (intros; apply H; now right).
    unfold upd. destruct (Z.eqb_spec j (cidx T logn x)); [exfalso; apply (H x); [now left | auto]| reflexivity].
  Qed.

  Lemma enc_fold_at w l f i :
    In i l -> (forall i', In i' l -> cidx T logn i' = cidx T logn i -> i' = i) ->
    fold_left (upd w) l f (cidx T logn i) = bitz w i.
  Proof.
    revert f; induction l as [|x l IH]; intros f Hin H; [destruct Hin|].
    cbn [fold_left]. destruct (in_dec Z.eq_dec i l) as [Hl|Hl].
    - apply IH; auto. intros; apply H; auto. now right.
    - destruct Hin as [->|Hin]; [|contradiction].
      rewrite enc_fold_off.
      + unfold upd. now rewrite Z.eqb_refl.
      + intros i' Hi' E. apply Hl. rewrite <- (H i'); auto. now right.
  Qed.

  Lemma nbits_Z : Z.of_nat (nbits T) = w_bits T.
  Proof. unfold nbits. apply Z2Nat.id; auto. Qed.

  Lemma enc_at w i : 0 <= i < w_bits T -> p_enc T logn w (cidx T logn i) = bitz w i.
  Proof.
    intros Hi. unfold p_enc. apply (enc_fold_at w).
    - apply in_zseq. rewrite nbits_Z. lia.
    - intros i' Hi' E. apply in_zseq in Hi'. rewrite nbits_Z in Hi'. apply Hinj; auto; lia.
  Qed.

  Lemma enc_off w j : (forall i, 0 <= i < w_bits T -> cidx T logn i <> j) -> p_enc T logn w j = 0.
  Proof.
    intros H. unfold p_enc. rewrite (enc_fold_off w); [reflexivity|].
    intros i Hi. apply in_zseq in Hi. rewrite nbits_Z in Hi. apply H; lia.
  Qed.

  Lemma bitz_nonzero w i : negb (bitz w i mod 256 =? 0) = Z.testbit w i.
  Proof. unfold bitz. destruct (Z.testbit w i); reflexivity. Qed.

  (* decrypt (encrypt w) = w *)
  Lemma dec_enc w : 0 <= w < 2 ^ w_bits T -> p_dec T logn (p_enc T logn w) = w.
  Proof.
    intros Hw. unfold p_dec.
    rewrite (wob_ext _ _ (Z.testbit w)).
    - apply wob_of_testbit. now rewrite nbits_Z.
    - intros i Hi. rewrite nbits_Z in Hi. rewrite enc_at by lia. apply bitz_nonzero.
  Qed.

  (* decode reads exactly the positions cidx i *)
  Lemma dec_testbit q i : 0 <= i < w_bits T -> Z.testbit (p_dec T logn q) i = negb (q (cidx T logn i) mod 256 =? 0).
  Proof. intros Hi. unfold p_dec. rewrite wob_testbit; [reflexivity | rewrite nbits_Z; lia]. Qed.

  (* pack: position cidx i receives the constant coefficient of the i-th ciphertext *)
  Lemma pack_fold_off (cts : list (Z * poly)) acc j :
    (forall ic, In ic cts -> cidx T logn (fst ic) <> j) ->
    fold_left (fun a (ic : Z * poly) => if j =? cidx T logn (fst ic) then snd ic 0 else a) cts acc = acc.
  Proof.
    revert acc; induction cts as [|x l IH]; intros acc H; [reflexivity|]. cbn [fold_left].
    rewrite IH by (intros; apply H; now right).
    destruct (Z.eqb_spec j (cidx T logn (fst x))); [exfalso; apply (H x); [now left|auto] | reflexivity].
  Qed.
End Enc.

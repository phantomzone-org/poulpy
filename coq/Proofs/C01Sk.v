(* C01 at the level of one coefficient: what the proofs take from C08 about the normalisers, and the value on the torus
   of what each routine computes (body of a secret-key encryption, one column of a public-key encryption, decryption).
   The products X_i = (s_i * a_i)_k are the SAME limb lists in encryption and decryption, so the mask cancels
   without any ring law: the statements hold for arbitrary (bounded) X_i. *)
From PV Require Import Base.MachineInt Model.Znx Model.Limbs Model.Flat Model.C08Oracle Model.EncModel Proofs.EncValue Proofs.ListFacts.
Open Scope Z_scope.

(* What C01 takes from C08 (proved there for `normalize_inter 64`, statement C08_normalize_inter_value; the oracle of
   C08 checks the same inequality on every record for the cross-radix and the big normalisers):
   a normaliser at offset 0 returns `length r0` limbs whose value equals the value of the input on the torus up to one
   unit of the last output limb, exactly when nothing is truncated, and with balanced digits when the radix is kept. *)
Definition normalize_value_ok_dom (D : Z -> Prop) (nrm : Z -> Z -> list Z -> list Z -> option (list Z)) (H : Z) : Prop :=
  forall rb ab a r0 out, D rb -> D ab -> Forall (fun x => Z.abs x <= H) a ->
    nrm rb ab a r0 = Some out ->
    length out = length r0 /\ (rb = ab -> Forall (in_range rb) out) /\
    forall P, zn (length r0) * rb <= P -> zn (length a) * ab <= P ->
      tor_abs P (val_scaled P rb out - val_scaled P ab a) <= 2 ^ (P - zn (length r0) * rb) /\
      (zn (length a) * ab <= zn (length r0) * rb -> tor_abs P (val_scaled P rb out - val_scaled P ab a) = 0).

(* every radix in [1, R]; the theorems below are stated over an arbitrary radix domain D so that they can also be instantiated with
   the domain {b} (same radix everywhere), where C08 proves the statement (Proofs/EncC08.v) *)
Definition normalize_value_ok (nrm : Z -> Z -> list Z -> list Z -> option (list Z)) (H R : Z) : Prop :=
  normalize_value_ok_dom (fun x => 1 <= x <= R) nrm H.

Definition lvsum (P b : Z) (n : nat) (xs : list (list Z)) : Z := fold_right (fun X acc => lval P b n X + acc) 0 xs.

Lemma pow2_le_half (w : Z) : 2 <= w -> 2 ^ (w - 2) <= 2 ^ (w - 1) - 1.
Proof.
  intros H. replace (w - 1) with (1 + (w - 2)) by lia. rewrite Z.pow_add_r by lia.
  pose proof (pow2_pos (w - 2) ltac:(lia)). lia.
Qed.

(* the two forms in which the hypothesis about a normaliser is used *)
Section Normaliser.
Variable D : Z -> Prop.
Variable nrm : Z -> Z -> list Z -> list Z -> option (list Z).
Variable lim : Z.
Hypothesis Hnrm : normalize_value_ok_dom D nrm lim.

(* same radix and as many limbs as the input: nothing is truncated, the value is kept modulo 2^P *)
Lemma normalize_exact (b : Z) (size : nat) (a out : list Z) : D b -> length a = size -> bnd lim a ->
  nrm b b a (zeros size) = Some out ->
  length out = size /\ Forall (in_range b) out /\
  forall P, zn size * b <= P -> 1 <= P -> exists q, lval P b size out = lval P b size a + q * 2 ^ P.
Proof.
  intros Hb La Ba Hn.
  destruct (Hnrm b b a (zeros size) out Hb Hb (Forall_of_bnd lim a Ba) Hn) as (Lo & Ro & V).
  rewrite zeros_length in Lo. split; [exact Lo|]. split; [exact (Ro eq_refl)|].
  intros P HP HP1. destruct (V P) as [_ Ex]; rewrite ?zeros_length, ?La; try exact HP.
  rewrite zeros_length, La in Ex.
  destruct (tor_abs_zero_cong P _ HP1 (Ex (Z.le_refl _))) as [q Hq].
  rewrite !val_scaled_lval, Lo, La in Hq. exists q. lia.
Qed.

(* into psize limbs of radix pb: within one unit of the last limb written *)
Lemma normalize_unit (pb b : Z) (size psize : nat) (a d : list Z) : D pb -> D b -> length a = size -> bnd lim a ->
  nrm pb b a (zeros psize) = Some d ->
  length d = psize /\
  forall P, zn size * b <= P -> zn psize * pb <= P ->
    tor_abs P (val_scaled P pb d - lval P b size a) <= 2 ^ (P - zn psize * pb).
Proof.
  intros Hpb Hb La Ba Hn.
  destruct (Hnrm pb b a (zeros psize) d Hpb Hb (Forall_of_bnd lim a Ba) Hn) as (Ld & _ & V).
  rewrite zeros_length in Ld. split; [exact Ld|].
  intros P HP HPp. destruct (V P) as [Un _]; rewrite ?zeros_length, ?La; try assumption.
  rewrite zeros_length, (val_scaled_lval P b a), La in Un. exact Un.
Qed.

End Normaliser.

(* c' = c + sg * (t_1 + ... + t_m) limb by limb when no step wraps: `op` is l_sub_assign (sg = -1) or l_add_assign (sg = 1) *)
Lemma fold_value (op : list Z -> list Z -> list Z) (sg lim : Z) (size : nat) (D : Z) : 0 <= D ->
  (forall t c B, length c = size -> length t = size -> bnd D t -> bnd B c -> D + B <= lim ->
     length (op t c) = size /\ bnd (D + B) (op t c) /\
     forall P b, lval P b size (op t c) = lval P b size c + sg * lval P b size t) ->
  forall (ts : list (list Z)) (c : list Z) (B : Z),
  length c = size -> bnd B c -> Forall (fun t => length t = size /\ bnd D t) ts -> B + zn (length ts) * D <= lim ->
  let c' := fold_left (fun c t => op t c) ts c in
  length c' = size /\ bnd (B + zn (length ts) * D) c' /\
  forall P b, lval P b size c' = lval P b size c + sg * lvsum P b size ts.
Proof.
  intros HD Hop. induction ts as [|t ts IH]; intros c B Hl Hc HF HB; cbn [fold_left length].
  - split; [exact Hl|]. split; [eapply bnd_weaken; [|exact Hc]; unfold zn; lia|]. intros. cbn. lia.
  - apply Forall_cons_iff in HF. destruct HF as [[Htl Htb] HF'].
    assert (HB1 : D + B <= lim) by (unfold zn in *; cbn [length] in HB; nia).
    destruct (Hop t c B Hl Htl Htb Hc HB1) as (L1 & B1 & V1).
    destruct (IH (op t c) (D + B) L1 B1 HF' ltac:(unfold zn in *; cbn [length] in HB; nia)) as (L2 & B2 & V2).
    split; [exact L2|]. split; [eapply bnd_weaken; [|exact B2]; unfold zn; cbn [length]; nia|].
    intros P b. rewrite V2, V1. unfold lvsum. cbn [fold_right]. ring.
Qed.

Section Coeff.
Variables wb b pb : Z.
Variable D : Z -> Prop.
Variables size psize : nat.
Hypothesis normalize_value_ok_small : normalize_value_ok_dom D (fun rb ab => normalize 64 rb ab 0) (2 ^ 62).
Hypothesis normalize_value_ok_big : normalize_value_ok_dom D (bnorm wb) (2 ^ (wb - 2)).
Hypothesis Hwb : 2 <= wb.
Hypothesis Hb : D b.
Hypothesis Hpb : D pb.
Hypothesis Hb_pos : 1 <= b.

(* the normalised products have the value of the products, exactly *)
Lemma terms_value (Bp : Z) (Xs ts : list (list Z)) :
  Forall (fun X => length X = size /\ bnd Bp X) Xs -> Bp <= 2 ^ (wb - 2) ->
  Forall2 (fun X t => bnorm wb b b X (zeros size) = Some t) Xs ts ->
  Forall (fun t => length t = size /\ bnd (2 ^ (b - 1)) t) ts /\ length ts = length Xs /\
  forall P, zn size * b <= P -> 1 <= P -> exists q, lvsum P b size ts = lvsum P b size Xs + q * 2 ^ P.
Proof.
  intros HX HB H2. induction H2 as [|X t Xs ts Hn H2 IH].
  - split; [constructor|]. split; [reflexivity|]. intros P _ _. exists 0. cbn. lia.
  - apply Forall_cons_iff in HX. destruct HX as [[HXl HXb] HX'].
    destruct (IH HX') as (F & L & V).
    destruct (normalize_exact _ _ _ normalize_value_ok_big b size X t Hb HXl (bnd_weaken _ _ _ HB HXb) Hn) as (Lt & Rt & Vt).
    split; [|split].
    + constructor; [|exact F]. split; [exact Lt|]. apply bnd_in_range; [lia|exact Rt].
    + cbn [length]. lia.
    + intros P HP HP1. destruct (V P HP HP1) as [q Hq]. destruct (Vt P HP HP1) as [q1 Hq1].
      exists (q + q1). unfold lvsum in *. cbn [fold_right]. lia.
Qed.

(* body of glwe_encrypt_sk_internal for one coefficient, with or without a plaintext on column 0: its phase is
   plaintext + e on limb ell, exactly *)
Lemma enc_body_value (ell : nat) (Bp E M : Z) (Xs ts : list (list Z)) (e : Z) (m : option (list Z)) (body : list Z) :
  (ell < size)%nat -> Bp <= 2 ^ (wb - 2) ->
  Forall (fun X => length X = size /\ bnd Bp X) Xs ->
  Forall2 (fun X t => bnorm wb b b X (zeros size) = Some t) Xs ts ->
  Z.abs e <= E -> (forall p, m = Some p -> bnd M p) -> 0 <= M ->
  zn (length Xs) * 2 ^ (b - 1) + E + M <= 2 ^ 62 ->
  sk_body_coeff b size ell ts e m = Some body ->
  length body = size /\ Forall (in_range b) body /\
  forall P, zn size * b <= P -> 1 <= P ->
    exists q, lval P b size body + lvsum P b size Xs = optval P b size m + e * wt P b ell + q * 2 ^ P.
Proof.
  intros Hell HBp HX H2 He Hm HM Hh64 Henc.
  pose proof (pow2_pos (b - 1) ltac:(lia)) as Hpb1.
  destruct (terms_value Bp Xs ts HX HBp H2) as (Ft & Lts & Vts).
  unfold sk_body_coeff in Henc.
  destruct (fold_value (l_sub_assign 64) (-1) (2 ^ 63 - 1) size (2 ^ (b - 1)) ltac:(lia)) with (ts := ts) (c := zeros size) (B := 0)
    as (L0 & B0 & V0); [|apply zeros_length|apply bnd_zeros|exact Ft|rewrite Lts; lia|].
  { intros t c B Lc Lt Bt Bc HB. destruct (l_sub_assign_value 64 ltac:(lia) size t c _ B Lc Lt Bt Bc HB) as (L & Bd & V).
    split; [exact L|]. split; [exact Bd|]. intros P0 b0. rewrite V. ring. }
  rewrite Lts in B0.
  set (c0 := fold_left (fun c t => l_sub_assign 64 t c) ts (zeros size)) in *.
  destruct (l_add_at_value 64 ltac:(lia) size ell e c0 E _ L0 Hell He B0 ltac:(lia)) as (L1 & B1 & V1).
  set (c1 := l_add_at 64 ell e c0) in *.
  destruct (add_opt_value 64 ltac:(lia) size m c1 M _ L1 Hm HM B1 ltac:(lia)) as (L2 & B2 & V2).
  set (c2 := match m with Some p => l_add_assign 64 p c1 | None => c1 end) in *.
  assert (B2' : bnd (2 ^ 62) c2) by (eapply bnd_weaken; [|exact B2]; lia).
  destruct (normalize_exact _ _ _ normalize_value_ok_small b size c2 body Hb L2 B2' Henc) as (Lb & Rb & Vb).
  split; [exact Lb|]. split; [exact Rb|].
  intros P HP HP1. destruct (Vb P HP HP1) as [qb Hqb]. destruct (Vts P HP HP1) as [qt Hqt].
  exists (qb - qt). rewrite V2, V1, V0, lval_zeros in Hqb. lia.
Qed.

(* one column of glwe_encrypt_pk_internal for one coefficient *)
Lemma pk_coeff_value (ell : nat) (Bp E M : Z) (X : list Z) (e : Z) (m : option (list Z)) (out : list Z) :
  (ell < size)%nat -> 0 <= Bp -> length X = size -> bnd Bp X ->
  Z.abs e <= E -> (forall p, m = Some p -> bnd M p) -> 0 <= M ->
  Bp + E + M <= 2 ^ (wb - 2) ->
  pk_coeff wb b size ell X e m = Some out ->
  length out = size /\ Forall (in_range b) out /\
  forall P, zn size * b <= P -> 1 <= P ->
    exists q, lval P b size out = lval P b size X + e * wt P b ell + optval P b size m + q * 2 ^ P.
Proof.
  intros Hell HBp LX BX He Hm HM Hh Hpk.
  pose proof (pow2_le_half wb Hwb) as Hhalf.
  unfold pk_coeff in Hpk.
  destruct (l_add_at_value wb ltac:(lia) size ell e X E _ LX Hell He BX ltac:(lia)) as (L1 & B1 & V1).
  set (c1 := l_add_at wb ell e X) in *.
  destruct (add_opt_value wb ltac:(lia) size m c1 M _ L1 Hm HM B1 ltac:(lia)) as (L2 & B2 & V2).
  set (c2 := match m with Some p => l_add_assign wb p c1 | None => c1 end) in *.
  assert (B2' : bnd (2 ^ (wb - 2)) c2) by (eapply bnd_weaken; [|exact B2]; lia).
  destruct (normalize_exact _ _ _ normalize_value_ok_big b size c2 out Hb L2 B2' Hpk) as (Lo & Ro & Vo).
  split; [exact Lo|]. split; [exact Ro|].
  intros P HP HP1. destruct (Vo P HP HP1) as [q Hq]. exists q. rewrite V2, V1 in Hq. lia.
Qed.

(* glwe_decrypt for one coefficient: within one unit of body + sum of the products *)
Lemma dec_coeff_value (Bp Bb : Z) (Xs : list (list Z)) (body d : list Z) :
  0 <= Bp -> Forall (fun X => length X = size /\ bnd Bp X) Xs -> length body = size -> bnd Bb body ->
  zn (length Xs) * Bp + Bb <= 2 ^ (wb - 2) ->
  dec_coeff wb b pb size psize Xs body = Some d ->
  length d = psize /\
  forall P, zn size * b <= P -> zn psize * pb <= P ->
    tor_abs P (val_scaled P pb d - (lvsum P b size Xs + lval P b size body)) <= 2 ^ (P - zn psize * pb).
Proof.
  intros HBp HX Lb Bb' Hh Hdec.
  pose proof (pow2_le_half wb Hwb) as Hhalf.
  assert (HBb : 0 <= Bb) by (specialize (Bb' O); lia).
  unfold dec_coeff in Hdec.
  destruct (fold_value (l_add_assign wb) 1 (2 ^ (wb - 1) - 1) size Bp HBp) with (ts := Xs) (c := zeros size) (B := 0)
    as (La & Ba & Va); [|apply zeros_length|apply bnd_zeros|exact HX|lia|].
  { intros t c B Lc _ Bt Bc HB. destruct (l_add_assign_value wb ltac:(lia) size t c _ B Lc Bt Bc HB) as (L & Bd & V).
    split; [exact L|]. split; [exact Bd|]. intros P0 b0. rewrite V. ring. }
  set (acc := fold_left (fun c p => l_add_assign wb p c) Xs (zeros size)) in *.
  destruct (l_add_assign_value wb ltac:(lia) size body acc _ _ La Bb' Ba ltac:(lia)) as (La' & Ba' & Va').
  set (acc' := l_add_assign wb body acc) in *.
  assert (Ba'' : bnd (2 ^ (wb - 2)) acc') by (eapply bnd_weaken; [|exact Ba']; lia).
  destruct (normalize_unit _ _ _ normalize_value_ok_big pb b size psize acc' d Hpb Hb La' Ba'' Hdec) as (Ld & Vd).
  split; [exact Ld|].
  intros P HP HPp. replace (lvsum P b size Xs) with (lval P b size acc) by (rewrite Va, lval_zeros; ring).
  rewrite <- Va'. apply Vd; assumption.
Qed.

End Coeff.

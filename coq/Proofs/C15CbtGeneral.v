(* C15 — circuit bootstrapping for GENERAL parameters, both modes: for every ring degree 2^logn, every gadget
   (base2k, dnum), every log_domain ld with 2^ld * next_pow2(dnum) < 2^logn and ld < base2k, and every message m < 2^ld,
   each row of the ideal pipeline (lookup table as built by circuit_bootstrap_core, blind rotation by the exact message,
   rotation by -(i * gap), trace or post_process) decodes, at the precision of its gadget level, to the constant m
   resp. the monomial X^(m * 2^log_gap_out).

   The idea: with A = next_pow2(dnum), D = 2^ld and S = step, the table holds entry q at the coefficients
   [q * S - drift, (q + 1) * S - drift), the three rotations of a row add up to one rotation by a multiple of S, and
   the coefficient read at a multiple of S is entry number u * A + i, where the digit i is the row and the digit u
   is the distance between the position read and the message. *)
From Coq Require Import ZArith List Bool Lia.
From PV Require Import Gen.C15_gen Model.C15Uint Model.C15Cbt Proofs.C15Layout Proofs.C15Surgery Proofs.C15CbtProof.
Import ListNotations.
Open Scope Z_scope.

Lemma next_pow2_spec x : 1 <= x -> exists a, 0 <= a /\ next_pow2 x = 2 ^ a /\ x <= 2 ^ a.
Proof.
  intros Hx. unfold next_pow2. destruct (Z.leb_spec x 1).
  - exists 0. cbn. lia.
  - unfold bitlen. destruct (Z.leb_spec (x - 1) 0); [lia|].
    exists (Z.log2 (x - 1) + 1). pose proof (Z.log2_nonneg (x - 1)).
    split; [lia|]. split; [reflexivity|].
    pose proof (Z.log2_spec (x - 1) ltac:(lia)) as [_ H2]. rewrite <- Z.add_1_r in H2. lia.
Qed.

Lemma mult_eqb L j m : 0 < L -> (j mod L =? 0) && (j / L =? m) = (j =? m * L).
Proof.
  intros HL. destruct (Z.eqb_spec j (m * L)) as [->|Hne].
  - rewrite Z.mod_mul, Z.div_mul by lia. rewrite !Z.eqb_refl. reflexivity.
  - destruct (Z.eqb_spec (j mod L) 0) as [E0|]; [|reflexivity].
    destruct (Z.eqb_spec (j / L) m) as [E1|]; [|reflexivity].
    pose proof (Z.div_mod j L ltac:(lia)) as E. rewrite E0, E1 in E. exfalso. apply Hne. lia.
Qed.

Lemma weight_range b d i : 1 <= b -> 0 <= i < d -> 0 <= b * (d - 1 - i) <= b * (d - 1).
Proof. intros Hb Hi. nia. Qed.

Lemma pow2_twice k : 1 <= k -> 2 ^ k = 2 * 2 ^ (k - 1).
Proof. intros Hk. rewrite <- Z.pow_succ_r by lia. f_equal. lia. Qed.

Lemma wrap64_small v : 0 <= v < 2 ^ 63 -> wrap64 v = v.
Proof. intros Hv. unfold wrap64. rewrite Z.mod_small by lia. lia. Qed.

Lemma fits_i64 v k y : 0 <= v <= 2 ^ k -> 0 <= k -> 0 <= y -> k + y <= 62 -> 0 <= v * 2 ^ y < 2 ^ 63.
Proof.
  intros Hv Hk Hy Hs. pose proof (pow2_pos' y Hy). split; [nia|].
  apply Z.le_lt_trans with (2 ^ k * 2 ^ y); [nia|]. rewrite <- Z.pow_add_r by lia. apply Z.pow_lt_mono_r; lia.
Qed.

(* the two shapes of a table entry, 1 << X and v * (1 << X), scaled by 2^sc: no product wraps *)
Lemma pow_entry X sc : 0 <= X -> 0 <= sc -> X + sc <= 62 -> wrap64 (wrap64 (2 ^ X) * 2 ^ sc) = 2 ^ (X + sc).
Proof.
  intros HX Hsc Hs. pose proof (fits_i64 1 0 X). pose proof (fits_i64 1 0 (X + sc)).
  rewrite (wrap64_small (2 ^ X)) by lia. rewrite <- Z.pow_add_r by lia. apply wrap64_small. lia.
Qed.

Lemma scaled_entry v k X sc : 0 <= v <= 2 ^ k -> 0 <= k -> 0 <= X -> 0 <= sc -> k + X + sc <= 62 ->
  wrap64 (wrap64 (v * wrap64 (2 ^ X)) * 2 ^ sc) = v * 2 ^ (X + sc).
Proof.
  intros Hv Hk HX Hsc Hs. pose proof (fits_i64 1 0 X).
  rewrite (wrap64_small (2 ^ X)) by lia. rewrite (wrap64_small (v * 2 ^ X)) by (apply (fits_i64 v k); lia).
  rewrite <- Z.mul_assoc, <- Z.pow_add_r by lia. apply wrap64_small, (fits_i64 v k); lia.
Qed.

(* rounding to the nearest multiple of 2^s, as row_decoded does it *)
Lemma round_exact v s : 0 <= s -> (v * 2 ^ s + (if s =? 0 then 0 else 2 ^ (s - 1))) / 2 ^ s = v.
Proof.
  intros Hs. destruct (Z.eqb_spec s 0) as [->|E0].
  - rewrite Z.add_0_r. apply Z.div_mul. discriminate.
  - pose proof (pow2_pos' (s - 1) ltac:(lia)). pose proof (pow2_twice s ltac:(lia)).
    apply (div_mod_small _ (2 ^ s) v (2 ^ (s - 1))); lia.
Qed.

Lemma centred_small v k : 1 <= k -> 0 <= v -> 2 * v < 2 ^ k ->
  (if 2 ^ k / 2 <=? v mod 2 ^ k then v mod 2 ^ k - 2 ^ k else v mod 2 ^ k) = v.
Proof.
  intros Hk Hv Hlt. rewrite Z.mod_small by lia.
  rewrite (pow2_twice k Hk), (Z.mul_comm 2), Z.div_mul by lia. rewrite <- (Z.mul_comm 2), <- pow2_twice by lia.
  destruct (Z.leb_spec (2 ^ (k - 1)) v); [|reflexivity]. pose proof (pow2_twice k Hk). lia.
Qed.

Lemma sc_nonneg base2k dnum bb : 1 <= bb -> 0 <= lut_sc base2k dnum bb.
Proof.
  intros Hbb. unfold lut_sc. cbv zeta. destruct (_ =? 0); [lia|].
  pose proof (Z.mod_pos_bound (base2k * dnum) bb ltac:(lia)). lia.
Qed.

Lemma asserts_iff base2k dnum bb expo ld : 1 <= dnum ->
  cb_asserts base2k dnum bb expo ld = true <->
  base2k * (dnum - 1) + lut_sc base2k dnum bb + (if expo then 0 else ld) <= 62.
Proof. intros Hd. unfold cb_asserts. rewrite Z.max_r, Z.ltb_lt by lia. lia. Qed.

(* a row whose coefficient j is v * 2^s, s the weight of the row's last limb, decodes to v at j *)
Lemma decoded_exact base2k dnum bb i (q : poly) j v :
  1 <= base2k -> 1 <= bb -> 0 <= i < dnum -> 0 <= v -> 2 * v < 2 ^ (base2k * (i + 1)) ->
  q j = v * 2 ^ (base2k * (dnum - 1 - i) + lut_sc base2k dnum bb) ->
  row_decoded base2k dnum bb i q j = v.
Proof.
  intros Hb Hbb Hi Hv Hlt Eq. unfold row_decoded. cbv zeta. rewrite Eq.
  pose proof (sc_nonneg base2k dnum bb Hbb). rewrite round_exact by nia. apply centred_small; [nia | exact Hv | exact Hlt].
Qed.

Section Rows.
  Variables logn base2k dnum bb ld a : Z.
  Hypothesis Hd : 1 <= dnum.
  Hypothesis Ha : 0 <= a.
  Hypothesis Halpha : alpha dnum = 2 ^ a.
  Hypothesis Hda : dnum <= 2 ^ a.
  Hypothesis Hld : 0 <= ld.
  Hypothesis Hroom : ld + a + 1 <= logn.           (* step >= 2: the assert gap > 0 of the code *)
  Hypothesis Hb : 1 <= base2k.
  Hypothesis Hldb : ld + 1 <= base2k.               (* the message fits below the sign bit of the first gadget digit *)
  Hypothesis Hbb : 1 <= bb.
  Let e := logn - ld - a.
  Let h := 2 ^ (e - 1).
  Let S := 2 ^ e.
  Let A := 2 ^ a.
  Let D := 2 ^ ld.
  Let n := 2 ^ logn.

  Lemma h_range : 0 < h /\ S = 2 * h.
  Proof. split; [apply pow2_pos' | apply pow2_twice]; unfold e; lia. Qed.
  Lemma A_pos : 0 < A. Proof. apply pow2_pos'; lia. Qed.
  Lemma D_pos : 0 < D. Proof. apply pow2_pos'; lia. Qed.
  Lemma n_DAS : n = D * A * S.
  Proof. unfold n, D, A, S, e. rewrite <- !Z.pow_add_r by lia. f_equal. lia. Qed.
  Lemma AS_pos : 0 < A * S.
  Proof. pose proof A_pos. pose proof h_range. nia. Qed.
  Lemma deg_pos : 0 < n. Proof. apply pow2_pos'. lia. Qed.
  Lemma n_div_D : n / 2 ^ ld = A * S.
  Proof. fold D. rewrite n_DAS, <- Z.mul_assoc, Z.mul_comm. apply Z.div_mul. pose proof D_pos. lia. Qed.

  Lemma f_len_eq : f_len dnum ld = D * A. Proof. unfold f_len. now rewrite Halpha. Qed.
  Lemma step_eq : step logn dnum ld = S.
  Proof.
    unfold step. rewrite f_len_eq. fold n. rewrite n_DAS. pose proof A_pos. pose proof D_pos.
    assert (0 < D * A) by nia.
    assert (R : 0 <= D * A / 2 < D * A) by (split; [apply Z.div_pos; lia | apply Z.div_lt; lia]).
    apply (div_mod_small _ (D * A) S (D * A / 2)); lia.
  Qed.
  Lemma drift_eq : drift logn dnum ld = h.
  Proof.
    unfold drift. rewrite step_eq, Z.shiftr_div_pow2 by lia. change (2 ^ 1) with 2.
    rewrite (proj2 h_range), Z.mul_comm. apply Z.div_mul. discriminate.
  Qed.
  Lemma gap_eq : cb_gap logn dnum ld = S.
  Proof. unfold cb_gap. rewrite drift_eq. symmetry. apply h_range. Qed.

  Section Mode.
    Variable expo : bool.
    Notation lut := (lut logn base2k dnum bb expo ld).
    Notation lut_entry := (lut_entry base2k dnum bb expo ld).

    (* entry q of the table sits, after the rotation by -drift, at coefficient q * step *)
    Lemma lut_at q : 0 <= q < D * A -> lut (q * S) = lut_entry q.
    Proof.
      intros Hq. pose proof h_range as [Hh ES].
      pose proof (digits_range S (D * A) q h Hq ltac:(lia)) as R.
      unfold C15Cbt.lut. fold n. rewrite drift_eq, (p_rot_lo n) by (rewrite n_DAS; lia).
      replace (q * S - - h) with (q * S + h) by ring.
      unfold lut_full. rewrite f_len_eq, step_eq. destruct (digits_div_mod S q h ltac:(lia)) as [-> _].
      destruct (Z.leb_spec 0 (q * S + h)); [|lia]. destruct (Z.ltb_spec (q * S + h) (D * A * S)); [|lia]. reflexivity.
    Qed.

    (* the table rotated by a multiple of step, read at a multiple of step: entry u * A + i when the distance between
       the two is that many steps; a negative distance wraps around X^n = -1 *)
    Lemma lut_rot q u i : - D <= u < D -> 0 <= i < A ->
      p_rot n ((q - (u * A + i)) * S) lut (q * S) =
        if 0 <=? u then lut_entry (u * A + i) else - lut_entry ((u + D) * A + i).
    Proof.
      intros Hu Hi. pose proof h_range as [Hh ES]. destruct (Z.leb_spec 0 u).
      - pose proof (digits_range A D u i ltac:(lia) Hi) as Rk.
        pose proof (digits_range S (D * A) (u * A + i) 0 Rk ltac:(lia)).
        rewrite (p_rot_lo n) by (rewrite n_DAS; lia).
        replace (q * S - (q - (u * A + i)) * S) with ((u * A + i) * S) by ring. apply lut_at, Rk.
      - pose proof (digits_range A D (u + D) i ltac:(lia) Hi) as Rk.
        pose proof (digits_range S (D * A) ((u + D) * A + i) 0 Rk ltac:(lia)).
        assert (E : q * S - (q - (u * A + i)) * S + n = ((u + D) * A + i) * S) by (rewrite n_DAS; ring).
        rewrite (p_rot_neg n deg_pos) by (rewrite n_DAS in *; lia). rewrite E. f_equal. apply lut_at, Rk.
    Qed.

    (* row i of the accumulator for message m, read at position t * (alpha * step) *)
    Lemma row_at m i t : 0 <= i < A -> let u := if expo then t - m else t + m in - D <= u < D ->
      p_rot n (- (i * cb_gap logn dnum ld)) (br_acc logn base2k dnum bb expo ld m) (t * (A * S)) =
        if 0 <=? u then lut_entry (u * A + i) else - lut_entry ((u + D) * A + i).
    Proof.
      intros Hi u Hu. rewrite gap_eq. unfold br_acc. cbv zeta. fold n. rewrite n_div_D, (p_rot_rot n deg_pos).
      replace (- (i * S) + (if expo then m * (A * S) else - (m * (A * S)))) with ((t * A - (u * A + i)) * S)
        by (unfold u; destruct expo; ring).
      replace (t * (A * S)) with (t * A * S) by ring. apply lut_rot; assumption.
    Qed.

    Hypothesis Hass : cb_asserts base2k dnum bb expo ld = true.

    (* no product of circuit_bootstrap_core wraps: the entry is its mathematical value *)
    Lemma entry_value u i : 0 <= u < D -> 0 <= i < dnum ->
      lut_entry (u * A + i) =
        (if expo then if u =? 0 then 1 else 0 else u) * 2 ^ (base2k * (dnum - 1 - i) + lut_sc base2k dnum bb).
    Proof.
      intros Hu Hi. pose proof (proj1 (asserts_iff base2k dnum bb expo ld Hd) Hass) as Hov.
      pose proof (sc_nonneg base2k dnum bb Hbb) as Hsc.
      unfold C15Cbt.lut_entry, f_i64. rewrite f_len_eq, Halpha. fold A.
      destruct (digits_div_mod A u i ltac:(lia)) as [-> ->].
      pose proof (digits_range A D u i Hu ltac:(lia)).
      destruct (Z.leb_spec 0 (u * A + i)); [|lia]. destruct (Z.ltb_spec (u * A + i) (D * A)); [|lia].
      destruct (Z.ltb_spec i dnum); [|lia]. cbn [andb].
      set (sc := lut_sc base2k dnum bb) in *. set (X := base2k * (dnum - 1 - i)).
      pose proof (weight_range base2k dnum i Hb Hi) as HX. fold X in HX.
      destruct expo.
      - destruct (u =? 0); [|reflexivity]. rewrite pow_entry by lia. ring.
      - apply (scaled_entry u ld); fold D; lia.
    Qed.
  End Mode.

  (* 2 * m is below the modulus of every gadget level *)
  Lemma msg_fits m i : m < D -> 0 <= i -> 2 * m < 2 ^ (base2k * (i + 1)).
  Proof.
    intros Hm Hi. apply Z.lt_le_trans with (2 ^ (ld + 1)); [rewrite Z.add_1_r, Z.pow_succ_r by lia; fold D; lia|].
    apply Z.pow_le_mono_r; nia.
  Qed.

  (** ** constant mode: the full trace keeps coefficient 0 *)

  Lemma row_ok_const lgo m i : cb_asserts base2k dnum bb false ld = true -> 0 <= m < D -> 0 <= i < dnum ->
    exists q, cb_row logn base2k dnum bb false ld lgo m i = Some q /\
              forall j, 0 <= j < n -> row_decoded base2k dnum bb i q j = cand logn false lgo m j.
  Proof.
    intros Hass Hm Hi. unfold cb_row. rewrite Hass. cbv zeta. eexists; split; [reflexivity|]. intros j Hj.
    fold n. unfold cand, p_const. fold A in Hda.
    apply decoded_exact; [assumption.. | destruct (j =? 0); lia | destruct (j =? 0); apply msg_fits; lia |].
    rewrite trace0, keep_n by exact Hj. destruct (j =? 0); [|ring].
    rewrite <- (Z.mul_0_l (A * S)), (row_at false m i 0) by lia. cbv zeta. rewrite Z.add_0_l.
    destruct (Z.leb_spec 0 m); [|lia]. apply entry_value; assumption.
  Qed.

  (** ** exponent mode: trace down to the multiples of alpha * step, then pack at log_gap_out *)

  Let G := e + a.
  Lemma AS_pow : A * S = 2 ^ G. Proof. unfold A, S, G. rewrite <- Z.pow_add_r by (unfold e; lia). f_equal. lia. Qed.
  Lemma log_gap_in_eq : log_gap_in logn dnum ld = G.
  Proof.
    unfold log_gap_in. rewrite gap_eq, Halpha. fold A. rewrite (Z.mul_comm S A), AS_pow.
    assert (1 <= G) by (unfold G, e; lia). pose proof (pow2_twice G ltac:(lia)). pose proof (pow2_pos' (G - 1) ltac:(lia)).
    unfold bitlen. destruct (Z.leb_spec (2 ^ G - 1) 0); [lia|].
    replace (2 ^ G - 1) with (Z.pred (2 ^ G)) by lia. rewrite Z.log2_pred_pow2 by lia. lia.
  Qed.

  Lemma cand_expo lgo m j : 0 <= lgo -> 0 <= m -> m * 2 ^ lgo < n -> 0 <= j < n ->
    cand logn true lgo m j = if j =? m * 2 ^ lgo then 1 else 0.
  Proof.
    intros Hl Hm Hbd Hj. unfold cand. fold n. pose proof (pow2_pos' lgo Hl). assert (0 <= m * 2 ^ lgo) by nia.
    destruct (Z_lt_le_dec (j - m * 2 ^ lgo) 0).
    - rewrite (p_rot_neg n deg_pos) by lia. unfold p_const.
      destruct (Z.eqb_spec (j - m * 2 ^ lgo + n) 0); [lia|]. destruct (Z.eqb_spec j (m * 2 ^ lgo)); lia.
    - rewrite (p_rot_lo n) by lia. unfold p_const.
      destruct (Z.eqb_spec (j - m * 2 ^ lgo) 0); destruct (Z.eqb_spec j (m * 2 ^ lgo)); lia.
  Qed.

  (* the traced accumulator of row i: 2^s at m * (alpha * step), zero elsewhere *)
  Lemma traced_row m i j : cb_asserts base2k dnum bb true ld = true -> 0 <= m < D -> 0 <= i < dnum -> 0 <= j < n ->
    p_trace n (logn - G) (p_rot n (- (i * cb_gap logn dnum ld)) (br_acc logn base2k dnum bb true ld m)) j =
      (if j =? m * (A * S) then 1 else 0) * 2 ^ (base2k * (dnum - 1 - i) + lut_sc base2k dnum bb).
  Proof.
    intros Hass Hm Hi Hj. pose proof AS_pos as HAS. fold A in Hda.
    unfold p_trace, p_keep. replace (logn - G) with ld by (unfold G, e; lia). rewrite n_div_D.
    rewrite <- (mult_eqb (A * S)) by exact HAS. destruct (Z.eqb_spec (j mod (A * S)) 0) as [E0|]; cbn [andb]; [|ring].
    set (t := j / (A * S)).
    assert (Ej : j = t * (A * S)) by (pose proof (Z.div_mod j (A * S) ltac:(lia)); fold t in H; lia).
    destruct (digits_of (A * S) D j HAS ltac:(rewrite n_DAS in Hj; lia)) as [Ht _]. fold t in Ht.
    rewrite Ej at 1. rewrite (row_at true m i t) by lia. cbv zeta.
    destruct (Z.leb_spec 0 (t - m)); rewrite entry_value by (assumption || lia).
    - destruct (Z.eqb_spec (t - m) 0); destruct (Z.eqb_spec t m); try lia; reflexivity.
    - destruct (Z.eqb_spec (t - m + D) 0); destruct (Z.eqb_spec t m); try lia; reflexivity.
  Qed.

  Lemma row_ok_expo lgo m i : cb_asserts base2k dnum bb true ld = true ->
    2 <= base2k -> 0 <= lgo -> (D - 1) * 2 ^ lgo < n -> 0 <= m < D -> 0 <= i < dnum ->
    exists q, cb_row logn base2k dnum bb true ld lgo m i = Some q /\
              forall j, 0 <= j < n -> row_decoded base2k dnum bb i q j = cand logn true lgo m j.
  Proof.
    intros Hass Hb2 Hl Hpk Hm Hi. pose proof AS_pos as HAS. pose proof (pow2_pos' lgo Hl) as HL.
    assert (Hmb : m * 2 ^ lgo < n) by (apply Z.le_lt_trans with ((D - 1) * 2 ^ lgo); [apply Z.mul_le_mono_nonneg_r; lia | exact Hpk]).
    assert (Hbit : forall b : bool, 0 <= (if b then 1 else 0) /\ 2 * (if b then 1 else 0) < 2 ^ (base2k * (i + 1))).
    { intros b. assert (2 ^ 2 <= 2 ^ (base2k * (i + 1))) by (apply Z.pow_le_mono_r; nia). destruct b; lia. }
    unfold cb_row. rewrite Hass. cbv zeta. unfold post_process. rewrite log_gap_in_eq. fold n.
    destruct (Z.eqb_spec G lgo) as [EG|EG]; cbn [negb].
    - (* trace only: log_gap_out = log_gap_in *)
      eexists; split; [reflexivity|]. intros j Hj. rewrite cand_expo by (assumption || lia).
      apply decoded_exact; [assumption.. | apply Hbit | apply Hbit |].
      rewrite traced_row by assumption. now rewrite <- EG, AS_pow.
    - (* rotate and pack: position t * 2^log_gap_out receives coefficient t * (alpha * step) *)
      fold D. destruct (Z.ltb_spec ((D - 1) * 2 ^ lgo) n); [|lia].
      eexists; split; [reflexivity|]. intros j Hj. rewrite cand_expo by (assumption || lia).
      apply decoded_exact; [assumption.. | apply Hbit | apply Hbit |]. cbv beta zeta.
      rewrite <- (mult_eqb (2 ^ lgo)) by exact HL. destruct (j mod 2 ^ lgo =? 0); cbn [andb]; [|ring].
      set (t := j / 2 ^ lgo). assert (0 <= t) by (apply Z.div_pos; lia).
      destruct (Z.leb_spec 0 t); [|lia]. destruct (Z.ltb_spec t D); cbn [andb].
      + pose proof (digits_range (A * S) D t 0 ltac:(lia) ltac:(lia)).
        rewrite <- AS_pow, (p_rot_lo n) by (rewrite n_DAS; lia).
        replace (0 - - (t * (A * S))) with (t * (A * S)) by ring. rewrite traced_row by (assumption || rewrite n_DAS; lia).
        rewrite <- (mult_eqb (A * S)), Z.mod_mul, Z.div_mul by lia. reflexivity.
      + destruct (Z.eqb_spec t m); [lia | ring].
  Qed.

  Theorem rows_ok expo lgo m : cb_asserts base2k dnum bb expo ld = true ->
    (expo = true -> 2 <= base2k /\ 0 <= lgo /\ (D - 1) * 2 ^ lgo < n) -> 0 <= m < D ->
    cbt_rows_ok logn base2k dnum bb expo ld lgo m = true.
  Proof.
    intros Hass Hx Hm. apply cbt_rows_ok_iff. intros i Hi. destruct expo.
    - destruct (Hx eq_refl) as (Hb2 & Hl & Hpk). apply row_ok_expo; assumption.
    - apply row_ok_const; assumption.
  Qed.
End Rows.

(* both modes, all parameter sets the code accepts; what is asked of exponent mode only is under [expo = true] *)
Theorem cbt_rows_ok_modes : forall logn base2k dnum bb expo ld lgo m,
  1 <= dnum -> 0 <= ld -> ld + 1 <= base2k -> 1 <= bb ->
  cb_asserts base2k dnum bb expo ld = true ->
  2 * (2 ^ ld * next_pow2 dnum) <= 2 ^ logn -> 0 <= logn ->
  (expo = true -> 2 <= base2k /\ 0 <= lgo /\ (2 ^ ld - 1) * 2 ^ lgo < 2 ^ logn) ->
  0 <= m < 2 ^ ld ->
  cbt_rows_ok logn base2k dnum bb expo ld lgo m = true.
Proof.
  intros logn base2k dnum bb expo ld lgo m Hd Hld Hldb Hbb Hass Hroom Hlogn Hx Hm.
  destruct (next_pow2_spec dnum Hd) as (a & Ha & Ea & Hda).
  assert (Hr : ld + a + 1 <= logn).
  { rewrite Ea in Hroom. rewrite <- Z.pow_add_r, <- Z.pow_succ_r in Hroom by lia. apply Z.pow_le_mono_r_iff in Hroom; lia. }
  apply (rows_ok logn base2k dnum bb ld a); assumption || lia.
Qed.

(* the test parameter set: N = 256, base2k = 13, dnum = 2, blind-rotation radix 12 *)
Lemma test_rows expo ld lgo m : 1 <= ld <= 2 -> 0 <= lgo -> ld + lgo <= 8 -> 0 <= m < 2 ^ ld ->
  cbt_rows_ok 8 13 2 12 expo ld lgo m = true.
Proof.
  intros Hld Hl Hs Hm. assert (Eld : ld = 1 \/ ld = 2) by lia.
  apply cbt_rows_ok_modes; try lia.
  - destruct expo, Eld as [-> | ->]; reflexivity.
  - destruct Eld as [-> | ->]; discriminate.
  - intros _. split; [lia|]. split; [exact Hl|]. apply Z.lt_le_trans with (2 ^ ld * 2 ^ lgo); [pose proof (pow2_pos' lgo Hl); lia|].
    rewrite <- Z.pow_add_r by lia. apply Z.pow_le_mono_r; lia.
Qed.

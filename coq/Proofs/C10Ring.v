(* C10 / ring operations: znx_automorphism_avx (Hensel inverse of p mod 2n in wrapping usize arithmetic, per-lane
   index t = j * p^-1 mod 2n, gather, conditional negation by (v xor s) - s) and znx_switch_ring_avx (gathered
   downsampling, strided upsampling, scalar fall-back below 4 coefficients) equal the reference kernels of Model/Ring.v. *)
From Coq Require Import Znumtheory.
From PV Require Import Base.MachineInt Model.Znx Model.Limbs Model.Ring Model.Poly Model.C10AvxLanes
  Proofs.C10Avx Proofs.C10Simd Proofs.C09Lists Proofs.C09Sigma Proofs.ListFacts.
Open Scope Z_scope.

(* Hensel lifting of the inverse modulo 2^bits in wrapping u64 arithmetic *)
Lemma pow2_divide (a b : Z) : 0 <= a <= b -> (2 ^ a | 2 ^ b).
Proof. intros H. exists (2 ^ (b - a)). rewrite <- Z.pow_add_r by lia. f_equal; lia. Qed.

Lemma wrapu_hensel (p x : Z) :
  wrapu 64 (x * wrapu 64 (2 - wrapu 64 (p * x))) = (x * (2 - p * x)) mod 2 ^ 64.
Proof.
  unfold wrapu. rewrite Zminus_mod_idemp_r. rewrite Zmult_mod_idemp_r. reflexivity.
Qed.

Lemma hensel_step (p x j : Z) : 0 <= j <= 64 -> (2 ^ j | p * x - 1) ->
  (2 ^ Z.min (2 * j) 64 | p * wrapu 64 (x * wrapu 64 (2 - wrapu 64 (p * x))) - 1).
Proof.
  intros Hj [c Hc]. rewrite wrapu_hensel.
  pose proof (Z.div_mod (x * (2 - p * x)) (2 ^ 64) ltac:(lia)) as Hd.
  set (k := (x * (2 - p * x)) / 2 ^ 64) in *. set (x' := (x * (2 - p * x)) mod 2 ^ 64) in *.
  replace (p * x' - 1) with (- (c * c) * 2 ^ (2 * j) + (- p * k) * 2 ^ 64).
  - apply Z.divide_add_r; apply Z.divide_mul_r; apply pow2_divide; lia.
  - replace (2 ^ (2 * j)) with (2 ^ j * 2 ^ j) by (rewrite <- Z.pow_add_r by lia; f_equal; lia).
    assert (Hx' : x' = x * (2 - p * x) - 2 ^ 64 * k) by lia.
    rewrite Hx'. 
    assert (Hpx : p * x = c * 2 ^ j + 1) by lia.
    replace (p * (x * (2 - p * x) - 2 ^ 64 * k) - 1) with ((p * x) * (2 - p * x) - 1 - p * k * 2 ^ 64) by ring.
    rewrite Hpx. ring.
Qed.

Lemma inv_loop_correct (p bits : Z) : 0 <= bits <= 64 ->
  forall (fuel : nat) (i x : Z), 1 <= i -> (2 ^ Z.min i 64 | p * x - 1) ->
  bits <= i * 2 ^ Z.of_nat fuel ->
  (2 ^ bits | p * inv_mod_pow2_loop fuel p bits i x - 1).
Proof.
  intros Hb. induction fuel as [|f IH]; intros i x Hi Hinv Hfuel.
  - cbn [inv_mod_pow2_loop]. cbn in Hfuel.
    apply Z.divide_trans with (2 ^ Z.min i 64); [apply pow2_divide; lia|exact Hinv].
  - cbn [inv_mod_pow2_loop]. destruct (Z.ltb_spec i bits) as [Hlt|Hge].
    + assert (Hw : wrapu 32 (i * 2) = 2 * i) by (unfold wrapu; rewrite Z.mod_small; lia).
      rewrite Hw. apply IH.
      * lia.
      * replace (Z.min i 64) with i in Hinv by lia. apply hensel_step; [lia|exact Hinv].
      * rewrite Nat2Z.inj_succ, Z.pow_succ_r in Hfuel by lia. lia.
    + apply Z.divide_trans with (2 ^ Z.min i 64); [apply pow2_divide; lia|exact Hinv].
Qed.

Lemma inv_mod_pow2_correct (p bits : Z) : Z.odd p = true -> 1 <= bits <= 63 ->
  0 <= inv_mod_pow2 p bits < 2 ^ bits /\ (inv_mod_pow2 p bits * p) mod 2 ^ bits = 1.
Proof.
  intros Ho Hb. unfold inv_mod_pow2.
  pose proof (pow2_pos bits ltac:(lia)) as Hp. pose proof (pow2_lt bits 64 ltac:(lia)) as Hlt.
  assert (Hmask : wrapu 64 (wrapu 64 (1 * 2 ^ bits) - 1) = 2 ^ bits - 1).
  { unfold wrapu. rewrite Z.mul_1_l. rewrite (Z.mod_small (2 ^ bits)) by lia. apply Z.mod_small; lia. }
  rewrite Hmask, land_mask_mod by lia.
  set (L := inv_mod_pow2_loop 32 p bits 1 1).
  assert (HL : (2 ^ bits | p * L - 1)).
  { unfold L. apply inv_loop_correct.
    - lia.
    - lia.
    - replace (Z.min 1 64) with 1 by lia. rewrite Z.mul_1_r.
      apply Zodd_bool_iff in Ho. apply Zodd_ex_iff in Ho. destruct Ho as [k Hk]. exists k. lia.
    - assert (2 ^ 6 <= 2 ^ Z.of_nat 32) by (apply pow2_le; lia). lia. }
  split; [apply Z.mod_pos_bound; lia|].
  destruct HL as [c Hc].
  rewrite Z.mul_mod_idemp_l by lia.
  replace (L * p) with (1 + c * 2 ^ bits) by lia.
  rewrite Z.mod_add by lia. apply Z.mod_small.
  assert (2 ^ 1 <= 2 ^ bits) by (apply pow2_le; lia). lia.
Qed.

(* conditional negation (v xor s) - s with s = 0 / all-ones *)
Lemma lxor_ones64 (u : Z) : 0 <= u < 2 ^ 64 -> Z.lxor u (2 ^ 64 - 1) = 2 ^ 64 - 1 - u.
Proof.
  intros Hu.
  assert (Hd : Z.land (Z.lxor u (2 ^ 64 - 1)) u = 0).
  { apply Z.bits_inj'. intros n Hn. rewrite Z.land_spec, Z.lxor_spec, Z.bits_0.
    destruct (Z_lt_le_dec n 64) as [Hlt|Hge].
    - replace (2 ^ 64 - 1) with (Z.ones 64) by (rewrite Z.ones_equiv; lia).
      rewrite Z.ones_spec_low by lia. destruct (Z.testbit u n); reflexivity.
    - rewrite (testbit_small_high u 64 n) by lia. apply andb_false_r. }
  pose proof (Z.add_nocarry_lxor _ _ Hd) as Ha.
  rewrite (Z.lxor_comm u (2 ^ 64 - 1)) in Ha at 2.
  rewrite Z.lxor_assoc, Z.lxor_nilpotent, Z.lxor_0_r in Ha. lia.
Qed.

Lemma sub_m1 (a : Z) : a - -1 = a + 1.
Proof. lia. Qed.

Lemma cond_negate (v : Z) (neg : bool) : in_range 64 v ->
  mm_sub (mm_xor v (if neg then -1 else 0)) (if neg then -1 else 0) = if neg then wneg 64 v else v.
Proof.
  intros Hv. unfold mm_xor, mm_sub. destruct neg.
  - rewrite (to_u_neg (-1)) by lia. replace (-1 + 2 ^ 64) with (2 ^ 64 - 1) by lia.
    rewrite lxor_ones64 by apply to_u_range.
    unfold of_u. rewrite sub_m1. rewrite wrap_wrap_add_l by lia. unfold wneg. apply wrap_eq_mod; [lia|].
    unfold to_u, wrapu.
    replace (2 ^ 64 - 1 - v mod 2 ^ 64 + 1) with (1 * 2 ^ 64 - v mod 2 ^ 64) by lia.
    rewrite Zminus_mod_idemp_r. replace (1 * 2 ^ 64 - v) with (- v + 1 * 2 ^ 64) by lia.
    apply Z.mod_add; lia.
  - rewrite (to_u_small 0) by lia. rewrite Z.lxor_0_r, Z.sub_0_r.
    rewrite of_u_to_u. rewrite wrap_wrap by lia. apply wrap_id; [lia|exact Hv].
Qed.

Definition auto_spec (n inv : Z) (a : list Z) (j : Z) : Z :=
  let t := (j * inv) mod (2 * n) in
  if n <=? t then wneg 64 (nthZ a (Z.to_nat (t mod n))) else nthZ a (Z.to_nat (t mod n)).

Lemma land_mask_pow (m x : Z) : 0 <= m -> 0 <= x < 2 ^ 64 -> Z.land (wrapu 64 x) (2 ^ m - 1) = x mod 2 ^ m.
Proof. intros Hm Hx. unfold wrapu. rewrite Z.mod_small by lia. apply land_mask_mod; lia. Qed.

Lemma nthZ_in_range (a : list Z) (i : nat) : Forall (in_range 64) a -> in_range 64 (nthZ a i).
Proof.
  intros Ha. destruct (Nat.lt_ge_cases i (length a)) as [Hl|Hl].
  - apply Forall_nthZ; assumption.
  - rewrite nthZ_overflow by lia. unfold in_range; simpl Z.sub; lia.
Qed.

Lemma automorphism_lane_eq (m tb off : Z) (a : list Z) : 2 <= m <= 60 ->
  Forall (in_range 64) a -> 0 <= tb < 2 * 2 ^ m -> 0 <= off < 2 * 2 ^ m ->
  automorphism_lane_avx (2 ^ m) tb off a =
  let t := (tb + off) mod (2 * 2 ^ m) in
  if 2 ^ m <=? t then wneg 64 (nthZ a (Z.to_nat (t mod 2 ^ m))) else nthZ a (Z.to_nat (t mod 2 ^ m)).
Proof.
  intros Hm Ha Htb Hoff. unfold automorphism_lane_avx. cbv beta iota zeta delta [mm_set1 mm_i64gather].
  pose proof (pow2_pos m ltac:(lia)) as Hp. pose proof (pow2_le m 60 ltac:(lia)) as Hle.
  assert (H2n : 2 * 2 ^ m = 2 ^ (m + 1)) by (rewrite Z.pow_add_r by lia; lia).
  rewrite H2n in *.
  unfold mm_add. rewrite wrap_id by (try apply in_range_64; lia).
  rewrite (mm_and_mask (m + 1)) by lia.
  set (t := (tb + off) mod 2 ^ (m + 1)).
  assert (Ht : 0 <= t < 2 ^ (m + 1)) by (unfold t; apply Z.mod_pos_bound; lia).
  rewrite (mm_and_mask m) by lia.
  unfold mm_cmpgt.
  replace (2 ^ m - 1 <? t) with (2 ^ m <=? t)
    by (destruct (Z.leb_spec (2 ^ m) t), (Z.ltb_spec (2 ^ m - 1) t); lia || reflexivity).
  rewrite (cond_negate _ (2 ^ m <=? t)) by (apply nthZ_in_range; exact Ha).
  reflexivity.
Qed.

(* the main loop writes auto_spec at every position *)
Lemma automorphism_loop_eq (m inv : Z) (a : list Z) : 2 <= m <= 60 ->
  Forall (in_range 64) a -> 0 <= inv < 2 * 2 ^ m ->
  forall (span c0 : nat),
  automorphism_loop_avx span (2 ^ m) inv ((inv * 2 ^ 2) mod (2 * 2 ^ m))
     ((Z.of_nat (4 * c0) * inv) mod (2 * 2 ^ m)) a
  = map (fun j => auto_spec (2 ^ m) inv a (Z.of_nat j)) (seq (4 * c0) (4 * span)).
Proof.
  intros Hm Ha Hinv.
  pose proof (pow2_pos m ltac:(lia)) as Hp. pose proof (pow2_le m 60 ltac:(lia)) as Hle.
  assert (H2n : 2 * 2 ^ m = 2 ^ (m + 1)) by (rewrite Z.pow_add_r by lia; lia).
  set (M := 2 * 2 ^ m) in *.
  assert (HM : 0 < M < 2 ^ 62) by (unfold M; lia).
  induction span as [|s IH]; intros c0.
  - reflexivity.
  - replace (4 * S s)%nat with (S (S (S (S (4 * s))))) by lia.
    cbn [automorphism_loop_avx seq map].
    set (tb := (Z.of_nat (4 * c0) * inv) mod M).
    assert (Htb : 0 <= tb < M) by (unfold tb; apply Z.mod_pos_bound; lia).
    assert (Hmask : 2 * 2 ^ m - 1 = 2 ^ (m + 1) - 1) by (fold M; lia).
    rewrite Hmask. rewrite !land_mask_pow by lia. rewrite <- !H2n. fold M.
    assert (Hlane : forall l off, 0 <= l -> off = (l * inv) mod M ->
              automorphism_lane_avx (2 ^ m) tb off a = auto_spec (2 ^ m) inv a (Z.of_nat (4 * c0) + l)).
    { intros l off Hl ->. rewrite automorphism_lane_eq; try assumption.
      - cbv zeta. fold M. unfold auto_spec. cbv zeta. fold M. unfold tb.
        rewrite <- Z.add_mod by lia.
        replace (Z.of_nat (4 * c0) * inv + l * inv) with ((Z.of_nat (4 * c0) + l) * inv) by ring.
        reflexivity.
      - fold M. apply Z.mod_pos_bound; lia. }
    rewrite (Hlane 0 0) by (try reflexivity; lia).
    rewrite (Hlane 1 inv) by (try lia; rewrite Z.mul_1_l, Z.mod_small by lia; reflexivity).
    rewrite (Hlane 2 ((inv * 2) mod M)) by (try lia; f_equal; ring).
    rewrite (Hlane 3 ((inv * 3) mod M)) by (try lia; f_equal; ring).
    replace ((tb + (inv * 2 ^ 2) mod M) mod M) with ((Z.of_nat (4 * S c0) * inv) mod M).
    + rewrite IH. 
      replace (S (S (S (S (4 * c0))))) with (4 * S c0)%nat by lia.
      repeat f_equal; lia.
    + unfold tb. rewrite <- Z.add_mod by lia. f_equal. 
      replace (4 * S c0)%nat with (4 * c0 + 4)%nat by lia. rewrite Nat2Z.inj_add. 
      change (2 ^ 2) with 4. change (Z.of_nat 4) with 4. ring.
Qed.

(* auto_spec is the Galois map sigma_g when inv * g = 1 mod 2n *)
Lemma modn_case (n t : Z) : 0 < n -> 0 <= t < 2 * n ->
  (n <= t /\ t mod n = t - n) \/ (t < n /\ t mod n = t).
Proof.
  intros Hn Ht. destruct (Z_le_gt_dec n t) as [Hge|Hlt]; [left|right]; (split; [lia|]).
  - symmetry. apply Z.mod_unique with (q := 1); lia.
  - apply Z.mod_small; lia.
Qed.

Lemma sub_mod_2n (n j : Z) : 0 <= j < n -> (j - n) mod (2 * n) = j + n.
Proof. intros Hj. symmetry. apply Z.mod_unique with (q := -1); lia. Qed.

Lemma odd_times_n (n g : Z) : 0 < n -> Z.odd g = true -> (n * g) mod (2 * n) = n.
Proof.
  intros Hn Ho. apply Zodd_bool_iff in Ho. apply Zodd_ex_iff in Ho. destruct Ho as [k Hk].
  replace (n * g) with (n + k * (2 * n)) by (rewrite Hk; ring).
  rewrite Z.mod_add by lia. apply Z.mod_small; lia.
Qed.

Lemma auto_spec_sigma (m g inv : Z) (a : list Z) (j : nat) :
  0 <= m -> Z.of_nat (length a) = 2 ^ m -> Z.odd g = true ->
  (inv * g) mod (2 * 2 ^ m) = 1 -> (j < length a)%nat ->
  auto_spec (2 ^ m) inv a (Z.of_nat j) = nthZ (sigma 64 g a) j.
Proof.
  intros Hm Hn Ho Hinv Hj.
  pose proof (pow2_pos m ltac:(lia)) as Hp.
  assert (Hgcd : Z.gcd g (Z.of_nat (length a)) = 1).
  { rewrite Hn. apply gcd2n_gcdn. apply odd_pow2_coprime; assumption. }
  set (n := 2 ^ m) in *. clearbody n.
  assert (HjM : 0 <= Z.of_nat j < n) by lia.
  unfold auto_spec. cbv zeta.
  set (t := (Z.of_nat j * inv) mod (2 * n)).
  assert (Ht : 0 <= t < 2 * n) by (unfold t; apply Z.mod_pos_bound; lia).
  (* t * g = j (mod 2n) *)
  assert (Htg : (t * g) mod (2 * n) = Z.of_nat j).
  { unfold t. rewrite Z.mul_mod_idemp_l by lia.
    replace (Z.of_nat j * inv * g) with (Z.of_nat j * (inv * g)) by ring.
    rewrite <- Z.mul_mod_idemp_r by lia. rewrite Hinv, Z.mul_1_r. apply Z.mod_small; lia. }
  clearbody t. clear Hinv.
  pose proof (odd_times_n n g Hp Ho) as Hng.
  set (i := Z.to_nat (t mod n)).
  assert (Htn : 0 <= t mod n < n) by (apply Z.mod_pos_bound; lia).
  assert (Hiz : Z.of_nat i = t mod n) by (unfold i; apply Z2Nat.id; apply Htn).
  assert (Hi : (i < length a)%nat).
  { apply Nat2Z.inj_lt. rewrite Hiz, Hn. apply Htn. }
  pose proof (sigma_nth 64 g a i Hgcd Hi) as Hs.
  unfold sg_pos, sg_val, sg_e in Hs. rewrite Hn in Hs. rewrite Hiz in Hs.
  destruct (modn_case n t Hp Ht) as [(Hge & Htm) | (Hlt & Htm)]; rewrite Htm in *.
  - assert (He : ((t - n) * g) mod (2 * n) = Z.of_nat j + n).
    { replace ((t - n) * g) with (t * g - n * g) by ring.
      rewrite Zminus_mod, Htg, Hng. apply sub_mod_2n; exact HjM. }
    rewrite He in Hs. clear He Htg Hng Htn Hiz.
    destruct (Z.leb_spec n t) as [_|Hc]; [|exfalso; clear Hs; lia].
    destruct (Z.ltb_spec (Z.of_nat j + n) n) as [Hc|_]; [exfalso; clear Hs; lia|].
    replace (Z.to_nat (Z.of_nat j + n - n)) with j in Hs by (clear Hs; lia).
    rewrite Hs. reflexivity.
  - rewrite Htg in Hs. clear Htg Hng Htn Hiz.
    destruct (Z.leb_spec n t) as [Hc|_]; [exfalso; clear Hs; lia|].
    destruct (Z.ltb_spec (Z.of_nat j) n) as [_|Hc]; [|exfalso; clear Hs; lia].
    rewrite Nat2Z.id in Hs. rewrite Hs. reflexivity.
Qed.

Lemma odd_mod_pow2 (p k : Z) : 1 <= k -> Z.odd p = true -> Z.odd (p mod 2 ^ k) = true.
Proof.
  intros Hk Ho. pose proof (pow2_pos k ltac:(lia)) as Hpk.
  pose proof (Z.div_mod p (2 ^ k) ltac:(lia)) as Hd.
  pose proof (pow2_split k Hk) as Hs.
  replace (p mod 2 ^ k) with (p + 2 * (- 2 ^ (k - 1) * (p / 2 ^ k))).
  - rewrite Z.odd_add_mul_2. exact Ho.
  - rewrite Hs in Hd at 1. lia.
Qed.

Lemma len_div4 (l : list Z) (m : Z) : 2 <= m -> Z.of_nat (length l) = 2 ^ m ->
  (4 * (length l / 4) = length l)%nat.
Proof.
  intros Hm Hn.
  assert (Hd4 : Z.of_nat (length l) = 2 ^ (m - 2) * 4).
  { rewrite Hn. replace m with ((m - 2) + 2) at 1 by lia. rewrite Z.pow_add_r by lia. reflexivity. }
  pose proof (Nat.div_mod (length l) 4 ltac:(lia)) as Hdm.
  assert (Hmod : (length l mod 4 = 0)%nat).
  { apply Nat2Z.inj. rewrite Nat2Z.inj_mod. rewrite Hd4. change (Z.of_nat 4) with 4.
    rewrite Z.mod_mul by lia. reflexivity. }
  lia.
Qed.

Theorem avx_automorphism_eq_ref (p m : Z) (r0 a : list Z) :
  0 <= m <= 60 -> Z.of_nat (length a) = 2 ^ m -> Z.odd p = true -> in_range 64 p ->
  length r0 = length a -> Forall (in_range 64) a ->
  znx_automorphism_avx p r0 a = znx_automorphism_onto 64 p r0 a.
Proof.
  intros Hm Hn Ho Hp Hl Ha. apply in_range_64_elim in Hp. unfold znx_automorphism_avx.
  destruct (Nat.eqb_spec (length a) 0) as [H0|H0].
  { destruct a; [reflexivity|discriminate]. }
  destruct (Nat.ltb_spec (length a) 4) as [H4|H4]; [reflexivity|].
  cbv zeta.
  assert (Hm2 : 2 <= m).
  { destruct (Z_lt_le_dec m 2) as [Hlt|]; [|assumption]. exfalso.
    assert (2 ^ m <= 2 ^ 1) by (apply pow2_le; lia). lia. }
  pose proof (len_div4 a m Hm2 Hn) as Hspan.
  rewrite Hn.
  pose proof (pow2_pos m ltac:(lia)) as Hpm. pose proof (pow2_le m 60 ltac:(lia)) as Hle.
  pose proof (pow2_pos (m + 1) ltac:(lia)) as Hpm1. pose proof (pow2_le (m + 1) 61 ltac:(lia)) as Hle1.
  assert (H2n : 2 ^ m * 2 = 2 ^ (m + 1)) by (rewrite Z.pow_add_r by lia; lia).
  assert (Hw : wrapu 64 (2 ^ m * 2) = 2 ^ (m + 1)).
  { rewrite H2n. unfold wrapu. apply Z.mod_small. lia. }
  rewrite Hw. rewrite Z.log2_pow2 by lia.
  (* p_2n = p mod 2n *)
  assert (Hp2n : Z.land (wrapu 64 (wrap 64 (Z.land p (2 ^ (m + 1) - 1) + 2 ^ (m + 1)))) (2 ^ (m + 1) - 1)
                 = p mod 2 ^ (m + 1)).
  { rewrite (land_mask_mod (m + 1) p) by lia.
    pose proof (Z.mod_pos_bound p (2 ^ (m + 1)) ltac:(lia)) as Hb.
    set (p2 := p mod 2 ^ (m + 1)) in *. 
    assert (Hp2 : p2 mod 2 ^ (m + 1) = p2) by (unfold p2; apply Z.mod_mod; lia).
    clearbody p2.
    rewrite wrap_id by (try apply in_range_64; lia).
    rewrite land_mask_pow by lia.
    replace (p2 + 2 ^ (m + 1)) with (p2 + 1 * 2 ^ (m + 1)) by lia.
    rewrite Z.mod_add by lia. exact Hp2. }
  rewrite Hp2n. clear Hp2n.
  set (p2 := p mod 2 ^ (m + 1)).
  assert (Ho2 : Z.odd p2 = true) by (apply odd_mod_pow2; [lia|exact Ho]).
  destruct (inv_mod_pow2_correct p2 (m + 1) Ho2 ltac:(lia)) as [Hinv_r Hinv].
  set (inv := inv_mod_pow2 p2 (m + 1)) in *.
  assert (Hinvp : (inv * p) mod (2 * 2 ^ m) = 1).
  { replace (2 * 2 ^ m) with (2 ^ (m + 1)) by lia.
    rewrite <- Z.mul_mod_idemp_r by lia. exact Hinv. }
  clearbody inv. clear Hinv Ho2. clearbody p2.
  (* step *)
  assert (Hinv4 : 0 <= inv * 2 ^ 2 < 2 ^ 64) by (change (2 ^ 2) with 4; lia).
  rewrite land_mask_pow by lia.
  (* span *)
  rewrite shiftr2_div4.
  rewrite Hspan. rewrite skipn_all2 by lia. rewrite app_nil_r.
  replace (2 ^ (m + 1)) with (2 * 2 ^ m) by lia.
  pose proof (automorphism_loop_eq m inv a ltac:(lia) Ha ltac:(lia) (length a / 4) 0) as Hloop.
  change (Z.of_nat (4 * 0) * inv) with 0 in Hloop. rewrite Z.mod_0_l in Hloop by (clear - Hpm; lia).
  rewrite Hloop. rewrite Hspan. clear Hloop.
  rewrite (automorphism_is_sigma 64 p m r0 a) by (try assumption; lia).
  rewrite (list_as_map_seq (sigma 64 p a)) at 1. rewrite sigma_length.
  apply map_ext_in. intros j Hj. apply in_seq in Hj.
  apply auto_spec_sigma; try assumption; lia.
Qed.

(* a divisor >= 4 of a power of two is a multiple of 4 *)
Lemma odd_divides_pow2 (d m : Z) : 0 <= m -> 0 < d -> Z.odd d = true -> (d | 2 ^ m) -> d = 1.
Proof.
  intros Hm Hd Ho Hdiv.
  assert (Hg : Z.gcd d (2 ^ m) = 1).
  { destruct (Z.eq_dec m 0) as [->|Hm0]; [apply Z.gcd_1_r|].
    replace (2 ^ m) with (2 * 2 ^ (m - 1)) by (symmetry; apply pow2_split; lia).
    apply odd_pow2_coprime; [lia|exact Ho]. }
  assert (Hd1 : (d | 1)).
  { rewrite <- Hg. apply Z.gcd_greatest; [apply Z.divide_refl|exact Hdiv]. }
  apply Z.divide_1_r_nonneg in Hd1; lia.
Qed.

Lemma div_pow2_mult4 (d m : Z) : 0 <= m -> 4 <= d -> (d | 2 ^ m) -> d mod 4 = 0.
Proof.
  intros Hm Hd Hdiv.
  pose proof (Z.div_mod d 4 ltac:(lia)) as Hdm. pose proof (Z.mod_pos_bound d 4 ltac:(lia)) as Hb.
  set (r := d mod 4) in *. set (q := d / 4) in *. clearbody r q.
  assert (Hr : r = 0 \/ r = 1 \/ r = 2 \/ r = 3) by lia.
  destruct Hr as [Hr|[Hr|[Hr|Hr]]]; [exact Hr| | |]; exfalso.
  - assert (Z.odd d = true) by (subst d r; rewrite Z.add_comm; replace (4 * q) with (2 * (2 * q)) by ring; apply Z.odd_add_mul_2).
    pose proof (odd_divides_pow2 d m Hm ltac:(lia) H Hdiv). lia.
  - (* d = 2 * e with e odd *)
    set (e := 2 * q + 1). assert (He : d = 2 * e) by (unfold e; lia).
    destruct (Z.eq_dec m 0) as [->|Hm0].
    { change (2 ^ 0) with 1 in Hdiv. apply Z.divide_1_r_nonneg in Hdiv; lia. }
    rewrite (pow2_split m) in Hdiv by lia. rewrite He in Hdiv.
    apply Z.mul_divide_cancel_l in Hdiv; [|lia].
    assert (Hoe : Z.odd e = true) by (unfold e; rewrite Z.add_comm; apply Z.odd_add_mul_2).
    pose proof (odd_divides_pow2 e (m - 1) ltac:(lia) ltac:(unfold e; lia) Hoe Hdiv). lia.
  - assert (Z.odd d = true).
    { subst d r. replace (4 * q + 3) with (1 + 2 * (2 * q + 1)) by ring. apply Z.odd_add_mul_2. }
    pose proof (odd_divides_pow2 d m Hm ltac:(lia) H Hdiv). lia.
Qed.

Lemma switch_ring_down_loop_eq (G : nat) (a : list Z) : (0 < G)%nat ->
  forall (span c0 : nat), Z.of_nat (4 * (c0 + span) * G) < 2 ^ 62 ->
  switch_ring_down_loop_avx span (Z.of_nat G) (Z.of_nat (4 * c0 * G)) a
  = map (fun t => nthZ a (t * G)) (seq (4 * c0) (4 * span)).
Proof.
  intros HG. induction span as [|s IH]; intros c0 Hb.
  - reflexivity.
  - replace (4 * S s)%nat with (S (S (S (S (4 * s))))) by lia.
    cbn [switch_ring_down_loop_avx seq map].
    cbv beta iota zeta delta [mm_set1 mm_i64gather].
    set (g := Z.of_nat G). set (b := Z.of_nat (4 * c0 * G)).
    assert (Hg : 0 < g) by (unfold g; lia).
    assert (Hbb : 0 <= b /\ b + 4 * g <= Z.of_nat (4 * (c0 + S s) * G)) by (unfold b, g; nia).
    assert (Hw2 : wrap 64 (2 * g) = 2 * g) by (apply wrap_id; [lia|apply in_range_64; lia]).
    assert (Hw3 : wrap 64 (3 * g) = 3 * g) by (apply wrap_id; [lia|apply in_range_64; lia]).
    assert (Hw4 : wrap 64 (4 * g) = 4 * g) by (apply wrap_id; [lia|apply in_range_64; lia]).
    rewrite Hw2, Hw3, Hw4.
    assert (Hadd : forall st, 0 <= st <= 4 * g -> mm_add b st = b + st).
    { intros st Hst. unfold mm_add. apply wrap_id; [lia|]. apply in_range_64. lia. }
    rewrite !Hadd by lia.
    replace (b + 4 * g) with (Z.of_nat (4 * S c0 * G)) by (unfold b, g; lia).
    rewrite IH by (replace (S c0 + s)%nat with (c0 + S s)%nat by lia; exact Hb).
    replace (S (S (S (S (4 * c0))))) with (4 * S c0)%nat by lia.
    f_equal; [|f_equal; [|f_equal; [|f_equal]]]; f_equal; unfold b, g; lia.
Qed.

(* a write at a multiple of gap, read at t through (t mod gap, t / gap) *)
Lemma nthZ_upd_mult (gap q : nat) (l : list Z) (x : Z) (t : nat) : (0 < gap)%nat -> (q * gap < length l)%nat ->
  nthZ (upd l (q * gap) x) t = if (Nat.eqb (t mod gap) 0 && Nat.eqb (t / gap) q)%bool then x else nthZ l t.
Proof.
  intros Hg Hq. pose proof (Nat.div_mod t gap ltac:(lia)) as Ht.
  destruct (Nat.eq_dec t (q * gap)) as [->|Hne].
  - rewrite nthZ_upd_eq by exact Hq. rewrite Nat.mod_mul, Nat.div_mul, !Nat.eqb_refl by lia. reflexivity.
  - rewrite nthZ_upd_neq by auto.
    destruct (Nat.eqb_spec (t mod gap) 0) as [Hm|]; [|reflexivity].
    destruct (Nat.eqb_spec (t / gap) q) as [Hd|]; [|reflexivity].
    exfalso. apply Hne. rewrite Hm, Hd in Ht. lia.
Qed.

Definition up_body (gap : nat) (a : list Z) (r : list Z) (c : nat) : list Z :=
  let i := (4 * c)%nat in
  let p0 := (i * gap)%nat in
  upd (upd (upd (upd r p0 (nthZ a i)) (p0 + gap) (nthZ a (i + 1))) (p0 + gap + gap) (nthZ a (i + 2)))
      (p0 + gap + gap + gap) (nthZ a (i + 3)).

Lemma up_body_length gap a r c : length (up_body gap a r c) = length r.
Proof. unfold up_body. cbv zeta. rewrite !upd_length. reflexivity. Qed.

Lemma up_invariant (gap n_out : nat) (a : list Z) : (0 < gap)%nat ->
  forall k : nat, (4 * k * gap <= n_out)%nat ->
  let R := fold_left (up_body gap a) (seq 0 k) (zeros n_out) in
  length R = n_out /\
  forall t, nthZ R t = if (Nat.eqb (t mod gap) 0 && Nat.ltb (t / gap) (4 * k))%bool then nthZ a (t / gap) else 0.
Proof.
  intros Hg. induction k as [|k IH]; intros Hk; cbv zeta.
  - cbn [seq fold_left]. split; [apply repeat_length|]. intros t.
    rewrite nthZ_zeros. replace (4 * 0)%nat with 0%nat by lia.
    destruct (t mod gap =? 0)%nat; reflexivity.
  - rewrite seq_S, fold_left_app. cbn [fold_left Nat.add].
    destruct (IH ltac:(lia)) as [HlenR HR]. clear IH. cbv zeta in HlenR, HR.
    set (R := fold_left (up_body gap a) (seq 0 k) (zeros n_out)) in *. clearbody R.
    split; [rewrite up_body_length; exact HlenR|].
    intros t. unfold up_body. cbv zeta.
    replace (4 * k * gap + gap + gap + gap)%nat with ((4 * k + 3) * gap)%nat by lia.
    replace (4 * k * gap + gap + gap)%nat with ((4 * k + 2) * gap)%nat by lia.
    replace (4 * k * gap + gap)%nat with ((4 * k + 1) * gap)%nat by lia.
    rewrite !nthZ_upd_mult by (rewrite ?upd_length; lia).
    rewrite HR. destruct (t mod gap =? 0)%nat; [|reflexivity]. cbn [andb].
    destruct (Nat.eqb_spec (t / gap) (4 * k + 3)) as [->|]; [destruct (Nat.ltb_spec (4 * k + 3) (4 * S k)); [reflexivity|lia]|].
    destruct (Nat.eqb_spec (t / gap) (4 * k + 2)) as [->|]; [destruct (Nat.ltb_spec (4 * k + 2) (4 * S k)); [reflexivity|lia]|].
    destruct (Nat.eqb_spec (t / gap) (4 * k + 1)) as [->|]; [destruct (Nat.ltb_spec (4 * k + 1) (4 * S k)); [reflexivity|lia]|].
    destruct (Nat.eqb_spec (t / gap) (4 * k)) as [->|]; [destruct (Nat.ltb_spec (4 * k) (4 * S k)); [reflexivity|lia]|].
    destruct (Nat.ltb_spec (t / gap) (4 * k)); destruct (Nat.ltb_spec (t / gap) (4 * S k)); try reflexivity; lia.
Qed.

Lemma nat_mult4_of_div_pow2 (d : nat) (m : Z) (n : nat) : 0 <= m -> Z.of_nat n = 2 ^ m ->
  (4 <= d)%nat -> (n mod d = 0)%nat -> (4 * (d / 4) = d)%nat.
Proof.
  intros Hm Hn Hd Hmod.
  assert (Hdiv : (Z.of_nat d | 2 ^ m)).
  { rewrite <- Hn. exists (Z.of_nat (n / d)). pose proof (Nat.div_mod n d ltac:(lia)) as H. 
    rewrite Hmod in H. rewrite <- Nat2Z.inj_mul. f_equal. lia. }
  pose proof (div_pow2_mult4 (Z.of_nat d) m Hm ltac:(lia) Hdiv) as H4.
  assert (Hm4 : (d mod 4 = 0)%nat).
  { apply Nat2Z.inj. rewrite Nat2Z.inj_mod. exact H4. }
  pose proof (Nat.div_mod d 4 ltac:(lia)). lia.
Qed.

Theorem avx_switch_ring_eq_ref (m : Z) (n_out : nat) (r0 a : list Z) :
  0 <= m <= 60 -> Z.of_nat (length a) = 2 ^ m -> (0 < n_out)%nat -> Z.of_nat n_out < 2 ^ 62 ->
  length r0 = n_out ->
  (Nat.max (length a) n_out mod Nat.min (length a) n_out = 0)%nat ->
  znx_switch_ring_avx n_out r0 a = znx_switch_ring n_out r0 a.
Proof.
  intros Hm Hn Hno Hno62 Hl Hmul. unfold znx_switch_ring_avx, znx_switch_ring. cbv zeta.
  destruct (Nat.eqb_spec (length a) n_out) as [He|Hne]; [reflexivity|].
  destruct (Nat.ltb_spec (Nat.min (length a) n_out) 4) as [H4|H4].
  { destruct (Nat.eqb_spec (length a) n_out); [contradiction|reflexivity]. }
  pose proof (pow2_le m 60 ltac:(lia)) as Hle60.
  destruct (Nat.ltb_spec n_out (length a)) as [Hdown|Hup].
  - (* downsampling *)
    rewrite Nat.max_l, Nat.min_r in Hmul by lia.
    set (G := (length a / n_out)%nat).
    assert (HnG : (length a = n_out * G)%nat).
    { unfold G. pose proof (Nat.div_mod (length a) n_out ltac:(lia)) as H. lia. }
    assert (HG : (0 < G)%nat) by (destruct G; [lia|lia]).
    rewrite shiftr2_div4.
    pose proof (nat_mult4_of_div_pow2 n_out m (length a) ltac:(lia) Hn ltac:(lia) Hmul) as Hspan.
    rewrite Hspan. rewrite skipn_all2 by lia. rewrite app_nil_r.
    pose proof (switch_ring_down_loop_eq G a HG (n_out / 4) 0) as Hloop.
    change (4 * 0 * G)%nat with 0%nat in Hloop. change (Z.of_nat 0) with mm_setzero in Hloop.
    rewrite Hloop.
    + rewrite Hspan. reflexivity.
    + replace (4 * (0 + n_out / 4) * G)%nat with (length a) by (rewrite Nat.add_0_l, Hspan; lia). lia.
  - (* upsampling *)
    rewrite Nat.max_r, Nat.min_l in Hmul by lia.
    set (G := (n_out / length a)%nat).
    assert (HnG : (n_out = length a * G)%nat).
    { unfold G. pose proof (Nat.div_mod n_out (length a) ltac:(lia)) as H. lia. }
    assert (HG : (0 < G)%nat) by (destruct G; [lia|lia]).
    assert (Hm2 : 2 <= m).
    { destruct (Z_lt_le_dec m 2) as [Hlt|]; [|assumption]. exfalso.
      assert (2 ^ m <= 2 ^ 1) by (apply pow2_le; lia). lia. }
    pose proof (len_div4 a m Hm2 Hn) as Hk.
    unfold switch_ring_up_avx.
    replace ((length a + 3) / 4)%nat with (length a / 4)%nat.
    2:{ rewrite <- Hk at 2. replace (4 * (length a / 4) + 3)%nat with (3 + (length a / 4) * 4)%nat by lia.
        rewrite Nat.div_add by lia. reflexivity. }
    fold (up_body G a).
    change (fun r c => upd (upd (upd (upd r (4 * c * G) (nthZ a (4 * c))) (4 * c * G + G) (nthZ a (4 * c + 1)))
                                   (4 * c * G + G + G) (nthZ a (4 * c + 2))) (4 * c * G + G + G + G) (nthZ a (4 * c + 3)))
      with (up_body G a).
    destruct (up_invariant G n_out a HG (length a / 4)) as [HlenR HR].
    { rewrite Hk. lia. }
    cbv zeta in HlenR, HR.
    apply nthZ_ext.
    + rewrite HlenR, map_seq_length. reflexivity.
    + intros t Ht. rewrite HlenR in Ht. rewrite HR. rewrite nthZ_map_seq by exact Ht.
      rewrite Hk.
      assert (Hq : (t / G < length a)%nat) by (apply Nat.div_lt_upper_bound; lia).
      destruct (Nat.ltb_spec (t / G) (length a)) as [_|Hc]; [|lia].
      rewrite andb_true_r. reflexivity.
Qed.

(* C09, big-accumulator family (Model/C09Big.v): proofs.
   1. the limb loops of ntt120/vec_znx_big.rs (w = 128), modelled loop by loop, ARE Ring.v's size-rule definitions at
      w = 128 (n_*_eq): the two families share one vector-level semantics;
   2. every operation, at both widths, computes the exact wrapped linear map  wrap_w (ca * x + cb * y)  limb by limb with
      the size rule (missing operand limbs contribute 0, limbs beyond res_size are ignored), automorphisms are sigma_p:
      big_col_exact; lifted to the flat buffers with read-back of the selected column and frame: run_c09_big_exact;
   3. ring laws on big vectors (x - y = x + (-y), a - b = -(b - a), sub_negate_assign = negate after sub_assign,
      negate twice = identity mod 2^w, commutativity, (r + a) - a = r), for any width and for the NTT120 loops;
   4. the two widths: FFT64 words = NTT120 words reduced mod 2^64 (linear operations, any 64-bit operands), and equal
      inside the common domain (words in [-2^61, 2^61)), automorphisms included. *)
From Coq Require Import Znumtheory.
From PV Require Import Base.MachineInt Model.Znx Model.Limbs Model.Flat Model.Ring Model.Poly Model.C09Big
  Proofs.C09Lists Proofs.C09Ring Proofs.C09Sigma Proofs.C09Switch Proofs.C09Size Proofs.C11Frame Proofs.C11Read.
From Coq Require Import Arith PeanoNat List Bool.
Open Scope Z_scope.

Lemma wr_length lo hi f r : length (wr lo hi f r) = length r.
Proof. unfold wr. rewrite map_length, combine_length, seq_length. apply Nat.min_id. Qed.

Lemma lnth_wr lo hi f r j : (j < length r)%nat ->
  lnth (wr lo hi f r) j = if Nat.leb lo j && Nat.ltb j hi then f j (lnth r j) else lnth r j.
Proof.
  intros Hj. unfold lnth, wr.
  set (g := fun q : nat * list Z => if Nat.leb lo (fst q) && Nat.ltb (fst q) hi then f (fst q) (snd q) else snd q).
  rewrite (nth_indep _ [] (g (O, []))) by (rewrite map_length, combine_length, seq_length, Nat.min_id; exact Hj).
  rewrite map_nth. rewrite combine_nth by apply seq_length.
  rewrite seq_nth by exact Hj. unfold g. cbn [fst snd Nat.add]. reflexivity.
Qed.

Ltac open_wr Hj :=
  repeat (rewrite lnth_wr by (repeat rewrite wr_length; exact Hj)).

(* decide the comparisons one at a time, closing the impossible branches at once (keeps the case tree linear) *)
Ltac cmp_cases :=
  repeat (match goal with
          | |- context [Nat.leb ?a ?b] => destruct (Nat.leb_spec a b)
          | |- context [Nat.ltb ?a ?b] => destruct (Nat.ltb_spec a b)
          end; try (exfalso; lia));
  cbn [andb orb negb]; try reflexivity; try lia.

(* the bounds of the loops are min / max of the operand sizes: comparing the limb index with one of them is a Boolean
   combination of its comparisons with the sizes, so that two case splits decide every loop condition *)
Lemma ltb_min j a b : Nat.ltb j (Nat.min a b) = Nat.ltb j a && Nat.ltb j b.
Proof. cmp_cases. Qed.
Lemma ltb_max j a b : Nat.ltb j (Nat.max a b) = Nat.ltb j a || Nat.ltb j b.
Proof. cmp_cases. Qed.

Ltac bounds_to_sizes := rewrite ?Nat.leb_antisym, ?ltb_max, ?ltb_min.

Ltac loops_eq_build :=
  apply limbs_ext; [repeat rewrite wr_length; rewrite build_length; reflexivity|];
  let j := fresh "j" in let Hj := fresh "Hj" in
  intros j Hj; repeat rewrite wr_length in Hj;
  rewrite lnth_build by exact Hj; open_wr Hj; bounds_to_sizes; cmp_cases.

Theorem n_from_small_eq n a r0 : n_from_small n a r0 = vec_unary n (fun l => l) a r0.
Proof. unfold n_from_small, vec_unary, k_from_small. cbv zeta. loops_eq_build. Qed.

Theorem n_add_into_eq n a b r0 : n_add_into n a b r0 = vec_add 128 n a b r0.
Proof.
  unfold n_add_into, vec_add, k_add. cbv zeta.
  destruct (Nat.leb_spec (length a) (length b)); loops_eq_build.
Qed.

Theorem n_add_assign_eq a r0 : n_add_assign a r0 = vec_add_assign 128 a r0.
Proof. unfold n_add_assign, vec_add_assign, k_add. loops_eq_build. Qed.

Theorem n_add_small_into_eq n a b r0 : n_add_small_into n a b r0 = vec_add 128 n a b r0.
Proof. unfold n_add_small_into, vec_add, k_add, k_from_small. cbv zeta. loops_eq_build. Qed.

Theorem n_sub_eq n a b r0 : n_sub n a b r0 = vec_sub 128 n a b r0.
Proof.
  unfold n_sub, vec_sub, k_sub, k_neg. cbv zeta.
  destruct (Nat.leb_spec (length b) (length a)); loops_eq_build.
Qed.

Theorem n_sub_assign_eq a r0 : n_sub_assign a r0 = vec_sub_assign 128 a r0.
Proof. unfold n_sub_assign, vec_sub_assign, k_sub. loops_eq_build. Qed.

Theorem n_sub_negate_assign_eq a r0 : n_sub_negate_assign a r0 = vec_sub_negate_assign 128 a r0.
Proof. unfold n_sub_negate_assign, vec_sub_negate_assign, k_sub, k_neg. cbv zeta. loops_eq_build. Qed.

Theorem n_sub_small_a_eq n a b r0 : n_sub_small_a n a b r0 = vec_sub 128 n a b r0.
Proof. unfold n_sub_small_a, vec_sub, k_sub, k_neg, k_from_small. cbv zeta. loops_eq_build. Qed.

Theorem n_sub_small_b_eq n a b r0 : n_sub_small_b n a b r0 = vec_sub 128 n a b r0.
Proof. unfold n_sub_small_b, vec_sub, k_sub, k_neg. cbv zeta. loops_eq_build. Qed.

Theorem n_negate_eq n a r0 : n_negate n a r0 = vec_unary n (vneg 128) a r0.
Proof. unfold n_negate, vec_unary, k_neg. cbv zeta. loops_eq_build. Qed.

Lemma wr_all f (r : limbs) : wr 0 (length r) (fun _ l => f l) r = map f r.
Proof.
  apply limbs_ext; [rewrite wr_length, map_length; reflexivity|].
  intros j Hj. rewrite wr_length in Hj. rewrite lnth_wr by exact Hj.
  destruct (Nat.leb_spec 0 j); [|lia]. destruct (Nat.ltb_spec j (length r)); [|lia]. cbn [andb].
  unfold lnth. rewrite (nth_indep (map f r) [] (f [])) by (rewrite map_length; exact Hj).
  rewrite map_nth. reflexivity.
Qed.

Theorem n_negate_assign_eq r0 : n_negate_assign r0 = vec_unary_assign (vneg 128) r0.
Proof. unfold n_negate_assign, vec_unary_assign, k_neg. apply wr_all. Qed.

Theorem n_automorphism_eq n p a r0 : n_automorphism n p a r0 = vec_automorphism 128 n p a r0.
Proof. unfold n_automorphism, vec_automorphism. cbv zeta. loops_eq_build. Qed.

Theorem n_automorphism_assign_sigma (n : nat) (m p : Z) r0 :
  0 <= m -> Z.of_nat n = 2 ^ m -> Z.odd p = true -> limbs_len n r0 ->
  n_automorphism_assign p r0 = map (sigma 128 p) r0.
Proof.
  intros Hm Hn Ho Hr. unfold n_automorphism_assign. rewrite (wr_all (fun l => znx_automorphism_onto 128 p l l)).
  apply map_ext_in. intros l Hl.
  destruct (In_nth r0 l [] Hl) as [j [Hj <-]].
  apply (automorphism_is_sigma 128 p m); auto.
  change (nth j r0 []) with (lnth r0 j). rewrite (Hr j Hj). exact Hn.
Qed.

#[export] Hint Rewrite n_from_small_eq n_add_into_eq n_add_assign_eq n_add_small_into_eq n_sub_eq n_sub_assign_eq
  n_sub_negate_assign_eq n_sub_small_a_eq n_sub_small_b_eq n_negate_eq n_negate_assign_eq n_automorphism_eq : ntt120.

Lemma lin_spec_length w n rsz ca cb x y : length (lin_spec w n rsz ca cb x y) = rsz.
Proof. unfold lin_spec. apply map_seq_length. Qed.

(* limb j of the specification only sees limbs j of the operands, zero limbs where an operand has none *)
Definition lin_limb (w : Z) (n : nat) (ca cb : Z) (u v : list Z) : list Z :=
  map (fun i => wrap w (ca * nthZ u i + cb * nthZ v i)) (seq 0 n).

Lemma lin_spec_build w n rsz ca cb x y :
  lin_spec w n rsz ca cb x y = build rsz (fun j => lin_limb w n ca cb (lz n x j) (lz n y j)).
Proof.
  assert (E : forall l j i, oword l j i = nthZ (lz n l j) i).
  { intros l j i. unfold oword, lz. destruct (Nat.ltb j (length l)); [reflexivity|symmetry; apply nthZ_zeros]. }
  unfold lin_spec, build, lin_limb. apply map_ext. intros j. apply map_ext. intros i. rewrite !E. reflexivity.
Qed.

Lemma lin_limb_intro w n ca cb u v (L : list Z) :
  length L = n -> (forall i, (i < n)%nat -> nthZ L i = wrap w (ca * nthZ u i + cb * nthZ v i)) ->
  L = lin_limb w n ca cb u v.
Proof.
  intros Hl H. unfold lin_limb. apply nthZ_ext; [rewrite map_seq_length; exact Hl|].
  intros i Hi. rewrite Hl in Hi. rewrite nthZ_map_seq by exact Hi. apply H. exact Hi.
Qed.

Lemma vadd_lin w n u v : length u = n -> length v = n -> vadd w u v = lin_limb w n 1 1 u v.
Proof.
  intros Hu Hv. unfold vadd. apply lin_limb_intro; [rewrite map2_length, Hu, Hv; apply Nat.min_id|].
  intros i Hi. rewrite nthZ_map2 by lia. unfold wadd. f_equal. ring.
Qed.

Lemma vsub_lin w n u v : length u = n -> length v = n -> vsub w u v = lin_limb w n 1 (-1) u v.
Proof.
  intros Hu Hv. unfold vsub. apply lin_limb_intro; [rewrite map2_length, Hu, Hv; apply Nat.min_id|].
  intros i Hi. rewrite nthZ_map2 by lia. unfold wsub. f_equal. ring.
Qed.

Lemma vneg_lin w n u v : length u = n -> vneg w u = lin_limb w n (-1) 0 u v.
Proof.
  intros Hu. unfold vneg. apply lin_limb_intro; [rewrite map_length; exact Hu|].
  intros i Hi. rewrite nthZ_map by lia. unfold wneg. f_equal. ring.
Qed.

Lemma copy_lin w n u v : 1 <= w -> length u = n -> Forall (in_range w) u -> u = lin_limb w n 1 0 u v.
Proof.
  intros Hw Hu Hr. apply lin_limb_intro; [exact Hu|].
  intros i Hi. replace (1 * nthZ u i + 0 * nthZ v i) with (nthZ u i) by ring.
  symmetry. apply wrap_id; [exact Hw|]. apply Forall_nthZ; [exact Hr|lia].
Qed.

Lemma lnth_map (f : list Z -> list Z) (l : limbs) j : (j < length l)%nat -> lnth (map f l) j = f (lnth l j).
Proof.
  intros Hj. unfold lnth. rewrite (nth_indep (map f l) [] (f [])) by (rewrite map_length; exact Hj).
  apply map_nth.
Qed.

(* the in-place forms are the out-of-place ones with the destination as an operand *)
Lemma vec_add_assign_as_add w n a r0 : vec_add_assign w a r0 = vec_add w n r0 a r0.
Proof. unfold vec_add_assign, vec_add. apply build_ext. intros j Hj. cmp_cases. Qed.

Lemma vec_sub_assign_as_sub w n a r0 : vec_sub_assign w a r0 = vec_sub w n r0 a r0.
Proof. unfold vec_sub_assign, vec_sub. apply build_ext. intros j Hj. cmp_cases. Qed.

Section Spec.
Variable w : Z.
Variable n : nat.
Hypothesis Hw : 1 <= w.

Lemma lz_wf l j : limbs_wf w n l -> length (lz n l j) = n /\ Forall (in_range w) (lz n l j).
Proof.
  intros H. unfold lz, zlimb. destruct (Nat.ltb_spec j (length l)) as [Hj|Hj]; [exact (H j Hj)|].
  split; [apply zeros_length|]. apply Forall_of_nthZ. intros i _. rewrite nthZ_zeros. apply in_range_0. exact Hw.
Qed.

Theorem vec_add_lin a b r0 : limbs_wf w n a -> limbs_wf w n b ->
  vec_add w n a b r0 = lin_spec w n (length r0) 1 1 a b.
Proof.
  intros Ha Hb. rewrite vec_add_size_rule, lin_spec_build by assumption.
  apply build_ext. intros j _. apply vadd_lin; apply lz_wf; assumption.
Qed.

Theorem vec_sub_lin a b r0 : limbs_wf w n a -> limbs_wf w n b ->
  vec_sub w n a b r0 = lin_spec w n (length r0) 1 (-1) a b.
Proof.
  intros Ha Hb. rewrite vec_sub_size_rule, lin_spec_build by assumption.
  apply build_ext. intros j _. apply vsub_lin; apply lz_wf; assumption.
Qed.

Theorem vec_add_assign_lin a r0 : limbs_wf w n a -> limbs_wf w n r0 ->
  vec_add_assign w a r0 = lin_spec w n (length r0) 1 1 r0 a.
Proof. intros Ha Hr. rewrite (vec_add_assign_as_add w n). apply vec_add_lin; assumption. Qed.

Theorem vec_sub_assign_lin a r0 : limbs_wf w n a -> limbs_wf w n r0 ->
  vec_sub_assign w a r0 = lin_spec w n (length r0) 1 (-1) r0 a.
Proof. intros Ha Hr. rewrite (vec_sub_assign_as_sub w n). apply vec_sub_lin; assumption. Qed.

Theorem vec_negate_lin a r0 : limbs_wf w n a ->
  vec_unary n (vneg w) a r0 = lin_spec w n (length r0) (-1) 0 a [].
Proof.
  intros Ha. rewrite vec_negate_size_rule, lin_spec_build by exact Hw.
  apply build_ext. intros j _. apply vneg_lin. apply lz_wf. exact Ha.
Qed.

Theorem vec_copy_lin a r0 : limbs_wf w n a ->
  vec_unary n (fun l => l) a r0 = lin_spec w n (length r0) 1 0 a [].
Proof.
  intros Ha. rewrite vec_unary_size_rule, lin_spec_build by reflexivity.
  apply build_ext. intros j _. apply copy_lin; [exact Hw| |]; apply lz_wf; exact Ha.
Qed.
End Spec.

(* no word is copied here, so any width will do *)
Theorem vec_sub_negate_assign_lin w n a r0 : limbs_wf w n a -> limbs_wf w n r0 ->
  vec_sub_negate_assign w a r0 = lin_spec w n (length r0) 1 (-1) a r0.
Proof.
  intros Ha Hr. rewrite lin_spec_build. unfold vec_sub_negate_assign. apply build_ext. intros j Hj.
  unfold lz. destruct (Nat.ltb_spec j (length r0)); [|lia]. destruct (Hr j Hj) as [Lr _].
  destruct (Nat.ltb_spec j (length a)) as [Hja|Hja].
  - apply vsub_lin; [apply (Ha j Hja)|exact Lr].
  - rewrite <- (vsub_zeros_l w n) by exact Lr. apply vsub_lin; [apply zeros_length|exact Lr].
Qed.

Theorem vec_negate_assign_lin w n r0 : limbs_wf w n r0 ->
  vec_unary_assign (vneg w) r0 = lin_spec w n (length r0) (-1) 0 r0 [].
Proof.
  intros Hr. rewrite lin_spec_build. unfold vec_unary_assign.
  apply limbs_ext; [rewrite map_length, build_length; reflexivity|].
  intros j Hj. rewrite map_length in Hj. rewrite lnth_map, lnth_build by exact Hj.
  unfold lz. destruct (Nat.ltb_spec j (length r0)); [|lia]. apply vneg_lin. apply (Hr j Hj).
Qed.

Create HintDb big_lin discriminated.
#[local] Hint Resolve vec_copy_lin vec_add_lin vec_sub_lin vec_add_assign_lin vec_sub_assign_lin
  vec_sub_negate_assign_lin vec_negate_lin vec_negate_assign_lin : big_lin.

Definition big_codes : list Z :=
  [9101; 9102; 9103; 9104; 9105; 9106; 9107; 9108; 9109; 9110; 9111; 9112; 9113; 9114; 9115; 9116].

(* Galois automorphisms: ring degree a power of two, odd exponent *)
Definition auto_ok (code : Z) (n : nat) (p : Z) : Prop :=
  code = 9115 \/ code = 9116 -> exists m, 0 <= m /\ Z.of_nat n = 2 ^ m /\ Z.odd p = true.

(* one goal per opcode of the list in Hin, `tac` run on each *)
Ltac code_cases Hin tac :=
  cbn [In] in Hin;
  repeat (destruct Hin as [Hc | Hin]; [subst; tac |]);
  try contradiction.

Theorem big_col_exact w code n p fill al bl r0 :
  In code big_codes -> w = 64 \/ w = 128 ->
  ((1 <= big_arity code)%nat -> limbs_wf w n al) -> (big_arity code = 2%nat -> limbs_wf w n bl) ->
  limbs_wf w n r0 -> auto_ok code n p ->
  big_col w code n p fill al bl r0 = big_expect w code n p al bl r0.
Proof.
  intros Hin Hw Ha Hb Hr Hauto. unfold big_codes in Hin.
  pose proof (limbs_wf_len w n r0 Hr) as Hrl.
  assert (Hw1 : 1 <= w) by (destruct Hw; subst; lia).
  (* the NTT120 loops become Ring.v's forms at w = 128; the fourteen linear opcodes then are their `_lin` theorem *)
  destruct Hw as [-> | ->];
    code_cases Hin ltac:(
      cbv beta iota zeta delta [big_col big_expect Z.eqb Pos.eqb];
      try specialize (Ha ltac:(cbv; lia)); try specialize (Hb ltac:(reflexivity));
      autorewrite with ntt120;
      try (f_equal; auto with big_lin; fail)).
  - (* automorphism, FFT64 *)
    destruct (Hauto ltac:(left; reflexivity)) as (m & Hm & Hn & Ho).
    rewrite (vec_automorphism_size_rule 64 n m) by eauto using limbs_wf_len. reflexivity.
  - (* automorphism_assign, FFT64: through the scratch limb *)
    destruct (Hauto ltac:(right; reflexivity)) as (m & Hm & Hn & Ho).
    rewrite (vec_automorphism_assign_spec 64 n m) by (eauto using repeat_length). reflexivity.
  - (* automorphism, NTT120 *)
    destruct (Hauto ltac:(left; reflexivity)) as (m & Hm & Hn & Ho).
    rewrite (vec_automorphism_size_rule 128 n m) by eauto using limbs_wf_len. reflexivity.
  - (* automorphism_assign, NTT120: the limb onto itself *)
    destruct (Hauto ltac:(right; reflexivity)) as (m & Hm & Hn & Ho).
    rewrite (n_automorphism_assign_sigma n m) by assumption. reflexivity.
Qed.

Lemma lin_spec_limbs_len w n rsz ca cb x y : Forall (fun l => length l = n) (lin_spec w n rsz ca cb x y).
Proof.
  unfold lin_spec. apply Forall_forall. intros l Hl. apply in_map_iff in Hl. destruct Hl as [j [<- _]].
  apply map_seq_length.
Qed.

Lemma olimb_length n l j : limbs_len n l -> length (olimb n l j) = n.
Proof.
  intros H. unfold olimb. destruct (Nat.ltb_spec j (length l)) as [Hj|Hj].
  - exact (H j Hj).
  - apply repeat_length.
Qed.

Lemma big_expect_shape w code n p al bl r0 l :
  In code big_codes -> (code = 9115 -> limbs_len n al) -> limbs_len n r0 ->
  big_expect w code n p al bl r0 = Some l ->
  length l = length r0 /\ Forall (fun x => length x = n) l.
Proof.
  intros Hin Ha Hr H. unfold big_codes in Hin.
  code_cases Hin ltac:(
    cbv beta iota zeta delta [big_expect] in H; inversion H; subst l; clear H;
    try (split; [apply lin_spec_length | apply lin_spec_limbs_len])).
  - split; [apply map_seq_length|].
    apply Forall_forall. intros x Hx. apply in_map_iff in Hx. destruct Hx as [j [<- _]].
    rewrite sigma_length. apply olimb_length; exact (Ha eq_refl).
  - split; [apply map_length|].
    apply Forall_forall. intros x Hx. apply in_map_iff in Hx. destruct Hx as [y [<- Hy]].
    rewrite sigma_length. destruct (In_nth r0 y [] Hy) as [j [Hj <-]]. exact (Hr j Hj).
Qed.

Lemma bget_length s d : length (bget s d) = s_size s.
Proof. apply col_limbs_length. Qed.

(* the words of limbs [0,size) of column col: the set left untouched is its complement *)
Definition big_in_col (s : shape) (idx : nat) : bool := in_col (s_n s) (s_cols s) (s_size s) (s_col s) idx.

Theorem run_c09_big_exact code ps vs outs :
  let w := big_w (bp ps 0) in
  let rs := bshp ps 0 in let sa := bshp ps 1 in let sb := bshp ps 2 in
  let res := bv vs 0 in let al := bget sa (bv vs 1) in let bl := bget sb (bv vs 2) in
  In code big_codes -> (0 < s_n rs)%nat ->
  ((1 <= big_arity code)%nat -> limbs_wf w (s_n rs) al) -> (big_arity code = 2%nat -> limbs_wf w (s_n rs) bl) ->
  limbs_wf w (s_n rs) (bget rs res) -> auto_ok code (s_n rs) (bex ps 1) ->
  run_c09_big code ps vs = Some outs ->
  exists l res',
    outs = [res'] /\
    (* exact ring map with the size rule, on every limb of the selected column *)
    big_expect w code (s_n rs) (bex ps 1) al bl (bget rs res) = Some l /\ bget rs res' = l /\
    (* frame *)
    length res' = length res /\
    forall idx d, big_in_col rs idx = false -> nth idx res' d = nth idx res d.
Proof.
  intros w rs sa sb res al bl Hin Hn Ha Hb Hr Hauto H.
  unfold run_c09_big in H. fold w rs sa sb res in H. cbv zeta in H.
  destruct (shape_ok rs res) eqn:Hs; [|discriminate H]. cbn [andb] in H.
  destruct (_ && _); [|discriminate H].
  fold al bl in H.
  assert (Hw : w = 64 \/ w = 128) by (unfold w, big_w; destruct (3 <=? bp ps 0); auto).
  rewrite (big_col_exact w code (s_n rs) (bex ps 1) (bex ps 2) al bl (bget rs res) Hin Hw Ha Hb Hr Hauto) in H.
  destruct (big_expect w code (s_n rs) (bex ps 1) al bl (bget rs res)) as [l|] eqn:El; [|discriminate H].
  inversion H; subst outs; clear H.
  assert (Hal : code = 9115 -> limbs_len (s_n rs) al)
    by (intros ->; apply (limbs_wf_len w); apply Ha; cbv; lia).
  destruct (big_expect_shape _ _ _ _ _ _ _ _ Hin Hal (limbs_wf_len _ _ _ Hr) El) as [Hl Hf].
  rewrite bget_length in Hl.
  destruct (shape_ok_facts rs res Hs) as (Hc & Hsz & Hlen).
  assert (Hfit : (s_n rs * s_cols rs * s_size rs <= length res)%nat)
    by (rewrite Hlen; apply Nat.mul_le_mono_l; exact Hsz).
  exists l, (bput rs res l). split; [reflexivity|]. split; [reflexivity|]. split.
  - unfold bget, bput. apply write_col_read; assumption.
  - unfold bput, big_in_col. apply write_col_frame; try assumption. lia.
Qed.

Lemma wsub_as_wadd_wneg w x y : 1 <= w -> wsub w x y = wadd w x (wneg w y).
Proof. intros Hw. unfold wsub, wadd, wneg. rewrite wrap_wrap_add_r by auto. f_equal; ring. Qed.

Lemma wsub_antisym w x y : 1 <= w -> wsub w x y = wneg w (wsub w y x).
Proof. intros Hw. unfold wsub, wneg. rewrite wrap_neg_wrap by auto. f_equal; ring. Qed.

Lemma wadd_comm w x y : wadd w x y = wadd w y x.
Proof. unfold wadd. f_equal; ring. Qed.

Lemma wadd_wsub_cancel w r a : 1 <= w -> in_range w r -> wsub w (wadd w r a) a = r.
Proof.
  intros Hw Hr. unfold wsub, wadd.
  replace (wrap w (r + a) - a) with (wrap w (r + a) + (- a)) by ring.
  rewrite wrap_wrap_add_l by auto. replace (r + a + - a) with r by ring. apply wrap_id; auto.
Qed.

(* no length hypothesis on one limb: map2 truncates both sides alike *)
Lemma vsub_as_vadd_vneg w (a b : list Z) : 1 <= w -> vsub w a b = vadd w a (vneg w b).
Proof.
  intros Hw. unfold vsub, vadd, vneg, map2. revert b.
  induction a as [|x a IH]; intros [|y b]; cbn [combine map fst snd]; try reflexivity.
  rewrite IH. f_equal. apply wsub_as_wadd_wneg; auto.
Qed.

Lemma vsub_antisym w (a b : list Z) : 1 <= w -> vsub w a b = vneg w (vsub w b a).
Proof.
  intros Hw. unfold vsub, vneg, map2. revert b.
  induction a as [|x a IH]; intros [|y b]; cbn [combine map fst snd]; try reflexivity.
  rewrite IH. f_equal. apply wsub_antisym; auto.
Qed.

Lemma vadd_comm w (a b : list Z) : vadd w a b = vadd w b a.
Proof.
  unfold vadd, map2. revert b.
  induction a as [|x a IH]; intros [|y b]; cbn [combine map fst snd]; try reflexivity.
  rewrite IH. f_equal. apply wadd_comm.
Qed.

Lemma vneg_involutive w (a : list Z) : 1 <= w -> Forall (in_range w) a -> vneg w (vneg w a) = a.
Proof.
  intros Hw H. unfold vneg. induction H as [|x a Hx _ IH]; cbn [map]; [reflexivity|].
  rewrite IH. f_equal. apply wneg_involutive; auto.
Qed.

Lemma vadd_vsub_cancel w (r a : list Z) : 1 <= w -> length r = length a -> Forall (in_range w) r ->
  vsub w (vadd w r a) a = r.
Proof.
  intros Hw Hl H. unfold vsub, vadd, map2. revert a Hl.
  induction H as [|x r Hx _ IH]; intros [|y a] Hl; cbn [combine map fst snd]; try reflexivity; try discriminate.
  rewrite IH by (cbn [length] in Hl; lia). f_equal. apply wadd_wsub_cancel; auto.
Qed.

(* all comparisons decided at once; the contradictory branches are closed, the others are left to the caller *)
Ltac cmp_cases_keep :=
  repeat match goal with
  | |- context [Nat.leb ?a ?b] => destruct (Nat.leb_spec a b)
  | |- context [Nat.ltb ?a ?b] => destruct (Nat.ltb_spec a b)
  end; cbn [andb orb negb]; try lia.

Ltac law_start :=
  apply limbs_ext; [rewrite ?map_length, ?build_length; reflexivity|];
  let j := fresh "j" in let Hj := fresh "Hj" in
  intros j Hj; rewrite ?map_length, ?build_length in Hj;
  rewrite ?lnth_map by (rewrite ?build_length; exact Hj);
  rewrite ?lnth_build by exact Hj.

Section Laws.
Variable w : Z.
Hypothesis Hw : 1 <= w.

(* x - y = x + (-y) on vectors: sub = add_into of the negated operand *)
Theorem vec_sub_as_add_negate n a b rb r0 : length rb = length b ->
  vec_sub w n a b r0 = vec_add w n a (vec_unary n (vneg w) b rb) r0.
Proof.
  intros Hl. unfold vec_sub, vec_add, vec_unary. rewrite build_length, Hl.
  apply build_ext. intros j Hj. bounds_to_sizes.
  destruct (Nat.ltb_spec j (length a)); destruct (Nat.ltb_spec j (length b)); cbn [andb orb negb];
    rewrite ?lnth_build by lia; cmp_cases; auto using vsub_as_vadd_vneg.
Qed.

(* a - b = -(b - a): sub_small_b a b = negate (sub_small_a b a), sub a b = negate (sub b a) *)
Theorem vec_sub_antisym n a b r0 : limbs_wf w n a ->
  vec_sub w n a b r0 = map (vneg w) (vec_sub w n b a r0).
Proof.
  intros Ha. unfold vec_sub. law_start. bounds_to_sizes. cmp_cases_keep.
  all: try (apply vsub_antisym; exact Hw).
  all: try reflexivity.
  all: try (symmetry; apply vneg_involutive; [exact Hw|]; destruct (Ha j ltac:(lia)) as [_ Hr]; exact Hr).
  all: symmetry; apply vneg_zeros; exact Hw.
Qed.

(* sub_negate_assign = negate_assign after sub_assign *)
Theorem vec_sub_negate_assign_as_negate a r0 :
  vec_sub_negate_assign w a r0 = vec_unary_assign (vneg w) (vec_sub_assign w a r0).
Proof.
  unfold vec_sub_negate_assign, vec_sub_assign, vec_unary_assign. law_start. cmp_cases_keep.
  - apply vsub_antisym; exact Hw.
  - reflexivity.
Qed.

(* negate twice is the identity modulo 2^w *)
Theorem vec_negate_assign_involutive n r0 : limbs_wf w n r0 ->
  vec_unary_assign (vneg w) (vec_unary_assign (vneg w) r0) = r0.
Proof.
  intros Hr. unfold vec_unary_assign. rewrite map_map.
  apply limbs_ext; [apply map_length|]. intros j Hj. rewrite map_length in Hj.
  rewrite (lnth_map (fun x => vneg w (vneg w x))) by exact Hj.
  apply vneg_involutive; [exact Hw|]. apply (Hr j Hj).
Qed.

Theorem vec_add_comm n a b r0 : vec_add w n a b r0 = vec_add w n b a r0.
Proof.
  unfold vec_add. apply build_ext. intros j Hj. bounds_to_sizes. cmp_cases_keep; try reflexivity; try apply vadd_comm.
Qed.

(* (res + a) - a = res *)
Theorem vec_add_sub_assign_cancel n a r0 : limbs_len n a -> limbs_wf w n r0 ->
  vec_sub_assign w a (vec_add_assign w a r0) = r0.
Proof.
  intros Ha Hr. unfold vec_sub_assign, vec_add_assign. rewrite build_length.
  apply limbs_ext; [apply build_length|]. intros j Hj. rewrite build_length in Hj.
  rewrite lnth_build by exact Hj. rewrite lnth_build by exact Hj.
  destruct (Nat.ltb_spec j (length a)); [|reflexivity].
  destruct (Hr j Hj) as [Hn Hrg].
  apply vadd_vsub_cancel; auto. rewrite Hn. symmetry. apply (Ha j); assumption.
Qed.
End Laws.

Lemma wrap64_wrap128 z : wrap 64 (wrap 128 z) = wrap 64 z.
Proof.
  destruct (wrap_exists 128 z ltac:(lia)) as [q Hq]. rewrite Hq.
  apply wrap_eq_mod; [lia|].
  replace (z - q * 2 ^ 128) with (z + (- q * 2 ^ 64) * 2 ^ 64) by (change (2 ^ 128) with (2 ^ 64 * 2 ^ 64); ring).
  apply Z_mod_plus_full.
Qed.

(* the common domain of the two families: every word in [-2^61, 2^61) *)
Definition limbs_dom (n : nat) (l : limbs) : Prop := limbs_wf 62 n l.

Lemma limbs_wf_weaken w w' n l : 1 <= w <= w' -> limbs_wf w n l -> limbs_wf w' n l.
Proof.
  intros Hw H j Hj. destruct (H j Hj) as [Hn Hr]. split; [exact Hn|].
  eapply Forall_impl; [|exact Hr]. intros x [A B].
  assert (2 ^ (w - 1) <= 2 ^ (w' - 1)) by (apply Z.pow_le_mono_r; lia). unfold in_range. lia.
Qed.

Lemma limbs_dom_wf64 n l : limbs_dom n l -> limbs_wf 64 n l.
Proof. apply limbs_wf_weaken. lia. Qed.
Lemma limbs_dom_wf128 n l : limbs_dom n l -> limbs_wf 128 n l.
Proof. apply limbs_wf_weaken. lia. Qed.
Lemma wf64_wf128 n l : limbs_wf 64 n l -> limbs_wf 128 n l.
Proof. apply limbs_wf_weaken. lia. Qed.

Lemma oword_dom n l j i : limbs_dom n l -> in_range 62 (oword l j i).
Proof.
  intros H. unfold oword. destruct (Nat.ltb_spec j (length l)) as [Hj|Hj].
  - destruct (H j Hj) as [Hn Hr]. change (nth j l []) with (lnth l j).
    destruct (Nat.lt_ge_cases i (length (lnth l j))) as [Hi|Hi].
    + apply Forall_nthZ; assumption.
    + rewrite nthZ_overflow by exact Hi. apply in_range_0; lia.
  - apply in_range_0; lia.
Qed.

Lemma wrap_both x : in_range 64 x -> wrap 128 x = wrap 64 x.
Proof.
  intros H. rewrite (wrap_id 64) by (lia || exact H). apply wrap_id; [lia|].
  revert H. unfold in_range. change (2 ^ (64 - 1)) with (2 ^ 63). change (2 ^ (128 - 1)) with (2 ^ 127). lia.
Qed.

Theorem lin_spec_agree n rsz ca cb x y :
  -1 <= ca <= 1 -> -1 <= cb <= 1 -> limbs_dom n x -> limbs_dom n y ->
  lin_spec 128 n rsz ca cb x y = lin_spec 64 n rsz ca cb x y.
Proof.
  intros Hca Hcb Hx Hy. unfold lin_spec. apply map_ext. intros j. apply map_ext. intros i.
  apply wrap_both.
  pose proof (oword_dom n x j i Hx) as H1. pose proof (oword_dom n y j i Hy) as H2.
  revert H1 H2. unfold in_range. change (2 ^ (62 - 1)) with (2 ^ 61). change (2 ^ (64 - 1)) with (2 ^ 63).
  intros H1 H2.
  assert (Ea : ca = -1 \/ ca = 0 \/ ca = 1) by lia. assert (Eb : cb = -1 \/ cb = 0 \/ cb = 1) by lia.
  destruct Ea as [Ea|[Ea|Ea]]; destruct Eb as [Eb|[Eb|Eb]]; subst ca cb; lia.
Qed.

Lemma limbs_dom_nil n : limbs_dom n [].
Proof. intros j Hj. cbn [length] in Hj. lia. Qed.

Lemma wneg_both x : in_range 62 x -> wneg 128 x = wneg 64 x.
Proof.
  intros H. unfold wneg. apply wrap_both. revert H. unfold in_range.
  change (2 ^ (62 - 1)) with (2 ^ 61). change (2 ^ (64 - 1)) with (2 ^ 63). lia.
Qed.

Lemma sigma_agree p (l : list Z) : Forall (in_range 62) l -> sigma 128 p l = sigma 64 p l.
Proof.
  intros H. unfold sigma. apply fold_left_ext_in. intros r j Hj.
  assert (E : wneg 128 (nthZ l j) = wneg 64 (nthZ l j)).
  { apply in_seq in Hj. apply wneg_both. apply Forall_nthZ; [exact H|lia]. }
  rewrite E. reflexivity.
Qed.

Lemma olimb_dom n l j : limbs_dom n l -> Forall (in_range 62) (olimb n l j).
Proof. intros H. exact (proj2 (lz_wf 62 n ltac:(lia) l j H)). Qed.

Theorem big_expect_agree code n p al bl r0 :
  ((1 <= big_arity code)%nat -> limbs_dom n al) -> (big_arity code = 2%nat -> limbs_dom n bl) -> limbs_dom n r0 ->
  In code big_codes ->
  big_expect 128 code n p al bl r0 = big_expect 64 code n p al bl r0.
Proof.
  intros Ha Hb Hr Hin. unfold big_codes in Hin.
  code_cases Hin ltac:(
    cbv beta iota zeta delta [big_expect];
    try specialize (Ha ltac:(cbv; lia)); try specialize (Hb ltac:(reflexivity));
    try (f_equal; apply lin_spec_agree; auto using limbs_dom_nil; lia)).
  - f_equal. apply map_ext. intros j. apply sigma_agree. apply olimb_dom; assumption.
  - f_equal. apply map_ext_in. intros l Hl. apply sigma_agree.
    destruct (In_nth r0 l [] Hl) as [j [Hj <-]]. apply (Hr j Hj).
Qed.

(* the operations that are linear maps (all but the automorphisms, which only permute and negate): for these, and any
   64-bit operands, the FFT64 words are the NTT120 words reduced modulo 2^64 (Props/C09Big.v) *)
Definition big_lin_codes : list Z :=
  [9101; 9102; 9103; 9104; 9105; 9106; 9107; 9108; 9109; 9110; 9111; 9112; 9113; 9114].

Lemma beq_list_refl a : beq_list a a = true.
Proof.
  unfold beq_list. rewrite Nat.eqb_refl. cbn [andb].
  induction a as [|x a IH]; cbn [combine forallb fst snd]; [reflexivity|].
  rewrite Z.eqb_refl. exact IH.
Qed.

Lemma frame_ok_intro n cols size col : forall (a b : list Z) idx,
  length a = length b ->
  (forall i d, (i < length a)%nat -> in_col n cols size col (idx + i) = false -> nth i a d = nth i b d) ->
  frame_ok n cols size col idx a b = true.
Proof.
  induction a as [|x a IH]; intros [|y b] idx Hl H; cbn [length] in Hl; try discriminate; [reflexivity|].
  cbn [frame_ok]. apply andb_true_intro. split.
  - destruct (Nat.eqb _ col && Nat.ltb _ size) eqn:E; [reflexivity|]. cbn [orb].
    apply Z.eqb_eq. apply (H O 0); [cbn [length]; lia|].
    rewrite Nat.add_0_r. exact E.
  - apply IH; [lia|]. intros i d Hi Hc. apply (H (S i) d); [cbn [length]; lia|].
    rewrite Nat.add_succ_r. exact Hc.
Qed.

Lemma forallb_combine_refl (l : limbs) : forallb (fun q => beq_list (fst q) (snd q)) (combine l l) = true.
Proof. induction l as [|x l IH]; cbn [combine forallb fst snd]; [reflexivity|]. rewrite beq_list_refl. exact IH. Qed.


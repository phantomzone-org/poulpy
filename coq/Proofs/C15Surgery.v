(* C15 — bit surgery on packed words: rotate / trace algebra on ideal plaintexts, closed forms of zero_byte, splice_u8,
   splice_u16, sext, get_bit, get_byte, pack, and their bit-level statements, for every documented word type
   (LOG_BYTES = lb >= 0) and every ring degree 2^logn >= BITS. *)
From Coq Require Import ZArith List Bool Lia.
From PV Require Import Gen.C15_gen Model.C15Uint Proofs.C15Layout.
Import ListNotations.
Open Scope Z_scope.
Ltac dlia := Z.div_mod_to_equations; lia.

Lemma div_neg1 t n : 0 < n -> - n <= t < 0 -> t / n = -1 /\ t mod n = t + n.
Proof. intros Hn Ht. apply div_mod_small; lia. Qed.

Lemma div_one t n : 0 < n -> n <= t < 2 * n -> t / n = 1 /\ t mod n = t - n.
Proof. intros Hn Ht. apply div_mod_small; lia. Qed.

Section Rot.
  Variable n : Z.
  Hypothesis Hn : 0 < n.

  Lemma p_rot_lo k q j : 0 <= j - k < n -> p_rot n k q j = q (j - k).
  Proof. intros H. unfold p_rot. cbv zeta. rewrite Z.div_small, Z.mod_small by lia. reflexivity. Qed.

  Lemma p_rot_neg k q j : - n <= j - k < 0 -> p_rot n k q j = - q (j - k + n).
  Proof. intros H. unfold p_rot. cbv zeta. destruct (div_neg1 (j - k) n Hn H) as [-> ->]. reflexivity. Qed.

  Lemma p_rot_hi k q j : n <= j - k < 2 * n -> p_rot n k q j = - q (j - k - n).
  Proof. intros H. unfold p_rot. cbv zeta. destruct (div_one (j - k) n Hn H) as [-> ->]. reflexivity. Qed.

  Lemma p_rot_sub k a b j : p_rot n k (p_sub a b) j = p_rot n k a j - p_rot n k b j.
  Proof. unfold p_rot, p_sub. cbv zeta. destruct (Z.even ((j - k) / n)); lia. Qed.

  Lemma p_rot_add k a b j : p_rot n k (p_add a b) j = p_rot n k a j + p_rot n k b j.
  Proof. unfold p_rot, p_add. cbv zeta. destruct (Z.even ((j - k) / n)); lia. Qed.

  Lemma p_rot_0 q j : 0 <= j < n -> p_rot n 0 q j = q j.
  Proof. intros. rewrite p_rot_lo by lia. f_equal; lia. Qed.

  Lemma mod_add_mult m x : 0 < m -> n mod m = 0 -> (x + n) mod m = x mod m.
  Proof.
    intros Hm H. rewrite (Z.div_mod n m) at 1 by lia. rewrite H, Z.add_0_r, (Z.mul_comm m). apply Z.mod_add; lia.
  Qed.

  Lemma mult_ge0 m t : 0 < m -> t mod m = 0 -> - m < t -> 0 <= t.
  Proof.
    intros Hm H0 Ht. destruct (Z_lt_le_dec t 0) as [Hneg|]; [|assumption].
    destruct (div_neg1 t m Hm ltac:(lia)) as [_ E]. lia.
  Qed.

  Lemma mult_le m t : 0 < m -> t mod m = 0 -> n mod m = 0 -> t < n -> t <= n - m.
  Proof.
    intros Hm H0 Hnm Ht. destruct (Z_lt_le_dec (n - m) t) as [Hgt|]; [|assumption].
    assert (E : (n - t) mod m = 0) by (rewrite Zminus_mod, H0, Hnm; reflexivity).
    rewrite Z.mod_small in E by lia. lia.
  Qed.

  Lemma p_rot_rot a b q j : p_rot n a (p_rot n b q) j = p_rot n (a + b) q j.
  Proof.
    unfold p_rot. cbv zeta.
    set (q1 := (j - a) / n). set (s1 := (j - a) mod n).
    set (q2 := (s1 - b) / n). set (s2 := (s1 - b) mod n).
    assert (H1 : j - a = n * q1 + s1) by (apply Z.div_mod; lia).
    assert (H2 : s1 - b = n * q2 + s2) by (apply Z.div_mod; lia).
    assert (R2 : 0 <= s2 < n) by (apply Z.mod_pos_bound; lia).
    destruct (div_mod_small (j - (a + b)) n (q1 + q2) s2 Hn R2 ltac:(lia)) as [-> ->].
    rewrite Z.even_add. destruct (Z.even q1), (Z.even q2); cbn; lia.
  Qed.

  Lemma trace0 q : p_trace n 0 q = p_keep n q.
  Proof. unfold p_trace. change (2 ^ 0) with 1. now rewrite Z.div_1_r. Qed.

  Lemma keep_n q j : 0 <= j < n -> p_keep n q j = if j =? 0 then q 0 else 0.
  Proof.
    intros Hj. unfold p_keep. rewrite Z.mod_small by lia. destruct (Z.eqb_spec j 0) as [->|]; reflexivity.
  Qed.

  Lemma rot_rot_id k q j : 0 <= j < n -> p_rot n k (p_rot n (- k) q) j = q j.
  Proof. intros Hj. rewrite p_rot_rot, Z.add_opp_diag_r. apply p_rot_0, Hj. Qed.

  (* rot(rd) . keep(m) . rot(-rs): the coefficients at rs + multiples of m, moved to rd + multiples of m (both below m) *)
  Lemma rot_keep_rot_move m rd rs q j : 0 < m -> n mod m = 0 -> 0 <= rd < m -> 0 <= rs < m -> m <= n -> 0 <= j < n ->
    p_rot n rd (p_keep m (p_rot n (- rs) q)) j = if (j - rd) mod m =? 0 then q (j - rd + rs) else 0.
  Proof.
    intros Hm Hnm Hrd Hrs Hmn Hj. destruct (Z_lt_le_dec (j - rd) 0).
    - rewrite p_rot_neg by lia. unfold p_keep. rewrite mod_add_mult by auto.
      destruct (Z.eqb_spec ((j - rd) mod m) 0) as [E|]; [|reflexivity].
      pose proof (mult_ge0 m (j - rd) Hm E ltac:(lia)). lia.
    - rewrite p_rot_lo by lia. unfold p_keep.
      destruct (Z.eqb_spec ((j - rd) mod m) 0) as [E|]; [|reflexivity].
      pose proof (mult_le m (j - rd) Hm E Hnm ltac:(lia)).
      rewrite p_rot_lo by lia. f_equal; lia.
  Qed.
End Rot.

(* the documented word types std_wty lb, at ring degree 2^logn >= BITS *)
Section Std.
  Variables lb logn : Z.
  Hypothesis Hlb : 0 <= lb.
  Hypothesis Hlogn : lb + 3 <= logn.
  Let T := std_wty lb.
  Let g := logn - (lb + 3).
  Let gap := 2 ^ g.
  Let P := 2 ^ lb.
  Let M := P * gap.
  Let n := 2 ^ logn.

  Lemma gap_pos : 0 < gap. Proof. apply pow2_pos'. unfold g. lia. Qed.
  Lemma P_pos : 0 < P. Proof. apply pow2_pos'. lia. Qed.
  Lemma M_pos : 0 < M. Proof. pose proof gap_pos; pose proof P_pos. unfold M. nia. Qed.
  Lemma n_eq : n = 8 * M.
  Proof.
    unfold n, M, P, gap, g. replace logn with (3 + (lb + (logn - (lb + 3)))) at 1 by lia.
    rewrite !Z.pow_add_r by lia. change (2 ^ 3) with 8. ring.
  Qed.
  Lemma n_pos : 0 < n. Proof. rewrite n_eq. pose proof M_pos. lia. Qed.
  Lemma n_mod_M : n mod M = 0. Proof. rewrite n_eq. apply Z.mod_mul. pose proof M_pos; lia. Qed.
  Lemma bits_eq : w_bits T = 8 * P. Proof. reflexivity. Qed.
  Lemma log_gap_eq : log_gap T logn = g. Proof. unfold log_gap, g. cbn [T std_wty w_logbits]. lia. Qed.

  Lemma cidx_eq i : cidx T logn i = bit_index lb i * gap.
  Proof. unfold cidx. rewrite log_gap_eq. cbn [T std_wty w_bidx]. apply Z.shiftl_mul_pow2. unfold g; lia. Qed.

  Lemma cidx_decomp i : 0 <= i < 8 * P -> cidx T logn i = (i mod 8) * M + (i / 8) * gap.
  Proof. intros Hi. rewrite cidx_eq, bit_index_arith_eq by (auto; exact Hi). unfold bit_index_arith, M. fold P. ring. Qed.

  Lemma cidx_kb k y : 0 <= k < 8 -> 0 <= y < P -> cidx T logn (8 * y + k) = k * M + y * gap.
  Proof.
    intros Hk Hy. rewrite cidx_decomp by lia.
    destruct (div_mod_small (8 * y + k) 8 y k ltac:(lia) Hk ltac:(lia)) as [-> ->]. reflexivity.
  Qed.

  Lemma cidx_byte y : 0 <= y < P -> cidx T logn (Z.shiftl y 3) = y * gap.
  Proof. intros Hy. rewrite Z.shiftl_mul_pow2 by lia. change (2 ^ 3) with 8. rewrite Z.mul_comm.
         replace (8 * y) with (8 * y + 0) by lia. rewrite cidx_kb by lia. lia. Qed.

  Lemma ygap_bound y : 0 <= y < P -> 0 <= y * gap < M.
  Proof. intros Hy. pose proof gap_pos. pose proof (digits_range gap P y 0 Hy). unfold M. lia. Qed.

  Lemma cidx_range i : 0 <= i < 8 * P -> 0 <= cidx T logn i < n.
  Proof.
    intros Hi. rewrite cidx_decomp by auto. rewrite n_eq.
    destruct (digits_of 8 P i ltac:(lia) ltac:(lia)) as [Hy Hk].
    apply digits_range; [exact Hk | apply ygap_bound, Hy].
  Qed.

  Lemma cidx_inj i j : 0 <= i < w_bits T -> 0 <= j < w_bits T -> cidx T logn i = cidx T logn j -> i = j.
  Proof.
    rewrite bits_eq. intros Hi Hj E. rewrite !cidx_eq in E. pose proof gap_pos.
    apply (bit_index_inj lb); auto. nia.
  Qed.

  Lemma bits_nonneg : 0 <= w_bits T.
  Proof using Hlb Hlogn. rewrite bits_eq. pose proof P_pos. lia. Qed.

  Lemma nbits_eq : Z.of_nat (nbits T) = 8 * P.
  Proof. apply nbits_Z, bits_nonneg. Qed.

  Lemma enc_at_std w i : 0 <= i < 8 * P -> p_enc T logn w (cidx T logn i) = bitz w i.
  Proof using Hlb Hlogn. intros Hi. apply enc_at; [apply bits_nonneg | apply cidx_inj | rewrite bits_eq; exact Hi]. Qed.

  Lemma dec_enc_std w : 0 <= w < 2 ^ (8 * P) -> p_dec T logn (p_enc T logn w) = w.
  Proof using Hlb Hlogn. intros Hw. apply dec_enc; [apply bits_nonneg | apply cidx_inj | exact Hw]. Qed.

  Lemma dec_bit q i : 0 <= i < 8 * P -> Z.testbit (p_dec T logn q) i = negb (q (cidx T logn i) mod 256 =? 0).
  Proof using Hlb Hlogn. intros Hi. apply dec_testbit; [apply bits_nonneg | rewrite bits_eq; exact Hi]. Qed.

  Lemma trace3 q : p_trace n (trace_start T) q = p_keep M q.
  Proof.
    unfold p_trace, trace_start. cbn [T std_wty w_logbits w_lb]. replace (lb + 3 - lb) with 3 by lia.
    change (2 ^ 3) with 8. rewrite n_eq, Z.mul_comm, Z.div_mul by lia. reflexivity.
  Qed.

  (* whether position (k, y) lies in byte d *)
  Lemma in_byte k y d : 0 <= y < P -> 0 <= d < P ->
    ((k * M + y * gap - d * gap) mod M =? 0) = (y =? d).
  Proof.
    intros Hy Hd. pose proof M_pos. pose proof gap_pos.
    replace (k * M + y * gap - d * gap) with ((y - d) * gap + k * M) by ring. rewrite Z.mod_add by lia.
    pose proof (ygap_bound y Hy). pose proof (ygap_bound d Hd).
    destruct (Z.eqb_spec y d) as [->|Hne].
    - replace ((d - d) * gap) with 0 by ring. rewrite Z.mod_0_l by lia. reflexivity.
    - destruct (Z_lt_le_dec y d).
      + destruct (div_neg1 ((y - d) * gap) M ltac:(lia) ltac:(nia)) as [_ ->].
        destruct (Z.eqb_spec ((y - d) * gap + M) 0); [nia | reflexivity].
      + rewrite Z.mod_small by nia. destruct (Z.eqb_spec ((y - d) * gap) 0); [nia | reflexivity].
  Qed.

  Lemma zero_byte_closed d self j : 0 <= d < P -> 0 <= j < n ->
    zero_byte T logn d self j = if (j - d * gap) mod M =? 0 then 0 else self j.
  Proof.
    intros Hd Hj. unfold zero_byte. cbv zeta. rewrite cidx_byte by auto. fold n. rewrite trace3.
    pose proof (ygap_bound d Hd). pose proof M_pos. pose proof n_eq.
    rewrite p_rot_sub. rewrite rot_rot_id by (try apply n_pos; lia).
    rewrite (rot_keep_rot_move n n_pos M) by (try apply n_mod_M; lia).
    replace (j - d * gap + d * gap) with j by ring. destruct ((j - d * gap) mod M =? 0); lia.
  Qed.

  Lemma splice_u8_closed dst src a b : 0 <= dst < P -> 0 <= src < P ->
    exists r, splice_u8 T logn dst src a b = Some r /\
              forall j, 0 <= j < n -> r j = if (j - dst * gap) mod M =? 0 then b (j - dst * gap + src * gap) else a j.
  Proof.
    intros Hd Hs. unfold splice_u8. rewrite bits_eq.
    rewrite Z.shiftr_div_pow2 by lia. change (2 ^ 3) with 8. rewrite Z.mul_comm, Z.div_mul by lia.
    destruct (Z.ltb_spec dst P); [|lia]. destruct (Z.ltb_spec src P); [|lia]. cbn [andb].
    eexists; split; [reflexivity|]. intros j Hj. cbv zeta. unfold p_add.
    rewrite zero_byte_closed by auto. rewrite !cidx_byte by auto. fold n. rewrite trace3.
    pose proof (ygap_bound dst Hd). pose proof (ygap_bound src Hs). pose proof M_pos. pose proof n_eq.
    rewrite (rot_keep_rot_move n n_pos M) by (try apply n_mod_M; lia).
    destruct ((j - dst * gap) mod M =? 0); lia.
  Qed.

  (* position by position: byte dst comes from byte src of b, the other bytes from a *)
  Lemma splice_u8_at dst src a b : 0 <= dst < P -> 0 <= src < P ->
    exists r, splice_u8 T logn dst src a b = Some r /\
      forall i, 0 <= i < 8 * P ->
        r (cidx T logn i) = if i / 8 =? dst then b (cidx T logn (8 * src + i mod 8)) else a (cidx T logn i).
  Proof.
    intros Hd Hs. destruct (splice_u8_closed dst src a b Hd Hs) as (r & Er & Hr).
    exists r; split; [exact Er|]. intros i Hi.
    destruct (digits_of 8 P i ltac:(lia) ltac:(lia)) as [Hy Hk].
    rewrite Hr by (apply cidx_range; exact Hi). rewrite (cidx_decomp i Hi) at 1. rewrite in_byte by assumption.
    destruct (Z.eqb_spec (i / 8) dst) as [E|]; [|reflexivity].
    f_equal. rewrite cidx_decomp, cidx_kb, E by lia. ring.
  Qed.

  Lemma half_guard d : 0 <= d -> 2 * d + 1 < P -> (d <? Z.shiftr (w_bits T) 4) = true.
  Proof.
    intros H0 H. rewrite bits_eq, Z.shiftr_div_pow2 by lia. change (2 ^ 4) with 16.
    apply Z.ltb_lt. apply Z.lt_le_trans with (d + 1); [lia|]. apply Z.div_le_lower_bound; lia.
  Qed.

  (* the two byte splices of a halfword, position by position *)
  Lemma splice_u16_at dst src a b : 0 <= dst -> 2 * dst + 1 < P -> 0 <= src -> 2 * src + 1 < P ->
    exists r, splice_u16 T logn dst src a b = Some r /\
      forall i, 0 <= i < 8 * P ->
        r (cidx T logn i) = if i / 16 =? dst then b (cidx T logn (16 * src + i mod 16)) else a (cidx T logn i).
  Proof.
    intros Hd0 Hd Hs0 Hs. unfold splice_u16. rewrite !half_guard by assumption. cbn [andb].
    rewrite !Z.shiftl_mul_pow2 by lia. change (2 ^ 1) with 2.
    destruct (splice_u8_at (dst * 2) (src * 2) a b ltac:(lia) ltac:(lia)) as (t & -> & Ht).
    destruct (splice_u8_at (dst * 2 + 1) (src * 2 + 1) t b ltac:(lia) ltac:(lia)) as (r & Er & Hr).
    exists r; split; [exact Er|]. intros i Hi. rewrite Hr by exact Hi.
    destruct (Z.eqb_spec (i / 8) (dst * 2 + 1)).
    - destruct (Z.eqb_spec (i / 16) dst); [do 2 f_equal; dlia | dlia].
    - rewrite Ht by exact Hi. destruct (Z.eqb_spec (i / 8) (dst * 2)).
      + destruct (Z.eqb_spec (i / 16) dst); [do 2 f_equal; dlia | dlia].
      + destruct (Z.eqb_spec (i / 16) dst); [dlia | reflexivity].
  Qed.


  Lemma get_bit_glwe_lwe bit q j : 0 <= j < n ->
    get_bit_glwe T logn bit q j = if j =? 0 then get_bit_lwe T logn bit q else 0.
  Proof. intros Hj. unfold get_bit_glwe, get_bit_lwe. fold n. now rewrite trace0, keep_n. Qed.

  Lemma get_bit_lwe_at bit q : 0 <= bit < 8 * P -> get_bit_lwe T logn bit q = q (cidx T logn bit).
  Proof.
    intros Hb. unfold get_bit_lwe. fold n. pose proof (cidx_range bit Hb). rewrite (p_rot_lo n) by lia. f_equal. lia.
  Qed.

  Lemma get_bit_lwe_enc w bit : 0 <= bit < 8 * P -> get_bit_lwe T logn bit (p_enc T logn w) = bitz w bit.
  Proof. intros Hb. rewrite get_bit_lwe_at by exact Hb. apply enc_at_std, Hb. Qed.

  Lemma get_bit_glwe_enc w bit j : 0 <= bit < 8 * P -> 0 <= j < n ->
    get_bit_glwe T logn bit (p_enc T logn w) j = if j =? 0 then bitz w bit else 0.
  Proof. intros Hb Hj. now rewrite get_bit_glwe_lwe, get_bit_lwe_enc. Qed.

  Lemma get_byte_enc w y j : 0 <= y < P -> 0 <= j < n ->
    get_byte T logn y (p_enc T logn w) j = if j mod M =? 0 then bitz w (8 * y + j / M) else 0.
  Proof.
    intros Hy Hj. unfold get_byte. fold n. rewrite trace3. unfold p_keep.
    destruct (Z.eqb_spec (j mod M) 0) as [E|]; [|reflexivity].
    rewrite cidx_byte by auto. pose proof (ygap_bound y Hy). pose proof M_pos.
    pose proof (mult_le n M j M_pos E n_mod_M ltac:(lia)).
    rewrite (p_rot_lo n) by lia.
    assert (Hq : 0 <= j / M < 8) by (split; [apply Z.div_pos; lia | apply Z.div_lt_upper_bound; pose proof n_eq; lia]).
    replace (j - - (y * gap)) with (cidx T logn (8 * y + j / M)).
    - apply enc_at_std. lia.
    - rewrite cidx_kb by lia. pose proof (Z.div_mod j M ltac:(lia)). lia.
  Qed.

  Definition rep_shape (v c : Z) (s : poly) : Prop :=
    forall j, 0 <= j < n -> s j = if (j mod M =? 0) && (j <? c) then v else 0.

  Lemma rep_step v k s : 0 < k -> 2 * (M * k) <= n -> rep_shape v (M * k) s ->
    rep_shape v (M * (2 * k)) (p_add s (p_rot n (M * k) s)).
  Proof.
    intros Hk Hc Hs j Hj. unfold p_add. pose proof M_pos. set (c := M * k) in *.
    replace (M * (2 * k)) with (2 * c) by (unfold c; ring). assert (0 < c) by (unfold c; nia).
    rewrite (Hs j Hj). destruct (Z_lt_le_dec j c).
    - rewrite (p_rot_neg n n_pos) by lia. rewrite Hs by lia.
      destruct (Z.ltb_spec (j - c + n) c); [lia|]. rewrite andb_false_r.
      destruct (Z.ltb_spec j c); [|lia]. destruct (Z.ltb_spec j (2 * c)); [|lia]. lia.
    - rewrite (p_rot_lo n) by lia. rewrite Hs by lia.
      assert (Em : (j - c) mod M = j mod M).
      { unfold c. replace (j - M * k) with (j + (- k) * M) by ring. apply Z.mod_add; lia. }
      rewrite Em. destruct (Z.ltb_spec j c); [lia|]. rewrite andb_false_r.
      destruct (Z.ltb_spec (j - c) c); destruct (Z.ltb_spec j (2 * c)); try lia.
  Qed.

  Lemma sext_fill_closed y self j : 0 <= y < P -> 0 <= j < n ->
    sext_fill T logn y self j = if j mod M =? 0 then self (7 * M + y * gap) else 0.
  Proof.
    intros Hy Hj. unfold sext_fill. cbv zeta. fold n.
    assert (Erot : cidx T logn (Z.shiftl y 3 + 7) = 7 * M + y * gap).
    { rewrite Z.shiftl_mul_pow2 by lia. change (2 ^ 3) with 8. rewrite (Z.mul_comm y 8). apply cidx_kb; lia. }
    rewrite Erot. set (v := self (7 * M + y * gap)).
    assert (Esh : forall e, 0 <= e -> Z.shiftl (Z.shiftl (Z.shiftl 1 (w_lb T)) (log_gap T logn)) e = M * 2 ^ e).
    { intros e He. rewrite log_gap_eq. cbn [T std_wty w_lb]. rewrite !Z.shiftl_mul_pow2 by (unfold g; lia).
      unfold M, P, gap. ring. }
    cbn [fold_left]. rewrite !Esh by lia. change (2 ^ 0) with 1. change (2 ^ 1) with 2. change (2 ^ 2) with 4.
    pose proof M_pos. pose proof n_eq. pose proof (ygap_bound y Hy).
    assert (R0 : rep_shape v (M * 1) (p_trace n 0 (p_rot n (- (7 * M + y * gap)) self))).
    { intros x Hx. rewrite trace0, keep_n by auto. rewrite Z.mul_1_r.
      destruct (Z.eqb_spec x 0) as [->|Hne].
      - rewrite Z.mod_0_l by lia. destruct (Z.ltb_spec 0 M); [|lia]. change (0 =? 0) with true. cbn [andb].
        rewrite (p_rot_lo n) by lia. unfold v. f_equal; lia.
      - destruct (Z.eqb_spec (x mod M) 0) as [E|]; [|reflexivity].
        destruct (Z.ltb_spec x M); [|reflexivity]. rewrite Z.mod_small in E by lia. lia. }
    pose proof (rep_step v 1 _ ltac:(lia) ltac:(lia) R0) as R1. change (2 * 1) with 2 in R1.
    pose proof (rep_step v 2 _ ltac:(lia) ltac:(lia) R1) as R2. change (2 * 2) with 4 in R2.
    pose proof (rep_step v 4 _ ltac:(lia) ltac:(lia) R2) as R3. change (2 * 4) with 8 in R3.
    rewrite (R3 j Hj). destruct (Z.ltb_spec j (M * 8)); [|lia]. now rewrite andb_true_r.
  Qed.

  (* the splice loop over the bytes y0 .. y0 + k - 1, position by position *)
  Lemma sext_loop_at v sx k : (forall x, 0 <= x < n -> sx x = if x mod M =? 0 then v else 0) ->
    forall y0 s, 0 <= y0 -> y0 + Z.of_nat k <= P ->
    exists r,
      fold_left (fun (acc : option poly) i => match acc with Some s => splice_u8 T logn i 0 s sx | None => None end)
                (zseq y0 k) (Some s) = Some r /\
      forall i, 0 <= i < 8 * P ->
        r (cidx T logn i) = if (y0 <=? i / 8) && (i / 8 <? y0 + Z.of_nat k) then v else s (cidx T logn i).
  Proof.
    intros Hsx. induction k as [|k IH]; intros y0 s Hy0 Hk.
    - exists s; split; [reflexivity|]. intros i Hi.
      destruct (Z.leb_spec y0 (i / 8)); destruct (Z.ltb_spec (i / 8) (y0 + Z.of_nat 0)); try reflexivity; lia.
    - cbn [zseq fold_left]. pose proof P_pos. pose proof M_pos.
      destruct (splice_u8_at y0 0 s sx ltac:(lia) ltac:(lia)) as (r1 & -> & H1).
      destruct (IH (y0 + 1) r1 ltac:(lia) ltac:(lia)) as (r & Er & Hr).
      exists r; split; [exact Er|]. intros i Hi. rewrite Hr, H1 by exact Hi.
      destruct (digits_of 8 P i ltac:(lia) ltac:(lia)) as [_ Hk8].
      rewrite Hsx, cidx_kb, Z.mul_0_l, Z.add_0_r, Z.mod_mul by (try apply cidx_range; lia). cbn [Z.eqb].
      destruct (Z.eqb_spec (i / 8) y0); destruct (Z.leb_spec (y0 + 1) (i / 8));
        destruct (Z.ltb_spec (i / 8) (y0 + 1 + Z.of_nat k)); destruct (Z.leb_spec y0 (i / 8));
        destruct (Z.ltb_spec (i / 8) (y0 + Z.of_nat (S k))); cbn [andb]; try reflexivity; lia.
  Qed.

  (* sign extension from byte y, position by position: the bytes above y receive position 8y+7, the rest is unchanged *)
  Lemma sext_at y self : 0 <= y < P ->
    exists r, sext T logn y self = Some r /\
      forall i, 0 <= i < 8 * P ->
        r (cidx T logn i) = if y <? i / 8 then self (cidx T logn (8 * y + 7)) else self (cidx T logn i).
  Proof.
    intros Hy. unfold sext. cbn [T std_wty w_lb]. rewrite Z.shiftl_mul_pow2 by lia. rewrite Z.mul_1_l. fold P.
    destruct (Z.ltb_spec y P); [|lia].
    set (v := self (cidx T logn (8 * y + 7))).
    assert (Hsx : forall x, 0 <= x < n -> sext_fill T logn y self x = if x mod M =? 0 then v else 0).
    { intros x Hx. rewrite sext_fill_closed by auto. unfold v. now rewrite cidx_kb by lia. }
    destruct (sext_loop_at v _ (Z.to_nat (P - (y + 1))) Hsx (y + 1) self ltac:(lia) ltac:(lia)) as (r & Er & Hr).
    exists r; split; [exact Er|]. intros i Hi. rewrite Hr by exact Hi.
    destruct (digits_of 8 P i ltac:(lia) ltac:(lia)) as [Hq _].
    destruct (Z.leb_spec (y + 1) (i / 8)); destruct (Z.ltb_spec (i / 8) (y + 1 + Z.of_nat (Z.to_nat (P - (y + 1)))));
      destruct (Z.ltb_spec y (i / 8)); cbn [andb]; try reflexivity; lia.
  Qed.


  Lemma in_combine_zseq (cts : list poly) s ic : In ic (combine (zseq s (length cts)) cts) -> s <= fst ic < s + Z.of_nat (length cts).
  Proof. destruct ic as [i c]. intros H. apply in_combine_l in H. apply in_zseq in H. exact H. Qed.

  Lemma pack_fold_at d (cts : list poly) : forall s k acc, 0 <= s -> s + Z.of_nat (length cts) <= 8 * P -> (k < length cts)%nat ->
    fold_left (fun a (ic : Z * poly) => if cidx T logn (s + Z.of_nat k) =? cidx T logn (fst ic) then snd ic 0 else a)
              (combine (zseq s (length cts)) cts) acc = nth k cts d 0.
  Proof.
    induction cts as [|c tl IH]; intros s k acc Hs Hlen Hk; [cbn in Hk; lia|].
    cbn [length zseq combine fold_left fst snd]. cbn [length] in Hlen, Hk.
    destruct k as [|k].
    - rewrite Z.add_0_r, Z.eqb_refl. cbn [nth].
      apply (pack_fold_off T logn). intros ic Hic. apply in_combine_zseq in Hic. intros E.
      apply cidx_inj in E; rewrite ?bits_eq; lia.
    - cbn [nth]. replace (s + Z.of_nat (S k)) with (s + 1 + Z.of_nat k) by lia. apply IH; lia.
  Qed.

  Lemma pack_closed (cts : list poly) : length cts = nbits T ->
    exists q, pack T logn cts = Some q /\
      (forall k d, (k < nbits T)%nat -> q (cidx T logn (Z.of_nat k)) = nth k cts d 0) /\
      (forall j, (forall i, 0 <= i < 8 * P -> cidx T logn i <> j) -> q j = 0).
  Proof.
    intros Hlen. pose proof nbits_eq as Hnb.
    unfold pack. destruct cts as [|c0 tl] eqn:Ec.
    { cbn in Hlen. pose proof P_pos. lia. }
    rewrite <- Ec in *. clear Ec c0 tl. rewrite <- Hlen, firstn_all.
    eexists; split; [reflexivity|]. split.
    - intros k d Hk. cbv beta. rewrite cidx_eq, log_gap_eq. fold gap. rewrite Z.mod_mul by (pose proof gap_pos; lia).
      cbn [Z.eqb]. rewrite <- cidx_eq. replace (Z.of_nat k) with (0 + Z.of_nat k) by lia.
      apply pack_fold_at; lia.
    - intros j Hoff. cbv beta. destruct (j mod 2 ^ log_gap T logn =? 0); [|reflexivity].
      apply (pack_fold_off T logn). intros ic Hic. apply in_combine_zseq in Hic. apply Hoff. lia.
  Qed.

  (* packing one-bit ciphertexts gives the word of those bits, and get_bit finds each of them again *)
  Lemma pack_bits (bs : list bool) : length bs = nbits T ->
    exists q, pack T logn (map (fun b : bool => p_const (if b then 1 else 0)) bs) = Some q /\
      p_dec T logn q = word_of_bits (nbits T) (fun i => nth (Z.to_nat i) bs false) /\
      forall k j, (k < nbits T)%nat -> 0 <= j < n ->
        get_bit_glwe T logn (Z.of_nat k) q j = if j =? 0 then Z.b2z (nth k bs false) else 0.
  Proof.
    intros Hlen. pose proof nbits_eq as Hnb.
    destruct (pack_closed (map (fun b : bool => p_const (if b then 1 else 0)) bs) ltac:(now rewrite map_length)) as (q & Eq & Hat & Hoff).
    assert (Hv : forall k, (k < nbits T)%nat -> q (cidx T logn (Z.of_nat k)) = Z.b2z (nth k bs false)).
    { intros k Hk. rewrite (Hat k (p_const 0)) by auto.
      change (p_const 0) with ((fun b : bool => p_const (if b then 1 else 0)) false). rewrite map_nth.
      unfold p_const. destruct (nth k bs false); reflexivity. }
    exists q; split; [exact Eq|]. split.
    - unfold p_dec. apply wob_ext. intros i Hi. replace i with (Z.of_nat (Z.to_nat i)) at 1 by lia.
      rewrite Hv by lia. destruct (nth (Z.to_nat i) bs false); reflexivity.
    - intros k j Hk Hj. rewrite get_bit_glwe_lwe, get_bit_lwe_at, Hv by lia. reflexivity.
  Qed.
End Std.

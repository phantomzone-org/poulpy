(* C03 — key switching: phase theorems on the model Gadget.gadget_product / keyswitch_internal.
   C03_keyswitch_phase_lemma          product part: phase_out = sum_ci val(used limbs of a_ci) (x) s_in_ci + E + 2^P Iq, E explicit
   C03_keyswitch_internal_phase_lemma  + the body (add_small adds min(msize, a_size) limbs of column 0)
   phase_of_automorphism              sigma on every limb turns the phase under Sk into sigma(phase) under sigma(Sk)
   gadget_err_small                   for dsize <= 2 the truncation term vanishes: E = gadget_noise *)
From PV Require Import Base.MachineInt Model.Znx Model.Limbs Model.Flat Model.Ring Model.Poly Model.DftAbs Model.Gadget Model.GadgetSpec Proofs.C07Dft Proofs.C07Ring Proofs.GadgetDecomp Proofs.GadgetPhase.
Open Scope Z_scope.

(* C03 : GLWE key switching.
   The key-row hypothesis `key_row` is TAKEN AS A NAMED SECTION HYPOTHESIS: row r of the switching key, input column ci,
   is a GLWE under the target secret Sk whose phase is  2^(P-(r+1) dsize b) s_in_ci + e_{r,ci} + 2^P I_{r,ci}
   ("row r encrypts s_in 2^(-(r+1) dsize b) with error e_r"; that is what the key generation is specified to produce,
   not proved here). *)
Section C03.
Variables (P b : Z) (n rin cols_out msize a_size dsize dnum : nat).
Variable a : cols_t.                       (* the rin mask columns of the input (key radix) *)
Variable res0 : cols_t.                    (* prior content of the accumulator: irrelevant (gglwe_product_dft zeroes it) *)
Variable K : pmat.
Variable Sk : nat -> list Z.               (* target secret family, Sk 0 = 1 *)
Variables (s_in : nat -> list Z) (e I : nat -> nat -> list Z).
Hypothesis Ha : wf_cols n rin a_size a.
Hypothesis HK : wf_pmat_in n (dnum * rin) (msize * cols_out) K.
Hypothesis Hd : (1 <= dsize)%nat.
Hypothesis Hdrop : (dsize - 2 <= msize)%nat.
Hypothesis HS : forall co, length (Sk co) = n.
Hypothesis Hsin : forall ci, length (s_in ci) = n.
Hypothesis He : forall row ci, length (e row ci) = n.
Hypothesis HI : forall row ci, length (I row ci) = n.
Hypothesis Hb : 0 <= b.
Hypothesis HP : Z.of_nat msize * b <= P.
Hypothesis HP2 : Z.of_nat dnum * Z.of_nat dsize * b <= P.
Hypothesis key_row : key_rows_ok P b n rin cols_out msize dsize dnum K Sk s_in e I.

(* the product part of the key switch (gglwe_product_dft) *)
Theorem C03_keyswitch_phase_lemma :
  exists res, gadget_product n cols_out msize res0 a a_size dsize dnum msize true K = Some res /\
    wf_cols n cols_out msize res /\
    phase_f P b n cols_out msize (limbs_of res) Sk
    = padd (padd (psumf n (fun ci => pmul (pval_used P b n a_size dsize dnum (acol n a) ci) (s_in ci)) rin)
                 (gadget_err P b n rin cols_out msize dsize dnum (acol n a) K Sk e))
           (pscale (2 ^ P) (gadget_int b n rin cols_out msize dsize dnum (acol n a) K Sk I)).
Proof.
  destruct (gadget_product_spec n rin cols_out msize a_size dsize dnum true a K res0 Ha Hd Hdrop (or_introl eq_refl)) as [res [E1 [E2 E3]]].
  exists res. split; [exact E1|]. split; [exact E2|].
  rewrite (phase_f_ext P b n cols_out msize (limbs_of res)
             (gp_spec n rin cols_out msize a_size dsize dnum true (acol n a) K) Sk) by (intros; apply E3; assumption).
  apply gadget_phase_rows_in; try assumption.
  - apply (acol_length n rin a_size a Ha).
  - apply (acol_zero n rin a_size a Ha).
Qed.
End C03.

Section C03Internal.
Variables (P b : Z) (n rin cols_out msize a_size dsize dnum : nat).
Variable ct : cols_t.                      (* the input ciphertext: body :: rin mask columns (key radix) *)
Variable res0 : cols_t.                    (* prior content of the accumulator: irrelevant *)
Variable K : pmat.
Variable Sk : nat -> list Z.
Variables (s_in : nat -> list Z) (e I : nat -> nat -> list Z).
Hypothesis Hct : wf_cols n (S rin) a_size ct.
Hypothesis HK : wf_pmat_in n (dnum * rin) (msize * cols_out) K.
Hypothesis Hn : (1 <= n)%nat.
Hypothesis Hco : (1 <= cols_out)%nat.
Hypothesis Hd : (1 <= dsize)%nat.
Hypothesis Hdrop : (dsize - 2 <= msize)%nat.
Hypothesis HS : forall co, length (Sk co) = n.
Hypothesis HS0 : Sk 0%nat = pone n.
Hypothesis Hsin : forall ci, length (s_in ci) = n.
Hypothesis He : forall row ci, length (e row ci) = n.
Hypothesis HI : forall row ci, length (I row ci) = n.
Hypothesis Hb : 0 <= b.
Hypothesis HP : Z.of_nat msize * b <= P.
Hypothesis HP2 : Z.of_nat dnum * Z.of_nat dsize * b <= P.
Hypothesis key_row : key_rows_ok P b n rin cols_out msize dsize dnum K Sk s_in e I.

(* glwe_keyswitch_internal = product of the mask columns + the body (min(msize, a_size) limbs of it) *)
Theorem C03_keyswitch_internal_phase_lemma :
  exists ks, keyswitch_internal n cols_out msize res0 ct a_size dsize dnum msize K = Some ks /\
    wf_cols n cols_out msize ks /\
    phase_f P b n cols_out msize (limbs_of ks) Sk
    = padd (padd (padd (pval P b n (acol n ct 0) (Nat.min msize a_size))
                       (psumf n (fun ci => pmul (pval_used P b n a_size dsize dnum (acol n (tl ct)) ci) (s_in ci)) rin))
                 (gadget_err P b n rin cols_out msize dsize dnum (acol n (tl ct)) K Sk e))
           (pscale (2 ^ P) (gadget_int b n rin cols_out msize dsize dnum (acol n (tl ct)) K Sk I)).
Proof.
  destruct (C03_keyswitch_phase_lemma P b n rin cols_out msize a_size dsize dnum (tl ct) res0 K Sk s_in e I
              (wf_tl n rin a_size ct Hct) HK Hd Hdrop HS Hsin He HI Hb HP HP2 key_row) as [res [E1 [E2 E3]]].
  unfold keyswitch_internal. rewrite E1.
  destruct E2 as [Hl Hc]. destruct res as [|r0 rt]; [cbn in Hl; lia|].
  eexists; split; [reflexivity|].
  destruct (Hc 0%nat ltac:(lia)) as [Hr0 Hr0l]. change (col (r0 :: rt) 0) with r0 in Hr0, Hr0l.
  pose proof (acol_length n (S rin) a_size ct Hct) as LB.
  pose proof (acol_zero n (S rin) a_size ct Hct) as ZB.
  (* the new limbs: those of the product plus the body of the input on column 0 *)
  set (B := fun (co j : nat) => if Nat.eqb co 0 then acol n ct 0 j else pzero n).
  assert (LBf : forall co j, length (B co j) = n) by (intros [|co] j; unfold B; cbn [Nat.eqb]; plen).
  assert (Hlimb : forall co j, (co < cols_out)%nat -> (j < msize)%nat ->
            limbs_of (add_small r0 (col ct 0) :: rt) co j = padd (limbs_of (r0 :: rt) co j) (B co j)).
  { intros [|co] j Hco' Hj; unfold limbs_of, B; cbn [Nat.eqb].
    - apply (add_small_limb n msize); assumption.
    - symmetry. apply padd_pzero_r. apply (Hc (S co)); assumption. }
  split.
  - split; [exact Hl|]. intros co Hco'. split.
    + destruct co as [|co]; [unfold add_small; cbn [col nth]; rewrite mk_length; exact Hr0|apply (Hc (S co) Hco')].
    + intros j Hj. change (length (limbs_of (add_small r0 (col ct 0) :: rt) co j) = n).
      rewrite Hlimb by assumption. apply padd_len; [apply (Hc co Hco'); exact Hj|apply LBf].
  - rewrite (phase_f_ext P b n cols_out msize _ _ Sk Hlimb).
    rewrite phase_f_padd by (intros; try apply LBf; try apply HS; apply (Hc co); assumption).
    unfold B. rewrite E3, (phase_f_col0 P b n cols_out msize (acol n ct 0) Sk Hn Hco HS0 (LB 0%nat)).
    rewrite (pval_cut P b n (acol n ct 0) (Nat.min msize a_size) msize) by (try apply LB; try lia; intros; apply ZB; lia).
    rewrite padd_comm, <- !padd_assoc. reflexivity.
Qed.
End C03Internal.

(* lengths of the explicit error / integer terms *)
Section TermLengths.
Variables (P b : Z) (n cin cols_out msize dsize dnum : nat).
Variable A : nat -> nat -> list Z.
Variable K : pmat.
Variable Sk : nat -> list Z.
Variables (e I : nat -> nat -> list Z).
Hypothesis HA : forall ci l, length (A ci l) = n.
Hypothesis He : forall row ci, length (e row ci) = n.

Lemma gadget_noise_length : length (gadget_noise b n cin dsize dnum A e) = n.
Proof. unfold gadget_noise, digit. plen. Qed.
Lemma gadget_trunc_length : length (gadget_trunc P b n cin cols_out msize dsize dnum A K Sk) = n.
Proof. unfold gadget_trunc. plen. Qed.
Lemma gadget_err_length : length (gadget_err P b n cin cols_out msize dsize dnum A K Sk e) = n.
Proof. unfold gadget_err. apply psub_len; [apply gadget_noise_length|apply gadget_trunc_length]. Qed.
Lemma gadget_int_length : length (gadget_int b n cin cols_out msize dsize dnum A K Sk I) = n.
Proof. unfold gadget_int, gadget_int_rows, gadget_int_low. plen. Qed.
End TermLengths.
#[export] Hint Resolve gadget_noise_length gadget_err_length gadget_int_length : plen.

(* for dsize <= 2 no key limb is dropped: the truncation term vanishes and the error is the gadget noise alone *)
Section TruncSmall.
Variables (P b : Z) (n cin cols_out msize dsize dnum : nat).
Variable A : nat -> nat -> list Z.
Variable K : pmat.
Variable Sk : nat -> list Z.
Hypothesis HA : forall ci l, length (A ci l) = n.
Hypothesis HS : forall co, length (Sk co) = n.

Lemma khigh_zero q di : (dsize - di - 2 = 0)%nat -> khigh P b n cols_out msize dsize K Sk q di = pzero n.
Proof.
  intros H. unfold khigh, win_len, sz_r. rewrite H, Nat.sub_0_r.
  replace (msize - (di + Nat.min msize (msize - di)))%nat with 0%nat by lia.
  unfold kwin. apply psumf_zero. intros co _. rewrite psumf_0. rewrite <- (HS co). apply pmul_pzero_l.
Qed.

Lemma gadget_trunc_zero : (dsize <= 2)%nat -> gadget_trunc P b n cin cols_out msize dsize dnum A K Sk = pzero n.
Proof.
  intros H. unfold gadget_trunc. apply psumf_zero; intros di _. apply psumf_zero; intros row _. apply psumf_zero; intros ci _.
  rewrite khigh_zero by lia. rewrite pscale_pzero. rewrite <- (HA ci (row * dsize + (dsize - di - 1))%nat). apply pmul_pzero_r.
Qed.

Lemma gadget_err_small e : (forall row ci, length (e row ci) = n) -> (dsize <= 2)%nat ->
  gadget_err P b n cin cols_out msize dsize dnum A K Sk e = gadget_noise b n cin dsize dnum A e.
Proof.
  intros He H. unfold gadget_err. rewrite gadget_trunc_zero by exact H.
  assert (L : length (gadget_noise b n cin dsize dnum A e) = n) by (apply gadget_noise_length; assumption).
  pcoeff n. ring.
Qed.
End TruncSmall.

(* automorphism = key switch with a key whose rows encrypt s_in under Sk = sigma^-1(St), followed by sigma on every limb.
   The ring-homomorphism facts of sigma are NAMED SECTION HYPOTHESES (Proofs/GadgetSigma.v proves them for the exact sigmaE g);
   the theorem holds for any map sg with these properties. *)
Section C03Auto.
Variable n : nat.
Variable sg : list Z -> list Z.
Hypothesis sigma_length : forall a, length a = n -> length (sg a) = n.
Hypothesis sigma_padd : forall a b, length a = n -> length b = n -> sg (padd a b) = padd (sg a) (sg b).
Hypothesis sigma_pmul : forall a b, length a = n -> length b = n -> sg (pmul a b) = pmul (sg a) (sg b).
Hypothesis sigma_pscale : forall c a, length a = n -> sg (pscale c a) = pscale c (sg a).

Lemma sigma_pzero : sg (pzero n) = pzero n.
Proof.
  rewrite <- (pscale_pzero 0 n) at 1. rewrite sigma_pscale by apply pzero_length.
  rewrite pscale_0, sigma_length by apply pzero_length. reflexivity.
Qed.

Lemma sigma_psumf f m : (forall i, (i < m)%nat -> length (f i) = n) -> sg (psumf n f m) = psumf n (fun i => sg (f i)) m.
Proof.
  induction m as [|m IH]; intros H; [rewrite !psumf_0; apply sigma_pzero|].
  rewrite !psumf_S, sigma_padd, IH by (try apply psumf_length; auto with arith). reflexivity.
Qed.

Lemma phase_f_sigma P b cols size (R : nat -> nat -> list Z) (Sk : nat -> list Z) :
  (forall co j, (co < cols)%nat -> (j < size)%nat -> length (R co j) = n) -> (forall co, (co < cols)%nat -> length (Sk co) = n) ->
  phase_f P b n cols size (fun co j => sg (R co j)) (fun co => sg (Sk co)) = sg (phase_f P b n cols size R Sk).
Proof.
  intros HR HS. unfold phase_f.
  rewrite sigma_psumf by (intros; rewrite pmul_length; apply pval_length; auto).
  apply psumf_ext; intros co Hc.
  rewrite sigma_pmul by (try apply pval_length; auto). f_equal.
  unfold pval. rewrite sigma_psumf by (intros; rewrite pscale_length; auto).
  apply psumf_ext; intros j Hj. symmetry. apply sigma_pscale. auto.
Qed.

Lemma limbs_of_map ks cols size co j : wf_cols n cols size ks -> (co < cols)%nat -> (j < size)%nat ->
  limbs_of (map (map sg) ks) co j = sg (limbs_of ks co j).
Proof.
  intros [Hl Hc] Hco Hj. unfold limbs_of. rewrite col_map by lia.
  destruct (Hc co Hco) as [Hlen _]. unfold lim. apply nth_map'. lia.
Qed.

(* sigma applied to every limb of every column turns the phase under Sk into sigma(phase) under St = sigma(Sk) *)
Theorem phase_of_automorphism P b cols size ks (Sk St : nat -> list Z) :
  wf_cols n cols size ks -> (forall co, (co < cols)%nat -> length (Sk co) = n) -> (forall co, (co < cols)%nat -> St co = sg (Sk co)) ->
  phase_f P b n cols size (limbs_of (map (map sg) ks)) St = sg (phase_f P b n cols size (limbs_of ks) Sk).
Proof.
  intros Hw HS HSt. rewrite <- phase_f_sigma; [|intros; apply Hw; assumption|exact HS].
  unfold phase_f. apply psumf_ext; intros co Hc. rewrite HSt by exact Hc. f_equal.
  unfold pval. apply psumf_ext; intros j Hj. f_equal. apply (limbs_of_map ks cols size); assumption.
Qed.
End C03Auto.

(* link to the executable spec-level values of Model/Gadget.v : poly_val = pval, phase_val = phase_f under sk_ext *)
Section ValueLink.
Variables (P b : Z) (n : nat).

Let step := fun (s : list Z * Z) (l : list Z) => (padd (fst s) (pscale (2 ^ (P - (snd s + 1) * b)) l), snd s + 1).

Lemma poly_fold_snd l a k : snd (fold_left step l (a, k)) = k + Z.of_nat (length l).
Proof.
  revert a k; induction l as [|x l IH]; intros a k; cbn [fold_left length]; [cbn [snd]; lia|].
  unfold step at 2. cbn [fst snd]. rewrite IH. lia.
Qed.

Lemma poly_val_app l x :
  poly_val P b n (l ++ [x]) = padd (poly_val P b n l) (pscale (2 ^ (P - (Z.of_nat (length l) + 1) * b)) x).
Proof.
  unfold poly_val. fold step. rewrite fold_left_app. cbn [fold_left]. unfold step at 1. cbn [fst].
  pose proof (poly_fold_snd l (pzero n) 0) as E. rewrite Z.add_0_l in E. rewrite E. reflexivity.
Qed.

Theorem poly_val_pval (l : plimbs) : poly_val P b n l = pval P b n (lim l) (length l).
Proof.
  induction l as [|x l IH] using rev_ind; [reflexivity|].
  rewrite poly_val_app, IH, app_length. cbn [length]. rewrite Nat.add_1_r. unfold pval. rewrite psumf_S.
  f_equal.
  - apply psumf_ext; intros j Hj. f_equal. unfold lim. symmetry. apply app_nth1; exact Hj.
  - f_equal. unfold lim. rewrite app_nth2 by lia. rewrite Nat.sub_diag. reflexivity.
Qed.

Lemma fold_left_map' {X Y Z'} (f : X -> Y -> X) (g : Z' -> Y) l a : fold_left f (map g l) a = fold_left (fun x z => f x (g z)) l a.
Proof. revert a; induction l as [|h l IH]; intros a; cbn [map fold_left]; [reflexivity|apply IH]. Qed.

Lemma fold_combine_seq (F : plimbs -> list Z -> list Z) (l1 : list plimbs) (l2 : list (list Z)) d2 init :
  length l1 = length l2 ->
  fold_left (fun acc p => padd acc (F (fst p) (snd p))) (combine l1 l2) init
  = fold_left (fun acc i => padd acc (F (nth i l1 []) (nth i l2 d2))) (seq 0 (length l2)) init.
Proof.
  revert l2 init; induction l1 as [|x l1 IH]; intros [|y l2] init H; cbn [length] in H; try lia; [reflexivity|].
  cbn [combine fold_left length seq fst snd nth]. rewrite IH by lia.
  rewrite <- seq_shift, fold_left_map'. reflexivity.
Qed.

Lemma fold_padd_psumf (G : nat -> list Z) m init : length init = n -> (forall i, (i < m)%nat -> length (G i) = n) ->
  fold_left (fun acc i => padd acc (G i)) (seq 0 m) init = padd init (psumf n G m).
Proof.
  intros Hi HG. induction m as [|m IH]; [rewrite psumf_0, padd_pzero_r by exact Hi; reflexivity|].
  rewrite seq_S, fold_left_app, IH by auto with arith. cbn [fold_left Nat.add]. rewrite psumf_S. apply padd_assoc.
Qed.

(* Gadget.phase_val is phase_f under the secret family (1, s_0, s_1, ...) *)
Theorem phase_val_phase_f (sk : list (list Z)) (ct : cols_t) size :
  (1 <= n)%nat -> wf_cols n (S (length sk)) size ct -> (forall i, (i < length sk)%nat -> length (nth i sk (pzero n)) = n) ->
  phase_val P b n sk ct = phase_f P b n (S (length sk)) size (limbs_of ct) (sk_ext n sk).
Proof.
  intros Hn [Hl Hc] Hsk. unfold phase_val, phase_f.
  assert (Hcol : forall co, (co < S (length sk))%nat -> poly_val P b n (col ct co) = pval P b n (limbs_of ct co) size).
  { intros co Hco. rewrite poly_val_pval. destruct (Hc co Hco) as [-> _]. reflexivity. }
  assert (Lcol : forall co, (co < S (length sk))%nat -> length (pval P b n (limbs_of ct co) size) = n).
  { intros co Hco. apply pval_length. intros j Hj. apply (Hc co Hco); exact Hj. }
  assert (Htl : length (tl ct) = length sk) by (destruct ct; cbn [length tl] in *; lia).
  rewrite (fold_combine_seq (fun c s => pmul (poly_val P b n c) s) (tl ct) sk (pzero n)) by exact Htl.
  rewrite (fold_padd_psumf (fun i => pmul (poly_val P b n (nth i (tl ct) [])) (nth i sk (pzero n)))).
  - rewrite psumf_shift.
    + f_equal.
      * cbn [sk_ext]. change (pone_n n) with (pone n). rewrite pmul_pone_r by (try apply Lcol; lia). apply Hcol; lia.
      * apply psumf_ext; intros i Hi. cbn [sk_ext]. f_equal.
        replace (nth i (tl ct) []) with (col ct (S i)) by (destruct ct; [destruct i|]; reflexivity). apply Hcol; lia.
    + intros co Hco. rewrite pmul_length. apply Lcol; exact Hco.
  - rewrite Hcol by lia. apply Lcol; lia.
  - intros i Hi. rewrite pmul_length.
    replace (nth i (tl ct) []) with (col ct (S i)) by (destruct ct; [destruct i|]; reflexivity). rewrite Hcol by lia. apply Lcol; lia.
Qed.
End ValueLink.

Section SkExt.
Lemma sk_ext_length n sk : (1 <= n)%nat -> (forall s, In s sk -> length s = n) -> forall co, length (sk_ext n sk co) = n.
Proof.
  intros Hn H [|i]; cbn [sk_ext]; [apply (pone_length n Hn)|].
  destruct (Nat.lt_ge_cases i (length sk)) as [G|G]; [apply H, nth_In, G|].
  rewrite nth_overflow by exact G. apply pzero_length.
Qed.
End SkExt.

(* glwe_keyswitch_internal stated with Gadget.phase_val : output secret sk_out (rank_out polynomials), Sk = (1, sk_out) *)
Section C03PhaseVal.
Variables (P b : Z) (n rin msize a_size dsize dnum : nat).
Variable ct : cols_t.
Variable res0 : cols_t.
Variable K : pmat.
Variable sk_out : list (list Z).
Variables (s_in : nat -> list Z) (e I : nat -> nat -> list Z).
Let cols_out := S (length sk_out).
Let Sk := sk_ext n sk_out.
Hypothesis Hct : wf_cols n (S rin) a_size ct.
Hypothesis HK : wf_pmat_in n (dnum * rin) (msize * cols_out) K.
Hypothesis Hn : (1 <= n)%nat.
Hypothesis Hd : (1 <= dsize)%nat.
Hypothesis Hdrop : (dsize - 2 <= msize)%nat.
Hypothesis Hsk : forall s, In s sk_out -> length s = n.
Hypothesis Hsin : forall ci, length (s_in ci) = n.
Hypothesis He : forall row ci, length (e row ci) = n.
Hypothesis HI : forall row ci, length (I row ci) = n.
Hypothesis Hb : 0 <= b.
Hypothesis HP : Z.of_nat msize * b <= P.
Hypothesis HP2 : Z.of_nat dnum * Z.of_nat dsize * b <= P.
Hypothesis key_row : key_rows_ok P b n rin cols_out msize dsize dnum K Sk s_in e I.

Theorem C03_keyswitch_internal_phase_val_lemma :
  exists ks, keyswitch_internal n cols_out msize res0 ct a_size dsize dnum msize K = Some ks /\
    phase_val P b n sk_out ks
    = padd (padd (padd (pval P b n (acol n ct 0) (Nat.min msize a_size))
                       (psumf n (fun ci => pmul (pval_used P b n a_size dsize dnum (acol n (tl ct)) ci) (s_in ci)) rin))
                 (gadget_err P b n rin cols_out msize dsize dnum (acol n (tl ct)) K Sk e))
           (pscale (2 ^ P) (gadget_int b n rin cols_out msize dsize dnum (acol n (tl ct)) K Sk I)).
Proof.
  pose proof (sk_ext_length n sk_out Hn Hsk) as HS.
  destruct (C03_keyswitch_internal_phase_lemma P b n rin cols_out msize a_size dsize dnum ct res0 K Sk s_in e I
              Hct HK Hn ltac:(unfold cols_out; lia) Hd Hdrop HS eq_refl Hsin He HI Hb HP HP2 key_row) as [ks [E1 [E2 E3]]].
  exists ks. split; [exact E1|].
  rewrite (phase_val_phase_f P b n sk_out ks msize Hn E2) by (intros; apply Hsk, nth_In; assumption).
  exact E3.
Qed.
End C03PhaseVal.

(* the hypotheses of the C03 phase theorems are satisfiable: a concrete small instance (stated as Examples in Props/C03.v) *)
(* a concrete small key switch: n = 2, rank_in = 1, rank_out = 1, a_size = 2, dsize = 2, dnum = 1, msize = 2, b = 4, P = 8;
   s_in = X, s_out = 1 + X; the key row encrypts s_in 2^(-2b) without noise in limb 1 of its body column *)
Definition ex3_ct : cols_t := [[[1; 2]; [3; 4]]; [[5; 6]; [7; 8]]].
Definition ex3_sk : list (list Z) := [[1; 1]].
Definition ex3_sin : nat -> list Z := fun _ => [0; 1].
Definition ex3_K : pmat := fun q c => if Nat.eqb q 0 && Nat.eqb c 2 then [0; 1] else pzero 2.
Definition ex3_zero : nat -> nat -> list Z := fun _ _ => pzero 2.

Lemma C03_hypotheses_satisfiable_lemma :
  wf_cols 2 2 2 ex3_ct /\ wf_pmat_in 2 (1 * 1) (2 * 2) ex3_K /\ (1 <= 2)%nat /\ (1 <= 2)%nat /\ (1 <= 2)%nat /\ (2 - 2 <= 2)%nat /\
  (forall co, length (sk_ext 2 ex3_sk co) = 2%nat) /\ sk_ext 2 ex3_sk 0 = pone 2 /\
  (forall ci, length (ex3_sin ci) = 2%nat) /\ (forall row ci, length (ex3_zero row ci) = 2%nat) /\
  0 <= 4 /\ Z.of_nat 2 * 4 <= 8 /\ Z.of_nat 1 * Z.of_nat 2 * 4 <= 8 /\
  key_rows_ok 8 4 2 1 2 2 2 1 ex3_K (sk_ext 2 ex3_sk) ex3_sin ex3_zero ex3_zero.
Proof.
  repeat match goal with |- _ /\ _ => split end; try lia; try reflexivity.
  - split; [reflexivity|]. intros ci H. destruct ci as [|[|ci]]; [| |lia]; (split; [reflexivity|]); intros l Hl; destruct l as [|[|l]]; try lia; reflexivity.
  - intros q c Hq Hc. unfold ex3_K. destruct (_ && _); reflexivity.
  - intros co. destruct co as [|[|co]]; try reflexivity. cbn. destruct co; reflexivity.
  - intros row ci Hrow Hci. destruct row as [|row]; [|lia]. destruct ci as [|ci]; [|lia]. vm_compute. reflexivity.
Qed.

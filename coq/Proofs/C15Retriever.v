(* C15 — the streaming GLWEBlindRetriever: after retrieve(data, selector, offset) the result is the element at index
   (k >> offset) mod 2^L (L = number of accumulators), for every number of inputs 1 <= len <= 2^L.
   Invariant: the accumulators are a binary counter of the blocks of inputs seen so far; the accumulator of level l holds,
   when its counter bit is set, a value that is right for every index inside its block (the last block may be partial
   during flush).  Then histories: one retriever object (state machine of Model/C15Uint.v) through any list of complete
   rounds returns each round's own input and is clean again after each. *)
From Coq Require Import ZArith List Bool Lia.
From PV Require Import Gen.C15_gen Model.C15Uint Proofs.C15Layout Proofs.C15Blind.
Import ListNotations.
Open Scope Z_scope.

Lemma pow2_next lvl : 0 <= lvl -> 2 ^ (lvl + 1) = 2 * 2 ^ lvl.
Proof. intros Hl. rewrite Z.add_1_r. apply Z.pow_succ_r, Hl. Qed.

(* the successor of an even / odd count: quotient and remainder by 2 *)
Lemma half_even c : c mod 2 = 0 -> (c + 1) / 2 = c / 2 /\ c = 2 * (c / 2) /\ (c + 1) mod 2 = 1.
Proof.
  intros H. pose proof (Z.div_mod c 2 ltac:(lia)).
  destruct (div_mod_small (c + 1) 2 (c / 2) 1 ltac:(lia) ltac:(lia) ltac:(lia)) as [E1 E2]. repeat split; assumption || lia.
Qed.
Lemma half_odd c : c mod 2 = 1 -> (c + 1) / 2 = c / 2 + 1 /\ c = 2 * (c / 2) + 1 /\ (c + 1) mod 2 = 0.
Proof.
  intros H. pose proof (Z.div_mod c 2 ltac:(lia)).
  destruct (div_mod_small (c + 1) 2 (c / 2 + 1) 0 ltac:(lia) ltac:(lia) ltac:(lia)) as [E1 E2]. repeat split; assumption || lia.
Qed.

(* c blocks of size P cover N inputs, the last one partly *)
Lemma blocks_pos c P N : 0 < P -> 0 < N <= c * P -> 1 <= c.
Proof. intros HP HN. nia. Qed.
Lemma blocks_even c P N : c mod 2 = 0 -> 0 < P -> (c - 1) * P < N <= c * P -> (c / 2 - 1) * (2 * P) < N <= c / 2 * (2 * P).
Proof. intros H HP HN. destruct (half_even c H) as (_ & E & _). nia. Qed.

(* two blocks of level lvl around an odd count are one block of level lvl + 1 *)
Lemma blocks_odd c lvl : 0 <= lvl -> c mod 2 = 1 ->
  (c - 1) * 2 ^ lvl = c / 2 * 2 ^ (lvl + 1) /\ (c + 1) * 2 ^ lvl = (c / 2 + 1) * 2 ^ (lvl + 1).
Proof.
  intros Hl H. destruct (half_odd c H) as (_ & E & _). rewrite pow2_next by exact Hl.
  split; rewrite E at 1; ring.
Qed.

Lemma skipn_app_cons {A} (pre : list A) y t : skipn (S (length pre)) (pre ++ y :: t) = t.
Proof. induction pre; cbn; auto. Qed.
Lemma firstn_app_len {A} (pre t : list A) : firstn (length pre) (pre ++ t) = pre.
Proof. induction pre; cbn; f_equal; auto. Qed.

Section Retr.
  Variable nb : nat.                      (* number of selector bits (T::BITS) *)
  Variables (kw off L : Z) (data : list Z).
  Hypothesis Hoff : 0 <= off.
  Hypothesis HL : 1 <= L.
  Hypothesis HoffL : off + L <= Z.of_nat nb.
  Let idx := (kw / 2 ^ off) mod 2 ^ L.
  Let N := Z.of_nat (length data).
  Hypothesis Hidx : idx < N.
  Hypothesis HN : N <= 2 ^ L.
  Let kb := bits_of nb kw.

  Lemma idx_nonneg : 0 <= idx. Proof. unfold idx. apply Z.mod_pos_bound. apply pow2_pos'. lia. Qed.

  (* d is the right answer whenever the index falls in [base, hi) *)
  Definition Good (base hi d : Z) : Prop := base <= idx < hi -> d = lget data idx.

  (* c blocks of size 2^lvl have arrived at this level: the counter bit is c mod 2; when it is set the value is good for
     block c - 1; the last accumulator may hold two blocks (c = 2), then it is good for everything seen so far *)
  Fixpoint PInv (lvl c : Z) (acc : accs) : Prop :=
    match acc with
    | [] => True
    | (d, num) :: next =>
      num = c mod 2 /\
      (c mod 2 = 1 -> Good ((c - 1) * 2 ^ lvl) (Z.min N (c * 2 ^ lvl)) d) /\
      (next = [] -> c = 2 -> Good 0 (Z.min N (2 ^ (lvl + 1))) d) /\
      PInv (lvl + 1) (c / 2) next
    end.

  Lemma bit_of_idx lvl : 0 <= lvl < L -> kbit kb (lvl + off) = Some (Z.testbit idx lvl).
  Proof.
    intros Hl. unfold kb. rewrite kbit_bits_of by lia. f_equal.
    unfold idx. rewrite Z.mod_pow2_bits_low by lia. rewrite Z.div_pow2_bits by lia. reflexivity.
  Qed.

  Lemma idx_bit lvl q : 0 <= lvl -> q * 2 ^ lvl <= idx < (q + 1) * 2 ^ lvl -> Z.b2z (Z.testbit idx lvl) = q mod 2.
  Proof.
    intros Hl Hq. rewrite Z.testbit_spec' by lia. pose proof (pow2_pos' lvl Hl).
    destruct (div_mod_small idx (2 ^ lvl) q (idx - q * 2 ^ lvl) ltac:(lia) ltac:(lia) ltac:(ring)) as [-> _]. reflexivity.
  Qed.

  (* merging the stored block (c-1) with the incoming block c of the same level, c odd *)
  Lemma sel_good lvl c a d : 0 <= lvl -> 0 <= c -> c mod 2 = 1 -> c * 2 ^ lvl < N ->
    Good ((c - 1) * 2 ^ lvl) (Z.min N (c * 2 ^ lvl)) d -> Good (c * 2 ^ lvl) (Z.min N ((c + 1) * 2 ^ lvl)) a ->
    Good ((c - 1) * 2 ^ lvl) (Z.min N ((c + 1) * 2 ^ lvl)) (if Z.testbit idx lvl then a else d).
  Proof.
    intros Hl Hc Hodd HcN Gd Ga Hr. pose proof (pow2_pos' lvl Hl) as HP. destruct (half_odd c Hodd) as (_ & Ec & _).
    destruct (Z_lt_le_dec idx (c * 2 ^ lvl)).
    - pose proof (idx_bit lvl (c - 1) Hl ltac:(lia)) as Hb.
      replace ((c - 1) mod 2) with 0 in Hb by (rewrite Ec at 1; replace (2 * (c / 2) + 1 - 1) with ((c / 2) * 2) by ring; now rewrite Z.mod_mul).
      destruct (Z.testbit idx lvl); [discriminate|]. apply Gd. lia.
    - pose proof (idx_bit lvl c Hl ltac:(lia)) as Hb. rewrite Hodd in Hb.
      destruct (Z.testbit idx lvl); [|discriminate]. apply Ga. lia.
  Qed.

  Lemma PAdd acc : forall lvl c a, PInv lvl c acc -> acc <> [] -> 0 <= lvl -> lvl + Z.of_nat (length acc) <= L ->
    0 <= c < 2 ^ Z.of_nat (length acc) -> c * 2 ^ lvl < N -> Good (c * 2 ^ lvl) (Z.min N ((c + 1) * 2 ^ lvl)) a ->
    exists acc', add_core kb off lvl a acc = Some acc' /\ length acc' = length acc /\ PInv lvl (c + 1) acc'.
  Proof.
    induction acc as [|[d num] next IH]; intros lvl c a HI Hne Hl HlL Hc HcN Ga; [contradiction|].
    cbn [PInv] in HI. destruct HI as (Hnum & Hd & Htop & Hnext). cbn [add_core length] in *.
    pose proof (Z.mod_pos_bound c 2 ltac:(lia)) as Hm. pose proof (pow2_pos' lvl Hl) as HP.
    pose proof (pow2_next lvl Hl) as Epow.
    destruct (Z.eqb_spec num 0) as [E0|E0].
    - (* even: the incoming block is stored *)
      assert (Hev : c mod 2 = 0) by lia. destruct (half_even c Hev) as (E1 & E2 & Hs).
      eexists; split; [reflexivity|]. split; [reflexivity|]. cbn [PInv].
      rewrite Hs, E1. split; [reflexivity|]. split; [intros _; replace (c + 1 - 1) with c by lia; exact Ga|]. split; [|exact Hnext].
      intros _ Hc2. lia.
    - (* odd: merge and carry *)
      assert (Hodd : c mod 2 = 1) by lia. destruct (half_odd c Hodd) as (E1 & E2 & Hs).
      rewrite bit_of_idx by lia.
      pose proof (sel_good lvl c a d Hl ltac:(lia) Hodd HcN (Hd Hodd) Ga) as Gm.
      set (d' := if Z.testbit idx lvl then a else d) in *.
      destruct (blocks_odd c lvl Hl Hodd) as [Ebase Ehi].
      destruct next as [|x next'].
      + eexists; split; [reflexivity|]. split; [reflexivity|]. cbn [PInv]. rewrite Hs.
        split; [reflexivity|]. split; [intros; lia|]. split; [|exact I].
        intros _ Hc2. assert (c = 1) by lia. subst c. rewrite Epow. replace ((1 - 1) * 2 ^ lvl) with 0 in Gm by ring.
        replace ((1 + 1) * 2 ^ lvl) with (2 * 2 ^ lvl) in Gm by ring. exact Gm.
      + set (nx := x :: next') in *. cbn [length] in HlL, Hc.
        assert (Hlen : Z.of_nat (S (length nx)) = Z.of_nat (length nx) + 1) by lia.
        rewrite Hlen, Z.pow_add_r in Hc by lia. change (2 ^ 1) with 2 in Hc.
        destruct (IH (lvl + 1) (c / 2) d' Hnext ltac:(discriminate) ltac:(lia) ltac:(lia) ltac:(lia)) as (nx' & Ea & Hl' & HI').
        { rewrite <- Ebase. lia. }
        { rewrite <- Ebase, <- Ehi. exact Gm. }
        fold nx. rewrite Ea. eexists; split; [reflexivity|]. split; [cbn [length]; lia|]. cbn [PInv]. rewrite Hs, E1.
        split; [reflexivity|]. split; [intros; lia|]. split; [|exact HI'].
        intros En. destruct nx'; [cbn in Hl'; discriminate | discriminate].
  Qed.

  Lemma PInv_clean acc : forall lvl, Forall (fun dn : Z * Z => snd dn = 0) acc -> PInv lvl 0 acc.
  Proof.
    induction acc as [|[d num] next IH]; intros lvl Hc; cbn [PInv]; [exact I|].
    inversion Hc as [|? ? H1 H2]; subst. cbn [snd] in H1. rewrite Z.mod_0_l by lia.
    split; [exact H1|]. split; [intros; lia|]. split; [intros; lia|]. change (0 / 2) with 0. apply IH; exact H2.
  Qed.

  (* the flush loop on the suffix of levels >= |pre| *)
  Lemma flush_ok n : forall suf pre lvl c, length suf = S n -> PInv lvl c suf -> lvl = Z.of_nat (length pre) ->
    lvl + Z.of_nat (length suf) <= L -> (c - 1) * 2 ^ lvl < N <= c * 2 ^ lvl -> c <= 2 ^ Z.of_nat (length suf) ->
    exists acc', fold_left (flush_step kb off) (seq (length pre) (length suf - 1)) (Some (pre ++ suf)) = Some acc' /\
                 Good 0 N (fst (last acc' (0, 0))) /\ length acc' = (length pre + length suf)%nat.
  Proof using Hoff HL HoffL Hidx HN.
    induction n as [|n IH]; intros suf pre lvl c Hlen HI Hlvl HlL HSC Hcb.
    (* both cases start alike: the first accumulator of the suffix, and what the invariant says of it *)
    all: destruct suf as [|[d num] next]; try discriminate.
    all: cbn [length] in Hlen; injection Hlen as Hlen.
    all: cbn [PInv] in HI; destruct HI as (Hnum & Hd & Htop & Hnext).
    all: assert (Hl : 0 <= lvl) by lia; pose proof (pow2_pos' lvl Hl) as HP; pose proof (pow2_next lvl Hl) as Epow.
    all: pose proof idx_nonneg as Hi0; assert (Hc1 : 1 <= c) by (apply (blocks_pos c (2 ^ lvl) N); lia).
    all: pose proof (Z.mod_pos_bound c 2 ltac:(lia)) as Hm.
    - (* the top accumulator *)
      destruct next; [|discriminate]. cbn [length seq fold_left]. replace (1 - 1)%nat with 0%nat by lia. cbn [seq fold_left].
      eexists; split; [reflexivity|]. split; [|apply app_length]. rewrite last_last. cbn [fst]. cbn [length] in Hcb.
      change (2 ^ Z.of_nat 1) with 2 in Hcb. intros Hr. assert (c = 1 \/ c = 2) as [->| ->] by lia.
      + apply (Hd eq_refl). replace ((1 - 1) * 2 ^ lvl) with 0 by ring. lia.
      + apply (Htop eq_refl eq_refl). rewrite Epow. lia.
    - set (nx := next) in *.
      replace (length ((d, num) :: nx) - 1)%nat with (S (length nx - 1)) by (cbn [length]; lia).
      cbn [seq fold_left]. unfold flush_step at 2.
      rewrite nth_error_app2 by lia. replace (length pre - length pre)%nat with 0%nat by lia. cbn [nth_error].
      cbn [length] in HlL, Hcb.
      assert (Hlenz : Z.of_nat (S (length nx)) = Z.of_nat (length nx) + 1) by lia.
      rewrite Hlenz, Z.pow_add_r in Hcb by lia. change (2 ^ 1) with 2 in Hcb.
      assert (Happ : forall y t, pre ++ y :: t = (pre ++ [y]) ++ t) by (intros; now rewrite <- app_assoc).
      destruct (Z.eqb_spec num 0) as [E0|E0].
      + assert (Hev : c mod 2 = 0) by lia. destruct (half_even c Hev) as (_ & E2 & _).
        rewrite Happ. replace (S (length pre)) with (length (pre ++ [(d, num)])) by (rewrite app_length; cbn; lia).
        destruct (IH nx (pre ++ [(d, num)]) (lvl + 1) (c / 2) Hlen Hnext) as (acc' & Ef & Hg & Hl'').
        * rewrite app_length. cbn [length]. lia.
        * lia.
        * rewrite Epow. apply blocks_even; assumption.
        * lia.
        * exists acc'. split; [exact Ef|]. split; [exact Hg|]. rewrite Hl'', app_length. cbn [length]. lia.
      + assert (Hodd : c mod 2 = 1) by lia. destruct (half_odd c Hodd) as (E1 & E2 & _).
        pose proof (skipn_app_cons pre (d, num) nx) as Esk. pose proof (firstn_app_len pre ((d, num) :: nx)) as Efi.
        rewrite Esk, Efi.
        destruct (blocks_odd c lvl Hl Hodd) as [Ebase Ehi].
        assert (Hnx : nx <> []) by (destruct nx; [discriminate | discriminate]).
        destruct (PAdd nx (lvl + 1) (c / 2) d Hnext Hnx ltac:(lia) ltac:(lia) ltac:(lia)) as (nx' & Ea & Hl' & HI').
        { rewrite <- Ebase. lia. }
        { rewrite <- Ebase, <- Ehi. intros Hr. apply (Hd Hodd). lia. }
        replace (Z.of_nat (length pre) + 1) with (lvl + 1) by lia. rewrite Ea.
        rewrite Happ. replace (S (length pre)) with (length (pre ++ [(d, 0)])) by (rewrite app_length; cbn; lia).
        rewrite <- Hl'.
        destruct (IH nx' (pre ++ [(d, 0)]) (lvl + 1) (c / 2 + 1) ltac:(lia) HI') as (acc' & Ef & Hg & Hl'').
        * rewrite app_length. cbn [length]. lia.
        * lia.
        * replace (c / 2 + 1 - 1) with (c / 2) by lia. rewrite <- Ebase, <- Ehi. lia.
        * rewrite Hl'. lia.
        * exists acc'. split; [exact Ef|]. split; [exact Hg|]. rewrite Hl'', app_length. cbn [length]. lia.
  Qed.

  (* the accumulation of the inputs one by one *)
  Definition rstep (st : option (accs * Z)) (a : Z) : option (accs * Z) :=
    match st with
    | None => None
    | Some (acc, cnt) =>
      if cnt <? 2 ^ Z.of_nat (length acc) then
        match add_core kb off 0 a acc with Some acc' => Some (acc', cnt + 1) | None => None end
      else None
    end.

  Lemma adds_ok l : forall done acc, data = done ++ l -> PInv 0 (Z.of_nat (length done)) acc -> Z.of_nat (length acc) = L ->
    exists acc', fold_left rstep l (Some (acc, Z.of_nat (length done))) = Some (acc', N) /\ PInv 0 N acc' /\ Z.of_nat (length acc') = L.
  Proof using Hoff HL HoffL HN.
    induction l as [|a l IH]; intros done acc Hd HI Hlen.
    - rewrite app_nil_r in Hd. subst done. exists acc. fold N. auto.
    - assert (HcN : Z.of_nat (length done) < N) by (unfold N; rewrite Hd, app_length; cbn [length]; lia).
      cbn [fold_left rstep]. rewrite Hlen. destruct (Z.ltb_spec (Z.of_nat (length done)) (2 ^ L)); [|lia].
      assert (G1 : acc <> []) by (destruct acc; [cbn in Hlen; lia | discriminate]).
      assert (G2 : 0 <= Z.of_nat (length done) < 2 ^ Z.of_nat (length acc)) by (rewrite Hlen; lia).
      assert (G3 : Z.of_nat (length done) * 2 ^ 0 < N) by (change (2 ^ 0) with 1; lia).
      assert (G4 : Good (Z.of_nat (length done) * 2 ^ 0) (Z.min N ((Z.of_nat (length done) + 1) * 2 ^ 0)) a).
      { change (2 ^ 0) with 1. intros Hr. assert (E : idx = Z.of_nat (length done)) by lia.
        rewrite E. unfold lget. rewrite Nat2Z.id, Hd, app_nth2, Nat.sub_diag by lia. reflexivity. }
      destruct (PAdd acc 0 (Z.of_nat (length done)) a HI G1 ltac:(lia) ltac:(lia) G2 G3 G4) as (acc' & Ea & Hl' & HI').
      rewrite Ea. replace (Z.of_nat (length done) + 1) with (Z.of_nat (length (done ++ [a]))) by (rewrite app_length; cbn [length]; lia).
      apply IH; [rewrite <- app_assoc; exact Hd | | lia].
      replace (Z.of_nat (length (done ++ [a]))) with (Z.of_nat (length done) + 1) by (rewrite app_length; cbn [length]; lia). exact HI'.
  Qed.
End Retr.

Definition r_clean (L : Z) (st : rstate) : Prop :=
  r_cnt st = 0 /\ Forall (fun dn : Z * Z => snd dn = 0) (r_acc st) /\ Z.of_nat (length (r_acc st)) = L.

Lemma reset_clean L st : Z.of_nat (length (r_acc st)) = L -> r_clean L (r_reset st).
Proof.
  intros H. unfold r_clean, r_reset. cbn [r_cnt r_acc]. split; [reflexivity|]. split; [|now rewrite map_length].
  apply Forall_forall. intros x Hx. apply in_map_iff in Hx as (y & <- & _). reflexivity.
Qed.

Lemma alloc_clean size : r_clean (retr_nacc size) (r_alloc size).
Proof.
  unfold r_clean, r_alloc. cbn [r_cnt r_acc]. split; [reflexivity|]. split.
  - apply Forall_forall. intros x Hx. apply repeat_spec in Hx. subst. reflexivity.
  - rewrite repeat_length. unfold retr_nacc. lia.
Qed.

Lemma r_adds_rstep nb kw off l : forall acc c,
  r_adds (bits_of nb kw) off l (mkR acc c) =
  option_map (fun p : accs * Z => mkR (fst p) (snd p)) (fold_left (rstep nb kw off) l (Some (acc, c))).
Proof.
  unfold r_adds. induction l as [|a l IH]; intros acc c; [reflexivity|].
  cbn [fold_left rstep r_add r_acc r_cnt]. unfold r_add. cbn [r_acc r_cnt].
  destruct (c <? 2 ^ Z.of_nat (length acc)).
  - destruct (add_core (bits_of nb kw) off 0 a acc) as [acc'|]; [apply IH|].
    clear. induction l; cbn; auto.
  - clear. induction l; cbn; auto.
Qed.

(* all inputs added to clean accumulators, then flushed: the addressed input ends in the last accumulator *)
Lemma clean_round nb kw off L data (acc : accs) :
  0 <= off -> 1 <= L -> off + L <= Z.of_nat nb -> Z.of_nat (length data) <= 2 ^ L ->
  (kw / 2 ^ off) mod 2 ^ L < Z.of_nat (length data) ->
  Forall (fun dn : Z * Z => snd dn = 0) acc -> Z.of_nat (length acc) = L ->
  exists acc1 acc',
    fold_left (rstep nb kw off) data (Some (acc, 0)) = Some (acc1, Z.of_nat (length data)) /\ acc1 <> [] /\
    flush_loop (bits_of nb kw) off acc1 = Some acc' /\ length acc' = length acc /\
    fst (last acc' (0, 0)) = lget data ((kw / 2 ^ off) mod 2 ^ L).
Proof.
  intros Ho HL HoL HN Hidx Hz Hlen.
  pose proof (Z.mod_pos_bound (kw / 2 ^ off) (2 ^ L) (pow2_pos' L ltac:(lia))) as Hi0.
  destruct (adds_ok nb kw off L data Ho HL HoL HN data [] acc eq_refl (PInv_clean nb kw off L data acc 0 Hz) Hlen) as (acc1 & Ef & HI & Hlen1).
  cbn [length] in Ef. change (Z.of_nat 0) with 0 in Ef.
  exists acc1. destruct acc1 as [|x acc1']; [cbn [length] in Hlen1; lia|]. set (acc2 := x :: acc1') in *.
  assert (F5 : (Z.of_nat (length data) - 1) * 2 ^ 0 < Z.of_nat (length data) <= Z.of_nat (length data) * 2 ^ 0)
    by (change (2 ^ 0) with 1; lia).
  assert (F6 : Z.of_nat (length data) <= 2 ^ Z.of_nat (length acc2)) by (rewrite Hlen1; exact HN).
  destruct (flush_ok nb kw off L data Ho HL HoL Hidx HN (length acc1') acc2 [] 0 (Z.of_nat (length data)) eq_refl HI eq_refl
              ltac:(lia) F5 F6) as (res & Er & Hg & Hlr).
  cbn [app length] in Er. exists res. split; [exact Ef|]. split; [discriminate|]. split; [exact Er|].
  split; [rewrite Hlr; cbn [length]; lia | apply Hg; lia].
Qed.

(* GLWEBlindRetriever::retrieve returns the input at index (k >> offset) mod 2^L, L = ceil(log2 size) accumulators *)
Theorem retriever_index : forall nb size kw offset (data : list Z),
  0 <= size <= 2 ^ 31 -> 0 <= offset -> offset + retr_nacc size <= Z.of_nat nb ->
  Z.of_nat (length data) <= 2 ^ retr_nacc size ->
  (kw / 2 ^ offset) mod 2 ^ retr_nacc size < Z.of_nat (length data) ->
  retrieve size (bits_of nb kw) offset data = Some (lget data ((kw / 2 ^ offset) mod 2 ^ retr_nacc size)).
Proof.
  intros nb size kw off data Hs Ho HoL HN Hidx.
  assert (HL : 1 <= retr_nacc size) by (unfold retr_nacc; lia).
  pose proof (Z.mod_pos_bound (kw / 2 ^ off) (2 ^ retr_nacc size) (pow2_pos' (retr_nacc size) ltac:(lia))) as Hi0.
  destruct (alloc_clean size) as (_ & Hz & Hlen).
  destruct (clean_round nb kw off _ data _ Ho HL HoL HN Hidx Hz Hlen) as (acc1 & acc' & Ef & Hne & Efl & _ & Hres).
  unfold retrieve. destruct (Z.leb_spec 0 size); [|lia]. destruct (Z.leb_spec size (2 ^ 31)); [|lia]. cbn [andb].
  change (fun (st : option (accs * Z)) (a : Z) => _) with (rstep nb kw off).
  cbn [r_acc r_alloc] in Ef. rewrite Ef.
  destruct (Z.eqb_spec (Z.of_nat (length data)) 0); [lia|].
  destruct acc1; [contradiction|]. now rewrite Efl, Hres.
Qed.

(* one complete round on a clean retriever: the addressed input comes out and the retriever is clean again *)
Lemma round_from_clean nb kw off L data st :
  0 <= off -> 1 <= L -> off + L <= Z.of_nat nb -> Z.of_nat (length data) <= 2 ^ L ->
  (kw / 2 ^ off) mod 2 ^ L < Z.of_nat (length data) ->
  r_clean L st ->
  exists st', r_round 1 (bits_of nb kw) off data st = Some (lget data ((kw / 2 ^ off) mod 2 ^ L), st') /\ r_clean L st'.
Proof.
  intros Ho HL HoL HN Hidx (Hc & Hz & Hlen). destruct st as [acc c]. cbn [r_cnt r_acc] in *. subst c.
  pose proof (Z.mod_pos_bound (kw / 2 ^ off) (2 ^ L) (pow2_pos' L ltac:(lia))) as Hi0.
  destruct (clean_round nb kw off L data acc Ho HL HoL HN Hidx Hz Hlen) as (acc1 & acc' & Ef & Hne & Efl & Hl' & Hres).
  unfold r_round. change (1 =? 0) with false. cbn iota. rewrite r_adds_rstep, Ef.
  cbn [option_map fst snd]. change (1 =? 1) with true. cbn iota.
  unfold r_flush. cbn [r_cnt r_acc]. destruct (Z.eqb_spec (Z.of_nat (length data)) 0); [lia|].
  destruct acc1; [contradiction|]. rewrite Efl, Hres. eexists; split; [reflexivity|].
  apply reset_clean. cbn [r_acc]. lia.
Qed.

(* the round kinds of a history: retrieve (0) on ANY state of the right size, add-all-then-flush (1) on a clean one *)
Lemma round_ok nb kind kw off L data st :
  kind = 0 \/ kind = 1 ->
  0 <= off -> 1 <= L -> off + L <= Z.of_nat nb -> Z.of_nat (length data) <= 2 ^ L ->
  (kw / 2 ^ off) mod 2 ^ L < Z.of_nat (length data) ->
  (if kind =? 0 then Z.of_nat (length (r_acc st)) = L else r_clean L st) ->
  exists st', r_round kind (bits_of nb kw) off data st = Some (lget data ((kw / 2 ^ off) mod 2 ^ L), st') /\ r_clean L st'.
Proof.
  intros [-> | ->] Ho HL HoL HN Hidx Hst; cbn [Z.eqb] in Hst.
  - (* retrieve = reset; then the add-all-then-flush round *)
    destruct (round_from_clean nb kw off L data (r_reset st) Ho HL HoL HN Hidx (reset_clean L st Hst)) as (st' & E & Hc).
    exists st'. split; [|exact Hc]. unfold r_round in *. change (0 =? 0) with true. cbn iota. unfold r_retrieve.
    change (1 =? 0) with false in E. cbn iota in E. destruct (r_adds (bits_of nb kw) off data (r_reset st)); [exact E | discriminate].
  - apply round_from_clean; auto.
Qed.

(* a history of complete rounds *)
Definition round_admissible (nb : nat) (L : Z) (r : Z * Z * Z * list Z) : Prop :=
  let '(kind, kw, off, data) := r in
  (kind = 0 \/ kind = 1) /\ 0 <= off /\ off + L <= Z.of_nat nb /\ Z.of_nat (length data) <= 2 ^ L /\
  (kw / 2 ^ off) mod 2 ^ L < Z.of_nat (length data).
Definition round_answer (L : Z) (r : Z * Z * Z * list Z) : Z :=
  let '(kind, kw, off, data) := r in lget data ((kw / 2 ^ off) mod 2 ^ L).
Definition round_sel (nb : nat) (r : Z * Z * Z * list Z) : Z * sel_bits * Z * list Z :=
  let '(kind, kw, off, data) := r in (kind, bits_of nb kw, off, data).

Theorem retriever_history : forall (nb : nat) (size : Z) (rounds : list (Z * Z * Z * list Z)),
  Forall (round_admissible nb (retr_nacc size)) rounds ->
  forall st, r_clean (retr_nacc size) st ->
  exists st', r_history (map (round_sel nb) rounds) st = Some (map (round_answer (retr_nacc size)) rounds, st') /\
              r_clean (retr_nacc size) st'.
Proof.
  intros nb size rounds. assert (HL : 1 <= retr_nacc size) by (unfold retr_nacc; lia). set (L := retr_nacc size) in *.
  induction rounds as [|[[[kind kw] off] data] tl IH]; intros Hall st Hc.
  - exists st. split; [reflexivity | exact Hc].
  - inversion Hall as [|? ? Hr Htl]; subst. destruct Hr as (Hk & Ho & HoL & HN & Hidx).
    destruct (round_ok nb kind kw off L data st Hk Ho HL HoL HN Hidx) as (st1 & E1 & Hc1).
    { destruct Hk as [-> | ->]; cbn [Z.eqb]; [exact (proj2 (proj2 Hc)) | exact Hc]. }
    destruct (IH Htl st1 Hc1) as (st2 & E2 & Hc2).
    exists st2. split; [|exact Hc2]. cbn [map r_history round_sel round_answer]. rewrite E1, E2. reflexivity.
Qed.

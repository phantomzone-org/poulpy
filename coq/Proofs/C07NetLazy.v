(* C07 butterfly networks, lazy arithmetic: for each primitive (split_precompmul, modq_red, the butterfly lanes)
   - the exact integer value (W = id) is congruent to the ideal value mod q, for every integer input,
   - under an upper bound on the inputs no u64 operation wraps, the wrapped value equals the exact value, and the
     outputs obey the next upper bound;
   then the same for blocks, levels and whole chains of levels (forward: one bound for all entries; inverse: a bound
   for the head of every block and one for the other entries). *)
From PV Require Import Base.MachineInt Model.DftAbs Model.C07Ntt120 Model.C07NttNet Proofs.C07Ring
  Proofs.C07NetBase Proofs.C07NetStruct.
From Coq Require Import Morphisms Setoid.
Open Scope Z_scope.

(* the wrap function W of the run over unbounded integers: the identity, under a name so that it is only unfolded
   where asked (`unidz` removes it from the goal) *)
Definition idz (v : Z) : Z := v.
Ltac unidz := repeat match goal with |- context [idz ?v] => change (idz v) with v end.
Definition rng (U v : Z) : Prop := 0 <= v <= U.
(* the default of every `nth` on a list of levels *)
Definition dsm : stepmeta := {| sm_q2bs := 0; sm_bs := 0; sm_hb := 0; sm_mask := 0; sm_red := false |}.

Definition rm_wf (q : Z) (rm : redmeta) : Prop :=
  0 <= rm_h rm /\ rm_mask rm = 2 ^ rm_h rm - 1 /\ 0 <= rm_cst rm /\ cong q (rm_cst rm) (2 ^ rm_h rm).
Definition sm_wf (q : Z) (sm : stepmeta) : Prop :=
  0 <= sm_hb sm /\ sm_mask sm = 2 ^ sm_hb sm - 1 /\ 0 <= sm_q2bs sm /\ cong q (sm_q2bs sm) 0 /\ sm_hb sm <= 32 /\ sm_bs sm <= 64.
(* a packed twiddle word: low 32 bits t, high bits t1, both below q *)
Definition word_ok (q po : Z) : Prop := 0 <= po /\ po mod 2 ^ 32 <= q - 1 /\ po / 2 ^ 32 <= q - 1.
(* its value: t = v and t1 = v 2^hb modulo q *)
Definition word_val (q hb po v : Z) : Prop := cong q (po mod 2 ^ 32) v /\ cong q (po / 2 ^ 32) (po mod 2 ^ 32 * 2 ^ hb).

Lemma word_ok_0 q : 1 <= q -> word_ok q 0.
Proof. intros H. unfold word_ok. rewrite Zmod_0_l, Zdiv_0_l. lia. Qed.

Section Cong.
Variable q : Z.
Local Notation "a == b" := (cong q a b) (at level 70, no associativity).

Lemma spm_cong x po hb mask v : 0 <= hb -> mask = 2 ^ hb - 1 -> word_val q hb po v ->
  spm idz x po hb mask == x * v.
Proof.
  intros Hhb -> [Ht Ht1]. unfold spm, idz. rewrite land_mask, land_ones32, !hi_div by lia.
  rewrite Ht1. rewrite (Z.div_mod x (2 ^ hb)) at 3 by (pose proof (pow2_pos hb Hhb); lia).
  rewrite <- Ht. ring_simplify. reflexivity.
Qed.
Lemma mred_cong x rm : rm_wf q rm -> mred idz x (rm_h rm) (rm_mask rm) (rm_cst rm) == x.
Proof.
  intros [Hh [Hm [_ Hc]]]. unfold mred, idz. rewrite Hm, land_mask, hi_div by lia. rewrite Hc.
  rewrite (Z.div_mod x (2 ^ rm_h rm)) at 3 by (pose proof (pow2_pos _ Hh); lia). ring_simplify. reflexivity.
Qed.
Lemma pre_cong x rm sm : rm_wf q rm -> pre idz rm sm x == x.
Proof. intros H. unfold pre. destruct (sm_red sm); [apply mred_cong; exact H|reflexivity]. Qed.

End Cong.

(* (`hi`, a shift, rather than a division: these bounds are evaluated by the kernel) *)
Definition red_ub (rm : redmeta) (U : Z) : Z := 2 ^ rm_h rm - 1 + hi U (rm_h rm) * rm_cst rm.
Definition pre_ub (rm : redmeta) (sm : stepmeta) (U : Z) : Z := if sm_red sm then red_ub rm U else U.
Definition spm_ub (q hb U : Z) : Z := (2 ^ hb - 1 + hi U hb) * (q - 1).

Lemma rng_w64 U v : rng U v -> U < 2 ^ 64 -> w64 v = v.
Proof. intros [? ?] ?. apply w64_small. lia. Qed.
Lemma isu_rng U v : rng U v -> U < 2 ^ 64 -> isu v = true.
Proof. intros [? ?] ?. apply isu_true. lia. Qed.

Lemma spm_safe q x po hb mask U : 0 <= hb -> mask = 2 ^ hb - 1 -> 1 <= q -> word_ok q po -> rng U x ->
  spm_ub q hb U < 2 ^ 64 ->
  spm_ok w64 x po hb mask = true /\ spm w64 x po hb mask = spm idz x po hb mask /\ rng (spm_ub q hb U) (spm idz x po hb mask).
Proof.
  intros Hhb -> Hq [Hpo [Ht Ht1]] Hx HU.
  unfold spm_ok, spm, idz. rewrite land_mask, land_ones32, !hi_div by lia.
  destruct (split_parts x hb U Hhb Hx) as [HA HB].
  assert (Hp32 : 0 < 2 ^ 32) by lia.
  assert (Ht0 : 0 <= po mod 2 ^ 32 <= q - 1) by (pose proof (Z.mod_pos_bound po (2 ^ 32) Hp32); lia).
  assert (Ht10 : 0 <= po / 2 ^ 32 <= q - 1) by (split; [apply Z.div_pos; lia|lia]).
  pose proof (mul_bounds _ _ _ _ HA Ht0) as H1. pose proof (mul_bounds _ _ _ _ HB Ht10) as H2.
  set (A := x mod 2 ^ hb * (po mod 2 ^ 32)) in *. set (B := x / 2 ^ hb * (po / 2 ^ 32)) in *.
  assert (HS : spm_ub q hb U = (2 ^ hb - 1) * (q - 1) + U / 2 ^ hb * (q - 1)) by (unfold spm_ub; rewrite hi_div by lia; ring).
  assert (HAr : 0 <= A < 2 ^ 64) by lia. assert (HBr : 0 <= B < 2 ^ 64) by lia.
  rewrite (w64_small A HAr), (w64_small B HBr).
  assert (HABr : 0 <= A + B < 2 ^ 64) by lia. rewrite (w64_small _ HABr).
  split; [|split; [reflexivity|unfold rng; lia]].
  rewrite !andb_true_iff, !isu_true. lia.
Qed.

Lemma mred_safe q rm x U : rm_wf q rm -> rng U x -> red_ub rm U < 2 ^ 64 ->
  mred_ok w64 x (rm_h rm) (rm_mask rm) (rm_cst rm) = true /\
  mred w64 x (rm_h rm) (rm_mask rm) (rm_cst rm) = mred idz x (rm_h rm) (rm_mask rm) (rm_cst rm) /\
  rng (red_ub rm U) (mred idz x (rm_h rm) (rm_mask rm) (rm_cst rm)).
Proof.
  intros [Hh [Hm [Hc _]]] Hx H2. unfold red_ub in *. rewrite hi_div in H2 by lia.
  unfold mred_ok, mred, idz. rewrite Hm, land_mask, !hi_div by lia.
  destruct (split_parts x (rm_h rm) U Hh Hx) as [HA HB].
  pose proof (mul_bounds _ _ _ _ HB (conj Hc (Z.le_refl _))) as HM.
  set (A := x mod 2 ^ rm_h rm) in *. set (B := x / 2 ^ rm_h rm * rm_cst rm) in *.
  assert (HBr : 0 <= B < 2 ^ 64) by lia. rewrite (w64_small B HBr).
  assert (HABr : 0 <= A + B < 2 ^ 64) by lia. rewrite (w64_small _ HABr).
  split; [|split; [reflexivity|unfold rng; lia]].
  rewrite !andb_true_iff, !isu_true. lia.
Qed.

Lemma pre_safe q rm sm x U : rm_wf q rm -> rng U x -> pre_ub rm sm U < 2 ^ 64 ->
  pre_ok w64 rm sm x = true /\ pre w64 rm sm x = pre idz rm sm x /\ rng (pre_ub rm sm U) (pre idz rm sm x).
Proof.
  intros Hrm Hx Hc. unfold pre_ok, pre, pre_ub in *. destruct (sm_red sm).
  - apply (mred_safe q); assumption.
  - repeat split; apply Hx.
Qed.

(* the sum and the guarded difference of a butterfly: a + b and (a + Q) - b with b <= Q *)
Lemma addsub_safe a b Q A B : 0 <= a <= A -> 0 <= b <= B -> B <= Q -> A + B < 2 ^ 64 -> A + Q < 2 ^ 64 ->
  isu (a + b) = true /\ isu (a + Q) = true /\ isu (w64 (a + Q) - b) = true /\
  w64 (a + b) = a + b /\ w64 (w64 (a + Q) - b) = a + Q - b.
Proof.
  intros Ha Hb HQ H1 H2. rewrite (w64_small (a + Q)) by lia. rewrite !isu_true, !w64_small by lia. repeat split; lia.
Qed.

(* V bounds both inputs of a lane after the optional reduction; the level is safe when V <= q2bs (the difference does
   not underflow) and the bound of its outputs is below 2^64 *)
Definition fwd_ub1 (q : Z) (sm : stepmeta) (c : nat) (V : Z) : Z :=
  let D := V + sm_q2bs sm in Z.max (2 * V) (if Nat.eqb c 1 then D else Z.max D (spm_ub q (sm_hb sm) D)).
Definition fwd_ub (q : Z) (rm : redmeta) (sm : stepmeta) (c : nat) (U : Z) : Z := fwd_ub1 q sm c (pre_ub rm sm U).
Lemma fwd_ub1_ge q sm c V : 2 * V <= fwd_ub1 q sm c V /\ V + sm_q2bs sm <= fwd_ub1 q sm c V /\
  (c <> 1%nat -> spm_ub q (sm_hb sm) (V + sm_q2bs sm) <= fwd_ub1 q sm c V).
Proof. unfold fwd_ub1. cbv zeta. destruct (Nat.eqb_spec c 1); lia. Qed.

Lemma fwd_lane_safe q rm sm tw c U i a b : rm_wf q rm -> sm_wf q sm -> 1 <= q ->
  pre_ub rm sm U <= sm_q2bs sm -> fwd_ub q rm sm c U < 2 ^ 64 ->
  (c = 1%nat -> i = 0%nat) -> (forall i', word_ok q (nth i' tw 0)) -> rng U a -> rng U b ->
  fwd_lane_ok w64 rm sm tw i a b = true /\ fwd_lane w64 rm sm tw i a b = fwd_lane idz rm sm tw i a b /\
  rng (fwd_ub q rm sm c U) (fst (fwd_lane idz rm sm tw i a b)) /\ rng (fwd_ub q rm sm c U) (snd (fwd_lane idz rm sm tw i a b)).
Proof.
  intros Hrm [Hhb [Hmask [Hq2 _]]] Hq Hle Hub Hci Htw Ha Hb.
  unfold fwd_ub in *. destruct (fwd_ub1_ge q sm c (pre_ub rm sm U)) as [G1 [G2 G3]].
  assert (Hpc : pre_ub rm sm U < 2 ^ 64) by lia.
  destruct (pre_safe q rm sm a U Hrm Ha Hpc) as [Oa [Ea [Ra0 Ra1]]].
  destruct (pre_safe q rm sm b U Hrm Hb Hpc) as [Ob [Eb [Rb0 Rb1]]].
  unfold fwd_lane_ok, fwd_lane. cbv zeta. rewrite Oa, Ob, Ea, Eb.
  set (a1 := pre idz rm sm a) in *. set (b1 := pre idz rm sm b) in *.
  set (U1 := pre_ub rm sm U) in *. set (Q := sm_q2bs sm) in *.
  destruct (addsub_safe a1 b1 Q U1 U1) as [I1 [I2 [I3 [E1 E3]]]]; try lia.
  rewrite I1, I2, I3, E1, E3. unidz. cbn [andb fst snd].
  destruct i as [|i'].
  - split; [reflexivity|]. split; [reflexivity|]. unfold rng. lia.
  - destruct (Nat.eq_dec c 1) as [Hc|Hc]; [specialize (Hci Hc); discriminate|]. specialize (G3 Hc).
    assert (Hs : spm_ub q (sm_hb sm) (U1 + Q) < 2 ^ 64) by lia.
    assert (Hd : rng (U1 + Q) (a1 + Q - b1)) by (unfold rng; lia).
    destruct (spm_safe q (a1 + Q - b1) (nth i' tw 0) (sm_hb sm) (sm_mask sm) (U1 + Q) Hhb Hmask Hq (Htw i') Hd Hs) as [Os [Es [Rs0 Rs1]]].
    rewrite Os, Es. split; [reflexivity|]. split; [reflexivity|]. unfold rng. lia.
Qed.

Lemma forallb_map {A} (f : A -> bool) l : forallb f l = forallb (fun b : bool => b) (map f l).
Proof. induction l as [|a l IH]; [reflexivity|]. cbn [forallb map]. rewrite IH. reflexivity. Qed.


Lemma forallb_ext_in' {A} (f g : A -> bool) l : (forall a, In a l -> f a = g a) -> forallb f l = forallb g l.
Proof.
  induction l as [|a l IH]; intros H; [reflexivity|]. cbn [forallb].
  rewrite (H a) by (left; reflexivity). rewrite IH by (intros; apply H; right; assumption). reflexivity.
Qed.

Lemma bfly_ok_canon (ok : nat -> Z -> Z -> bool) x h : length x = (2 * h)%nat ->
  bfly_ok ok x = forallb (fun i => ok i (nth i x 0) (nth (h + i) x 0)) (seq 0 h).
Proof.
  intros Hx. unfold bfly_ok. replace (length x / 2)%nat with h by (rewrite Hx, Nat.mul_comm, Nat.div_mul; lia).
  assert (Hlo : length (firstn h x) = h) by (rewrite firstn_length; lia).
  assert (Hhi : length (skipn h x) = length (firstn h x)) by (rewrite skipn_length; lia).
  rewrite forallb_map.
  pose proof (map3_combine ok (firstn h x) (skipn h x) 0 Hhi) as E. rewrite Hlo in E. rewrite E.
  rewrite <- forallb_map. apply forallb_ext_in'. intros i Hi. apply in_seq in Hi. cbn [Nat.add].
  rewrite nth_firstn_lt by lia. rewrite nth_skipn. reflexivity.
Qed.

Lemma bfly_sound (g gi : lanefn) (ok : nat -> Z -> Z -> bool) x h (Pin Pout : nat -> Z -> Z -> Prop) :
  length x = (2 * h)%nat ->
  (forall i, (i < h)%nat -> Pin i (nth i x 0) (nth (h + i) x 0)) ->
  (forall i a b, (i < h)%nat -> Pin i a b ->
     ok i a b = true /\ g i a b = gi i a b /\ Pout i (fst (gi i a b)) (snd (gi i a b))) ->
  bfly_ok ok x = true /\ bfly g x = bfly gi x /\ (forall i, (i < h)%nat -> Pout i (lane_lo gi x h i) (lane_hi gi x h i)).
Proof.
  intros Hx Hin Hl. split; [|split].
  - rewrite (bfly_ok_canon ok x h Hx). apply forallb_forall. intros i Hi. apply in_seq in Hi.
    apply (Hl i); [lia|apply Hin; lia].
  - rewrite (bfly_canon g x h Hx), (bfly_canon gi x h Hx).
    f_equal; apply map_ext_in; intros i Hi; apply in_seq in Hi; unfold lane_lo, lane_hi;
      destruct (Hl i (nth i x 0) (nth (h + i) x 0) ltac:(lia) (Hin i ltac:(lia))) as [_ [E _]]; rewrite E; reflexivity.
  - intros i Hi. unfold lane_lo, lane_hi. apply (Hl i); [exact Hi|apply Hin; exact Hi].
Qed.

Lemma level_sound (F Fi : list Z -> list Z) (okb : list Z -> bool) (Pre Post : list Z -> Prop) sz : 
  (forall b, length b = sz -> Pre b -> okb b = true /\ F b = Fi b /\ Post (Fi b)) ->
  forall cnt x, length x = (cnt * sz)%nat -> Forall Pre (blocks cnt sz x) ->
  level_ok okb cnt sz x = true /\ level F cnt sz x = level Fi cnt sz x /\ Forall Post (map Fi (blocks cnt sz x)).
Proof.
  intros HF cnt x Hx Hpre. unfold level_ok, level.
  pose proof (blocks_sizes cnt sz x Hx) as Hsz. revert Hsz Hpre.
  generalize (blocks cnt sz x) as l.
  induction l as [|b l IH]; intros Hsz Hpre; [repeat split; constructor|].
  apply Forall_cons_iff in Hsz. destruct Hsz as [Hb Hl']. apply Forall_cons_iff in Hpre. destruct Hpre as [Pb Pl].
  destruct (HF b Hb Pb) as [O [E P]]. destruct (IH Hl' Pl) as [O' [E' P']].
  cbn [forallb map concat]. rewrite O, O', E, E'. repeat split. constructor; assumption.
Qed.

Lemma Forall_blocks (P : Z -> Prop) sz : forall cnt x, Forall P x -> Forall (Forall P) (blocks cnt sz x).
Proof.
  induction cnt as [|c IH]; intros x H; cbn [blocks]; constructor.
  - apply Forall_firstn. exact H.
  - apply IH. apply Forall_skipn. exact H.
Qed.
Lemma Forall_map_seq (P : Z -> Prop) (f : nat -> Z) n : (forall i, (i < n)%nat -> P (f i)) -> Forall P (map f (seq 0 n)).
Proof. intros H. apply Forall_forall. intros v Hv. apply in_map_iff in Hv. destruct Hv as [i [<- Hi]]. apply in_seq in Hi. apply H. lia. Qed.
Lemma below_of_rng bs U x : Forall (rng U) x -> U < 2 ^ bs -> below bs x = true.
Proof.
  intros H HU. unfold below. apply forallb_forall. intros v Hv. rewrite Forall_forall in H. destruct (H v Hv).
  rewrite andb_true_iff, Z.leb_le, Z.ltb_lt. lia.
Qed.
Lemma Forall_word_nth q tw : 1 <= q -> Forall (word_ok q) tw -> forall i, word_ok q (nth i tw 0).
Proof.
  intros Hq H i. destruct (Nat.ltb_spec i (length tw)) as [Hi|Hi].
  - apply Forall_nth_elim; assumption.
  - rewrite nth_overflow by exact Hi. apply word_ok_0. exact Hq.
Qed.

(* (q2bs is q shifted left: comparing it with that shift is far cheaper for the kernel than reducing it mod q) *)
Definition q_shifted (q x : Z) : bool :=
  let e := Z.log2 x - Z.log2 q in (x =? 0) || ((0 <=? e) && (x =? Z.shiftl q e)).
Lemma q_shifted_ok q x : q_shifted q x = true -> cong q x 0.
Proof.
  unfold q_shifted. cbv zeta. rewrite orb_true_iff, andb_true_iff, Z.leb_le, !Z.eqb_eq. intros [->|[He ->]]; [reflexivity|].
  rewrite Z.shiftl_mul_pow2, Z.mul_comm by exact He. apply cong_0_mul.
Qed.
Definition smwf_b (q : Z) (sm : stepmeta) : bool :=
  (0 <=? sm_hb sm) && (sm_mask sm =? 2 ^ sm_hb sm - 1) && (0 <=? sm_q2bs sm) && q_shifted q (sm_q2bs sm) &&
  (sm_hb sm <=? 32) && (sm_bs sm <=? 64).
Lemma smwf_b_ok q sm : smwf_b q sm = true -> sm_wf q sm.
Proof.
  unfold smwf_b, sm_wf. rewrite !andb_true_iff, !Z.leb_le, !Z.eqb_eq. intros [[[[[H1 H2] H3] H4] H5] H6].
  repeat (split; [assumption|]). split; [apply q_shifted_ok; exact H4|split; assumption].
Qed.

(* one level: the bound of its outputs if the level is safe and keeps its documented budget `bs`
   (bs <= 64, so nothing wraps) *)
Definition fwd_lvl (q : Z) (rm : redmeta) (sm : stepmeta) (c : nat) (U : Z) : option Z :=
  let V := pre_ub rm sm U in let U' := fwd_ub1 q sm c V in
  if smwf_b q sm && (V <=? sm_q2bs sm) && (U' <? 2 ^ sm_bs sm) then Some U' else None.
Lemma below_bs q sm U : sm_wf q sm -> U < 2 ^ sm_bs sm -> U < 2 ^ 64.
Proof. intros [_ [_ [_ [_ [_ Hb]]]]] HU. apply Z.lt_le_trans with (2 ^ sm_bs sm); [exact HU|apply Z.pow_le_mono_r; lia]. Qed.
Lemma fwd_lvl_elim q rm sm c U U' : fwd_lvl q rm sm c U = Some U' ->
  sm_wf q sm /\ pre_ub rm sm U <= sm_q2bs sm /\ U' = fwd_ub q rm sm c U /\ U' < 2 ^ sm_bs sm.
Proof.
  unfold fwd_lvl, fwd_ub. cbv zeta.
  destruct (smwf_b q sm && (pre_ub rm sm U <=? sm_q2bs sm) && (fwd_ub1 q sm c (pre_ub rm sm U) <? 2 ^ sm_bs sm)) eqn:E; [|discriminate].
  rewrite !andb_true_iff, Z.leb_le, Z.ltb_lt in E. destruct E as [[Hwf Hle] Hbs]. intros [= <-].
  split; [apply smwf_b_ok; exact Hwf|]. split; [exact Hle|]. split; [reflexivity|exact Hbs].
Qed.

Fixpoint fwd_chain (q : Z) (rm : redmeta) (c : nat) (metas : list stepmeta) (U : Z) : option Z :=
  match c, metas with
  | O, [] => Some U
  | S c', sm :: ms => match fwd_lvl q rm sm c U with Some U' => fwd_chain q rm c' ms U' | None => None end
  | _, _ => None
  end.

Lemma fwd_block_sound q rm sm tw c U b : rm_wf q rm -> sm_wf q sm -> 1 <= q ->
  pre_ub rm sm U <= sm_q2bs sm -> fwd_ub q rm sm (S c) U < 2 ^ 64 ->
  Forall (word_ok q) tw -> length b = pow2n (S c) -> Forall (rng U) b ->
  bfly_ok (fwd_lane_ok w64 rm sm tw) b = true /\ bfly (fwd_lane w64 rm sm tw) b = bfly (fwd_lane idz rm sm tw) b /\
  Forall (rng (fwd_ub q rm sm (S c) U)) (bfly (fwd_lane idz rm sm tw) b).
Proof.
  intros Hrm Hsm Hq Hle Hub Htw Hb HU. rewrite pow2n_S in Hb. set (h := pow2n c) in *.
  destruct (bfly_sound (fwd_lane w64 rm sm tw) (fwd_lane idz rm sm tw) (fwd_lane_ok w64 rm sm tw) b h
              (fun _ a b => rng U a /\ rng U b)
              (fun _ u v => rng (fwd_ub q rm sm (S c) U) u /\ rng (fwd_ub q rm sm (S c) U) v) Hb) as [O [E P]].
  - intros i Hi. split; apply Forall_nth_elim; try assumption; lia.
  - intros i a0 b0 Hi [Ha0 Hb0]. apply (fwd_lane_safe q rm sm tw (S c) U i a0 b0); try assumption.
    + intros Hc. assert (c = 0%nat) by lia. subst c. unfold h in Hi. change (pow2n 0) with 1%nat in Hi. lia.
    + apply Forall_word_nth; assumption.
  - split; [exact O|split; [exact E|]]. rewrite (bfly_canon _ b h Hb). apply Forall_app. split; apply Forall_map_seq; intros i Hi; apply (P i Hi).
Qed.

Theorem fwd_levels_sound q rm : rm_wf q rm -> 1 <= q ->
  forall c metas tws cnt x U Uf, fwd_chain q rm c metas U = Some Uf ->
  length tws = length metas -> Forall (Forall (word_ok q)) tws ->
  length x = (cnt * pow2n c)%nat -> Forall (rng U) x ->
  fwd_levels_ok w64 rm c cnt metas tws x = true /\
  fwd_levels w64 rm c cnt metas tws x = fwd_levels idz rm c cnt metas tws x /\
  Forall (rng Uf) (fwd_levels idz rm c cnt metas tws x) /\
  length (fwd_levels idz rm c cnt metas tws x) = length x.
Proof.
  intros Hrm Hq. induction c as [|c IH]; intros metas tws cnt x U Uf Hch Hlen Htws Hx HU.
  - destruct metas; [|discriminate]. cbn [fwd_chain] in Hch. injection Hch as <-.
    cbn [fwd_levels_ok fwd_levels]. repeat split. exact HU.
  - destruct metas as [|sm ms]; [discriminate|]. destruct tws as [|tw tws]; [discriminate|].
    cbn [fwd_chain] in Hch. destruct (fwd_lvl q rm sm (S c) U) as [U'|] eqn:Hl; [|discriminate].
    destruct (fwd_lvl_elim _ _ _ _ _ _ Hl) as [Hwf [Hle [-> Hbs]]].
    pose proof (below_bs q sm _ Hwf Hbs) as Hub.
    apply Forall_cons_iff in Htws. destruct Htws as [Htw Htws].
    cbn [fwd_levels_ok fwd_levels].
    destruct (level_sound (bfly (fwd_lane w64 rm sm tw)) (bfly (fwd_lane idz rm sm tw)) (bfly_ok (fwd_lane_ok w64 rm sm tw))
               (Forall (rng U)) (Forall (rng (fwd_ub q rm sm (S c) U))) (pow2n (S c))) with (cnt := cnt) (x := x) as [O [E P]].
    + intros b Hb Pb. apply (fwd_block_sound q rm sm tw c U b); assumption.
    + exact Hx.
    + apply Forall_blocks. exact HU.
    + rewrite O, E. set (y := level (bfly (fwd_lane idz rm sm tw)) cnt (pow2n (S c)) x).
      assert (Hy : Forall (rng (fwd_ub q rm sm (S c) U)) y) by (apply Forall_concat; exact P).
      assert (Hly : length y = (2 * cnt * pow2n c)%nat).
      { unfold y. rewrite level_length; [rewrite pow2n_S; lia|exact Hx|]. intros b Hb. rewrite pow2n_S in *. apply bfly_length. exact Hb. }
      rewrite (below_of_rng _ _ _ Hy Hbs). cbn [andb].
      replace (length x) with (length y) by (rewrite Hly, Hx, pow2n_S; lia).
      apply (IH ms tws (2 * cnt)%nat y _ Uf Hch); [cbn [length] in Hlen; lia|exact Htws|exact Hly|exact Hy].
Qed.

Definition ew_ub (q : Z) (rm : redmeta) (sm : stepmeta) (U : Z) : Z := spm_ub q (sm_hb sm) (pre_ub rm sm U).
Definition ew_lvl (q : Z) (rm : redmeta) (sm : stepmeta) (U : Z) : option Z :=
  let V := pre_ub rm sm U in let U' := spm_ub q (sm_hb sm) V in
  if smwf_b q sm && (V <? 2 ^ 64) && (U' <? 2 ^ sm_bs sm) then Some U' else None.
Lemma ew_lvl_elim q rm sm U U' : ew_lvl q rm sm U = Some U' ->
  sm_wf q sm /\ pre_ub rm sm U < 2 ^ 64 /\ U' = ew_ub q rm sm U /\ U' < 2 ^ sm_bs sm.
Proof.
  unfold ew_lvl, ew_ub. cbv zeta.
  destruct (smwf_b q sm && (pre_ub rm sm U <? 2 ^ 64) && (spm_ub q (sm_hb sm) (pre_ub rm sm U) <? 2 ^ sm_bs sm)) eqn:E; [|discriminate].
  rewrite !andb_true_iff, !Z.ltb_lt in E. destruct E as [[Hwf Hle] Hbs]. intros [= <-].
  split; [apply smwf_b_ok; exact Hwf|]. split; [exact Hle|]. split; [reflexivity|exact Hbs].
Qed.

Lemma ewise_length W rm sm tw x : length tw = length x -> length (ewise W rm sm tw x) = length x.
Proof. intros H. unfold ewise. rewrite map_length, combine_length. lia. Qed.
Lemma nth_ewise W rm sm : forall tw x i, length tw = length x -> (i < length x)%nat ->
  nth i (ewise W rm sm tw x) 0 = spm W (pre W rm sm (nth i x 0)) (nth i tw 0) (sm_hb sm) (sm_mask sm).
Proof.
  unfold ewise. induction tw as [|t tw IH]; intros [|v x] i Hl Hi; cbn [length] in *; try lia.
  destruct i as [|i]; [reflexivity|]. cbn [combine map nth]. apply IH; lia.
Qed.

Lemma ewise_sound q rm sm U : rm_wf q rm -> sm_wf q sm -> 1 <= q -> pre_ub rm sm U < 2 ^ 64 -> ew_ub q rm sm U < 2 ^ 64 ->
  forall tw x, length tw = length x -> Forall (word_ok q) tw -> Forall (rng U) x ->
  ewise_ok w64 rm sm tw x = true /\ ewise w64 rm sm tw x = ewise idz rm sm tw x /\
  Forall (rng (ew_ub q rm sm U)) (ewise idz rm sm tw x).
Proof.
  intros Hrm [Hhb [Hmask _]] Hq Hpc Hs. unfold ew_ub in Hs.
  unfold ewise_ok, ewise. induction tw as [|t tw IH]; intros [|v x] Hl Htw Hx; cbn [length] in *; try lia.
  - repeat split. constructor.
  - apply Forall_cons_iff in Htw. destruct Htw as [Ht Htw]. apply Forall_cons_iff in Hx. destruct Hx as [Hv Hx].
    destruct (IH x ltac:(lia) Htw Hx) as [O [E P]].
    destruct (pre_safe q rm sm v U Hrm Hv Hpc) as [Ov [Ev Rv]].
    destruct (spm_safe q (pre idz rm sm v) t (sm_hb sm) (sm_mask sm) _ Hhb Hmask Hq Ht Rv Hs) as [Os [Es Rs]].
    cbn [combine map forallb fst snd]. rewrite Ov, Ev, Os, Es, O, E. repeat split. constructor; assumption.
Qed.

(* inverse lanes: U0 bounds the head of every block (lane 0), U the other entries *)
(* V0, V bound the inputs after the optional reduction, S the product of lane i >= 1; the level is safe when
   V0 <= q2bs and S <= q2bs (the differences do not underflow) and the bound of its outputs is below 2^64 *)
Definition inv_ub0 (rm : redmeta) (sm : stepmeta) (U0 : Z) : Z := 2 * pre_ub rm sm U0.
Definition inv_ub1 (sm : stepmeta) (c : nat) (V0 V S : Z) : Z :=
  let Q := sm_q2bs sm in Z.max (Z.max (2 * V0) (V0 + Q)) (if Nat.eqb c 1 then 0 else Z.max (V + S) (V + Q)).
Definition inv_ub (q : Z) (rm : redmeta) (sm : stepmeta) (c : nat) (U0 U : Z) : Z :=
  inv_ub1 sm c (pre_ub rm sm U0) (pre_ub rm sm U) (spm_ub q (sm_hb sm) (pre_ub rm sm U)).
Lemma inv_ub1_ge sm c V0 V S : 2 * V0 <= inv_ub1 sm c V0 V S /\ V0 + sm_q2bs sm <= inv_ub1 sm c V0 V S /\
  (c <> 1%nat -> V + S <= inv_ub1 sm c V0 V S /\ V + sm_q2bs sm <= inv_ub1 sm c V0 V S).
Proof. unfold inv_ub1. cbv zeta. destruct (Nat.eqb_spec c 1); lia. Qed.

Definition inv_pin (U0 U : Z) (i : nat) (a b : Z) : Prop :=
  match i with O => rng U0 a /\ rng U0 b | S _ => rng U a /\ rng U b end.
Definition inv_pout (U0' U' : Z) (i : nat) (u v : Z) : Prop :=
  (i = 0%nat -> rng U0' u) /\ rng U' u /\ rng U' v.

Lemma inv_lane_safe q rm sm tw c U0 U i a b : rm_wf q rm -> sm_wf q sm -> 1 <= q ->
  pre_ub rm sm U0 <= sm_q2bs sm -> (c <> 1%nat -> spm_ub q (sm_hb sm) (pre_ub rm sm U) <= sm_q2bs sm) ->
  inv_ub q rm sm c U0 U < 2 ^ 64 ->
  (c = 1%nat -> i = 0%nat) -> (forall i', word_ok q (nth i' tw 0)) -> inv_pin U0 U i a b ->
  inv_lane_ok w64 rm sm tw i a b = true /\ inv_lane w64 rm sm tw i a b = inv_lane idz rm sm tw i a b /\
  inv_pout (inv_ub0 rm sm U0) (inv_ub q rm sm c U0 U) i (fst (inv_lane idz rm sm tw i a b)) (snd (inv_lane idz rm sm tw i a b)).
Proof.
  intros Hrm [Hhb [Hmask [Hq2 _]]] Hq Hle HSQ Hub Hci Htw Hin.
  unfold inv_ub in *.
  destruct (inv_ub1_ge sm c (pre_ub rm sm U0) (pre_ub rm sm U) (spm_ub q (sm_hb sm) (pre_ub rm sm U))) as [G1 [G2 G3]].
  assert (Hpc0 : pre_ub rm sm U0 < 2 ^ 64) by lia.
  unfold inv_lane_ok, inv_lane, inv_pout, inv_ub0. cbv zeta.
  set (Q := sm_q2bs sm) in *.
  destruct i as [|i']; cbn [inv_pin] in Hin; destruct Hin as [Ha Hb].
  - destruct (pre_safe q rm sm a U0 Hrm Ha Hpc0) as [Oa [Ea [Ra0 Ra1]]].
    destruct (pre_safe q rm sm b U0 Hrm Hb Hpc0) as [Ob [Eb [Rb0 Rb1]]].
    rewrite Oa, Ob, Ea, Eb.
    set (a1 := pre idz rm sm a) in *. set (b1 := pre idz rm sm b) in *. set (V0 := pre_ub rm sm U0) in *.
    destruct (addsub_safe a1 b1 Q V0 V0) as [I1 [I2 [I3 [E1 E3]]]]; try lia.
    rewrite I1, I2, I3, E1, E3. unidz. cbn [andb fst snd]. split; [reflexivity|]. split; [reflexivity|]. unfold rng. lia.
  - destruct (Nat.eq_dec c 1) as [Hc|Hc]; [specialize (Hci Hc); discriminate|].
    specialize (HSQ Hc). destruct (G3 Hc) as [HVS HVQ].
    assert (Hpc : pre_ub rm sm U < 2 ^ 64) by lia.
    destruct (pre_safe q rm sm a U Hrm Ha Hpc) as [Oa [Ea [Ra0 Ra1]]].
    destruct (pre_safe q rm sm b U Hrm Hb Hpc) as [Ob [Eb Rb]].
    rewrite Oa, Ob, Ea, Eb.
    set (a1 := pre idz rm sm a) in *. set (b1 := pre idz rm sm b) in *. set (V := pre_ub rm sm U) in *.
    assert (HS : spm_ub q (sm_hb sm) V < 2 ^ 64) by lia.
    destruct (spm_safe q b1 (nth i' tw 0) (sm_hb sm) (sm_mask sm) V Hhb Hmask Hq (Htw i') Rb HS) as [Os [Es [Rs0 Rs1]]].
    rewrite Os, Es. set (bo := spm idz b1 (nth i' tw 0) (sm_hb sm) (sm_mask sm)) in *.
    set (S := spm_ub q (sm_hb sm) V) in *.
    destruct (addsub_safe a1 bo Q V S) as [I1 [I2 [I3 [E1 E3]]]]; try lia.
    rewrite I1, I2, I3, E1, E3. unidz. cbn [andb fst snd]. split; [reflexivity|]. split; [reflexivity|].
    split; [discriminate|]. unfold rng. lia.
Qed.

Definition binv (U0 U : Z) (b : list Z) : Prop := rng U0 (nth 0 b 0) /\ Forall (rng U) b.

Lemma inv_block_sound q rm sm tw c U0 U B : rm_wf q rm -> sm_wf q sm -> 1 <= q ->
  pre_ub rm sm U0 <= sm_q2bs sm -> (S c <> 1%nat -> spm_ub q (sm_hb sm) (pre_ub rm sm U) <= sm_q2bs sm) ->
  inv_ub q rm sm (S c) U0 U < 2 ^ 64 ->
  Forall (word_ok q) tw -> length B = pow2n (S c) ->
  binv U0 U (firstn (pow2n c) B) -> binv U0 U (skipn (pow2n c) B) ->
  bfly_ok (inv_lane_ok w64 rm sm tw) B = true /\ bfly (inv_lane w64 rm sm tw) B = bfly (inv_lane idz rm sm tw) B /\
  binv (inv_ub0 rm sm U0) (inv_ub q rm sm (S c) U0 U) (bfly (inv_lane idz rm sm tw) B).
Proof.
  intros Hrm Hsm Hq Hle HSQ Hub Htw HB [Hlo0 Hlo] [Hhi0 Hhi]. rewrite pow2n_S in HB. set (h := pow2n c) in *.
  assert (Hh : (0 < h)%nat) by apply pow2n_pos.
  destruct (bfly_sound (inv_lane w64 rm sm tw) (inv_lane idz rm sm tw) (inv_lane_ok w64 rm sm tw) B h
              (inv_pin U0 U) (inv_pout (inv_ub0 rm sm U0) (inv_ub q rm sm (S c) U0 U)) HB) as [O [E P]].
  - intros i Hi.
    assert (Ea : nth i B 0 = nth i (firstn h B) 0) by (rewrite nth_firstn_lt by exact Hi; reflexivity).
    assert (Eb : nth (h + i) B 0 = nth i (skipn h B) 0) by (rewrite nth_skipn; reflexivity).
    rewrite Ea, Eb. destruct i as [|i]; cbn [inv_pin]; [split; assumption|].
    split; apply Forall_nth_elim; try assumption; [rewrite firstn_length|rewrite skipn_length]; lia.
  - intros i a0 b0 Hi Hin. apply (inv_lane_safe q rm sm tw (S c) U0 U i a0 b0); try assumption.
    + intros Hc. assert (c = 0%nat) by lia. subst c. unfold h in Hi. change (pow2n 0) with 1%nat in Hi. lia.
    + apply Forall_word_nth; assumption.
  - split; [exact O|split; [exact E|]]. split.
    + rewrite (nth_bfly_lo _ B h 0 HB Hh). apply (P 0%nat Hh). reflexivity.
    + rewrite (bfly_canon _ B h HB). apply Forall_app. split; apply Forall_map_seq; intros i Hi; apply (P i Hi).
Qed.

Definition inv_lvl (q : Z) (rm : redmeta) (sm : stepmeta) (c : nat) (U0 U : Z) : option (Z * Z) :=
  let V0 := pre_ub rm sm U0 in let V := pre_ub rm sm U in let S := spm_ub q (sm_hb sm) V in
  let U' := inv_ub1 sm c V0 V S in
  if smwf_b q sm && (V0 <=? sm_q2bs sm) && (if Nat.eqb c 1 then true else S <=? sm_q2bs sm) && (U' <? 2 ^ sm_bs sm)
  then Some (2 * V0, U') else None.
Lemma inv_lvl_elim q rm sm c U0 U r : inv_lvl q rm sm c U0 U = Some r ->
  sm_wf q sm /\ pre_ub rm sm U0 <= sm_q2bs sm /\ (c <> 1%nat -> spm_ub q (sm_hb sm) (pre_ub rm sm U) <= sm_q2bs sm) /\
  r = (inv_ub0 rm sm U0, inv_ub q rm sm c U0 U) /\ inv_ub q rm sm c U0 U < 2 ^ sm_bs sm.
Proof.
  unfold inv_lvl, inv_ub, inv_ub0. cbv zeta. set (V := pre_ub rm sm U). set (V0 := pre_ub rm sm U0).
  destruct (smwf_b q sm && (V0 <=? sm_q2bs sm) && (if Nat.eqb c 1 then true else spm_ub q (sm_hb sm) V <=? sm_q2bs sm) &&
            (inv_ub1 sm c V0 V (spm_ub q (sm_hb sm) V) <? 2 ^ sm_bs sm)) eqn:E; [|discriminate].
  rewrite !andb_true_iff, Z.leb_le, Z.ltb_lt in E. destruct E as [[[Hwf Hle] HS] Hbs]. intros [= <-].
  split; [apply smwf_b_ok; exact Hwf|]. split; [exact Hle|]. split; [|split; [reflexivity|exact Hbs]].
  intros Hc. destruct (Nat.eqb_spec c 1); [contradiction|]. apply Z.leb_le. exact HS.
Qed.

Fixpoint inv_chain (q : Z) (rm : redmeta) (lv c : nat) (metas : list stepmeta) (U0 U : Z) : option (Z * Z) :=
  match lv, metas with
  | O, [] => Some (U0, U)
  | S lv', sm :: ms => match inv_lvl q rm sm c U0 U with Some (U0', U') => inv_chain q rm lv' (S c) ms U0' U' | None => None end
  | _, _ => None
  end.

Lemma Forall_flat_pairs {A} (P : A -> Prop) (f g : list Z -> A) (l : list (list Z)) :
  Forall P (flat_map (fun b => [f b; g b]) l) -> Forall (fun b => P (f b) /\ P (g b)) l.
Proof.
  induction l as [|b l IH]; intros H; [constructor|]. cbn [flat_map app] in H.
  apply Forall_cons_iff in H. destruct H as [H1 H]. apply Forall_cons_iff in H. destruct H as [H2 H].
  constructor; [split; assumption|apply IH; exact H].
Qed.

Theorem inv_levels_sound q rm : rm_wf q rm -> 1 <= q ->
  forall lv c metas tws x U0 U U0f Uf, inv_chain q rm lv (S c) metas U0 U = Some (U0f, Uf) ->
  length tws = length metas -> Forall (Forall (word_ok q)) tws ->
  length x = (pow2n lv * pow2n c)%nat -> Forall (binv U0 U) (blocks (pow2n lv) (pow2n c) x) ->
  inv_levels_ok w64 rm lv (S c) metas tws x = true /\
  inv_levels w64 rm lv (S c) metas tws x = inv_levels idz rm lv (S c) metas tws x /\
  Forall (rng Uf) (inv_levels idz rm lv (S c) metas tws x) /\
  length (inv_levels idz rm lv (S c) metas tws x) = length x.
Proof.
  intros Hrm Hq. induction lv as [|lv IH]; intros c metas tws x U0 U U0f Uf Hch Hlen Htws Hx Hinv.
  - destruct metas; [|discriminate]. cbn [inv_chain] in Hch. injection Hch as <- <-.
    cbn [inv_levels_ok inv_levels]. repeat split.
    change (pow2n 0) with 1%nat in *. rewrite blocks_one in Hinv by lia.
    apply Forall_cons_iff in Hinv. destruct Hinv as [[_ H] _]. exact H.
  - destruct metas as [|sm ms]; [discriminate|]. destruct tws as [|tw tws]; [discriminate|].
    cbn [inv_chain] in Hch. destruct (inv_lvl q rm sm (S c) U0 U) as [r|] eqn:Hl; [|discriminate].
    destruct (inv_lvl_elim _ _ _ _ _ _ _ Hl) as [Hwf [Hle [HSQ [-> Hbs]]]].
    pose proof (below_bs q sm _ Hwf Hbs) as Hub.
    apply Forall_cons_iff in Htws. destruct Htws as [Htw Htws].
    cbn [inv_levels_ok inv_levels].
    assert (Hx' : length x = (pow2n lv * pow2n (S c))%nat) by (rewrite Hx, !pow2n_S; lia).
    assert (HF : forall b, length b = pow2n (S c) -> length (bfly (inv_lane idz rm sm tw) b) = pow2n (S c))
      by (intros b Hb; rewrite pow2n_S in *; apply bfly_length; exact Hb).
    destruct (level_sound (bfly (inv_lane w64 rm sm tw)) (bfly (inv_lane idz rm sm tw)) (bfly_ok (inv_lane_ok w64 rm sm tw))
               (fun B => binv U0 U (firstn (pow2n c) B) /\ binv U0 U (skipn (pow2n c) B))
               (binv (inv_ub0 rm sm U0) (inv_ub q rm sm (S c) U0 U)) (pow2n (S c))) with (cnt := pow2n lv) (x := x) as [O [E P]].
    + intros b Hb [P1 P2]. apply (inv_block_sound q rm sm tw c U0 U b); assumption.
    + exact Hx'.
    + apply Forall_flat_pairs. rewrite (pow2n_S c). rewrite <- blocks_pairs by (rewrite Hx, pow2n_S; lia).
      rewrite <- pow2n_S. exact Hinv.
    + rewrite O, E. set (y := level (bfly (inv_lane idz rm sm tw)) (pow2n lv) (pow2n (S c)) x).
      assert (Hyb : Forall (binv (inv_ub0 rm sm U0) (inv_ub q rm sm (S c) U0 U)) (blocks (pow2n lv) (pow2n (S c)) y)).
      { unfold y. rewrite level_blocks by assumption. exact P. }
      assert (Hy : Forall (rng (inv_ub q rm sm (S c) U0 U)) y).
      { apply Forall_concat. rewrite Forall_map in P. rewrite Forall_map. eapply Forall_impl; [|exact P]. intros b [_ Hb]. exact Hb. }
      assert (Hly : length y = (pow2n lv * pow2n (S c))%nat) by (unfold y; rewrite level_length by assumption; reflexivity).
      rewrite (below_of_rng _ _ _ Hy Hbs). cbn [andb].
      replace (length x) with (length y) by (rewrite Hly, Hx'; reflexivity).
      apply (IH (S c) ms tws y _ _ U0f Uf Hch); [cbn [length] in Hlen; lia|exact Htws|exact Hly|exact Hyb].
Qed.

Lemma binv_singletons U : forall x, Forall (rng U) x -> Forall (binv U U) (blocks (length x) 1 x).
Proof.
  induction x as [|v x IH]; intros H; [constructor|]. apply Forall_cons_iff in H. destruct H as [Hv Hx].
  cbn [length blocks firstn skipn]. constructor; [|apply IH; exact Hx].
  split; [exact Hv|constructor; [exact Hv|constructor]].
Qed.

Definition rmwf_b (q : Z) (rm : redmeta) : bool :=
  (0 <=? rm_h rm) && (rm_mask rm =? 2 ^ rm_h rm - 1) && (0 <=? rm_cst rm) && (rm_cst rm mod q =? 2 ^ rm_h rm mod q).
Lemma rmwf_b_ok q rm : rmwf_b q rm = true -> rm_wf q rm.
Proof.
  unfold rmwf_b, rm_wf. rewrite !andb_true_iff, !Z.leb_le, !Z.eqb_eq. intros [[[H1 H2] H3] H4].
  split; [assumption|split; [assumption|split; [assumption|]]]. apply cong_unfold. exact H4.
Qed.

(* the words of a table are well formed and there are as many twiddle lists as levels *)
Definition table_words_ok (q : Z) (T : table) (n : nat) : Prop :=
  length (tb_tw0 T) = n /\ Forall (word_ok q) (tb_tw0 T) /\
  length (tb_tws T) = length (tb_metas T) /\ Forall (Forall (word_ok q)) (tb_tws T).

Definition fwd_check_c (q : Z) (rm : redmeta) (m0 : stepmeta) (metas : list stepmeta) (m : nat) (U : Z) : option Z :=
  if rmwf_b q rm then match ew_lvl q rm m0 U with Some U1 => fwd_chain q rm m metas U1 | None => None end else None.
Definition fwd_check (q : Z) (T : table) (m : nat) (U : Z) : option Z :=
  fwd_check_c q (tb_red T) (tb_m0 T) (tb_metas T) m U.

Theorem ntt_with_sound q T m x U Uf : 1 <= q -> fwd_check q T (S m) U = Some Uf -> table_words_ok q T (pow2n (S m)) ->
  length x = pow2n (S m) -> Forall (rng U) x ->
  ntt_ok_with w64 T (S m) x = true /\ ntt_with w64 T (S m) x = ntt_with idz T (S m) x /\
  Forall (rng Uf) (ntt_with idz T (S m) x) /\ length (ntt_with idz T (S m) x) = pow2n (S m).
Proof.
  intros Hq Hck [Hl0 [Hw0 [Hls Hws]]] Hx HU. unfold fwd_check, fwd_check_c in Hck.
  destruct (rmwf_b q (tb_red T)) eqn:Hrm; [|discriminate]. apply rmwf_b_ok in Hrm.
  destruct (ew_lvl q (tb_red T) (tb_m0 T) U) as [U1|] eqn:Hl; [|discriminate].
  destruct (ew_lvl_elim _ _ _ _ _ Hl) as [Hsm [Hpc [-> Hbs]]].
  pose proof (below_bs q _ _ Hsm Hbs) as Hub.
  destruct (ewise_sound q (tb_red T) (tb_m0 T) U Hrm Hsm Hq Hpc Hub (tb_tw0 T) x ltac:(lia) Hw0 HU) as [O [E P]].
  unfold ntt_ok_with, ntt_with. rewrite O, E.
  set (y := ewise idz (tb_red T) (tb_m0 T) (tb_tw0 T) x) in *.
  rewrite (below_of_rng _ _ _ P Hbs). cbn [andb].
  assert (Hy : length y = pow2n (S m)) by (unfold y; rewrite ewise_length by lia; exact Hx).
  destruct (fwd_levels_sound q (tb_red T) Hrm Hq (S m) (tb_metas T) (tb_tws T) 1 y _ Uf Hck Hls Hws ltac:(lia) P) as [O2 [E2 [P2 L2]]].
  rewrite L2. repeat split; assumption.
Qed.

Definition inv_check_c (q : Z) (rm : redmeta) (m0 : stepmeta) (metas : list stepmeta) (m : nat) (U : Z) : option Z :=
  if rmwf_b q rm then match inv_chain q rm m 1 metas U U with Some (_, U1) => ew_lvl q rm m0 U1 | None => None end else None.
Definition inv_check (q : Z) (T : table) (m : nat) (U : Z) : option Z :=
  inv_check_c q (tb_red T) (tb_m0 T) (tb_metas T) m U.

Theorem intt_with_sound q T m x U Uf : 1 <= q -> inv_check q T (S m) U = Some Uf -> table_words_ok q T (pow2n (S m)) ->
  length x = pow2n (S m) -> Forall (rng U) x ->
  intt_ok_with w64 T (S m) x = true /\ intt_with w64 T (S m) x = intt_with idz T (S m) x /\
  Forall (rng Uf) (intt_with idz T (S m) x) /\ length (intt_with idz T (S m) x) = pow2n (S m).
Proof.
  intros Hq Hck [Hl0 [Hw0 [Hls Hws]]] Hx HU. unfold inv_check, inv_check_c in Hck.
  destruct (rmwf_b q (tb_red T)) eqn:Hrm; [|discriminate]. apply rmwf_b_ok in Hrm.
  destruct (inv_chain q (tb_red T) (S m) 1 (tb_metas T) U U) as [[U0f U1]|] eqn:Hch; [|discriminate].
  destruct (ew_lvl_elim _ _ _ _ _ Hck) as [Hsm [Hpc [-> Hbs]]].
  pose proof (below_bs q _ _ Hsm Hbs) as Hub.
  destruct (inv_levels_sound q (tb_red T) Hrm Hq (S m) 0 (tb_metas T) (tb_tws T) x U U U0f U1 Hch Hls Hws) as [O [E [P L]]].
  - change (pow2n 0) with 1%nat. lia.
  - change (pow2n 0) with 1%nat. rewrite <- Hx. apply binv_singletons. exact HU.
  - unfold intt_ok_with, intt_with. rewrite O, E.
    set (y := inv_levels idz (tb_red T) (S m) 1 (tb_metas T) (tb_tws T) x) in *.
    assert (Hy : length y = pow2n (S m)) by (rewrite L; exact Hx).
    destruct (ewise_sound q (tb_red T) (tb_m0 T) U1 Hrm Hsm Hq Hpc Hub (tb_tw0 T) y ltac:(lia) Hw0 P) as [O' [E' P']].
    rewrite O', E'. rewrite (below_of_rng _ _ _ P' Hbs). repeat split; [exact P'|].
    rewrite ewise_length by lia. exact Hy.
Qed.

(* the checks imply the static well-formedness of every level; the last level's budget bounds the result *)
Lemma fwd_chain_wf q rm : forall c metas U Uf, fwd_chain q rm c metas U = Some Uf ->
  Forall (sm_wf q) metas /\ length metas = c /\ (forall d, metas <> [] -> Uf < 2 ^ sm_bs (last metas d)).
Proof.
  induction c as [|c IH]; intros [|sm ms] U Uf H; cbn [fwd_chain] in H; try discriminate.
  - split; [constructor|]. split; [reflexivity|]. intros d Hne. contradiction Hne. reflexivity.
  - destruct (fwd_lvl q rm sm (S c) U) as [U'|] eqn:Hl; [|discriminate].
    destruct (fwd_lvl_elim _ _ _ _ _ _ Hl) as [Hwf [_ [_ Hbs]]]. destruct (IH ms _ Uf H) as [H1 [H2 H3]].
    split; [constructor; assumption|]. split; [cbn [length]; lia|]. intros d _.
    destruct ms as [|sm' ms']; [|apply H3; discriminate].
    destruct c; [|discriminate]. cbn [fwd_chain] in H. injection H as <-. exact Hbs.
Qed.
Lemma inv_chain_wf q rm : forall lv c metas U0 U r, inv_chain q rm lv c metas U0 U = Some r -> Forall (sm_wf q) metas /\ length metas = lv.
Proof.
  induction lv as [|lv IH]; intros c [|sm ms] U0 U r H; cbn [inv_chain] in H; try discriminate.
  - split; [constructor|reflexivity].
  - destruct (inv_lvl q rm sm c U0 U) as [[U0' U']|] eqn:Hl; [|discriminate].
    destruct (inv_lvl_elim _ _ _ _ _ _ _ Hl) as [Hwf _]. destruct (IH _ ms _ _ r H) as [H1 H2].
    split; [constructor; assumption|cbn [length]; lia].
Qed.
Lemma fwd_check_c_wf q rm m0 metas m U Uf : fwd_check_c q rm m0 metas m U = Some Uf ->
  rm_wf q rm /\ sm_wf q m0 /\ Forall (sm_wf q) metas /\ length metas = m /\ (forall d, metas <> [] -> Uf < 2 ^ sm_bs (last metas d)).
Proof.
  unfold fwd_check_c. destruct (rmwf_b q rm) eqn:E1; [|discriminate].
  destruct (ew_lvl q rm m0 U) as [U1|] eqn:Hl; [|discriminate]. intros Hc.
  split; [apply rmwf_b_ok; exact E1|]. split; [apply (ew_lvl_elim _ _ _ _ _ Hl)|].
  apply (fwd_chain_wf _ _ _ _ _ _ Hc).
Qed.
Lemma inv_check_c_wf q rm m0 metas m U Uf : inv_check_c q rm m0 metas m U = Some Uf ->
  rm_wf q rm /\ sm_wf q m0 /\ Forall (sm_wf q) metas /\ length metas = m /\ Uf < 2 ^ sm_bs m0.
Proof.
  unfold inv_check_c. destruct (rmwf_b q rm) eqn:E1; [|discriminate].
  destruct (inv_chain q rm m 1 metas U U) as [[U0f U1]|] eqn:Hch; [|discriminate]. intros Hl.
  destruct (ew_lvl_elim _ _ _ _ _ Hl) as [Hsm [_ [_ Hbs]]]. destruct (inv_chain_wf _ _ _ _ _ _ _ _ Hch) as [H1 H2].
  split; [apply rmwf_b_ok; exact E1|]. repeat (split; [assumption|]). exact Hbs.
Qed.

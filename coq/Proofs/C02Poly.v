(* C02: the algebra of Z[X]/(X^n+1) on coefficient lists that the phase theorems need.
   Exact negacyclic extension `xext` at every integer exponent, linearity of `pmul s .`, commutation with monomials
   X^p for every p in Z, an l1/l-infinity bound.  `xext` has the body of C07Ring.ext': the coefficient formula of
   `pmul` and the additive laws are C07Ring's. *)
From PV Require Export Proofs.C07Ring Proofs.ListFacts Proofs.PolyFacts.
From PV Require Import Base.MachineInt Model.Znx Model.Limbs Model.Ring Model.DftAbs Model.C02Ops.
Open Scope Z_scope.

Lemma build_length rsz (f : nat -> list Z) : length (build rsz f) = rsz.
Proof. apply map_seq_length. Qed.
Lemma build_nth rsz (f : nat -> list Z) j d : (j < rsz)%nat -> nth j (build rsz f) d = f j.
Proof. apply nth_map_seq. Qed.
Lemma build_ext rsz (f g : nat -> list Z) : (forall j, (j < rsz)%nat -> f j = g j) -> build rsz f = build rsz g.
Proof. apply map_seq_ext. Qed.

Lemma nthZ_pzero n i : nthZ (pzero n) i = 0.
Proof. apply nthZ_zeros. Qed.
Lemma nthZ_padd a b k : length b = length a -> nthZ (padd a b) k = nthZ a k + nthZ b k.
Proof. exact (nth_padd a b k). Qed.
Lemma nthZ_psub a b k : length b = length a -> nthZ (psub a b) k = nthZ a k - nthZ b k.
Proof. exact (nth_psub a b k). Qed.
Lemma nthZ_pneg a k : nthZ (pneg a) k = - nthZ a k.
Proof. exact (nth_pneg a k). Qed.

Lemma pneg_pzero n : pneg (pzero n) = pzero n.
Proof.
  apply nthZ_ext; [rewrite pneg_length; reflexivity|].
  intros i _. rewrite nthZ_pneg, nthZ_pzero. reflexivity.
Qed.

Fixpoint zsum (f : nat -> Z) (n : nat) : Z := match n with O => 0 | S m => zsum f m + f m end.

Lemma zsum_ext f g n : (forall i, (i < n)%nat -> f i = g i) -> zsum f n = zsum g n.
Proof. induction n as [|n IH]; intros H; cbn [zsum]; [reflexivity|]. rewrite IH, H by (intros; try apply H; lia). reflexivity. Qed.
Lemma zsum_zero n : zsum (fun _ => 0) n = 0.
Proof. induction n; cbn [zsum]; lia. Qed.
Lemma zsum_add f g n : zsum (fun i => f i + g i) n = zsum f n + zsum g n.
Proof. induction n; cbn [zsum]; lia. Qed.
Lemma zsum_sub f g n : zsum (fun i => f i - g i) n = zsum f n - zsum g n.
Proof. induction n; cbn [zsum]; lia. Qed.
Lemma zsum_opp f n : zsum (fun i => - f i) n = - zsum f n.
Proof. induction n; cbn [zsum]; lia. Qed.
Lemma zsum_mul_l c f n : zsum (fun i => c * f i) n = c * zsum f n.
Proof. induction n; cbn [zsum]; lia. Qed.
Lemma zsum_swap (f : nat -> nat -> Z) n m :
  zsum (fun i => zsum (fun j => f i j) m) n = zsum (fun j => zsum (fun i => f i j) n) m.
Proof.
  induction n as [|n IH]; cbn [zsum].
  - rewrite zsum_zero. reflexivity.
  - rewrite IH, <- zsum_add. reflexivity.
Qed.
Lemma zsum_abs_le (f : nat -> Z) (g : nat -> Z) n :
  (forall i, (i < n)%nat -> Z.abs (f i) <= g i) -> Z.abs (zsum f n) <= zsum g n.
Proof.
  induction n as [|n IH]; intros H; cbn [zsum]; [lia|].
  pose proof (IH ltac:(intros; apply H; lia)). pose proof (H n ltac:(lia)). lia.
Qed.

Definition sg (q : Z) : Z := if Z.even q then 1 else -1.
Lemma sg_add p q : sg (p + q) = sg p * sg q.
Proof. unfold sg. rewrite Z.even_add. destruct (Z.even p), (Z.even q); reflexivity. Qed.
Lemma sg_sq q : sg q * sg q = 1.
Proof. unfold sg. destruct (Z.even q); reflexivity. Qed.

Lemma xext_at (a : list Z) (k q : Z) (r : nat) :
  k = q * Z.of_nat (length a) + Z.of_nat r -> (r < length a)%nat -> xext a k = sg q * nthZ a r.
Proof.
  intros -> Hr. unfold xext, sg. cbv zeta.
  set (n := Z.of_nat (length a)) in *.
  assert (Hq : (q * n + Z.of_nat r) / n = q).
  { rewrite Z.div_add_l by lia. rewrite Z.div_small by lia. lia. }
  assert (Hm : (q * n + Z.of_nat r) mod n = Z.of_nat r).
  { rewrite Z.add_comm, Z.mod_add by lia. apply Z.mod_small; lia. }
  rewrite Hq, Hm, Nat2Z.id. destruct (Z.even q); lia.
Qed.

Lemma exp_decomp (n k : Z) : 0 < n -> exists q (r : nat), k = q * n + Z.of_nat r /\ Z.of_nat r < n.
Proof.
  intros Hn. exists (k / n), (Z.to_nat (k mod n)).
  pose proof (Z.mod_pos_bound k n Hn). pose proof (Z.div_mod k n ltac:(lia)).
  rewrite Z2Nat.id by lia. lia.
Qed.

Lemma xext_len0 (a : list Z) k : length a = 0%nat -> xext a k = 0.
Proof.
  intros H. destruct a; [|discriminate]. unfold xext, nthZ. cbv zeta.
  destruct (Z.even _), (Z.to_nat _); reflexivity.
Qed.

Lemma xext_shift (a : list Z) (k q : Z) : (0 < length a)%nat ->
  xext a (k + q * Z.of_nat (length a)) = sg q * xext a k.
Proof.
  intros Hn.
  destruct (exp_decomp (Z.of_nat (length a)) k ltac:(lia)) as (q0 & r & Hk & Hr).
  rewrite (xext_at a k q0 r) by (auto; lia).
  rewrite (xext_at a _ (q0 + q) r) by (try lia).
  rewrite sg_add. lia.
Qed.

Lemma xext_padd a b k : length b = length a -> xext (padd a b) k = xext a k + xext b k.
Proof. exact (ext'_padd a b k). Qed.
Lemma xext_pneg a k : xext (pneg a) k = - xext a k.
Proof. exact (ext'_pneg a k). Qed.
Lemma xext_pzero n k : xext (pzero n) k = 0.
Proof. unfold xext. cbv zeta. rewrite !nthZ_pzero. destruct (Z.even _); reflexivity. Qed.

Lemma xext_abs_le (a : list Z) (u : Z) k : 0 <= u -> (forall i, Z.abs (nthZ a i) <= u) -> Z.abs (xext a k) <= u.
Proof.
  intros Hu H. unfold xext. cbv zeta. destruct (Z.even _); [apply H|]. rewrite Z.abs_opp. apply H.
Qed.

Lemma xmono_length p a : length (xmono p a) = length a.
Proof. apply map_seq_length. Qed.
Lemma xmono_nth p a i : (i < length a)%nat -> nthZ (xmono p a) i = xext a (Z.of_nat i - p).
Proof. intros Hi. unfold xmono. rewrite nthZ_map_seq by auto. reflexivity. Qed.

Lemma xext_xmono p a k : xext (xmono p a) k = xext a (k - p).
Proof.
  destruct (Nat.eq_dec (length a) 0) as [H0|H0].
  - rewrite !xext_len0 by (rewrite ?xmono_length; lia). reflexivity.
  - destruct (exp_decomp (Z.of_nat (length a)) k ltac:(lia)) as (q & r & Hk & Hr).
    rewrite (xext_at (xmono p a) k q r) by (rewrite xmono_length; lia).
    rewrite xmono_nth by lia.
    replace (k - p) with ((Z.of_nat r - p) + q * Z.of_nat (length a)) by lia.
    rewrite xext_shift by lia. reflexivity.
Qed.

Lemma xmono_0 a : xmono 0 a = a.
Proof. exact (monomial_mul'_0 a). Qed.
Lemma xmono_compose p q a : xmono p (xmono q a) = xmono (p + q) a.
Proof.
  apply nthZ_ext; [rewrite !xmono_length; reflexivity|]. intros i Hi. rewrite !xmono_length in Hi.
  rewrite !xmono_nth by (rewrite ?xmono_length; auto). rewrite xext_xmono. f_equal. lia.
Qed.
Lemma xmono_period p t a : xmono (p + 2 * t * Z.of_nat (length a)) a = xmono p a.
Proof.
  apply nthZ_ext; [rewrite !xmono_length; reflexivity|]. intros i Hi. rewrite xmono_length in Hi.
  rewrite !xmono_nth by auto.
  replace (Z.of_nat i - (p + 2 * t * Z.of_nat (length a))) with ((Z.of_nat i - p) + (- 2 * t) * Z.of_nat (length a)) by lia.
  rewrite xext_shift by lia. unfold sg. replace (- 2 * t) with (2 * (- t)) by lia. rewrite Z.even_mul. cbn [Z.even orb]. lia.
Qed.
Lemma xmono_padd p a b : length b = length a -> xmono p (padd a b) = padd (xmono p a) (xmono p b).
Proof.
  intros Hl. apply nthZ_ext; [rewrite padd_length, !xmono_length, padd_length; lia|].
  intros i Hi. rewrite xmono_length, padd_length in Hi.
  rewrite xmono_nth by (rewrite padd_length; lia).
  rewrite nthZ_padd by (rewrite !xmono_length; auto). rewrite !xmono_nth by lia. apply xext_padd; auto.
Qed.
Lemma xmono_pzero p n : xmono p (pzero n) = pzero n.
Proof.
  apply nthZ_ext; [rewrite xmono_length; reflexivity|]. intros i Hi. rewrite xmono_length in Hi.
  rewrite xmono_nth by auto. rewrite xext_pzero, nthZ_pzero. reflexivity.
Qed.

(* C02Ops.xext is C07Ring.ext' (same body); C07Ring sums with a fold *)
Lemma zsum_fold f n : zsum f n = C07Ring.zsum f n.
Proof. induction n as [|n IH]; [reflexivity|]. rewrite C07Ring.zsum_S, <- IH. reflexivity. Qed.

Theorem pmul_nth (a b : list Z) (k : nat) : length b = length a -> (k < length a)%nat ->
  nthZ (pmul a b) k = zsum (fun i => nthZ a i * xext b (Z.of_nat k - Z.of_nat i)) (length a).
Proof. intros Hl Hk. rewrite zsum_fold. exact (pmul_spec a b k Hl Hk). Qed.

(* the extension of a product, at every integer exponent *)
Lemma xext_pmul (s a : list Z) (m : Z) : length a = length s ->
  xext (pmul s a) m = zsum (fun i => nthZ s i * xext a (m - Z.of_nat i)) (length s).
Proof.
  intros Hl. destruct (Nat.eq_dec (length s) 0) as [H0|H0].
  - rewrite H0. cbn [zsum]. apply xext_len0. rewrite pmul_length. lia.
  - destruct (exp_decomp (Z.of_nat (length s)) m ltac:(lia)) as (q & r & Hm & Hr).
    rewrite (xext_at (pmul s a) m q r) by (rewrite pmul_length; lia).
    rewrite pmul_nth by lia. rewrite <- zsum_mul_l. apply zsum_ext. intros i Hi.
    replace (m - Z.of_nat i) with ((Z.of_nat r - Z.of_nat i) + q * Z.of_nat (length a)) by lia.
    rewrite xext_shift by lia. lia.
Qed.

Theorem pmul_padd_r s a b : length a = length s -> length b = length s ->
  pmul s (padd a b) = padd (pmul s a) (pmul s b).
Proof. exact (pmul_padd_distr_l s a b). Qed.
Theorem pmul_psub_r s a b : length a = length s -> length b = length s ->
  pmul s (psub a b) = psub (pmul s a) (pmul s b).
Proof. exact (pmul_psub_distr_l s a b). Qed.
Theorem pmul_pneg_r s a : length a = length s -> pmul s (pneg a) = pneg (pmul s a).
Proof.
  intros Ha. apply nthZ_ext; [rewrite pneg_length, !pmul_length; lia|].
  intros k Hk. rewrite pmul_length in Hk.
  rewrite nthZ_pneg. rewrite !pmul_nth by (rewrite ?pneg_length; lia).
  rewrite <- zsum_opp. apply zsum_ext. intros i _. rewrite xext_pneg. lia.
Qed.
Theorem pmul_pzero_r s n : length s = n -> pmul s (pzero n) = pzero n.
Proof. intros <-. apply C07Ring.pmul_pzero_r. Qed.

(* multiplication by X^p commutes with multiplication by s, for every p in Z *)
Theorem pmul_xmono s a p : length a = length s -> pmul s (xmono p a) = xmono p (pmul s a).
Proof.
  intros Ha. apply nthZ_ext; [rewrite xmono_length, !pmul_length; reflexivity|].
  intros k Hk. rewrite pmul_length in Hk.
  rewrite xmono_nth by (rewrite pmul_length; lia).
  rewrite pmul_nth by (rewrite ?xmono_length; lia).
  rewrite xext_pmul by lia. apply zsum_ext. intros i _.
  rewrite xext_xmono. do 2 f_equal. lia.
Qed.
Theorem pmul_xmono_m1 s a p : length a = length s -> pmul s (xmono_m1 p a) = xmono_m1 p (pmul s a).
Proof.
  intros Ha. unfold xmono_m1. rewrite pmul_psub_r by (rewrite ?xmono_length; lia).
  rewrite pmul_xmono by lia. reflexivity.
Qed.

(* |(s * e)_k| <= ||s||_1 * ||e||_inf *)
Definition l1norm (s : list Z) : Z := zsum (fun i => Z.abs (nthZ s i)) (length s).
Lemma l1norm_nonneg s : 0 <= l1norm s.
Proof.
  pose proof (zsum_abs_le (fun _ => 0) (fun i => Z.abs (nthZ s i)) (length s) ltac:(intros; cbn; lia)) as H.
  rewrite zsum_zero in H. exact H.
Qed.

Theorem pmul_bound s e u k : length e = length s -> 0 <= u -> (forall i, Z.abs (nthZ e i) <= u) ->
  Z.abs (nthZ (pmul s e) k) <= l1norm s * u.
Proof.
  intros Hl Hu He. destruct (Nat.lt_ge_cases k (length s)) as [Hk|Hk].
  - rewrite pmul_nth by lia. unfold l1norm. rewrite Z.mul_comm, <- zsum_mul_l.
    apply zsum_abs_le. intros i _. rewrite Z.abs_mul.
    pose proof (xext_abs_le e u (Z.of_nat k - Z.of_nat i) Hu He). pose proof (Z.abs_nonneg (nthZ s i)). nia.
  - rewrite nthZ_overflow by (rewrite pmul_length; lia). pose proof (l1norm_nonneg s). cbn. nia.
Qed.

Lemma psum_list_length n l : (forall x, In x l -> length x = n) -> length (psum n l) = n.
Proof.
  induction l as [|h t IH]; intros H; cbn [psum fold_right]; [apply pzero_length|].
  rewrite padd_length. fold (psum n t). rewrite IH by (intros; apply H; right; assumption).
  rewrite (H h (or_introl eq_refl)). lia.
Qed.

(* C07 butterfly networks, base layer: congruence library, powers / sums, the primitive u64 operations,
   list plumbing for blocks / levels / butterflies. *)
From PV Require Import Base.MachineInt Model.DftAbs Model.C07Ntt120 Model.C07NttNet Proofs.C07Ring.
From Coq Require Import Morphisms Setoid.
From PV Require Export Proofs.ListFacts.
Open Scope Z_scope.

(* (an inductive wrapper so that `rewrite` treats it as a setoid relation and never unfolds it) *)
Inductive cong (q a b : Z) : Prop := cong_intro : a mod q = b mod q -> cong q a b.
Lemma cong_unfold q a b : cong q a b <-> a mod q = b mod q.
Proof. split; [intros [H]; exact H|apply cong_intro]. Qed.

Lemma cong_refl q a : cong q a a. Proof. constructor; reflexivity. Qed.
Lemma cong_sym q a b : cong q a b -> cong q b a. Proof. intros [H]; constructor; congruence. Qed.
Lemma cong_trans q a b c : cong q a b -> cong q b c -> cong q a c. Proof. intros [H] [H']; constructor; congruence. Qed.
#[export] Instance cong_equiv q : Equivalence (cong q).
Proof. split; [exact (cong_refl q)|exact (cong_sym q)|exact (cong_trans q)]. Qed.
#[export] Instance cong_add q : Proper (cong q ==> cong q ==> cong q) Z.add.
Proof. intros a a' [Ha] b b' [Hb]; constructor. rewrite (Zplus_mod a b), (Zplus_mod a' b'), Ha, Hb. reflexivity. Qed.
#[export] Instance cong_sub q : Proper (cong q ==> cong q ==> cong q) Z.sub.
Proof. intros a a' [Ha] b b' [Hb]; constructor. rewrite (Zminus_mod a b), (Zminus_mod a' b'), Ha, Hb. reflexivity. Qed.
#[export] Instance cong_mul q : Proper (cong q ==> cong q ==> cong q) Z.mul.
Proof. intros a a' [Ha] b b' [Hb]; constructor. rewrite (Zmult_mod a b), (Zmult_mod a' b'), Ha, Hb. reflexivity. Qed.
#[export] Instance cong_opp q : Proper (cong q ==> cong q) Z.opp.
Proof. intros a a' Ha. rewrite <- (Z.sub_0_l a), <- (Z.sub_0_l a'). rewrite Ha. reflexivity. Qed.

Lemma cong_mod q a : cong q (a mod q) a.
Proof. constructor. apply Zmod_mod. Qed.
Lemma cong_mult_q q a k : cong q (a + k * q) a.
Proof. constructor. apply Z_mod_plus_full. Qed.
Lemma cong_0_mul q k : cong q (k * q) 0.
Proof. constructor. rewrite Z_mod_mult, Zmod_0_l. reflexivity. Qed.

Fixpoint zp (z : Z) (e : nat) : Z := match e with O => 1 | S e' => z * zp z e' end.

Lemma zp_pow z e : zp z e = z ^ Z.of_nat e.
Proof.
  induction e as [|e IH]; [reflexivity|].
  rewrite Nat2Z.inj_succ, Z.pow_succ_r by lia. cbn [zp]. rewrite IH. reflexivity.
Qed.
Lemma zp_add z a b : zp z (a + b) = zp z a * zp z b.
Proof. induction a as [|a IH]; cbn [zp Nat.add]; [ring|rewrite IH; ring]. Qed.
Lemma zp_1_l e : zp 1 e = 1.
Proof. induction e as [|e IH]; cbn [zp]; [reflexivity|rewrite IH; reflexivity]. Qed.
Lemma zp_mul_base x y e : zp (x * y) e = zp x e * zp y e.
Proof. induction e as [|e IH]; cbn [zp]; [ring|rewrite IH; ring]. Qed.
Lemma zp_mul z a b : zp z (a * b) = zp (zp z a) b.
Proof.
  induction b as [|b IH]; [rewrite Nat.mul_0_r; reflexivity|].
  rewrite Nat.mul_succ_r, zp_add, IH. cbn [zp]. ring.
Qed.
Lemma zp_1_r z : zp z 1 = z. Proof. cbn [zp]; ring. Qed.
#[export] Instance cong_zp q : Proper (cong q ==> eq ==> cong q) zp.
Proof.
  intros a a' Ha e e' <-. induction e as [|e IH]; cbn [zp]; [reflexivity|]. apply cong_mul; [exact Ha|exact IH].
Qed.
Lemma zp_m1_even e : zp (-1) (2 * e) = 1.
Proof. rewrite zp_mul. cbn [zp]. replace (-1 * (-1 * 1)) with 1 by ring. apply zp_1_l. Qed.
Lemma zp_m1_odd e : zp (-1) (2 * e + 1) = -1.
Proof. rewrite zp_add, zp_m1_even. reflexivity. Qed.

Lemma pow2n_S m : pow2n (S m) = (2 * pow2n m)%nat.
Proof. unfold pow2n. rewrite Nat.pow_succ_r'. reflexivity. Qed.
Lemma pow2n_pos m : (0 < pow2n m)%nat.
Proof. induction m as [|m IH]; [unfold pow2n; cbn; lia|rewrite pow2n_S; lia]. Qed.
Lemma pow2n_0 : pow2n 0 = 1%nat. Proof. reflexivity. Qed.
Lemma pow2n_Z m : Z.of_nat (pow2n m) = 2 ^ Z.of_nat m.
Proof.
  induction m as [|m IH]; [reflexivity|].
  rewrite pow2n_S, Nat2Z.inj_mul, IH. replace (Z.of_nat (S m)) with (Z.succ (Z.of_nat m)) by lia.
  rewrite Z.pow_succ_r by lia. reflexivity.
Qed.

Lemma zsum_cong q f g n : (forall i, (i < n)%nat -> cong q (f i) (g i)) -> cong q (zsum f n) (zsum g n).
Proof.
  induction n as [|n IH]; intros H; [reflexivity|].
  rewrite !zsum_S. rewrite IH by (intros; apply H; lia). rewrite (H n) by lia. reflexivity.
Qed.
Lemma zsum_double f n : zsum f (2 * n) = zsum (fun i => f i + f (n + i)%nat) n.
Proof. replace (2 * n)%nat with (n + n)%nat by lia. rewrite zsum_app, zsum_add. reflexivity. Qed.
Lemma zsum_even_odd f n : zsum f (2 * n) = zsum (fun i => f (2 * i)%nat) n + zsum (fun i => f (2 * i + 1)%nat) n.
Proof.
  induction n as [|n IH]; [reflexivity|].
  replace (2 * S n)%nat with (S (S (2 * n))) by lia. rewrite !zsum_S, IH.
  replace (S (2 * n)) with (2 * n + 1)%nat by lia. ring.
Qed.
Lemma w64_wrapu x : w64 x = wrapu 64 x.
Proof. unfold w64, ones64, wrapu. apply Z.land_ones. lia. Qed.
Lemma w64_u64 x : w64 x = u64 x. Proof. apply w64_wrapu. Qed.
Lemma w64_small x : 0 <= x < 2 ^ 64 -> w64 x = x.
Proof. intros H. rewrite w64_wrapu. unfold wrapu. apply Z.mod_small. exact H. Qed.
Lemma land_mask x k : 0 <= k -> Z.land x (2 ^ k - 1) = x mod 2 ^ k.
Proof. intros H. rewrite <- Z.land_ones by exact H. f_equal. rewrite Z.ones_equiv. lia. Qed.
Lemma land_ones32 x : Z.land x ones32 = x mod 2 ^ 32.
Proof. unfold ones32. apply Z.land_ones. lia. Qed.
Lemma hi_div x k : 0 <= k -> hi x k = x / 2 ^ k.
Proof. intros H. unfold hi. apply Z.shiftr_div_pow2. exact H. Qed.
Lemma isu_true x : isu x = true <-> 0 <= x < 2 ^ 64.
Proof. unfold isu. rewrite andb_true_iff, Z.leb_le, Z.ltb_lt. tauto. Qed.

(* x = 2^k (x / 2^k) + x mod 2^k, both parts non-negative and bounded *)
Lemma split_parts x k U : 0 <= k -> 0 <= x <= U ->
  0 <= x mod 2 ^ k <= 2 ^ k - 1 /\ 0 <= x / 2 ^ k <= U / 2 ^ k.
Proof.
  intros Hk [H0 HU]. pose proof (pow2_pos k Hk) as Hp.
  pose proof (Z.mod_pos_bound x (2 ^ k) Hp).
  split; [lia|]. split; [apply Z.div_pos; lia|apply Z.div_le_mono; lia].
Qed.
Lemma mul_bounds a b A B : 0 <= a <= A -> 0 <= b <= B -> 0 <= a * b <= A * B.
Proof. intros [? ?] [? ?]. split; [apply Z.mul_nonneg_nonneg; lia|apply Z.mul_le_mono_nonneg; lia]. Qed.

(* lists: the two directions of List.Forall_nth at a fixed default *)
Lemma Forall_nth' (P : Z -> Prop) l : (forall i, (i < length l)%nat -> P (nth i l 0)) -> Forall P l.
Proof. intros H. apply Forall_nth. intros i d Hi. rewrite (nth_indep l d 0 Hi). apply H. exact Hi. Qed.
Lemma Forall_nth_elim {A} (P : A -> Prop) l i d : Forall P l -> (i < length l)%nat -> P (nth i l d).
Proof. intros H Hi. apply (proj1 (Forall_nth P l) H i d Hi). Qed.

Definition lcong (q : Z) (x y : list Z) : Prop := length x = length y /\ forall i, cong q (nth i x 0) (nth i y 0).

Lemma lcong_refl q x : lcong q x x. Proof. split; [reflexivity|intros; reflexivity]. Qed.
Lemma lcong_sym q x y : lcong q x y -> lcong q y x.
Proof. intros [H1 H2]. split; [symmetry; exact H1|intros i; symmetry; apply H2]. Qed.
Lemma lcong_trans q x y z : lcong q x y -> lcong q y z -> lcong q x z.
Proof. intros [H1 H2] [H3 H4]. split; [congruence|intros i; rewrite H2; apply H4]. Qed.
Lemma lcong_firstn q k x y : lcong q x y -> lcong q (firstn k x) (firstn k y).
Proof.
  intros [H1 H2]. split; [rewrite !firstn_length, H1; reflexivity|].
  intros i. destruct (Nat.ltb_spec i k) as [Hi|Hi].
  - rewrite !nth_firstn_lt by exact Hi. apply H2.
  - rewrite !nth_overflow by (rewrite firstn_length; lia). reflexivity.
Qed.
Lemma lcong_skipn q k x y : lcong q x y -> lcong q (skipn k x) (skipn k y).
Proof. intros [H1 H2]. split; [rewrite !skipn_length, H1; reflexivity|]. intros i. rewrite !nth_skipn. apply H2. Qed.
Lemma lcong_app q x y x' y' : lcong q x x' -> lcong q y y' -> lcong q (x ++ y) (x' ++ y').
Proof.
  intros [H1 H2] [H3 H4]. split; [rewrite !app_length; congruence|].
  intros i. destruct (Nat.ltb_spec i (length x)) as [Hi|Hi].
  - rewrite !app_nth1 by lia. apply H2.
  - rewrite !app_nth2 by lia. rewrite H1. apply H4.
Qed.

Lemma blocks_length cnt sz x : length (blocks cnt sz x) = cnt.
Proof. revert x; induction cnt as [|c IH]; intros x; cbn [blocks length]; [reflexivity|rewrite IH; reflexivity]. Qed.
Lemma blocks_sizes cnt sz x : length x = (cnt * sz)%nat -> Forall (fun b => length b = sz) (blocks cnt sz x).
Proof.
  revert x; induction cnt as [|c IH]; intros x H; cbn [blocks]; constructor.
  - rewrite firstn_length. lia.
  - apply IH. rewrite skipn_length. lia.
Qed.
Lemma concat_blocks cnt sz x : length x = (cnt * sz)%nat -> concat (blocks cnt sz x) = x.
Proof.
  revert x; induction cnt as [|c IH]; intros x H; cbn [blocks concat].
  - destruct x; [reflexivity|cbn in H; lia].
  - rewrite IH by (rewrite skipn_length; lia). apply firstn_skipn.
Qed.
Lemma blocks_app c1 c2 sz a b : length a = (c1 * sz)%nat ->
  blocks (c1 + c2) sz (a ++ b) = blocks c1 sz a ++ blocks c2 sz b.
Proof.
  revert a; induction c1 as [|c IH]; intros a H.
  - destruct a; [reflexivity|cbn in H; lia].
  - cbn [Nat.add blocks app]. rewrite firstn_app, skipn_app.
    assert (Hs : (sz - length a = 0)%nat) by (cbn in H; lia). rewrite Hs.
    cbn [firstn skipn]. rewrite app_nil_r. f_equal. apply IH. rewrite skipn_length. cbn in H. lia.
Qed.
Lemma blocks_one sz x : length x = sz -> blocks 1 sz x = [x].
Proof. intros H. cbn [blocks]. rewrite firstn_all2 by lia. reflexivity. Qed.
Lemma blocks_two sz x : length x = (2 * sz)%nat -> blocks 2 sz x = [firstn sz x; skipn sz x].
Proof.
  intros H. cbn [blocks]. f_equal. f_equal. apply firstn_all2. rewrite skipn_length. lia.
Qed.
(* the blocks of a concatenation of equal-size pieces are the pieces *)
Lemma blocks_concat sz (l : list (list Z)) : Forall (fun b => length b = sz) l ->
  blocks (length l) sz (concat l) = l.
Proof.
  induction l as [|b l IH]; intros H; [reflexivity|].
  inversion H as [|? ? Hb Hl]; subst. cbn [length concat].
  change (S (length l)) with (1 + length l)%nat. rewrite blocks_app by lia.
  rewrite blocks_one by reflexivity. rewrite IH by exact Hl. reflexivity.
Qed.
Lemma concat_length_const sz (l : list (list Z)) : Forall (fun b => length b = sz) l ->
  length (concat l) = (length l * sz)%nat.
Proof.
  induction l as [|b l IH]; intros H; [reflexivity|].
  inversion H; subst. cbn [concat length]. rewrite app_length, IH by assumption. lia.
Qed.
Lemma level_length F cnt sz x : length x = (cnt * sz)%nat -> (forall b, length b = sz -> length (F b) = sz) ->
  length (level F cnt sz x) = (cnt * sz)%nat.
Proof.
  intros Hx HF. unfold level. rewrite (concat_length_const sz).
  - rewrite map_length, blocks_length. reflexivity.
  - rewrite Forall_map. eapply Forall_impl; [|apply blocks_sizes; exact Hx]. intros b Hb. apply HF. exact Hb.
Qed.
Lemma level_blocks F cnt sz x : length x = (cnt * sz)%nat -> (forall b, length b = sz -> length (F b) = sz) ->
  blocks cnt sz (level F cnt sz x) = map F (blocks cnt sz x).
Proof.
  intros Hx HF. unfold level.
  rewrite <- (blocks_length cnt sz x) at 1. rewrite <- (map_length F). apply blocks_concat.
  rewrite Forall_map. eapply Forall_impl; [|apply blocks_sizes; exact Hx]. intros b Hb. apply HF. exact Hb.
Qed.
(* 2c blocks of size s against c blocks of size 2s *)
Lemma blocks_pairs c s x : length x = (c * (2 * s))%nat ->
  blocks (2 * c) s x = flat_map (fun b => [firstn s b; skipn s b]) (blocks c (2 * s) x).
Proof.
  revert x; induction c as [|c IH]; intros x H; [reflexivity|].
  replace (2 * S c)%nat with (2 + 2 * c)%nat by lia.
  rewrite <- (firstn_skipn (2 * s) x) at 1.
  rewrite blocks_app by (rewrite firstn_length; lia).
  rewrite blocks_two by (rewrite firstn_length; lia).
  rewrite IH by (rewrite skipn_length; lia). reflexivity.
Qed.

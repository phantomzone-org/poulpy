(* C09 item 8: the size rule of the vector-level operations: limb j of the result is the limb-level map of
   limbs j of the operands, missing operand limbs read as zero limbs; out-of-place forms only see length r0. *)
From Coq Require Import Znumtheory.
From PV Require Import Base.MachineInt Model.Znx Model.Limbs Model.Ring Model.Poly
  Proofs.C09Lists Proofs.C09Ring Proofs.C09Sigma Proofs.C09Switch.
Open Scope Z_scope.

(* operand limb j, zero limb when the operand has fewer limbs *)
Definition lz (n : nat) (l : limbs) (j : nat) : list Z := if Nat.ltb j (length l) then lnth l j else zlimb n.

(* every limb has n words, every word is a w-bit value *)
Definition limbs_wf (w : Z) (n : nat) (l : limbs) : Prop :=
  forall j, (j < length l)%nat -> length (lnth l j) = n /\ Forall (in_range w) (lnth l j).
Definition limbs_len (n : nat) (l : limbs) : Prop :=
  forall j, (j < length l)%nat -> length (lnth l j) = n.

Lemma limbs_wf_len w n l : limbs_wf w n l -> limbs_len n l.
Proof. intros H j Hj. apply (H j Hj). Qed.

Lemma wadd_0_l w x : 1 <= w -> in_range w x -> wadd w 0 x = x.
Proof. intros; unfold wadd; rewrite Z.add_0_l; apply wrap_id; auto. Qed.
Lemma wadd_0_r w x : 1 <= w -> in_range w x -> wadd w x 0 = x.
Proof. intros; unfold wadd; rewrite Z.add_0_r; apply wrap_id; auto. Qed.
Lemma wsub_0_r w x : 1 <= w -> in_range w x -> wsub w x 0 = x.
Proof. intros; unfold wsub; rewrite Z.sub_0_r; apply wrap_id; auto. Qed.
Lemma wsub_0_l w x : wsub w 0 x = wneg w x.
Proof. unfold wsub, wneg. f_equal. Qed.
Lemma in_range_0 w : 1 <= w -> in_range w 0.
Proof. intros; unfold in_range; pose proof (pow2_pos (w - 1) ltac:(lia)); lia. Qed.

(* a word operation against the zero limb *)
Lemma map2_zeros_l (f : Z -> Z -> Z) (g : Z -> Z) n b :
  length b = n -> (forall i, (i < n)%nat -> f 0 (nthZ b i) = g (nthZ b i)) -> map2 f (zeros n) b = map g b.
Proof.
  intros Hl H. apply nthZ_ext; [rewrite map2_length, map_length, zeros_length, Hl; apply Nat.min_id|].
  intros i Hi. rewrite map2_length, zeros_length, Hl, Nat.min_id in Hi.
  rewrite nthZ_map2, nthZ_zeros, nthZ_map by (rewrite ?zeros_length; lia). apply H. exact Hi.
Qed.

Lemma map2_zeros_r (f : Z -> Z -> Z) n a :
  length a = n -> (forall i, (i < n)%nat -> f (nthZ a i) 0 = nthZ a i) -> map2 f a (zeros n) = a.
Proof.
  intros Hl H. apply nthZ_ext; [rewrite map2_length, zeros_length, Hl; apply Nat.min_id|].
  intros i Hi. rewrite map2_length, zeros_length, Hl, Nat.min_id in Hi.
  rewrite nthZ_map2, nthZ_zeros by (rewrite ?zeros_length; lia). apply H. exact Hi.
Qed.

Lemma vadd_zeros_l w n b :
  1 <= w -> length b = n -> Forall (in_range w) b -> vadd w (zeros n) b = b.
Proof.
  intros Hw Hl Hr. unfold vadd. rewrite (map2_zeros_l _ (fun y => y) n); [apply map_id|exact Hl|].
  intros i Hi. apply wadd_0_l; auto. apply Forall_nthZ; auto; lia.
Qed.

Lemma vadd_zeros_r w n a :
  1 <= w -> length a = n -> Forall (in_range w) a -> vadd w a (zeros n) = a.
Proof.
  intros Hw Hl Hr. apply map2_zeros_r; [exact Hl|].
  intros i Hi. apply wadd_0_r; auto. apply Forall_nthZ; auto; lia.
Qed.

Lemma vadd_zeros_zeros w n : 1 <= w -> vadd w (zeros n) (zeros n) = zeros n.
Proof.
  intros Hw. apply vadd_zeros_l; auto; [apply zeros_length|].
  apply Forall_of_nthZ. intros i _. rewrite nthZ_zeros. apply in_range_0; auto.
Qed.

Lemma vsub_zeros_r w n a :
  1 <= w -> length a = n -> Forall (in_range w) a -> vsub w a (zeros n) = a.
Proof.
  intros Hw Hl Hr. apply map2_zeros_r; [exact Hl|].
  intros i Hi. apply wsub_0_r; auto. apply Forall_nthZ; auto; lia.
Qed.

Lemma vsub_zeros_l w n b : length b = n -> vsub w (zeros n) b = vneg w b.
Proof. intros Hl. apply map2_zeros_l; [exact Hl|]. intros i _. apply wsub_0_l. Qed.

Lemma vneg_zeros w n : 1 <= w -> vneg w (zeros n) = zeros n.
Proof.
  intros Hw. unfold vneg.
  apply nthZ_ext; [rewrite map_length; reflexivity|].
  intros i Hi. rewrite map_length in Hi. rewrite nthZ_map by auto.
  rewrite nthZ_zeros. apply wneg_0; auto.
Qed.

Lemma vsub_zeros_zeros w n : 1 <= w -> vsub w (zeros n) (zeros n) = zeros n.
Proof. intros Hw. rewrite vsub_zeros_l by apply zeros_length. apply vneg_zeros; auto. Qed.

(* a limb operation `op` for which a missing operand reads as zeros; `tl` is what is stored of b beyond a (b itself for
   add, its negation for sub) *)
Lemma binop_size_rule n (op : list Z -> list Z -> list Z) (tl : list Z -> list Z) (P : list Z -> Prop) (a b : limbs) rsz :
  (forall j, (j < length a)%nat -> P (lnth a j)) -> (forall j, (j < length b)%nat -> P (lnth b j)) ->
  (forall v, P v -> op (zlimb n) v = tl v) -> (forall u, P u -> op u (zlimb n) = u) -> op (zlimb n) (zlimb n) = zlimb n ->
  build rsz (fun j =>
    if Nat.ltb j (Nat.min (length a) (length b)) then op (lnth a j) (lnth b j)
    else if Nat.ltb j (Nat.max (length a) (length b)) then (if Nat.leb (length a) (length b) then tl (lnth b j) else lnth a j)
    else zlimb n)
  = build rsz (fun j => op (lz n a j) (lz n b j)).
Proof.
  intros Ha Hb Hl Hr Hz. unfold build, lz. apply map_seq_ext. intros j _.
  destruct (Nat.ltb_spec j (length a)) as [Hja|Hja]; destruct (Nat.ltb_spec j (length b)) as [Hjb|Hjb].
  - destruct (Nat.ltb_spec j (Nat.min (length a) (length b))); [reflexivity|lia].
  - destruct (Nat.ltb_spec j (Nat.min (length a) (length b))); [lia|].
    destruct (Nat.ltb_spec j (Nat.max (length a) (length b))); [|lia].
    destruct (Nat.leb_spec (length a) (length b)); [lia|]. symmetry. apply Hr, Ha, Hja.
  - destruct (Nat.ltb_spec j (Nat.min (length a) (length b))); [lia|].
    destruct (Nat.ltb_spec j (Nat.max (length a) (length b))); [|lia].
    destruct (Nat.leb_spec (length a) (length b)); [|lia]. symmetry. apply Hl, Hb, Hjb.
  - destruct (Nat.ltb_spec j (Nat.min (length a) (length b))); [lia|].
    destruct (Nat.ltb_spec j (Nat.max (length a) (length b))); [lia|]. symmetry. exact Hz.
Qed.

Theorem vec_add_size_rule w n a b r0 :
  1 <= w -> limbs_wf w n a -> limbs_wf w n b ->
  vec_add w n a b r0 = build (length r0) (fun j => vadd w (lz n a j) (lz n b j)).
Proof.
  intros Hw Ha Hb. unfold vec_add. cbv zeta.
  apply (binop_size_rule n (vadd w) (fun v => v) (fun l => length l = n /\ Forall (in_range w) l)); auto.
  - intros v [Hl Hr]. apply vadd_zeros_l; auto.
  - intros u [Hl Hr]. apply vadd_zeros_r; auto.
  - apply vadd_zeros_zeros; auto.
Qed.

Theorem vec_sub_size_rule w n a b r0 :
  1 <= w -> limbs_wf w n a -> limbs_wf w n b ->
  vec_sub w n a b r0 = build (length r0) (fun j => vsub w (lz n a j) (lz n b j)).
Proof.
  intros Hw Ha Hb. unfold vec_sub. cbv zeta.
  apply (binop_size_rule n (vsub w) (vneg w) (fun l => length l = n /\ Forall (in_range w) l)); auto.
  - intros v [Hl Hr]. apply vsub_zeros_l; auto.
  - intros u [Hl Hr]. apply vsub_zeros_r; auto.
  - apply vsub_zeros_zeros; auto.
Qed.

Theorem vec_add_length w n a b r0 : length (vec_add w n a b r0) = length r0.
Proof. apply build_length. Qed.
Theorem vec_sub_length w n a b r0 : length (vec_sub w n a b r0) = length r0.
Proof. apply build_length. Qed.

Theorem vec_unary_size_rule n f a r0 :
  f (zlimb n) = zlimb n ->
  vec_unary n f a r0 = build (length r0) (fun j => f (lz n a j)).
Proof.
  intros Hf. unfold vec_unary, build, lz. apply map_seq_ext. intros j Hj.
  destruct (Nat.ltb j (length a)); auto.
Qed.

Theorem vec_unary_length n f a r0 : length (vec_unary n f a r0) = length r0.
Proof. apply build_length. Qed.

Theorem vec_negate_size_rule w n a r0 :
  1 <= w -> vec_unary n (vneg w) a r0 = build (length r0) (fun j => vneg w (lz n a j)).
Proof. intros Hw. apply vec_unary_size_rule. apply vneg_zeros; auto. Qed.

Lemma monomial_mul_zeros w p n : 1 <= w -> monomial_mul w p (zeros n) = zeros n.
Proof.
  intros Hw. apply nthZ_ext; [apply monomial_mul_length|].
  intros i Hi. rewrite monomial_mul_length in Hi. rewrite monomial_mul_nth by auto.
  rewrite nthZ_zeros. rewrite zeros_length in Hi.
  destruct (exp_decomp (Z.of_nat n) (Z.of_nat i - p) ltac:(lia)) as [q [t [Hk Ht]]].
  rewrite (ext_at_nat w (zeros n) _ q t) by (rewrite zeros_length; auto; lia).
  rewrite nthZ_zeros. destruct (Z.even q); [reflexivity | apply wneg_0; auto].
Qed.

Lemma sigma_zeros w g n : 1 <= w -> Z.gcd g (Z.of_nat n) = 1 -> sigma w g (zeros n) = zeros n.
Proof.
  intros Hw Hg. apply nthZ_ext; [apply sigma_length|].
  intros t Ht. rewrite sigma_length in Ht.
  assert (Hg' : Z.gcd g (Z.of_nat (length (zeros n))) = 1) by (rewrite zeros_length; auto).
  destruct (sg_pos_onto g (zeros n) t Hg' Ht) as [j [Hj <-]].
  rewrite sigma_nth by auto. unfold sg_val. rewrite !nthZ_zeros.
  destruct (_ <? _); [reflexivity | apply wneg_0; auto].
Qed.

Theorem vec_automorphism_size_rule_gcd w n g a r0 :
  1 <= w -> Z.gcd g (Z.of_nat n) = 1 -> limbs_len n a -> limbs_len n r0 ->
  vec_automorphism w n g a r0 = build (length r0) (fun j => sigma w g (lz n a j)).
Proof.
  intros Hw Hg Ha Hr. unfold vec_automorphism, build, lz, zlimb.
  apply map_seq_ext. intros j Hj.
  destruct (Nat.ltb_spec j (length a)) as [H|H].
  - apply automorphism_is_sigma_gcd; rewrite (Ha j H); auto.
  - symmetry; apply sigma_zeros; auto.
Qed.

Theorem vec_automorphism_size_rule w n m g a r0 :
  1 <= w -> 0 <= m -> Z.of_nat n = 2 ^ m -> Z.odd g = true -> limbs_len n a -> limbs_len n r0 ->
  vec_automorphism w n g a r0 = build (length r0) (fun j => sigma w g (lz n a j)).
Proof.
  intros Hw Hm Hn Ho Ha Hr. apply vec_automorphism_size_rule_gcd; auto.
  apply gcd2n_gcdn. rewrite Hn. apply odd_pow2_coprime; auto.
Qed.

(* out of place: two destinations with the same shape receive the same result *)
Theorem vec_automorphism_indep w n m g a r0 r1 :
  1 <= w -> 0 <= m -> Z.of_nat n = 2 ^ m -> Z.odd g = true ->
  limbs_len n a -> limbs_len n r0 -> limbs_len n r1 -> length r0 = length r1 ->
  vec_automorphism w n g a r0 = vec_automorphism w n g a r1.
Proof.
  intros Hw Hm Hn Ho Ha H0 H1 Hl.
  rewrite (vec_automorphism_size_rule w n m g a r0), (vec_automorphism_size_rule w n m g a r1) by auto.
  rewrite Hl. reflexivity.
Qed.

(* the limb map of vec_switch_ring, and that map on the zero limb (the size rule is in Props/C09.v) *)
Definition switch_spec (n_in n_out : nat) (l : list Z) : list Z :=
  if Nat.leb n_in n_out then embed n_out l else subsample n_out l.

Lemma embed_zeros n_out n_in : embed n_out (zeros n_in) = zeros n_out.
Proof.
  unfold embed. rewrite (zeros_as_map n_out). apply map_seq_ext. intros t Ht.
  rewrite nthZ_zeros. destruct (Nat.eqb _ 0); reflexivity.
Qed.

Lemma subsample_zeros n_out n_in : subsample n_out (zeros n_in) = zeros n_out.
Proof.
  unfold subsample. rewrite (zeros_as_map n_out). apply map_seq_ext. intros t Ht.
  apply nthZ_zeros.
Qed.

Lemma build_ext n (f g : nat -> list Z) :
  (forall j, (j < n)%nat -> f j = g j) -> build n f = build n g.
Proof. intros H. unfold build. apply map_seq_ext; auto. Qed.

(* boolean reflections, to discharge the shape hypotheses on concrete inputs *)
Definition limbs_wfb (w : Z) (n : nat) (l : limbs) : bool :=
  forallb (fun x => Nat.eqb (length x) n && forallb (in_rangeb w) x) l.
Definition limbs_lenb (n : nat) (l : limbs) : bool := forallb (fun x => Nat.eqb (length x) n) l.

Lemma limbs_wfb_sound w n l : limbs_wfb w n l = true -> limbs_wf w n l.
Proof.
  intros H j Hj. unfold limbs_wfb in H. rewrite forallb_forall in H.
  specialize (H (lnth l j) ltac:(apply nth_In; exact Hj)).
  apply andb_prop in H. destruct H as [H1 H2]. apply Nat.eqb_eq in H1.
  split; [exact H1 | apply Forall_in_rangeb; exact H2].
Qed.

Lemma limbs_lenb_sound n l : limbs_lenb n l = true -> limbs_len n l.
Proof.
  intros H j Hj. unfold limbs_lenb in H. rewrite forallb_forall in H.
  specialize (H (lnth l j) ltac:(apply nth_In; exact Hj)). apply Nat.eqb_eq in H. exact H.
Qed.

(* vec_automorphism_assign goes through a scratch limb with arbitrary prior content *)
Lemma limbs_len_Forall n (l : limbs) : limbs_len n l -> Forall (fun x => length x = n) l.
Proof.
  intros H. apply Forall_forall. intros x Hx.
  destruct (In_nth l x [] Hx) as [j [Hj <-]]. apply (H j Hj).
Qed.

Lemma automorphism_assign_loop w g n (r0 : limbs) : forall (t : list Z) (acc : limbs),
  Z.gcd g (Z.of_nat n) = 1 -> length t = n -> Forall (fun x => length x = n) r0 ->
  snd (fold_left (fun (s : list Z * limbs) l =>
         let t := znx_automorphism_onto w g (fst s) l in (t, snd s ++ [t])) r0 (t, acc))
  = acc ++ map (sigma w g) r0.
Proof.
  induction r0 as [|l r0 IH]; intros t acc Hg Ht Hr.
  - cbn [fold_left snd map]. rewrite app_nil_r. reflexivity.
  - inversion Hr as [|x xs Hl Hr']; subst.
    cbn [fold_left map]. cbv zeta. cbn [fst snd].
    rewrite (automorphism_is_sigma_gcd w g l t) by (rewrite ?Hl; auto).
    rewrite IH; auto.
    + rewrite <- app_assoc. reflexivity.
    + rewrite sigma_length. exact Hl.
Qed.

Theorem vec_automorphism_assign_spec w n m g t0 r0 :
  0 <= m -> Z.of_nat n = 2 ^ m -> Z.odd g = true -> length t0 = n -> limbs_len n r0 ->
  vec_automorphism_assign w g t0 r0 = map (sigma w g) r0.
Proof.
  intros Hm Hn Ho Ht Hr. unfold vec_automorphism_assign.
  rewrite (automorphism_assign_loop w g n); auto.
  - apply gcd2n_gcdn. rewrite Hn. apply odd_pow2_coprime; auto.
  - apply limbs_len_Forall; auto.
Qed.

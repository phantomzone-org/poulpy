(* Phase algebra of the gadget product on its functional form (Model/GadgetSpec.v), shared by C03 and C04.
   gadget_phase_exact: the phase of gp_spec under any secret family Sk is, exactly,
        sum_di sum_row sum_ci  A_ci[row*dsize+dsize-1-di] (x) 2^(di b) ktrunc(row, ci, di)
     where ktrunc is the window of key cell (row, ci) that iteration di reads.
   gadget_phase_rows: under the key-row hypothesis key_rows_ok (cell (row,ci) has phase 2^(P-(row+1) dsize b) src_ci + e + 2^P I)
        phase = sum_ci val(used limbs of column ci) (x) src_ci  +  gadget_err  +  2^P gadget_int
     with gadget_err = gadget_noise - gadget_trunc EXPLICIT (GadgetSpec.v), for every dsize, dnum, a_size, msize;
     gadget_phase_rows_in: the same for a key matrix that is well formed only where it is read (zero extension pmat_z).
   Before them: pval / phase_f as functions of the limb family (section Families).
   After them, the model: the digit loop keeps the invariant gp_inv, so Gadget.gadget_product computes the functional form
   gp_spec for every shape and every prior accumulator content (gadget_product_from_spec_grouped / _flat, gadget_product_spec);
   add_small_limb / add_small_cols: vec_znx_big_add_small_assign limb by limb. *)
From PV Require Import Base.MachineInt Model.Znx Model.Limbs Model.Flat Model.Ring Model.Poly Model.DftAbs Model.Gadget Model.GadgetSpec Proofs.C07Dft Proofs.C07Ring Proofs.GadgetDecomp.
Open Scope Z_scope.

(* pval and phase_f as functions of the limb family: lengths, additivity, zero limbs *)
Section Families.
Lemma pval_length P b n f size : (forall j, (j < size)%nat -> length (f j) = n) -> length (pval P b n f size) = n.
Proof. intros H. unfold pval. apply psumf_length. intros. rewrite pscale_length. auto. Qed.
Lemma pval_padd P b n f g size :
  pval P b n (fun j => padd (f j) (g j)) size = padd (pval P b n f size) (pval P b n g size).
Proof. unfold pval. rewrite <- psumf_padd. apply psumf_ext; intros j _. apply pscale_padd. Qed.
Lemma pval_psub P b n f g size : (forall j, (j < size)%nat -> length (f j) = n) -> (forall j, (j < size)%nat -> length (g j) = n) ->
  pval P b n (fun j => psub (f j) (g j)) size = psub (pval P b n f size) (pval P b n g size).
Proof.
  intros Hf Hg. unfold pval. rewrite <- psumf_psub by (intros; rewrite pscale_length; auto).
  apply psumf_ext; intros j _. apply pscale_psub.
Qed.
Lemma pval_cut P b n f k size : (k <= size)%nat -> (forall j, length (f j) = n) ->
  (forall j, (k <= j)%nat -> (j < size)%nat -> f j = pzero n) -> pval P b n f size = pval P b n f k.
Proof.
  intros Hk Hl Hz. unfold pval. apply psumf_cut; [exact Hk| |].
  - intros. rewrite pscale_length. apply Hl.
  - intros j H1 H2. rewrite Hz by assumption. apply pscale_pzero.
Qed.

Lemma phase_f_ext P b n cols size R R' Sk :
  (forall co j, (co < cols)%nat -> (j < size)%nat -> R co j = R' co j) ->
  phase_f P b n cols size R Sk = phase_f P b n cols size R' Sk.
Proof.
  intros H. unfold phase_f, pval. apply psumf_ext; intros co Hc. f_equal.
  apply psumf_ext; intros j Hj. f_equal. apply H; assumption.
Qed.
Lemma phase_f_length P b n cols size R Sk :
  (forall co j, (co < cols)%nat -> (j < size)%nat -> length (R co j) = n) -> length (phase_f P b n cols size R Sk) = n.
Proof. intros H. unfold phase_f. apply psumf_length. intros co Hc. rewrite pmul_length. apply pval_length. auto. Qed.
Lemma phase_f_padd P b n cols size R F Sk :
  (forall co j, (co < cols)%nat -> (j < size)%nat -> length (R co j) = n) ->
  (forall co j, (co < cols)%nat -> (j < size)%nat -> length (F co j) = n) ->
  (forall co, (co < cols)%nat -> length (Sk co) = n) ->
  phase_f P b n cols size (fun co j => padd (R co j) (F co j)) Sk = padd (phase_f P b n cols size R Sk) (phase_f P b n cols size F Sk).
Proof.
  intros HR HF HS. unfold phase_f. rewrite <- psumf_padd. apply psumf_ext; intros co Hc.
  rewrite pval_padd. apply pmul_padd_distr_r; rewrite !pval_length; auto.
Qed.
Lemma phase_f_psub P b n cols size R F Sk :
  (forall co j, (co < cols)%nat -> (j < size)%nat -> length (R co j) = n) ->
  (forall co j, (co < cols)%nat -> (j < size)%nat -> length (F co j) = n) ->
  (forall co, (co < cols)%nat -> length (Sk co) = n) ->
  phase_f P b n cols size (fun co j => psub (R co j) (F co j)) Sk = psub (phase_f P b n cols size R Sk) (phase_f P b n cols size F Sk).
Proof.
  intros HR HF HS. unfold phase_f.
  rewrite <- psumf_psub by (intros; rewrite pmul_length; apply pval_length; auto).
  apply psumf_ext; intros co Hc.
  rewrite pval_psub by auto. apply pmul_psub_distr_r; rewrite !pval_length; auto.
Qed.

(* zero-extended families: the value does not depend on how many zero limbs are counted *)
Lemma phase_f_cut P b n cols k size R Sk : (k <= size)%nat ->
  (forall co j, length (R co j) = n) -> (forall co j, (k <= j)%nat -> (j < size)%nat -> R co j = pzero n) ->
  phase_f P b n cols size R Sk = phase_f P b n cols k R Sk.
Proof.
  intros Hk HR Hz. unfold phase_f. apply psumf_ext; intros co _. f_equal.
  apply pval_cut; [exact Hk|apply HR|apply Hz].
Qed.

Lemma pone_length n : (1 <= n)%nat -> length (pone n) = n.
Proof. intros H. unfold pone, zeros. cbn [length]. rewrite repeat_length. lia. Qed.
Lemma pmul_pone_r n x : (1 <= n)%nat -> length x = n -> pmul x (pone n) = x.
Proof. intros Hn H. rewrite <- H. apply pmul_one_r. lia. Qed.

Lemma wf_tl n rin a_size (ct : cols_t) : wf_cols n (S rin) a_size ct -> wf_cols n rin a_size (tl ct).
Proof.
  intros [Hl Hc]. destruct ct as [|c0 r]; [cbn in Hl; lia|]. cbn [tl]. cbn [length] in Hl.
  split; [lia|]. intros ci Hci. apply (Hc (S ci)). lia.
Qed.
(* a family that lives on column 0 only: its phase under (1, s_1, ..) is its value *)
Lemma phase_f_col0 P b n cols size (F : nat -> list Z) Sk : (1 <= n)%nat -> (1 <= cols)%nat -> Sk 0%nat = pone n ->
  (forall j, length (F j) = n) ->
  phase_f P b n cols size (fun co j => if Nat.eqb co 0 then F j else pzero n) Sk = pval P b n F size.
Proof.
  intros Hn Hc HS0 HF. destruct cols as [|c]; [lia|]. unfold phase_f. rewrite psumf_shift.
  2:{ intros co _. rewrite pmul_length. apply pval_length. intros j _. destruct (Nat.eqb co 0); plen. }
  cbn [Nat.eqb]. rewrite HS0, pmul_pone_r by (try apply pval_length; auto).
  rewrite psumf_zero; [apply padd_pzero_r, pval_length; auto|].
  intros i _. rewrite (pval_cut P b n (fun _ => pzero n) 0 size) by (intros; first [lia | apply pzero_length | reflexivity]).
  apply pmul_pzero_l.
Qed.
End Families.
#[export] Hint Resolve pval_length phase_f_length : plen.
#[export] Hint Extern 1 (length (pval_used _ _ _ _ _ _ _ _) = _) => unfold pval_used : plen.

Section PhaseExact.
Variables (P b : Z) (n cin cols_out msize a_size dsize dnum : nat) (clamp : bool).
Variable A : nat -> nat -> list Z.
Variable K : pmat.
Variable Sk : nat -> list Z.
Hypothesis HA : forall ci l, length (A ci l) = n.
Hypothesis HK : forall q c, length (K q c) = n.
Hypothesis HS : forall co, length (Sk co) = n.
Hypothesis Hb : 0 <= b.
Hypothesis HP : Z.of_nat msize * b <= P.

Let w (j : nat) : Z := 2 ^ (P - (Z.of_nat j + 1) * b).
Let L (di : nat) : nat := win_len msize dsize di.
Let idx (row di : nat) : nat := (row * dsize + (dsize - di - 1))%nat.
Let R (di : nat) : nat := rows_used a_size dsize dnum di clamp.
(* the window of cell q seen by iteration di, in output column co *)
Let kw (q di co : nat) : list Z :=
  psumf n (fun i => pscale (w (di + i)) (K q ((di + i) * cols_out + co)%nat)) (L di).

Lemma w_split di i : (di + i < msize)%nat -> w i = 2 ^ (Z.of_nat di * b) * w (di + i).
Proof.
  intros H. unfold w.
  assert (H1 : 0 <= Z.of_nat di * b) by (apply Z.mul_nonneg_nonneg; lia).
  assert (H2 : (Z.of_nat (di + i) + 1) * b <= Z.of_nat msize * b) by (apply Z.mul_le_mono_nonneg_r; lia).
  rewrite <- Z.pow_add_r by lia. f_equal. lia.
Qed.

Lemma L_lt di j : (j < L di)%nat -> (di + j < msize)%nat.
Proof. unfold L, win_len. lia. Qed.
Lemma L_le di : (L di <= msize)%nat.
Proof. unfold L, win_len. lia. Qed.

Lemma cell_window q di co :
  psumf n (fun j => pscale (w j) (K q ((j + di) * cols_out + co)%nat)) (L di) = pscale (2 ^ (Z.of_nat di * b)) (kw q di co).
Proof.
  unfold kw. rewrite pscale_psumf. apply psumf_ext; intros j Hj.
  pose proof (L_lt di j Hj). rewrite pscale_pscale, <- w_split by lia. rewrite (Nat.add_comm j di). reflexivity.
Qed.

Lemma term_window co di :
  psumf n (fun j => pscale (w j) (gp_term n cin cols_out msize a_size dsize dnum clamp A K co j di)) msize
  = psumf n (fun row => psumf n (fun ci => pmul (A ci (idx row di)) (pscale (2 ^ (Z.of_nat di * b)) (kw (row * cin + ci) di co))) cin) (R di).
Proof.
  unfold gp_term.
  rewrite (psumf_ext n _ (fun j => if Nat.ltb j (sz_r msize dsize di) && Nat.ltb (j + di) msize
                                  then pscale (w j) (gp_rows n cin cols_out a_size dsize dnum clamp A K co j di) else pzero n))
    by (intros j _; destruct (_ && _); [reflexivity|apply pscale_pzero]).
  rewrite (psumf_cond n _ _ (L di) msize).
  - unfold gp_rows. fold (R di).
    rewrite (psumf_ext n _ (fun j => psumf n (fun row => psumf n (fun ci =>
              pmul (A ci (idx row di)) (pscale (w j) (K (row * cin + ci)%nat ((j + di) * cols_out + co)%nat))) cin) (R di))).
    2:{ intros j _. rewrite pscale_psumf. apply psumf_ext; intros row _. rewrite pscale_psumf.
        apply psumf_ext; intros ci _. rewrite pscale_pmul_r. reflexivity. }
    rewrite psumf_swap. apply psumf_ext; intros row _.
    rewrite psumf_swap. apply psumf_ext; intros ci _.
    rewrite <- pmul_psumf_l by plen. rewrite cell_window. reflexivity.
  - apply L_le.
  - unfold gp_rows; plen.
  - intros j Hj. unfold L, win_len.
    destruct (Nat.ltb_spec j (sz_r msize dsize di)); destruct (Nat.ltb_spec (j + di) msize);
      destruct (Nat.ltb_spec j (Nat.min (sz_r msize dsize di) (msize - di))); cbn [andb]; try reflexivity; lia.
Qed.

Lemma kw_ktrunc q di :
  psumf n (fun co => pmul (kw q di co) (Sk co)) cols_out = ktrunc P b n cols_out msize dsize K Sk q di.
Proof. reflexivity. Qed.

Lemma digit_window di :
  psumf n (fun co => pmul (psumf n (fun j => pscale (w j) (gp_term n cin cols_out msize a_size dsize dnum clamp A K co j di)) msize) (Sk co)) cols_out
  = psumf n (fun row => psumf n (fun ci =>
      pmul (A ci (idx row di)) (pscale (2 ^ (Z.of_nat di * b)) (ktrunc P b n cols_out msize dsize K Sk (row * cin + ci)%nat di))) cin) (R di).
Proof.
  rewrite (psumf_ext n _ (fun co => psumf n (fun row => psumf n (fun ci =>
            pmul (A ci (idx row di)) (pmul (pscale (2 ^ (Z.of_nat di * b)) (kw (row * cin + ci) di co)) (Sk co))) cin) (R di))).
  2:{ intros co _. rewrite term_window. rewrite pmul_psumf_r by (unfold kw; plen).
      apply psumf_ext; intros row _. rewrite pmul_psumf_r by (unfold kw; plen).
      apply psumf_ext; intros ci _. apply pmul_assoc; rewrite HA; unfold kw; plen. }
  rewrite psumf_swap. apply psumf_ext; intros row _.
  rewrite psumf_swap. apply psumf_ext; intros ci _.
  rewrite <- pmul_psumf_l by (unfold kw; plen).
  f_equal. rewrite <- kw_ktrunc, pscale_psumf. apply psumf_ext; intros co _.
  apply pscale_pmul_l.
Qed.

(* the phase of the functional form, exactly *)
Theorem gadget_phase_exact :
  phase_f P b n cols_out msize (gp_spec n cin cols_out msize a_size dsize dnum clamp A K) Sk
  = psumf n (fun di => psumf n (fun row => psumf n (fun ci =>
      pmul (A ci (row * dsize + (dsize - di - 1))%nat)
           (pscale (2 ^ (Z.of_nat di * b)) (ktrunc P b n cols_out msize dsize K Sk (row * cin + ci)%nat di))) cin)
      (rows_used a_size dsize dnum di clamp)) dsize.
Proof.
  unfold phase_f, pval, gp_spec.
  rewrite (psumf_ext n _ (fun co => psumf n (fun di =>
     pmul (psumf n (fun j => pscale (w j) (gp_term n cin cols_out msize a_size dsize dnum clamp A K co j di)) msize) (Sk co)) dsize)).
  2:{ intros co _.
      rewrite (psumf_ext n _ (fun j => psumf n (fun di => pscale (w j) (gp_term n cin cols_out msize a_size dsize dnum clamp A K co j di)) dsize))
        by (intros; apply pscale_psumf).
      rewrite psumf_swap. apply pmul_psumf_r; [apply HS|]. unfold gp_term, gp_rows. plen. }
  rewrite psumf_swap. apply psumf_ext; intros di _. apply digit_window.
Qed.
End PhaseExact.


Section MoreSums.
Lemma nth_psumf_total n f m k : (forall i, length (f i) = n) -> nth k (psumf n f m) 0 = zsum (fun i => nth k (f i) 0) m.
Proof. intros H. apply psumf_coeff. auto. Qed.

Lemma rows_used_eq a_size dsize dnum di clamp : rows_used a_size dsize dnum di clamp = Nat.min ((a_size + di) / dsize) dnum.
Proof. unfold rows_used, sz_a. destruct clamp; lia. Qed.

Lemma digit_index_ge (len dsize di row : nat) : (1 <= dsize)%nat -> (di < dsize)%nat ->
  ((len + di) / dsize <= row)%nat -> (len <= row * dsize + (dsize - di - 1))%nat.
Proof.
  intros Hd Hdi H.
  destruct (Nat.le_gt_cases len (row * dsize + (dsize - di - 1))) as [G|G]; [exact G|exfalso].
  assert (dsize * S row <= len + di)%nat by nia.
  apply Nat.div_le_lower_bound in H0; lia.
Qed.
End MoreSums.

Section PhaseRows.
Variables (P b : Z) (n cin cols_out msize a_size dsize dnum : nat) (clamp : bool).
Variable A : nat -> nat -> list Z.
Variable K : pmat.
Variable Sk : nat -> list Z.
Variables (src : nat -> list Z) (e I : nat -> nat -> list Z).
Hypothesis Hd : (1 <= dsize)%nat.
Hypothesis HA : forall ci l, length (A ci l) = n.
Hypothesis Hz : forall ci l, (a_size <= l)%nat -> A ci l = pzero n.
Hypothesis HK : forall q c, length (K q c) = n.
Hypothesis HS : forall co, length (Sk co) = n.
Hypothesis Hsrc : forall ci, length (src ci) = n.
Hypothesis He : forall row ci, length (e row ci) = n.
Hypothesis HI : forall row ci, length (I row ci) = n.
Hypothesis Hb : 0 <= b.
Hypothesis HP : Z.of_nat msize * b <= P.
Hypothesis HP2 : Z.of_nat dnum * Z.of_nat dsize * b <= P.
Hypothesis key_row : key_rows_ok P b n cin cols_out msize dsize dnum K Sk src e I.

Let idx (row di : nat) : nat := (row * dsize + (dsize - di - 1))%nat.
Let cd (di : nat) : Z := 2 ^ (Z.of_nat di * b).
Let tsum (F : nat -> nat -> nat -> list Z) : list Z :=
  psumf n (fun di => psumf n (fun row => psumf n (fun ci => F di row ci) cin) dnum) dsize.

Lemma tsum_ext F G : (forall di row ci, (di < dsize)%nat -> (row < dnum)%nat -> (ci < cin)%nat -> F di row ci = G di row ci) ->
  tsum F = tsum G.
Proof. intros H. unfold tsum. apply psumf_ext; intros di Hdi. apply psumf_ext; intros row Hrow. apply psumf_ext; intros ci Hci. auto. Qed.

Lemma tsum_padd F G : tsum (fun di row ci => padd (F di row ci) (G di row ci)) = padd (tsum F) (tsum G).
Proof.
  unfold tsum. rewrite <- psumf_padd. apply psumf_ext; intros di _.
  rewrite <- psumf_padd. apply psumf_ext; intros row _. apply psumf_padd.
Qed.

Lemma tsum_pscale c F : tsum (fun di row ci => pscale c (F di row ci)) = pscale c (tsum F).
Proof.
  unfold tsum. rewrite pscale_psumf. apply psumf_ext; intros di _.
  rewrite pscale_psumf. apply psumf_ext; intros row _. rewrite pscale_psumf. reflexivity.
Qed.

Lemma tsum_length F : (forall di row ci, length (F di row ci) = n) -> length (tsum F) = n.
Proof. intros H. unfold tsum. plen. Qed.

Lemma kwin_length q lo len : length (kwin P b n cols_out K Sk q lo len) = n.
Proof. unfold kwin. plen. Qed.

Lemma kwin_split q lo l1 l2 :
  kwin P b n cols_out K Sk q lo (l1 + l2) = padd (kwin P b n cols_out K Sk q lo l1) (kwin P b n cols_out K Sk q (lo + l1) l2).
Proof.
  unfold kwin. rewrite <- psumf_padd. apply psumf_ext; intros co _.
  rewrite psumf_app by plen.
  match goal with |- pmul (padd ?x ?y) _ = _ =>
    assert (Lx : length x = n) by plen; assert (Ly : length y = n) by plen end.
  rewrite pmul_padd_distr_r by (rewrite Lx; auto).
  do 2 f_equal. apply psumf_ext; intros i _. rewrite Nat.add_assoc. reflexivity.
Qed.

Lemma ktrunc_length q di : length (ktrunc P b n cols_out msize dsize K Sk q di) = n.
Proof. apply kwin_length. Qed.
Lemma khigh_length q di : length (khigh P b n cols_out msize dsize K Sk q di) = n.
Proof. apply kwin_length. Qed.
Lemma klow_int_length q di : length (klow_int b n cols_out msize K Sk q di) = n.
Proof. unfold klow_int. plen. Qed.
Lemma kphase_length q : length (kphase P b n cols_out msize K Sk q) = n.
Proof. apply kwin_length. Qed.

(* the key limbs below di, rescaled by 2^(di b), are a multiple of 2^P *)
Lemma klow_scaled q di :
  pscale (cd di) (kwin P b n cols_out K Sk q 0 (Nat.min di msize)) = pscale (2 ^ P) (klow_int b n cols_out msize K Sk q di).
Proof.
  unfold kwin, klow_int. rewrite !pscale_psumf. apply psumf_ext; intros co _.
  rewrite <- !pscale_pmul_l. f_equal. rewrite !pscale_psumf. apply psumf_ext; intros j Hj.
  rewrite !pscale_pscale. cbn [Nat.add]. f_equal. unfold cd.
  assert (H1 : 0 <= Z.of_nat di * b) by (apply Z.mul_nonneg_nonneg; lia).
  assert (H2 : (Z.of_nat j + 1) * b <= Z.of_nat msize * b) by (apply Z.mul_le_mono_nonneg_r; lia).
  assert (H3 : 0 <= Z.of_nat (di - j - 1) * b) by (apply Z.mul_nonneg_nonneg; lia).
  assert (0 <= P) by nia.
  rewrite <- !Z.pow_add_r by lia. f_equal.
  replace (Z.of_nat (di - j - 1)) with (Z.of_nat di - Z.of_nat j - 1) by lia. ring.
Qed.

(* the three parts of a key cell as iteration di sees it *)
Lemma cell_split q di :
  pscale (cd di) (kphase P b n cols_out msize K Sk q)
  = padd (padd (pscale (2 ^ P) (klow_int b n cols_out msize K Sk q di))
               (pscale (cd di) (ktrunc P b n cols_out msize dsize K Sk q di)))
         (pscale (cd di) (khigh P b n cols_out msize dsize K Sk q di)).
Proof.
  unfold kphase, ktrunc, khigh.
  set (L := win_len msize dsize di).
  assert (HL : (L = 0 \/ di + L <= msize)%nat) by (unfold L, win_len; lia).
  replace msize with (Nat.min di msize + (L + (msize - (di + L))))%nat at 1 by lia.
  rewrite kwin_split, kwin_split. cbn [Nat.add].
  rewrite <- padd_assoc, !pscale_padd, klow_scaled.
  assert (E2 : kwin P b n cols_out K Sk q (Nat.min di msize) L = kwin P b n cols_out K Sk q di L).
  { destruct (Nat.le_gt_cases di msize) as [G|G]; [rewrite (Nat.min_l di msize G); reflexivity|].
    replace L with 0%nat by lia. reflexivity. }
  assert (E3 : kwin P b n cols_out K Sk q (Nat.min di msize + L) (msize - (di + L))
             = kwin P b n cols_out K Sk q (di + L) (msize - (di + L))).
  { destruct (Nat.le_gt_cases di msize) as [G|G]; [rewrite (Nat.min_l di msize G); reflexivity|].
    replace (msize - (di + L))%nat with 0%nat by lia. reflexivity. }
  rewrite E2, E3. reflexivity.
Qed.

Lemma A_beyond ci row di : (di < dsize)%nat -> ((a_size + di) / dsize <= row)%nat -> A ci (idx row di) = pzero n.
Proof. intros Hdi H. apply Hz. apply digit_index_ge; assumption. Qed.

Lemma rows_extend (G : nat -> nat -> list Z) di : (di < dsize)%nat -> (forall row ci, length (G row ci) = n) ->
  psumf n (fun row => psumf n (fun ci => pmul (A ci (idx row di)) (G row ci)) cin) (rows_used a_size dsize dnum di clamp)
  = psumf n (fun row => psumf n (fun ci => pmul (A ci (idx row di)) (G row ci)) cin) dnum.
Proof.
  intros Hdi HG. rewrite rows_used_eq. symmetry. apply psumf_cut; [lia|plen|].
  intros row H1 H2. apply psumf_zero. intros ci _.
  rewrite A_beyond by (try assumption; lia). apply pmul_pzero_l.
Qed.

Let X : list Z := tsum (fun di row ci => pmul (A ci (idx row di)) (pscale (cd di) (ktrunc P b n cols_out msize dsize K Sk (row * cin + ci)%nat di))).

Lemma phase_is_X :
  phase_f P b n cols_out msize (gp_spec n cin cols_out msize a_size dsize dnum clamp A K) Sk = X.
Proof.
  rewrite (gadget_phase_exact P b n cin cols_out msize a_size dsize dnum clamp A K Sk HA HK HS Hb HP).
  unfold X, tsum. apply psumf_ext; intros di Hdi.
  apply (rows_extend (fun row ci => pscale (2 ^ (Z.of_nat di * b)) (ktrunc P b n cols_out msize dsize K Sk (row * cin + ci)%nat di)) di Hdi).
  intros. rewrite pscale_length. apply ktrunc_length.
Qed.

Let KP : list Z := tsum (fun di row ci => pmul (A ci (idx row di)) (pscale (cd di) (kphase P b n cols_out msize K Sk (row * cin + ci)%nat))).

(* split of every cell into low / seen / dropped limbs *)
Lemma KP_split :
  KP = padd (padd (pscale (2 ^ P) (gadget_int_low b n cin cols_out msize dsize dnum A K Sk)) X)
            (gadget_trunc P b n cin cols_out msize dsize dnum A K Sk).
Proof.
  transitivity (padd (padd (pscale (2 ^ P) (tsum (fun di row ci => pmul (A ci (idx row di)) (klow_int b n cols_out msize K Sk (row * cin + ci)%nat di)))) X)
                     (tsum (fun di row ci => pmul (A ci (idx row di)) (pscale (cd di) (khigh P b n cols_out msize dsize K Sk (row * cin + ci)%nat di)))));
    [|reflexivity].
  unfold KP, X.
  rewrite <- tsum_pscale, <- !tsum_padd. apply tsum_ext; intros di row ci _ _ _.
  rewrite cell_split.
  rewrite !pmul_padd_distr_l by (rewrite ?HA, ?padd_length, ?pscale_length, ?klow_int_length, ?ktrunc_length, ?khigh_length; lia).
  rewrite pscale_pmul_r. reflexivity.
Qed.

(* the main term: the used limbs of every input column times what the rows encrypt *)
Lemma main_term :
  tsum (fun di row ci => pmul (A ci (idx row di)) (pscale (cd di) (pscale (2 ^ (P - (Z.of_nat row + 1) * Z.of_nat dsize * b)) (src ci))))
  = psumf n (fun ci => pmul (pval_used P b n a_size dsize dnum A ci) (src ci)) cin.
Proof.
  unfold tsum.
  rewrite (psumf_ext n _ (fun di => psumf n (fun ci => psumf n (fun row =>
     pmul (pscale (2 ^ (P - (Z.of_nat row + 1) * Z.of_nat dsize * b + Z.of_nat di * b)) (A ci (idx row di))) (src ci)) dnum) cin)).
  2:{ intros di _. rewrite psumf_swap. apply psumf_ext; intros ci _. apply psumf_ext; intros row Hrow.
      rewrite pscale_pscale, pscale_pmul_r, <- pscale_pmul_l. do 2 f_equal. unfold cd.
      assert (H1 : 0 <= Z.of_nat di * b) by (apply Z.mul_nonneg_nonneg; lia).
      assert (H2 : (Z.of_nat row + 1) * Z.of_nat dsize * b <= Z.of_nat dnum * Z.of_nat dsize * b).
      { apply Z.mul_le_mono_nonneg_r; [lia|]. apply Z.mul_le_mono_nonneg_r; lia. }
      rewrite <- Z.pow_add_r by lia. f_equal. ring. }
  rewrite psumf_swap. apply psumf_ext; intros ci _.
  rewrite (psumf_ext n _ (fun di => pmul (psumf n (fun row =>
     pscale (2 ^ (P - (Z.of_nat row + 1) * Z.of_nat dsize * b + Z.of_nat di * b)) (A ci (idx row di))) dnum) (src ci)))
    by (intros; symmetry; apply pmul_psumf_r; plen).
  rewrite <- pmul_psumf_r by plen. f_equal.
  unfold pval_used. rewrite <- (gadget_decomposition_poly P b n dsize dnum a_size (A ci) Hd (HA ci)).
  apply psumf_ext; intros di Hdi. apply psumf_cut; [lia|plen|].
  intros row H1 H2. pose proof (A_beyond ci row di Hdi ltac:(lia)) as E. unfold idx in E.
  unfold idx. rewrite E. apply pscale_pzero.
Qed.

Lemma noise_term :
  tsum (fun di row ci => pmul (A ci (idx row di)) (pscale (cd di) (e row ci))) = gadget_noise b n cin dsize dnum A e.
Proof.
  unfold tsum, gadget_noise. rewrite psumf_swap. apply psumf_ext; intros row _.
  rewrite psumf_swap. apply psumf_ext; intros ci _.
  rewrite (psumf_ext n _ (fun di => pmul (pscale (cd di) (A ci (idx row di))) (e row ci)))
    by (intros; rewrite pscale_pmul_r, <- pscale_pmul_l; reflexivity).
  rewrite <- pmul_psumf_r by plen. f_equal.
  unfold digit. rewrite (psumf_rev n (fun t => pscale (2 ^ (Z.of_nat (dsize - 1 - t) * b)) (A ci (row * dsize + t)%nat))) by plen.
  apply psumf_ext; intros di Hdi. unfold cd, idx.
  replace (dsize - 1 - (dsize - 1 - di))%nat with di by lia.
  replace (dsize - 1 - di)%nat with (dsize - di - 1)%nat by lia. reflexivity.
Qed.

Lemma int_term :
  tsum (fun di row ci => pmul (A ci (idx row di)) (pscale (cd di) (pscale (2 ^ P) (I row ci))))
  = pscale (2 ^ P) (gadget_int_rows b n cin dsize dnum A I).
Proof.
  transitivity (pscale (2 ^ P) (tsum (fun di row ci => pmul (A ci (idx row di)) (pscale (cd di) (I row ci))))); [|reflexivity].
  rewrite <- tsum_pscale. apply tsum_ext; intros di row ci _ _ _.
  rewrite !pscale_pscale, <- pscale_pmul_r, pscale_pscale. fold (cd di). f_equal. f_equal. ring.
Qed.

(* what the rows encrypt *)
Lemma KP_rows :
  KP = padd (padd (psumf n (fun ci => pmul (pval_used P b n a_size dsize dnum A ci) (src ci)) cin)
                  (gadget_noise b n cin dsize dnum A e))
            (pscale (2 ^ P) (gadget_int_rows b n cin dsize dnum A I)).
Proof.
  rewrite <- main_term, <- noise_term, <- int_term, <- !tsum_padd. unfold KP.
  apply tsum_ext; intros di row ci Hdi Hrow Hci.
  rewrite (key_row row ci Hrow Hci). rewrite !pscale_padd.
  rewrite !pmul_padd_distr_l by (rewrite ?HA, ?padd_length, ?pscale_length, ?Hsrc, ?He, ?HI; lia).
  reflexivity.
Qed.

(* generic phase theorem of the gadget product under the key-row hypothesis *)
Theorem gadget_phase_rows :
  phase_f P b n cols_out msize (gp_spec n cin cols_out msize a_size dsize dnum clamp A K) Sk
  = padd (padd (psumf n (fun ci => pmul (pval_used P b n a_size dsize dnum A ci) (src ci)) cin)
               (gadget_err P b n cin cols_out msize dsize dnum A K Sk e))
         (pscale (2 ^ P) (gadget_int b n cin cols_out msize dsize dnum A K Sk I)).
Proof.
  rewrite phase_is_X. pose proof KP_split as E1. rewrite KP_rows in E1.
  unfold gadget_err, gadget_int.
  set (M := psumf n (fun ci => pmul (pval_used P b n a_size dsize dnum A ci) (src ci)) cin) in *.
  set (N := gadget_noise b n cin dsize dnum A e) in *.
  set (IR := gadget_int_rows b n cin dsize dnum A I) in *.
  set (IL := gadget_int_low b n cin cols_out msize dsize dnum A K Sk) in *.
  set (T := gadget_trunc P b n cin cols_out msize dsize dnum A K Sk) in *.
  assert (LM : length M = n) by (unfold M, pval_used, pval; plen).
  assert (LN : length N = n) by (unfold N, gadget_noise, digit; plen).
  assert (LIR : length IR = n) by (unfold IR, gadget_int_rows; plen).
  assert (LIL : length IL = n) by (unfold IL, gadget_int_low; plen; apply klow_int_length).
  assert (LT : length T = n) by (unfold T, gadget_trunc; plen; apply khigh_length).
  assert (LX : length X = n) by (unfold X; apply tsum_length; intros; plen; apply ktrunc_length).
  pcoeff_as n k. apply (f_equal (fun l => nth k l 0)) in E1.
  rewrite !(nth_padd_n n), !nth_pscale in E1 by plen. lia.
Qed.
End PhaseRows.


(* the model Gadget.gadget_product computes the functional form gp_spec, for every shape *)

Section ModelLemmas.
Lemma col_map2 {X Y} (f : X -> Y -> plimbs) (l1 : list X) (l2 : list Y) dx dy co :
  length l1 = length l2 -> (co < length l1)%nat ->
  col (map2 f l1 l2) co = f (nth co l1 dx) (nth co l2 dy).
Proof.
  intros Hl Hco. unfold col, map2.
  rewrite (nth_map' _ _ _ _ (dx, dy)) by (rewrite combine_length; lia).
  rewrite combine_nth by exact Hl. reflexivity.
Qed.

Lemma col_map_seq (F : nat -> plimbs) m co : (co < m)%nat -> col (map F (seq 0 m)) co = F co.
Proof.
  intros H. unfold col. rewrite (nth_map' _ _ _ _ 0%nat) by (rewrite seq_length; exact H).
  rewrite seq_nth by exact H. reflexivity.
Qed.

Lemma col_map (F : plimbs -> plimbs) (a : cols_t) ci : (ci < length a)%nat -> col (map F a) ci = F (col a ci).
Proof. intros H. unfold col. apply nth_map'; exact H. Qed.

Lemma flat_lt (j co cols m : nat) : (co < cols)%nat -> ((j * cols + co < cols * m)%nat <-> (j < m)%nat).
Proof. intros H. split; intros G; nia. Qed.

Lemma flat_divmod (row ci cin : nat) : (ci < cin)%nat -> ((row * cin + ci) mod cin = ci /\ (row * cin + ci) / cin = row)%nat.
Proof.
  intros H. split.
  - rewrite Nat.add_comm, Nat.mod_add by lia. apply Nat.mod_small; exact H.
  - rewrite Nat.add_comm, Nat.div_add by lia. rewrite Nat.div_small by exact H. reflexivity.
Qed.

Lemma min_mul (c x y : nat) : Nat.min (c * x) (c * y) = (Nat.min x y * c)%nat.
Proof. destruct (Nat.le_ge_cases x y); [rewrite !Nat.min_l|rewrite !Nat.min_r]; nia. Qed.

Lemma lim_app_l (p r : plimbs) j : (j < length p)%nat -> lim (p ++ r) j = lim p j.
Proof. intros H. unfold lim. apply app_nth1; exact H. Qed.
Lemma lim_app_skipn (p r : plimbs) j : (length p <= j)%nat -> (length p <= length r)%nat -> lim (p ++ skipn (length p) r) j = lim r j.
Proof.
  intros H1 H2. unfold lim. rewrite app_nth2 by exact H1.
  rewrite <- (firstn_skipn (length p) r) at 2.
  rewrite app_nth2; rewrite firstn_length, Nat.min_l by exact H2; [reflexivity|exact H1].
Qed.

(* vmp as a sum of row products *)
Lemma vmp_psumf n rcols rsz acols asz rows msize lo aflat mflat c :
  vmp n rcols rsz acols asz rows msize lo aflat mflat c =
  if Nat.leb (Nat.min (rcols * msize) (rcols * rsz + lo * rcols)) (lo * rcols) then pzero n
  else if Nat.ltb c (Nat.min (rcols * msize) (rcols * rsz + lo * rcols) - lo * rcols)
       then psumf n (fun q => pmul (aflat q) (mflat q (c + lo * rcols)%nat)) (Nat.min (acols * rows) (acols * asz))
       else pzero n.
Proof. reflexivity. Qed.
End ModelLemmas.

Section Model.
Variables (n cin cols_out msize a_size dsize dnum : nat) (clamp : bool).
Variable a : cols_t.
Variable m : pmat.
Hypothesis Ha : wf_cols n cin a_size a.

Let A := acol n a.

Lemma acol_length ci l : length (A ci l) = n.
Proof.
  unfold A, acol, limz. destruct Ha as [Hl Hc].
  destruct (Nat.lt_ge_cases ci cin) as [H|H].
  - destruct (Hc ci H) as [H1 H2]. rewrite H1. destruct (Nat.ltb_spec l a_size); [apply H2; assumption|apply pzero_length].
  - unfold col. rewrite nth_overflow by lia. cbn [length]. destruct (Nat.ltb_spec l 0); [lia|apply pzero_length].
Qed.

Lemma acol_zero ci l : (a_size <= l)%nat -> A ci l = pzero n.
Proof.
  intros H. unfold A, acol, limz. destruct Ha as [Hl Hc].
  destruct (Nat.lt_ge_cases ci cin) as [G|G].
  - destruct (Hc ci G) as [H1 _]. rewrite H1. destruct (Nat.ltb_spec l a_size); [lia|reflexivity].
  - unfold col. rewrite nth_overflow by lia. cbn [length]. destruct (Nat.ltb_spec l 0); [lia|reflexivity].
Qed.

Lemma gp_rows_length co j di : length (gp_rows n cin cols_out a_size dsize dnum clamp A m co j di) = n.
Proof. unfold gp_rows. pose proof acol_length. plen. Qed.
Lemma gp_term_length co j di : length (gp_term n cin cols_out msize a_size dsize dnum clamp A m co j di) = n.
Proof. unfold gp_term. pose proof gp_rows_length. plen. Qed.

(* one vmp of the digit-grouped branch: limb j of output column co *)
Lemma prod_limb di co j : (1 <= dsize)%nat -> (di < dsize)%nat -> (co < cols_out)%nat -> (j < sz_r msize dsize di)%nat ->
  lim (col (vmp_cols n cols_out (sz_r msize dsize di) (map (dft_select n (sz_a a_size dsize dnum di clamp) dsize (dsize - di - 1)) a)
                      (sz_a a_size dsize dnum di clamp) dnum msize di m) co) j
  = if Nat.ltb (j + di) msize then gp_rows n cin cols_out a_size dsize dnum clamp A m co j di else pzero n.
Proof.
  intros Hd Hdi Hc Hj. destruct Ha as [Hl Hcols].
  unfold vmp_cols. cbv zeta. rewrite col_map_seq by exact Hc. rewrite lim_mk' by exact Hj.
  rewrite map_length, Hl. rewrite vmp_psumf.
  set (sa := sz_a a_size dsize dnum di clamp). set (sr := sz_r msize dsize di).
  destruct (Nat.ltb_spec (j + di) msize) as [G|G].
  - destruct (Nat.leb_spec (Nat.min (cols_out * msize) (cols_out * sr + di * cols_out)) (di * cols_out)) as [G1|G1]; [nia|].
    destruct (Nat.ltb_spec (j * cols_out + co) (Nat.min (cols_out * msize) (cols_out * sr + di * cols_out) - di * cols_out)) as [G2|G2]; [|nia].
    rewrite min_mul.
    replace (Nat.min dnum sa) with (rows_used a_size dsize dnum di clamp) by (unfold rows_used; fold sa; lia).
    assert (Hsel : forall row ci, (row < rows_used a_size dsize dnum di clamp)%nat -> (ci < cin)%nat ->
       lim (col (map (dft_select n sa dsize (dsize - di - 1)) a) ((row * cin + ci) mod cin)) ((row * cin + ci) / cin)
       = A ci (row * dsize + (dsize - di - 1))%nat).
    { intros row ci Hrow Hci. destruct (flat_divmod row ci cin Hci) as [E1 E2]. rewrite E1, E2.
      rewrite col_map by lia. destruct (Hcols ci Hci) as [Hlen _].
      apply dft_select_digit_limz; try lia.
      - unfold rows_used in Hrow. fold sa in Hrow. lia.
      - rewrite Hlen. unfold sa, sz_a. destruct clamp; lia. }
    rewrite psumf_flatten.
    + unfold gp_rows. apply psumf_ext; intros row Hrow. apply psumf_ext; intros ci Hci.
      rewrite Hsel by assumption. f_equal. f_equal. lia.
    + intros q Hq. rewrite pmul_length.
      pose proof (Nat.div_mod q cin ltac:(nia)) as E. pose proof (Nat.mod_upper_bound q cin ltac:(nia)) as Hr.
      replace q with ((q / cin) * cin + q mod cin)%nat by lia.
      rewrite Hsel; [apply acol_length| |exact Hr].
      apply Nat.div_lt_upper_bound; nia.
  - destruct (Nat.leb_spec (Nat.min (cols_out * msize) (cols_out * sr + di * cols_out)) (di * cols_out)) as [G1|G1]; [reflexivity|].
    destruct (Nat.ltb_spec (j * cols_out + co) (Nat.min (cols_out * msize) (cols_out * sr + di * cols_out) - di * cols_out)) as [G2|G2]; [nia|reflexivity].
Qed.


Variables (R : nat) (res0 : cols_t).
Hypothesis Hres0 : wf_cols n cols_out R res0.
Hypothesis Hdrop : (dsize - 2 <= msize)%nat.
Hypothesis HR : (msize <= R)%nat.

Let prod (di : nat) : cols_t :=
  vmp_cols n cols_out (sz_r msize dsize di) (map (dft_select n (sz_a a_size dsize dnum di clamp) dsize (dsize - di - 1)) a)
           (sz_a a_size dsize dnum di clamp) dnum msize di m.

Lemma gp_step_eq di res :
  gp_step n cols_out R a a_size dsize dnum msize clamp m (Some res) di
  = Some (if Nat.eqb di 0 then map2 (fun p r0 => p ++ skipn (sz_r msize dsize di) r0) (prod di) res
          else map2 (fun p r => dft_add_assign p r) (prod di) res).
Proof.
  unfold gp_step. cbv zeta.
  destruct (Nat.ltb_spec msize (dsize - di - 2)) as [G|G]; [lia|].
  destruct (Nat.ltb_spec R (msize - (dsize - di - 2))) as [G'|G']; [lia|].
  reflexivity.
Qed.

Lemma prod_shape di : length (prod di) = cols_out /\ forall co, (co < cols_out)%nat -> length (col (prod di) co) = sz_r msize dsize di.
Proof.
  unfold prod, vmp_cols. cbv zeta. split; [rewrite map_length, seq_length; reflexivity|].
  intros co Hc. rewrite col_map_seq by exact Hc. apply mk_length.
Qed.

(* what the accumulator holds outside the limbs written by iteration 0 *)
Let base (co j : nat) : list Z := if Nat.ltb j (sz_r msize dsize 0) then pzero n else lim (col res0 co) j.
Let T := gp_term n cin cols_out msize a_size dsize dnum clamp A m.

Definition gp_inv (k : nat) (res : cols_t) : Prop :=
  length res = cols_out /\
  forall co, (co < cols_out)%nat -> length (col res co) = R /\
    forall j, (j < R)%nat -> lim (col res co) j = padd (base co j) (psumf n (T co j) k).

Lemma base_length co j : (co < cols_out)%nat -> (j < R)%nat -> length (base co j) = n.
Proof.
  intros Hc Hj. unfold base. destruct Hres0 as [_ H]. destruct (H co Hc) as [_ H2].
  destruct (Nat.ltb _ _); [apply pzero_length|apply H2; exact Hj].
Qed.

Lemma T_limb di co j : (1 <= dsize)%nat -> (di < dsize)%nat -> (co < cols_out)%nat -> (j < sz_r msize dsize di)%nat ->
  lim (col (prod di) co) j = T co j di.
Proof.
  intros Hd Hdi Hc Hj. unfold prod. rewrite prod_limb by assumption. unfold T, gp_term.
  destruct (Nat.ltb_spec j (sz_r msize dsize di)); [|lia]. reflexivity.
Qed.

Lemma T_beyond di co j : (sz_r msize dsize di <= j)%nat -> T co j di = pzero n.
Proof. intros H. unfold T, gp_term. destruct (Nat.ltb_spec j (sz_r msize dsize di)); [lia|reflexivity]. Qed.

Lemma step0 : (1 <= dsize)%nat ->
  exists res1, gp_step n cols_out R a a_size dsize dnum msize clamp m (Some res0) 0 = Some res1 /\ gp_inv 1 res1.
Proof.
  intros Hd. rewrite gp_step_eq. cbn [Nat.eqb]. eexists; split; [reflexivity|].
  destruct Hres0 as [Hl0 Hc0]. destruct (prod_shape 0) as [Hpl Hpc].
  assert (Hsr : (sz_r msize dsize 0 <= R)%nat) by (unfold sz_r; lia).
  split; [rewrite map2_length; unfold plimbs in *; lia|].
  intros co Hc. rewrite (col_map2 _ _ _ [] []) by (unfold plimbs in *; lia).
  change (nth co (prod 0) []) with (col (prod 0) co). change (nth co res0 []) with (col res0 co).
  destruct (Hc0 co Hc) as [HlenR HlimR]. specialize (Hpc co Hc).
  split.
      - rewrite app_length, skipn_length, Hpc, HlenR. lia.
  - intros j Hj. rewrite psumf_S, psumf_0.
    assert (LT : length (T co j 0) = n) by apply gp_term_length.
    rewrite (padd_pzero_l n (T co j 0) LT).
    unfold base. destruct (Nat.ltb_spec j (sz_r msize dsize 0)) as [G|G].
    + rewrite lim_app_l by lia. rewrite T_limb by (try assumption; lia). rewrite padd_pzero_l by exact LT. reflexivity.
    + rewrite <- Hpc. rewrite lim_app_skipn by lia. rewrite T_beyond by exact G.
      rewrite padd_pzero_r by (apply HlimR; exact Hj). reflexivity.
Qed.

Lemma stepk k res : (1 <= k)%nat -> (k < dsize)%nat -> gp_inv k res ->
  exists res', gp_step n cols_out R a a_size dsize dnum msize clamp m (Some res) k = Some res' /\ gp_inv (S k) res'.
Proof.
  intros Hk Hkd [Hl Hc]. rewrite gp_step_eq. destruct (Nat.eqb_spec k 0) as [E|_]; [lia|].
  eexists; split; [reflexivity|]. destruct (prod_shape k) as [Hpl Hpc].
  assert (Hsr : (sz_r msize dsize k <= R)%nat) by (unfold sz_r; lia).
  split; [rewrite map2_length; unfold plimbs in *; lia|].
  intros co Hco'. rewrite (col_map2 (fun p r : plimbs => dft_add_assign p r) (prod k) res [] [] co) by (unfold plimbs in *; lia).
  change (nth co (prod k) []) with (col (prod k) co). change (nth co res []) with (col res co).
  destruct (Hc co Hco') as [HlenR HlimR]. specialize (Hpc co Hco').
  unfold dft_add_assign. split; [rewrite mk_length; exact HlenR|].
  intros j Hj. rewrite HlenR, lim_mk' by exact Hj. rewrite Hpc, psumf_S.
  rewrite (HlimR j Hj).
  destruct (Nat.ltb_spec j (sz_r msize dsize k)) as [G|G].
  - rewrite T_limb by (try assumption; lia). apply padd_assoc.
  - rewrite T_beyond by exact G. rewrite (padd_pzero_r n (psumf n (T co j) k)); [reflexivity|].
    apply psumf_length. intros; apply gp_term_length.
Qed.

Lemma fold_steps k : (1 <= dsize)%nat -> (k < dsize)%nat ->
  exists res, fold_left (gp_step n cols_out R a a_size dsize dnum msize clamp m) (seq 0 (S k)) (Some res0) = Some res /\ gp_inv (S k) res.
Proof.
  intros Hd. induction k as [|k IH]; intros Hk.
  - cbn [seq fold_left]. apply step0; exact Hd.
  - destruct (IH ltac:(lia)) as [res [E Hinv]].
    rewrite seq_S, fold_left_app, E. cbn [fold_left Nat.add]. apply stepk; [lia|exact Hk|exact Hinv].
Qed.

(* digit-grouped branch started from any accumulator content res0 (what the code did BEFORE it zeroed the accumulator, and
   what the digit loop does in general): the functional form on top of what res0 held beyond sz_r(0) *)
Theorem gadget_product_from_spec_grouped : (2 <= dsize)%nat ->
  exists res, gadget_product_from n cols_out R res0 a a_size dsize dnum msize clamp m = Some res /\
    length res = cols_out /\
    forall co, (co < cols_out)%nat -> length (col res co) = R /\
      forall j, (j < R)%nat ->
        lim (col res co) j = padd (if Nat.ltb j (sz_r msize dsize 0) then pzero n else lim (col res0 co) j)
                                  (gp_spec n cin cols_out msize a_size dsize dnum clamp (acol n a) m co j).
Proof.
  intros Hd. unfold gadget_product_from.
  destruct (Nat.eqb_spec dsize 0) as [E|_]; [lia|]. destruct (Nat.eqb_spec dsize 1) as [E|_]; [lia|].
  destruct (fold_steps (dsize - 1) ltac:(lia) ltac:(lia)) as [res [E Hinv]].
  replace (S (dsize - 1)) with dsize in * by lia.
  exists res. split; [exact E|]. exact Hinv.
Qed.
End Model.

(* vec_znx_big_add_small_assign: limb j of the sum is the sum of the limbs, the small operand read as zero from its size on *)
Lemma add_small_limb n msize (r c : plimbs) j : length r = msize -> (forall i, (i < msize)%nat -> length (lim r i) = n) ->
  (j < msize)%nat -> lim (add_small r c) j = padd (lim r j) (limz n c j).
Proof.
  intros Lr Wr Hj. unfold add_small, limz. rewrite Lr, lim_mk' by exact Hj.
  destruct (Nat.ltb_spec j (length c)); [reflexivity|]. symmetry. apply padd_pzero_r, Wr, Hj.
Qed.

(* ... column by column *)
Lemma add_small_cols n cols msize fsz (big f : cols_t) : wf_cols n cols msize big -> wf_cols n cols fsz f ->
  wf_cols n cols msize (map2 add_small big f) /\
  forall co j, (co < cols)%nat -> (j < msize)%nat ->
    limbs_of (map2 add_small big f) co j = padd (limbs_of big co j) (acol n f co j).
Proof.
  intros [Hlb Hcb] [Hlf Hcf].
  assert (Hcol : forall co, (co < cols)%nat -> col (map2 add_small big f) co = add_small (col big co) (col f co))
    by (intros co Hc; apply col_map2; unfold plimbs in *; lia).
  assert (Hlimb : forall co j, (co < cols)%nat -> (j < msize)%nat ->
            limbs_of (map2 add_small big f) co j = padd (limbs_of big co j) (acol n f co j)).
  { intros co j Hc Hj. destruct (Hcb co Hc) as [Lb Wb]. unfold limbs_of. rewrite Hcol by exact Hc.
    apply (add_small_limb n msize); assumption. }
  split; [|exact Hlimb]. split; [rewrite map2_length; unfold plimbs in *; lia|]. intros co Hc. split.
  - rewrite Hcol by exact Hc. unfold add_small. rewrite mk_length. apply (Hcb co Hc).
  - intros j Hj. change (lim (col (map2 add_small big f) co) j) with (limbs_of (map2 add_small big f) co j).
    rewrite Hlimb by assumption. apply padd_len; [apply (Hcb co Hc); exact Hj|apply (acol_length n cols fsz f (conj Hlf Hcf))].
Qed.



Section ModelFlat.
Variables (n cin cols_out msize a_size dnum : nat) (clamp : bool).
Variable a : cols_t.
Variable m : pmat.
Hypothesis Ha : wf_cols n cin a_size a.

(* dsize = 1 : one vmp, every limb of res is written (zero beyond min(R, msize)); res0 is ignored *)
Theorem gadget_product_from_spec_flat (R : nat) (res0 : cols_t) :
  exists res, gadget_product_from n cols_out R res0 a a_size 1 dnum msize clamp m = Some res /\
    length res = cols_out /\
    forall co, (co < cols_out)%nat -> length (col res co) = R /\
      forall j, (j < R)%nat -> lim (col res co) j = gp_flat n cin cols_out msize a_size dnum (acol n a) m R co j.
Proof.
  unfold gadget_product_from. cbn [Nat.eqb]. eexists; split; [reflexivity|].
  destruct Ha as [Hl Hcols].
  unfold vmp_cols. cbv zeta. split; [rewrite map_length, seq_length; reflexivity|].
  intros co Hc. rewrite col_map_seq by exact Hc. split; [apply mk_length|].
  intros j Hj. rewrite lim_mk' by exact Hj. rewrite vmp_psumf, Hl. unfold gp_flat.
  cbn [Nat.mul Nat.add]. rewrite !Nat.add_0_r.
  destruct (Nat.ltb_spec j (Nat.min R msize)) as [G|G].
  - destruct (Nat.leb_spec (Nat.min (cols_out * msize) (cols_out * R)) 0) as [G1|G1]; [nia|].
    destruct (Nat.ltb_spec (j * cols_out + co) (Nat.min (cols_out * msize) (cols_out * R) - 0)) as [G2|G2]; [|nia].
    apply psumf_ext; intros q Hq. f_equal.
    assert (Hci : (q mod cin < cin)%nat) by (apply Nat.mod_upper_bound; nia).
    assert (Hrow : (q / cin < a_size)%nat) by (apply Nat.div_lt_upper_bound; nia).
    unfold acol, limz. destruct (Hcols _ Hci) as [Hlen _]. rewrite Hlen.
    destruct (Nat.ltb_spec (q / cin) a_size); [reflexivity|lia].
  - destruct (Nat.leb_spec (Nat.min (cols_out * msize) (cols_out * R)) 0) as [G1|G1]; [reflexivity|].
    destruct (Nat.ltb_spec (j * cols_out + co) (Nat.min (cols_out * msize) (cols_out * R) - 0)) as [G2|G2]; [nia|reflexivity].
Qed.

(* the flat form is the functional form at dsize = 1 *)
Lemma gp_flat_spec (R co j : nat) : (msize <= R)%nat ->
  gp_flat n cin cols_out msize a_size dnum (acol n a) m R co j
  = gp_spec n cin cols_out msize a_size 1 dnum clamp (acol n a) m co j.
Proof.
  intros HR. unfold gp_flat, gp_spec. rewrite psumf_S, psumf_0.
  pose proof (acol_length n cin a_size a Ha) as LA.
  rewrite padd_pzero_l by (apply gp_term_length; exact Ha).
  unfold gp_term, sz_r. cbn [Nat.sub]. rewrite Nat.sub_0_r, Nat.add_0_r, Nat.min_r by exact HR.
  destruct (Nat.ltb_spec j msize); cbn [andb]; [|reflexivity].
  unfold gp_rows. rewrite min_mul.
  replace (Nat.min dnum a_size) with (rows_used a_size 1 dnum 0 clamp).
  2:{ unfold rows_used, sz_a. rewrite Nat.add_0_r, Nat.div_1_r. destruct clamp; lia. }
  rewrite psumf_flatten by (intros; rewrite pmul_length; apply LA).
  apply psumf_ext; intros row _. apply psumf_ext; intros ci Hci.
  destruct (flat_divmod row ci cin Hci) as [E1 E2]. rewrite E1, E2.
  cbn [Nat.sub]. rewrite Nat.mul_1_r, !Nat.add_0_r. reflexivity.
Qed.

Lemma flat_case (dsize R : nat) (res0 : cols_t) : dsize = 1%nat -> (msize <= R)%nat ->
  exists res, gadget_product_from n cols_out R res0 a a_size dsize dnum msize clamp m = Some res /\
    length res = cols_out /\
    forall co, (co < cols_out)%nat -> length (col res co) = R /\
      forall j, (j < R)%nat -> lim (col res co) j = gp_spec n cin cols_out msize a_size dsize dnum clamp (acol n a) m co j.
Proof.
  intros -> HR. destruct (gadget_product_from_spec_flat R res0) as [res [E1 [E2 E3]]].
  exists res. split; [exact E1|]. split; [exact E2|]. intros co Hc. destruct (E3 co Hc) as [E4 E5].
  split; [exact E4|]. intros j Hj. rewrite (E5 j Hj). apply gp_flat_spec; exact HR.
Qed.
End ModelFlat.

Section Zcols.
Variables (n cols_out : nat).
Lemma nth_repeat_lt {X} (x d : X) k i : (i < k)%nat -> nth i (repeat x k) d = x.
Proof. revert i; induction k as [|k IH]; intros [|i] H; cbn [repeat nth]; try lia; [reflexivity|apply IH; lia]. Qed.

Lemma zcols_limb R co j : (co < cols_out)%nat -> (j < R)%nat -> lim (col (zcols n cols_out R) co) j = pzero n.
Proof. intros Hc Hj. unfold zcols, col, lim. rewrite nth_repeat_lt by exact Hc. apply nth_repeat_lt; exact Hj. Qed.

Lemma zcols_wf R : wf_cols n cols_out R (zcols n cols_out R).
Proof.
  split; [apply repeat_length|].
  intros ci Hci. split.
  - unfold zcols, col. rewrite nth_repeat_lt by exact Hci. apply repeat_length.
  - intros l Hl. rewrite zcols_limb by assumption. apply pzero_length.
Qed.

End Zcols.

Section ModelZero.
Variables (n cin cols_out msize a_size dsize dnum : nat) (clamp : bool).
Variable a : cols_t.
Variable m : pmat.
Hypothesis Ha : wf_cols n cin a_size a.
Hypothesis Hd : (1 <= dsize)%nat.
Hypothesis Hdrop : (dsize - 2 <= msize)%nat.

Lemma gp_spec_length co j : length (gp_spec n cin cols_out msize a_size dsize dnum clamp (acol n a) m co j) = n.
Proof. unfold gp_spec. apply psumf_length. intros. apply gp_term_length. exact Ha. Qed.

Lemma spec_shape (res : cols_t) : length res = cols_out ->
  (forall co, (co < cols_out)%nat -> length (col res co) = msize /\
     forall j, (j < msize)%nat -> lim (col res co) j = gp_spec n cin cols_out msize a_size dsize dnum clamp (acol n a) m co j) ->
  wf_cols n cols_out msize res /\
  forall co j, (co < cols_out)%nat -> (j < msize)%nat ->
    lim (col res co) j = gp_spec n cin cols_out msize a_size dsize dnum clamp (acol n a) m co j.
Proof.
  intros E2 E3. split; [|intros co j Hc Hj; apply E3; assumption].
  split; [exact E2|]. intros co Hc. destruct (E3 co Hc) as [E4 E5]. split; [exact E4|].
  intros j Hj. rewrite E5 by exact Hj. apply gp_spec_length.
Qed.

(* from a zero accumulator of msize limbs the digit loop IS the functional form *)
Theorem gadget_product_from_zero_spec :
  exists res, gadget_product_from n cols_out msize (zcols n cols_out msize) a a_size dsize dnum msize clamp m = Some res /\
    wf_cols n cols_out msize res /\
    forall co j, (co < cols_out)%nat -> (j < msize)%nat ->
      lim (col res co) j = gp_spec n cin cols_out msize a_size dsize dnum clamp (acol n a) m co j.
Proof.
  destruct (Nat.eq_dec dsize 1) as [E|E].
  - destruct (flat_case n cin cols_out msize a_size dnum clamp a m Ha dsize msize (zcols n cols_out msize) E (Nat.le_refl msize)) as [res [E1 [E2 E3]]].
    exists res. split; [exact E1|]. apply spec_shape; assumption.
  - destruct (gadget_product_from_spec_grouped n cin cols_out msize a_size dsize dnum clamp a m Ha msize (zcols n cols_out msize)
                (zcols_wf n cols_out msize) Hdrop (Nat.le_refl msize) ltac:(lia)) as [res [E1 [E2 E3]]].
    exists res. split; [exact E1|]. apply spec_shape; [exact E2|].
    intros co Hc. destruct (E3 co Hc) as [E4 E5]. split; [exact E4|].
    intros j Hj. rewrite (E5 j Hj), zcols_limb by assumption. destruct (Nat.ltb _ _); apply padd_pzero_l, gp_spec_length.
Qed.
End ModelZero.

(* the repaired entry point: Gadget.gadget_product zeroes the accumulator first (acc_start), so its prior content res0 is irrelevant *)
Section AccStart.
Lemma acc_start_true n cols_out R msize res0 : acc_start n cols_out R msize true res0 = zcols n cols_out R.
Proof. reflexivity. Qed.

Lemma acc_start_false n cols_out msize (res0 : cols_t) :
  length res0 = cols_out -> (forall co, (co < cols_out)%nat -> length (col res0 co) = msize) ->
  acc_start n cols_out msize msize false res0 = zcols n cols_out msize.
Proof.
  intros Hl Hc. unfold acc_start, zcols.
  apply (nth_ext _ _ [] []); [rewrite map_length, repeat_length; exact Hl|].
  rewrite map_length. intros co Hco.
  assert (Hco' : (co < cols_out)%nat) by (rewrite <- Hl; exact Hco).
  rewrite (nth_map' _ _ _ _ []) by exact Hco. rewrite nth_repeat_lt by exact Hco'.
  change (nth co res0 []) with (col res0 co). rewrite (Hc co Hco').
  rewrite Nat.min_id. rewrite <- (Hc co Hco') at 2. rewrite skipn_all. apply app_nil_r.
Qed.

Theorem acc_start_zero n cols_out msize clamp res0 : acc_shape cols_out msize clamp res0 ->
  acc_start n cols_out msize msize clamp res0 = zcols n cols_out msize.
Proof.
  intros [-> | [Hl Hc]]; [reflexivity|].
  destruct clamp; [reflexivity|]. apply acc_start_false; assumption.
Qed.

Corollary gadget_product_is_from_zero n cols_out msize res0 a a_size dsize dnum clamp m : acc_shape cols_out msize clamp res0 ->
  gadget_product n cols_out msize res0 a a_size dsize dnum msize clamp m
  = gadget_product_from n cols_out msize (zcols n cols_out msize) a a_size dsize dnum msize clamp m.
Proof. intros H. unfold gadget_product. rewrite acc_start_zero by exact H. reflexivity. Qed.

Lemma acc_shape_zcols n cols_out msize clamp : acc_shape cols_out msize clamp (zcols n cols_out msize).
Proof.
  right. destruct (zcols_wf n cols_out msize) as [Hl Hc]. split; [exact Hl|]. intros co Hco. apply (Hc co Hco).
Qed.

(* the model IS the functional form, whatever the accumulator held (key-switch mode: any res0; external-product mode: any res0
   of cols_out columns of msize limbs), every dsize >= 1 *)
Theorem gadget_product_spec n cin cols_out msize a_size dsize dnum clamp (a : cols_t) (m : pmat) (res0 : cols_t) :
  wf_cols n cin a_size a -> (1 <= dsize)%nat -> (dsize - 2 <= msize)%nat -> acc_shape cols_out msize clamp res0 ->
  exists res, gadget_product n cols_out msize res0 a a_size dsize dnum msize clamp m = Some res /\
    wf_cols n cols_out msize res /\
    forall co j, (co < cols_out)%nat -> (j < msize)%nat ->
      lim (col res co) j = gp_spec n cin cols_out msize a_size dsize dnum clamp (acol n a) m co j.
Proof.
  intros Ha Hd Hdrop Hs. rewrite gadget_product_is_from_zero by exact Hs.
  apply gadget_product_from_zero_spec; assumption.
Qed.
End AccStart.



(* the key matrix only needs to be well formed where it is read: q < cin*dnum, c < cols_out*msize
   (Gadget.pmat_of_flat returns [] outside the dumped range): wf_pmat_in / pmat_z of Model/GadgetSpec.v *)
Section FlatIn.
Lemma flat_in (x y X Y : nat) : (x < X)%nat -> (y < Y)%nat -> (x * Y + y < X * Y)%nat.
Proof. intros. nia. Qed.
End FlatIn.

Section InRangeSpec.
Variables (n cin cols_out msize a_size dsize dnum : nat) (clamp : bool).
Variable A : nat -> nat -> list Z.
Variables K K' : pmat.
Hypothesis HKK : forall q c, (q < dnum * cin)%nat -> (c < msize * cols_out)%nat -> K q c = K' q c.

Lemma gp_spec_ext co j : (co < cols_out)%nat ->
  gp_spec n cin cols_out msize a_size dsize dnum clamp A K co j = gp_spec n cin cols_out msize a_size dsize dnum clamp A K' co j.
Proof.
  intros Hc. unfold gp_spec. apply psumf_ext; intros di Hdi. unfold gp_term.
  destruct (Nat.ltb_spec j (sz_r msize dsize di)); cbn [andb]; [|reflexivity].
  destruct (Nat.ltb_spec (j + di) msize); [|reflexivity].
  unfold gp_rows. apply psumf_ext; intros row Hrow. apply psumf_ext; intros ci Hci. f_equal.
  apply HKK; apply flat_in; try assumption. rewrite rows_used_eq in Hrow. lia.
Qed.

End InRangeSpec.

Section InRange.
Variables (P b : Z) (n cin cols_out msize a_size dsize dnum : nat) (clamp : bool).
Variable A : nat -> nat -> list Z.
Variables K K' : pmat.
Variable Sk : nat -> list Z.
Hypothesis HKK : forall q c, (q < dnum * cin)%nat -> (c < msize * cols_out)%nat -> K q c = K' q c.

Lemma kwin_ext q lo len : (q < dnum * cin)%nat -> (lo + len <= msize)%nat ->
  kwin P b n cols_out K Sk q lo len = kwin P b n cols_out K' Sk q lo len.
Proof.
  intros Hq Hl. unfold kwin. apply psumf_ext; intros co Hc. f_equal.
  apply psumf_ext; intros i Hi. f_equal. apply HKK; [exact Hq|]. apply flat_in; [lia|exact Hc].
Qed.

Lemma kphase_ext q : (q < dnum * cin)%nat -> kphase P b n cols_out msize K Sk q = kphase P b n cols_out msize K' Sk q.
Proof. intros Hq. apply kwin_ext; [exact Hq|lia]. Qed.

Lemma khigh_ext q di : (q < dnum * cin)%nat ->
  khigh P b n cols_out msize dsize K Sk q di = khigh P b n cols_out msize dsize K' Sk q di.
Proof.
  intros Hq. unfold khigh. set (lo := (di + win_len msize dsize di)%nat).
  destruct (Nat.le_gt_cases lo msize) as [G|G]; [apply kwin_ext; [exact Hq|lia]|].
  replace (msize - lo)%nat with 0%nat by lia. reflexivity.
Qed.

Lemma klow_int_ext q di : (q < dnum * cin)%nat ->
  klow_int b n cols_out msize K Sk q di = klow_int b n cols_out msize K' Sk q di.
Proof.
  intros Hq. unfold klow_int. apply psumf_ext; intros co Hc. f_equal.
  apply psumf_ext; intros j Hj. f_equal. apply HKK; [exact Hq|]. apply flat_in; [lia|exact Hc].
Qed.

Lemma gadget_trunc_ext :
  gadget_trunc P b n cin cols_out msize dsize dnum A K Sk = gadget_trunc P b n cin cols_out msize dsize dnum A K' Sk.
Proof.
  unfold gadget_trunc. apply psumf_ext; intros di _. apply psumf_ext; intros row Hrow. apply psumf_ext; intros ci Hci.
  do 2 f_equal. apply khigh_ext. apply flat_in; assumption.
Qed.

Lemma gadget_err_ext e :
  gadget_err P b n cin cols_out msize dsize dnum A K Sk e = gadget_err P b n cin cols_out msize dsize dnum A K' Sk e.
Proof. unfold gadget_err. rewrite gadget_trunc_ext. reflexivity. Qed.

Lemma gadget_int_ext I :
  gadget_int b n cin cols_out msize dsize dnum A K Sk I = gadget_int b n cin cols_out msize dsize dnum A K' Sk I.
Proof.
  unfold gadget_int. apply f_equal. unfold gadget_int_low.
  apply psumf_ext; intros di _. apply psumf_ext; intros row Hrow. apply psumf_ext; intros ci Hci.
  f_equal. apply klow_int_ext. apply flat_in; assumption.
Qed.
End InRange.

Section PhaseRowsIn.
Variables (P b : Z) (n cin cols_out msize a_size dsize dnum : nat) (clamp : bool).
Variable A : nat -> nat -> list Z.
Variable K : pmat.
Variable Sk : nat -> list Z.
Variables (src : nat -> list Z) (e I : nat -> nat -> list Z).
Hypothesis Hd : (1 <= dsize)%nat.
Hypothesis HA : forall ci l, length (A ci l) = n.
Hypothesis Hz : forall ci l, (a_size <= l)%nat -> A ci l = pzero n.
Hypothesis HK : wf_pmat_in n (dnum * cin) (msize * cols_out) K.
Hypothesis HS : forall co, length (Sk co) = n.
Hypothesis Hsrc : forall ci, length (src ci) = n.
Hypothesis He : forall row ci, length (e row ci) = n.
Hypothesis HI : forall row ci, length (I row ci) = n.
Hypothesis Hb : 0 <= b.
Hypothesis HP : Z.of_nat msize * b <= P.
Hypothesis HP2 : Z.of_nat dnum * Z.of_nat dsize * b <= P.
Hypothesis key_row : key_rows_ok P b n cin cols_out msize dsize dnum K Sk src e I.

Let Kz := pmat_z n (dnum * cin) (msize * cols_out) K.

Lemma Kz_eq q c : (q < dnum * cin)%nat -> (c < msize * cols_out)%nat -> K q c = Kz q c.
Proof.
  intros Hq Hc. unfold Kz, pmat_z.
  destruct (Nat.ltb_spec q (dnum * cin)); destruct (Nat.ltb_spec c (msize * cols_out)); cbn [andb]; try lia. reflexivity.
Qed.

Lemma Kz_wf q c : length (Kz q c) = n.
Proof.
  unfold Kz, pmat_z.
  destruct (Nat.ltb_spec q (dnum * cin)); destruct (Nat.ltb_spec c (msize * cols_out)); cbn [andb]; try apply pzero_length.
  apply HK; assumption.
Qed.

(* gadget_phase_rows with a key matrix that is well formed only where it is read *)
Theorem gadget_phase_rows_in :
  phase_f P b n cols_out msize (gp_spec n cin cols_out msize a_size dsize dnum clamp A K) Sk
  = padd (padd (psumf n (fun ci => pmul (pval_used P b n a_size dsize dnum A ci) (src ci)) cin)
               (gadget_err P b n cin cols_out msize dsize dnum A K Sk e))
         (pscale (2 ^ P) (gadget_int b n cin cols_out msize dsize dnum A K Sk I)).
Proof.
  assert (Ee : gadget_err P b n cin cols_out msize dsize dnum A K Sk e = gadget_err P b n cin cols_out msize dsize dnum A Kz Sk e)
    by (apply gadget_err_ext; exact Kz_eq).
  assert (Ei : gadget_int b n cin cols_out msize dsize dnum A K Sk I = gadget_int b n cin cols_out msize dsize dnum A Kz Sk I)
    by (apply gadget_int_ext; exact Kz_eq).
  rewrite Ee, Ei.
  transitivity (phase_f P b n cols_out msize (gp_spec n cin cols_out msize a_size dsize dnum clamp A Kz) Sk).
  - unfold phase_f, pval. apply psumf_ext; intros co Hc. f_equal. apply psumf_ext; intros j _. f_equal.
    apply gp_spec_ext; [exact Kz_eq|exact Hc].
  - apply gadget_phase_rows; try assumption; [exact Kz_wf|].
    intros row ci Hrow Hci.
    assert (Ek : kphase P b n cols_out msize K Sk (row * cin + ci)%nat = kphase P b n cols_out msize Kz Sk (row * cin + ci)%nat).
    { apply kphase_ext with (dnum := dnum) (cin := cin); first [exact Kz_eq | apply flat_in; assumption | exact A]. }
    rewrite <- Ek. apply key_row; assumption.
Qed.
End PhaseRowsIn.


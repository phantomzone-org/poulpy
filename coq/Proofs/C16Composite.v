(* C16 — the composites of delegates/composite.rs (add_many, mul_many, dot products): every successful call leaves
   metadata that the destination can hold.  Hoare-style reasoning over the little monad of Model/C16Meta.v. *)
From Coq Require Import ZifyBool.
From PV Require Import Base.MachineInt Model.C16Meta Model.C16Spec Proofs.C16Proofs Proofs.ListFacts.
Open Scope Z_scope.

Definition nn (m : meta) : Prop := 0 <= ld m /\ 0 <= lb m.
Definition nnct (c : ct) : Prop := nn (cm c).
(* the metadata fits in sz limbs *)
Definition fits (B sz : Z) (m : meta) : Prop := nn m /\ eff m <= sz * B.

(* partial correctness for the Ok exit *)
Definition hR {A : Type} (Pre : meta -> Prop) (c : M A) (Post : A -> meta -> Prop) : Prop :=
  forall m sh, Pre m -> forall x m' sh', c m sh = R x m' sh' -> Post x m'.

Lemma hR_bind {A C : Type} (Pre : meta -> Prop) (c : M A) (Q : A -> meta -> Prop) (f : A -> M C) (Post : C -> meta -> Prop) :
  hR Pre c Q -> (forall x, hR (Q x) (f x) Post) -> hR Pre (bind c f) Post.
Proof.
  intros Hc Hf m sh Hp y m' sh' E. unfold bind in E.
  destruct (c m sh) as [x m1 sh1 | e m1 | ] eqn:Ec; try discriminate.
  exact (Hf x m1 sh1 (Hc m sh Hp x m1 sh1 Ec) y m' sh' E).
Qed.

Lemma hR_weaken {A : Type} (Pre Pre' : meta -> Prop) (c : M A) (Post Post' : A -> meta -> Prop) :
  hR Pre' c Post' -> (forall m, Pre m -> Pre' m) -> (forall x m, Post' x m -> Post x m) -> hR Pre c Post.
Proof. intros H H1 H2 m sh Hp x m' sh' E. apply H2. exact (H m sh (H1 m Hp) x m' sh' E). Qed.

Lemma hR_ret {A : Type} (Pre : meta -> Prop) (x : A) : hR Pre (ret x) (fun _ m => Pre m).
Proof. intros m sh Hp y m' sh' E. unfold ret in E. inversion E; subst. exact Hp. Qed.

Lemma hR_fail {A : Type} (Pre : meta -> Prop) (e : ekind) (Post : A -> meta -> Prop) : hR Pre (fail e) Post.
Proof. intros m sh Hp y m' sh' E. discriminate E. Qed.

Lemma hR_if {A : Type} (Pre : meta -> Prop) (b : bool) (c1 c2 : M A) (Post : A -> meta -> Prop) :
  hR Pre c1 Post -> hR Pre c2 Post -> hR Pre (if b then c1 else c2) Post.
Proof. destruct b; auto. Qed.

Lemma hR_fold {A : Type} (Inv : meta -> Prop) (f : A -> M unit) (l : list A) :
  (forall x, In x l -> hR Inv (f x) (fun _ m => Inv m)) -> hR Inv (fold_m f l) (fun _ m => Inv m).
Proof.
  induction l as [ | x tl IH ]; intros H; cbn [fold_m].
  - apply hR_ret.
  - eapply hR_bind; [ apply H; left; reflexivity | ].
    intros ?u. apply IH. intros y Hy. apply H. right; exact Hy.
Qed.

(* the Ok exit of a product-like computation, read off its simulation lemma *)
Lemma prod_fits (B sz : Z) (p : M unit) (S : (meta -> sres) -> sres) :
  prod_sim False p S (sz * B) -> hR (fun _ => True) p (fun _ m => fits B sz m).
Proof.
  intros Hp m sh _ x m' sh' E. specialize (Hp m sh (fun _ => SErr EOther)). rewrite E in Hp.
  destruct Hp as (_ & H1 & H2 & H3). repeat split; assumption.
Qed.

Lemma lin_into_fits (chk : bool) (B : Z) (d a b : ct) :
  nnct a -> nnct b -> hR (fun _ => True) (lin_into chk B d a b) (fun _ m => fits B (csize d) m).
Proof. intros [Ha _] [Hb _]. exact (prod_fits B (csize d) _ _ (lin_into_sim _ chk B d a b Ha Hb)). Qed.

Lemma lin_assign_fits (chk : bool) (B sz : Z) (a : ct) :
  nnct a -> hR (fits B sz) (lin_assign chk a) (fun _ m => fits B sz m).
Proof.
  intros [Ha1 Ha2] m sh ((H1 & H2) & H3) x m' sh' E. destruct (lin_assign_run chk a m sh) as (sh0 & E0).
  rewrite E0 in E. injection E as <- <- <-. unfold fits, nn, eff in *; cbn [ld lb]. lia.
Qed.

Lemma mul_into_fits (B : Z) (d a b : ct) :
  nnct a -> nnct b -> hR (fun _ => True) (mul_into B d a b) (fun _ m => fits B (csize d) m).
Proof. intros [Ha _] [Hb _]. exact (prod_fits B (csize d) _ _ (mul_ct_sim _ B _ (cm a) (cm b) _ Ha Hb)). Qed.

Lemma mulptz_into_fits (B : Z) (d a : ct) (p : ptz) :
  nnct a -> hR (fun _ => True) (mulptz_into B d a p) (fun _ m => fits B (csize d) m).
Proof. intros [Ha _]. exact (prod_fits B (csize d) _ _ (base2k_sim _ B _ _ _ _ (mul_pt_sim _ _ (cm a) _ _ _ Ha))). Qed.

Lemma mulcst_into_fits (B : Z) (d a : ct) (prec : meta) :
  nnct a -> hR (fun _ => True) (mulcst_into B d a prec) (fun _ m => fits B (csize d) m).
Proof. intros [Ha _]. exact (prod_fits B (csize d) _ _ (mul_cst_sim _ _ (cm a) _ _ Ha)). Qed.

Lemma unary_into_fits (B : Z) (d a : ct) :
  nnct a -> hR (fun _ => True) (unary_into B d a) (fun _ m => fits B (csize d) m).
Proof. intros [Ha _]. exact (prod_fits B (csize d) _ _ (unary_sim _ B d a Ha)). Qed.

(* a computation on a scratch destination leaves the real metadata alone *)
Lemma on_tmp_keeps (Inv : meta -> Prop) (c : M unit) (Q : meta -> Prop) :
  hR (fun _ => True) c (fun _ mt => Q mt) -> hR Inv (on_tmp c) (fun mt m => Inv m /\ Q mt).
Proof.
  intros Hc m sh Hp mt m' sh' E. unfold on_tmp in E.
  destruct (c (Meta 0 0) sh) as [u m1 sh1 | e m1 | ] eqn:Ec; try discriminate.
  injection E as <- <- <-. split; [ exact Hp | exact (Hc _ _ I _ _ _ Ec) ].
Qed.

Lemma fits_nn (B sz : Z) (m : meta) : fits B sz m -> nn m.
Proof. intros [H _]; exact H. Qed.

Lemma accumulate_fits (chk : bool) (B sz : Z) (A : Type) (term : A -> M unit) (rest : list A) (szt : Z) :
  (forall x, In x rest -> hR (fun _ => True) (term x) (fun _ m => fits B szt m)) ->
  hR (fits B sz) (accumulate chk A term rest) (fun _ m => fits B sz m).
Proof.
  intros H. unfold accumulate. apply hR_fold. intros x Hx.
  eapply hR_bind; [ apply (on_tmp_keeps (fits B sz) (term x) (fits B szt)); apply H; exact Hx | ].
  intros mt m sh [Hm Hmt] y m' sh' E.
  exact (lin_assign_fits chk B sz (Ct mt 0) (fits_nn _ _ _ Hmt) m sh Hm y m' sh' E).
Qed.

Lemma acc_fits_keeps (Pre : meta -> Prop) (B n : Z) : hR Pre (acc_fits B n) (fun _ m => Pre m).
Proof. unfold acc_fits. apply hR_if; [ apply hR_ret | apply hR_fail ]. Qed.

Lemma add_many_fits (chk : bool) (B : Z) (d : ct) (ins : list ct) :
  Forall nnct ins -> hR (fun _ => True) (add_many chk B d ins) (fun _ m => fits B (csize d) m).
Proof.
  intros H. unfold add_many. destruct ins as [ | x [ | y tl ] ].
  - apply hR_fail.
  - inversion H; subst. apply unary_into_fits; assumption.
  - inversion H as [ | ? ? Hx H1 ]; subst. inversion H1 as [ | ? ? Hy Htl ]; subst.
    eapply hR_bind; [ apply acc_fits_keeps | ]. intros ?u.
    eapply hR_bind; [ apply (lin_into_fits chk B d x y Hx Hy) | ]. intros ?u.
    apply hR_fold. intros c Hc. apply lin_assign_fits.
    rewrite Forall_forall in Htl. exact (Htl c Hc).
Qed.

Lemma mul_many_rec_fits (fuel : nat) (B : Z) : forall (d : ct) (ins : list ct),
  Forall nnct ins -> hR (fun _ => True) (mul_many_rec fuel B d ins) (fun _ m => fits B (csize d) m).
Proof.
  induction fuel as [ | f IH ]; intros d ins H; cbn [mul_many_rec].
  - intros m sh _ x m' sh' E. discriminate E.
  - apply hR_if; [ apply hR_fail | ].
    destruct ins as [ | x [ | y [ | z tl ] ] ].
    + apply hR_fail.
    + inversion H; subst. apply unary_into_fits; assumption.
    + inversion H as [ | ? ? Hx H1 ]; subst. inversion H1; subst. apply mul_into_fits; assumption.
    + set (ins := x :: y :: z :: tl) in *.
      set (l := firstn (Nat.div2 (length ins)) ins). set (r := skipn (Nat.div2 (length ins)) ins).
      eapply hR_bind.
      { apply (on_tmp_keeps (fun _ => True)). apply IH. apply Forall_firstn. exact H. }
      intros ml. eapply hR_bind.
      { apply (on_tmp_keeps (fun m => True /\ fits B _ ml)). apply IH. apply Forall_skipn. exact H. }
      intros mr m sh [[_ Hl] Hr] uu m' sh' E.
      refine (mul_into_fits B d _ _ _ _ m sh I uu m' sh' E).
      * exact (fits_nn _ _ _ Hl).
      * exact (fits_nn _ _ _ Hr).
Qed.

Lemma mul_many_fits (B : Z) (d : ct) (ins : list ct) :
  Forall nnct ins -> hR (fun _ => True) (mul_many B d ins) (fun _ m => fits B (csize d) m).
Proof.
  intros H. unfold mul_many. destruct ins; [ apply hR_fail | apply mul_many_rec_fits; exact H ].
Qed.

Lemma Forall_combine_nn (xs ys : list ct) :
  Forall nnct xs -> Forall nnct ys -> Forall (fun q => nnct (fst q) /\ nnct (snd q)) (combine xs ys).
Proof.
  intros Hx; revert ys; induction Hx as [ | x tl Hx1 Hx2 IH ]; intros ys Hy; cbn; [ constructor | ].
  destruct ys as [ | y ytl ]; [ constructor | ]. inversion Hy; subst. constructor; [ split; assumption | apply IH; assumption ].
Qed.

Lemma dot_ct_fits (chk : bool) (B : Z) (d : ct) (xs ys : list ct) :
  Forall nnct xs -> Forall nnct ys -> hR (fun _ => True) (dot_ct chk B d xs ys) (fun _ m => fits B (csize d) m).
Proof.
  intros Hx Hy. unfold dot_ct. apply hR_if; [ apply hR_fail | ].
  eapply hR_bind; [ apply acc_fits_keeps | ]. intros ?u.
  pose proof (Forall_combine_nn xs ys Hx Hy) as Hc.
  destruct (combine xs ys) as [ | [x0 y0] [ | q rest ] ] eqn:Ec.
  - apply hR_fail.
  - inversion Hc as [ | ? ? [H1 H2] _ ]; subst. apply mul_into_fits; assumption.
  - inversion Hc as [ | ? ? [H1 H2] Hrest ]; subst.
    apply hR_if.
    + eapply hR_bind; [ apply (mul_into_fits B d x0 y0 H1 H2) | ]. intros ?u.
      apply (accumulate_fits chk B (csize d) _ _ _ (csize d)).
      intros p Hp. rewrite Forall_forall in Hrest. destruct (Hrest p Hp) as [P1 P2].
      apply mul_into_fits; assumption.
    + (* the fused path *)
      destruct d as [dm ds]. cbn [csize].
      intros m sh _ uu m' sh' E0; revert E0.
      cbv beta iota zeta delta [ssub eff maxk bind ret fail panic set_lb set_ld shift csub passert cm csize].
      split_ifs.
      all: intros EQ; try discriminate EQ; injection EQ as <- <- <-.
      all: destruct H1 as [? ?], H2 as [? ?]; unfold fits, nn, eff, ld_of in *; cbn [ld lb fst snd] in *.
      all: repeat split; try lia.
Qed.

Lemma dot_terms_fits (chk : bool) (B : Z) (d : ct) (xs : list ct) (term : ct -> M unit) :
  (forall x, In x xs -> hR (fun _ => True) (term x) (fun _ m => fits B (csize d) m)) ->
  hR (fun _ => True) (dot_terms chk B xs term) (fun _ m => fits B (csize d) m).
Proof.
  intros H. unfold dot_terms. destruct xs as [ | x0 rest ]; [ apply hR_fail | ].
  eapply hR_bind; [ apply acc_fits_keeps | ]. intros ?u.
  eapply hR_bind; [ apply H; left; reflexivity | ]. intros ?u.
  apply (accumulate_fits chk B (csize d) _ _ _ (csize d)). intros x Hx. apply H. right; exact Hx.
Qed.

Lemma hR_true {A : Type} (Pre : meta -> Prop) (c : M A) : hR Pre c (fun _ _ => True).
Proof. intros m sh _ x m' sh' _. exact I. Qed.

Lemma good_nnct (B : Z) (c : ct) : good B c -> nnct c.
Proof. intros [[H1 [H2 _]] _]. split; assumption. Qed.

Lemma comp_m_fits (chk : bool) (B : Z) (c : comp) (d : ct) (xs ys : list ct) :
  Forall nnct xs -> Forall nnct ys -> hR (fun _ => True) (comp_m chk B c d xs ys) (fun _ m => fits B (csize d) m).
Proof.
  intros Hx Hy. pose proof (proj1 (Forall_forall nnct xs) Hx) as Hin.
  destruct c as [ | | | p | prec | prec none | prec none ]; cbn [comp_m].
  - apply add_many_fits; exact Hx.
  - apply mul_many_fits; exact Hx.
  - apply dot_ct_fits; assumption.
  - apply dot_terms_fits. intros x Hxin. apply mulptz_into_fits. exact (Hin x Hxin).
  - apply dot_terms_fits. intros x Hxin.
    eapply hR_bind; [ apply hR_true | ]. intros ?u. cbv beta. apply mulptz_into_fits. exact (Hin x Hxin).
  - eapply hR_bind; [ apply hR_true | ]. intros ?u. cbv beta.
    apply dot_terms_fits. intros x Hxin. apply mulcst_into_fits. exact (Hin x Hxin).
  - apply dot_terms_fits. intros x Hxin.
    eapply hR_bind; [ apply hR_true | ]. intros p. cbv beta. apply mulcst_into_fits. exact (Hin x Hxin).
Qed.

(* both exits: a composite that fails leaves metadata the destination can hold *)
Definition hB {A : Type} (Inv : meta -> Prop) (c : M A) (Q : A -> Prop) : Prop :=
  forall m sh, Inv m -> match c m sh with R x m' _ => Inv m' /\ Q x | F _ m' => Inv m' | P => True end.

Lemma hB_bind {A C : Type} (Inv : meta -> Prop) (c : M A) (Q : A -> Prop) (f : A -> M C) (Q' : C -> Prop) :
  hB Inv c Q -> (forall x, Q x -> hB Inv (f x) Q') -> hB Inv (bind c f) Q'.
Proof.
  intros Hc Hf m sh Hm. unfold bind. specialize (Hc m sh Hm).
  destruct (c m sh) as [x m1 sh1 | e m1 | ]; [ | exact Hc | exact I ].
  destruct Hc as [H1 H2]. exact (Hf x H2 m1 sh1 H1).
Qed.

Lemma hB_weaken {A : Type} (Inv : meta -> Prop) (c : M A) (Q Q' : A -> Prop) :
  hB Inv c Q -> (forall x, Q x -> Q' x) -> hB Inv c Q'.
Proof.
  intros H HQ m sh Hm. specialize (H m sh Hm). destruct (c m sh); auto. destruct H; split; auto.
Qed.

Lemma hB_if {A : Type} (Inv : meta -> Prop) (b : bool) (c1 c2 : M A) (Q : A -> Prop) :
  hB Inv c1 Q -> hB Inv c2 Q -> hB Inv (if b then c1 else c2) Q.
Proof. destruct b; auto. Qed.

Lemma hB_fail {A : Type} (Inv : meta -> Prop) (e : ekind) (Q : A -> Prop) : hB Inv (fail e) Q.
Proof. intros m sh Hm. exact Hm. Qed.

Lemma hB_ret {A : Type} (Inv : meta -> Prop) (x : A) (Q : A -> Prop) : Q x -> hB Inv (ret x) Q.
Proof. intros HQ m sh Hm. split; assumption. Qed.

Lemma hB_fold {A : Type} (Inv : meta -> Prop) (f : A -> M unit) (l : list A) :
  (forall x, In x l -> hB Inv (f x) (fun _ => True)) -> hB Inv (fold_m f l) (fun _ => True).
Proof.
  induction l as [ | x tl IH ]; intros H; cbn [fold_m].
  - apply hB_ret. exact I.
  - eapply hB_bind; [ apply H; left; reflexivity | ].
    intros ?u ?Hu. apply IH. intros y Hy. apply H. right; exact Hy.
Qed.

Lemma on_tmp_B (Inv : meta -> Prop) (c : M unit) (Q : meta -> Prop) :
  hR (fun _ => True) c (fun _ mt => Q mt) -> hB Inv (on_tmp c) Q.
Proof.
  intros Hc m sh Hm. unfold on_tmp.
  destruct (c (Meta 0 0) sh) as [u m1 sh1 | e m1 | ] eqn:Ec; [ | exact Hm | exact I ].
  split; [ exact Hm | exact (Hc _ _ I _ _ _ Ec) ].
Qed.

(* both exits of a product-like computation, read off its simulation lemma *)
Lemma prod_B (B sz : Z) (p : M unit) (S : (meta -> sres) -> sres) :
  prod_sim False p S (sz * B) -> hB (fits B sz) p (fun _ => True).
Proof.
  intros Hp m sh Hm. specialize (Hp m sh (fun _ => SErr EOther)).
  destruct (p m sh) as [u m' sh' | e m1 | ]; [ | | exact I].
  - destruct Hp as (_ & H1 & H2 & H3). split; [repeat split; assumption | exact I].
  - destruct Hp as (_ & ->). exact Hm.
Qed.

Lemma lin_into_B (chk : bool) (B : Z) (d a b : ct) :
  nnct a -> nnct b -> hB (fits B (csize d)) (lin_into chk B d a b) (fun _ => True).
Proof. intros [Ha _] [Hb _]. exact (prod_B B (csize d) _ _ (lin_into_sim _ chk B d a b Ha Hb)). Qed.

Lemma lin_assign_B (chk : bool) (B sz : Z) (a : ct) :
  nnct a -> hB (fits B sz) (lin_assign chk a) (fun _ => True).
Proof.
  intros [Ha1 Ha2] m sh ((H1 & H2) & H3). destruct (lin_assign_run chk a m sh) as (sh0 & ->).
  split; [|exact I]. unfold fits, nn, eff in *; cbn [ld lb]. lia.
Qed.

Lemma mul_into_B (B : Z) (d a b : ct) :
  nnct a -> nnct b -> hB (fits B (csize d)) (mul_into B d a b) (fun _ => True).
Proof. intros [Ha _] [Hb _]. exact (prod_B B (csize d) _ _ (mul_ct_sim _ B _ (cm a) (cm b) _ Ha Hb)). Qed.

Lemma mulptz_into_B (B : Z) (d a : ct) (p : ptz) :
  nnct a -> hB (fits B (csize d)) (mulptz_into B d a p) (fun _ => True).
Proof. intros [Ha _]. exact (prod_B B (csize d) _ _ (base2k_sim _ B _ _ _ _ (mul_pt_sim _ _ (cm a) _ _ _ Ha))). Qed.

Lemma mulcst_into_B (B : Z) (d a : ct) (prec : meta) :
  nnct a -> hB (fits B (csize d)) (mulcst_into B d a prec) (fun _ => True).
Proof. intros [Ha _]. exact (prod_B B (csize d) _ _ (mul_cst_sim _ _ (cm a) _ _ Ha)). Qed.

Lemma unary_into_B (B : Z) (d a : ct) :
  nnct a -> hB (fits B (csize d)) (unary_into B d a) (fun _ => True).
Proof. intros [Ha _]. exact (prod_B B (csize d) _ _ (unary_sim _ B d a Ha)). Qed.

Lemma acc_fits_B (Inv : meta -> Prop) (B n : Z) : hB Inv (acc_fits B n) (fun _ => True).
Proof. unfold acc_fits. apply hB_if; [ apply hB_ret; exact I | apply hB_fail ]. Qed.
Lemma to_znx_check_B (Inv : meta -> Prop) (l : Z) : hB Inv (to_znx_check l) (fun _ => True).
Proof. unfold to_znx_check. apply hB_if; [ apply hB_ret; exact I | apply hB_fail ]. Qed.
Lemma passert_B (Inv : meta -> Prop) (c : bool) : hB Inv (passert c) (fun _ => True).
Proof. unfold passert. destruct c; [ apply hB_ret; exact I | intros m sh Hm; exact I ]. Qed.
Lemma cst_to_znx_B (Inv : meta -> Prop) (B : Z) (prec : meta) (none : bool) : hB Inv (cst_to_znx B prec none) (fun _ => True).
Proof.
  unfold cst_to_znx. eapply hB_bind; [ apply to_znx_check_B | ]. intros ?u ?Hu. apply passert_B.
Qed.

Lemma accumulate_B (chk : bool) (B sz : Z) (A : Type) (term : A -> M unit) (rest : list A) (szt : Z) :
  (forall x, In x rest -> hR (fun _ => True) (term x) (fun _ m => fits B szt m)) ->
  hB (fits B sz) (accumulate chk A term rest) (fun _ => True).
Proof.
  intros H. unfold accumulate. apply hB_fold. intros x Hx.
  eapply hB_bind; [ apply (on_tmp_B (fits B sz) (term x) (fits B szt)); apply H; exact Hx | ].
  intros mt Hmt. apply lin_assign_B. exact (fits_nn _ _ _ Hmt).
Qed.

Lemma add_many_B (chk : bool) (B : Z) (d : ct) (ins : list ct) :
  Forall nnct ins -> hB (fits B (csize d)) (add_many chk B d ins) (fun _ => True).
Proof.
  intros H. unfold add_many. destruct ins as [ | x [ | y tl ] ].
  - apply hB_fail.
  - inversion H; subst. apply unary_into_B; assumption.
  - inversion H as [ | ? ? Hx H1 ]; subst. inversion H1 as [ | ? ? Hy Htl ]; subst.
    eapply hB_bind; [ apply acc_fits_B | ]. intros ?u ?Hu.
    eapply hB_bind; [ apply (lin_into_B chk B d x y Hx Hy) | ]. intros ?u ?Hu.
    apply hB_fold. intros c Hc. apply lin_assign_B. rewrite Forall_forall in Htl. exact (Htl c Hc).
Qed.

Lemma mul_many_rec_B (fuel : nat) (B : Z) (d : ct) (ins : list ct) :
  Forall nnct ins -> hB (fits B (csize d)) (mul_many_rec fuel B d ins) (fun _ => True).
Proof.
  intros H. destruct fuel as [ | f ]; cbn [mul_many_rec].
  - intros m sh Hm. exact I.
  - apply hB_if; [ apply hB_fail | ].
    destruct ins as [ | x [ | y [ | z tl ] ] ].
    + apply hB_fail.
    + inversion H; subst. apply unary_into_B; assumption.
    + inversion H as [ | ? ? Hx H1 ]; subst. inversion H1; subst. apply mul_into_B; assumption.
    + set (ins := x :: y :: z :: tl) in *.
      eapply hB_bind.
      { apply on_tmp_B. apply mul_many_rec_fits. apply Forall_firstn. exact H. }
      intros ml Hl. eapply hB_bind.
      { apply on_tmp_B. apply mul_many_rec_fits. apply Forall_skipn. exact H. }
      intros mr Hr. apply mul_into_B; [ exact (fits_nn _ _ _ Hl) | exact (fits_nn _ _ _ Hr) ].
Qed.

Lemma dot_terms_B (chk : bool) (B : Z) (d : ct) (xs : list ct) (term : ct -> M unit) :
  (forall x, In x xs -> hR (fun _ => True) (term x) (fun _ m => fits B (csize d) m)) ->
  (forall x, In x xs -> hB (fits B (csize d)) (term x) (fun _ => True)) ->
  hB (fits B (csize d)) (dot_terms chk B xs term) (fun _ => True).
Proof.
  intros HR HBt. unfold dot_terms. destruct xs as [ | x0 rest ]; [ apply hB_fail | ].
  eapply hB_bind; [ apply acc_fits_B | ]. intros ?u ?Hu.
  eapply hB_bind; [ apply HBt; left; reflexivity | ]. intros ?u ?Hu.
  apply (accumulate_B chk B (csize d) _ _ _ (csize d)). intros x Hx. apply HR. right; exact Hx.
Qed.

Lemma dot_ct_B (chk : bool) (B : Z) (d : ct) (xs ys : list ct) :
  Forall nnct xs -> Forall nnct ys -> hB (fits B (csize d)) (dot_ct chk B d xs ys) (fun _ => True).
Proof.
  intros Hx Hy. unfold dot_ct. apply hB_if; [ apply hB_fail | ].
  eapply hB_bind; [ apply acc_fits_B | ]. intros ?u ?Hu.
  pose proof (Forall_combine_nn xs ys Hx Hy) as Hc.
  destruct (combine xs ys) as [ | [x0 y0] [ | q rest ] ] eqn:Ec.
  - apply hB_fail.
  - inversion Hc as [ | ? ? [H1 H2] _ ]; subst. apply mul_into_B; assumption.
  - inversion Hc as [ | ? ? [H1 H2] Hrest ]; subst.
    apply hB_if.
    + eapply hB_bind; [ apply (mul_into_B B d x0 y0 H1 H2) | ]. intros ?u ?Hu.
      apply (accumulate_B chk B (csize d) _ _ _ (csize d)).
      intros p Hp. rewrite Forall_forall in Hrest. destruct (Hrest p Hp) as [P1 P2]. apply mul_into_fits; assumption.
    + destruct d as [dm ds]. cbn [csize]. destruct H1 as [? ?], H2 as [? ?]. unfold ld_of in *. cbn [fst snd] in *.
      intros m sh Hm. destruct x0 as [[xl xb] xsz], y0 as [[yl yb] ysz]. cbn [cm csize ld lb] in *.
      cbv beta iota zeta delta [ssub eff maxk bind ret fail panic set_lb set_ld shift csub cm csize].
      split_ifs.
      all: try exact Hm; try exact I.
      all: split; [ | exact I ]; unfold fits, nn, eff in *; cbn [ld lb] in *; lia.
Qed.

Lemma comp_m_B (chk : bool) (B : Z) (c : comp) (d : ct) (xs ys : list ct) :
  Forall nnct xs -> Forall nnct ys -> hB (fits B (csize d)) (comp_m chk B c d xs ys) (fun _ => True).
Proof.
  intros Hx Hy. pose proof (proj1 (Forall_forall nnct xs) Hx) as Hin.
  destruct c as [ | | | p | prec | prec none | prec none ]; cbn [comp_m].
  - apply add_many_B; exact Hx.
  - unfold mul_many. destruct xs; [ apply hB_fail | apply mul_many_rec_B; exact Hx ].
  - apply dot_ct_B; assumption.
  - apply dot_terms_B; intros x Hxin; [ apply mulptz_into_fits | apply mulptz_into_B ]; exact (Hin x Hxin).
  - apply dot_terms_B; intros x Hxin.
    + eapply hR_bind; [ apply hR_true | ]. intros ?u. cbv beta. apply mulptz_into_fits. exact (Hin x Hxin).
    + eapply hB_bind; [ apply to_znx_check_B | ]. intros ?u ?Hu. apply mulptz_into_B. exact (Hin x Hxin).
  - eapply hB_bind with (Q := fun _ => True); [ destruct xs; [ apply hB_ret; exact I | apply cst_to_znx_B ] | ]. intros ?u ?Hu.
    apply dot_terms_B; intros x Hxin; [ apply mulcst_into_fits | apply mulcst_into_B ]; exact (Hin x Hxin).
  - apply dot_terms_B; intros x Hxin.
    + eapply hR_bind; [ apply hR_true | ]. intros p. cbv beta. apply mulcst_into_fits. exact (Hin x Hxin).
    + eapply hB_bind with (Q := fun _ => True).
      { unfold mulcstrnx_prec. destruct none; [ apply hB_ret; exact I | ].
        eapply hB_bind; [ apply cst_to_znx_B | ]. intros ?u ?Hu. apply hB_ret. exact I. }
      intros p ?Hp. apply mulcst_into_B. exact (Hin x Hxin).
Qed.

(* the outcome is Ok with metadata m and sz limbs (for the examples of Props/C16.v) *)
Definition done_with (o : outcome) (m : meta) (sz : Z) : Prop :=
  match o with Done m' sz' _ => m' = m /\ sz' = sz | _ => False end.


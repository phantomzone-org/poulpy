(* C08, cross-radix normalisation: the inner repacking loop (cross_inner) moves the bits of one
   normalised a-digit into the res limbs as balanced pieces; value and position bookkeeping.
   The loop is specified at any word width wd (radices up to wd - 2, headroom 2^(wd-2)). *)
From PV Require Import Base.MachineInt Model.Znx Model.Limbs
  Proofs.ZnxDigit Proofs.C08Steps Proofs.C08Chain Proofs.C08Loops Proofs.C08WChain Proofs.C08WLoops
  Proofs.C08WCrossInner.
Open Scope Z_scope.

Lemma extract64 (w scale r s : Z) : 1 <= w -> 0 <= scale -> scale + w <= 62 ->
  Z.abs s <= 2 ^ 62 -> Z.abs r <= 2 ^ scale - 1 ->
  extract_digit_addmul 64 w scale r s = (r + wrap w s * 2 ^ scale, bdiv w s) /\
  Z.abs (r + wrap w s * 2 ^ scale) <= 2 ^ (scale + w) - 1.
Proof. exact (extractW 64 w scale r s ltac:(lia)). Qed.

Lemma full_pos (R rl rb x : Z) : 0 <= rl -> 1 <= rb -> 0 <= x -> (R - rl) * rb - x = R * rb -> rl = 0 /\ x = 0.
Proof. intros; nia. Qed.

Section Inner.
Variables rb ab : Z.
Hypothesis Hrb : 1 <= rb <= 62.
Hypothesis Hab : 1 <= ab <= 62.
Variable rsz : nat.

(* the res limbs as one integer; limb rsz-1 is the least significant *)
Definition Vres (res : list Z) : Z :=
  sumn rsz (fun i => nthZ res i * 2 ^ ((zn rsz - 1 - zn i) * rb)).

Lemma sumn_point (n k : nat) (f : nat -> Z) (wgt : nat -> Z) (x : Z) : (k < n)%nat ->
  sumn n (fun i => (if Nat.eqb i k then x else f i) * wgt i) = sumn n (fun i => f i * wgt i) + (x - f k) * wgt k.
Proof.
  induction n as [|n IH]; intros Hk; [lia|]. cbn [sumn].
  destruct (Nat.eq_dec k n) as [->|Hne].
  - rewrite Nat.eqb_refl.
    rewrite (sumn_ext n _ (fun i => f i * wgt i)); [ring|].
    intros t Ht. destruct (Nat.eqb_spec t n); [lia|reflexivity].
  - rewrite IH by lia. destruct (Nat.eqb_spec n k); [lia|]. ring.
Qed.

Lemma Vres_upd (res : list Z) (k : nat) (x : Z) : length res = rsz -> (k < rsz)%nat ->
  Vres (upd res k x) = Vres res + (x - nthZ res k) * 2 ^ ((zn rsz - 1 - zn k) * rb).
Proof.
  intros Hl Hk. unfold Vres.
  rewrite <- (sumn_point rsz k (nthZ res) (fun i => 2 ^ ((zn rsz - 1 - zn i) * rb)) x Hk).
  apply sumn_ext. intros i Hi. rewrite nth_upd, Hl.
  destruct (Nat.ltb_spec k rsz); [|lia]. rewrite Bool.andb_true_r. reflexivity.
Qed.

(* position (in bits from the bottom of res) where the next piece goes *)
Definition Fpos (s : cstate) : Z := (zn rsz - zn (c_rlimb s)) * rb - c_racc s.

Definition shape (s : cstate) : Prop :=
  length (c_res s) = rsz /\ (c_rlimb s < rsz)%nat /\
  (forall i, (i < c_rlimb s)%nat -> nthZ (c_res s) i = 0) /\
  Z.abs (nthZ (c_res s) (c_rlimb s)) <= 2 ^ (rb - c_racc s) - 1.

Variable a_limb : nat.

Definition pre (s : cstate) : Prop :=
  shape s /\ 0 < c_racc s <= rb /\ 0 < c_atake s <= ab /\ Z.abs (c_anorm s) <= 2 ^ c_atake s /\
  Z.abs (c_acarry s) <= 2 ^ 62 /\ c_rcarry s = 0 /\
  (a_limb = 0%nat -> Fpos s + c_atake s = zn rsz * rb).

Definition post (s s' : cstate) (o : couts) : Prop :=
  o <> Fuel /\
  (o = InnerDone ->
     exists Pi, c_anorm s = Pi + 2 ^ c_atake s * (c_acarry s' - c_acarry s) /\
       Z.abs Pi <= 2 ^ c_atake s - 1 /\
       Vres (c_res s') = Vres (c_res s) + 2 ^ Fpos s * Pi /\
       Fpos s' = Fpos s + c_atake s /\ shape s' /\ 0 < c_racc s' <= rb /\ c_rcarry s' = 0 /\
       Z.abs (c_acarry s' - c_acarry s) <= 1) /\
  (o = OuterBreak ->
     zn rsz * rb <= Fpos s + c_atake s /\ length (c_res s') = rsz /\
     exists K, Vres (c_res s') = Vres (c_res s) + 2 ^ Fpos s * c_anorm s + 2 ^ (zn rsz * rb) * K).

Lemma Fpos_nonneg (s : cstate) : (c_rlimb s < rsz)%nat -> 0 <= c_racc s <= rb -> 0 <= Fpos s.
Proof. intros Hl Hr. unfold Fpos, zn. nia. Qed.

Lemma weight_at (s : cstate) : (c_rlimb s < rsz)%nat -> 0 <= c_racc s <= rb ->
  2 ^ (rb - c_racc s) * 2 ^ ((zn rsz - 1 - zn (c_rlimb s)) * rb) = 2 ^ Fpos s.
Proof.
  intros Hl Hr. unfold Fpos. rewrite <- pow2_add by (unfold zn; nia). f_equal. ring.
Qed.

End Inner.

Lemma wadd_small (wd c n : Z) : 3 <= wd -> Z.abs c <= 2 ^ (wd - 2) -> Z.abs n <= 1 -> wadd wd c n = c + n.
Proof.
  intros Hwd Hc Hn. unfold wadd. apply wrap_id; [lia|]. unfold in_range. rewrite (pow_wd1 wd Hwd).
  assert (2 ^ 1 <= 2 ^ (wd - 2)) by (apply pow2_le_mono; lia). change (2 ^ 1) with 2 in *. lia.
Qed.

Section InnerW.
Variable wd : Z.
Variables rb ab : Z.
Hypothesis Hrb : 1 <= rb <= wd - 2.
Hypothesis Hab : 1 <= ab <= wd - 2.
Variable rsz : nat.

Local Notation Vres := (Vres rb rsz).
Local Notation Fpos := (Fpos rb rsz).
Local Notation shape := (shape rb rsz).
Local Notation post := (post rb rsz).
Let Hwd : 3 <= wd. Proof. lia. Qed.

Lemma Fpos_nonnegW (s : cstate) : (c_rlimb s < rsz)%nat -> 0 <= c_racc s <= rb -> 0 <= Fpos s.
Proof. intros Hl Hr. unfold C08CrossInner.Fpos, zn. nia. Qed.

Lemma weight_atW (s : cstate) : (c_rlimb s < rsz)%nat -> 0 <= c_racc s <= rb ->
  2 ^ (rb - c_racc s) * 2 ^ ((zn rsz - 1 - zn (c_rlimb s)) * rb) = 2 ^ Fpos s.
Proof.
  intros Hl Hr. unfold C08CrossInner.Fpos. rewrite <- pow2_add by (unfold zn; nia). f_equal. ring.
Qed.

(* One round of the loop, up to its branching: the low w = min (atake, racc) bits of anorm go, as a balanced
   piece d, on top of what the current res limb holds; res1 is the new content of res. *)
Lemma round_facts (s : cstate) : shape s -> 0 < c_racc s <= rb -> 0 < c_atake s <= ab ->
  Z.abs (c_anorm s) <= 2 ^ c_atake s ->
  let w := Z.min (Z.min ab (c_atake s)) (c_racc s) in
  let scale := rb - c_racc s in
  let r := nthZ (c_res s) (c_rlimb s) in
  let d := wrap w (c_anorm s) in
  let n1 := bdiv w (c_anorm s) in
  let res1 := upd (c_res s) (c_rlimb s) (r + d * 2 ^ scale) in
  (1 <= w /\ w <= c_atake s /\ w <= c_racc s /\ (w = c_atake s \/ w = c_racc s)) /\
  extract_digit_addmul wd w scale r (c_anorm s) = (r + d * 2 ^ scale, n1) /\
  d + 2 ^ w * n1 = c_anorm s /\ in_range w d /\ Z.abs n1 <= 2 ^ (c_atake s - w) /\
  length res1 = rsz /\ Vres res1 = Vres (c_res s) + 2 ^ Fpos s * d /\
  nthZ res1 (c_rlimb s) = r + d * 2 ^ scale /\ (forall i, (i < c_rlimb s)%nat -> nthZ res1 i = 0) /\
  Z.abs (r + d * 2 ^ scale) <= 2 ^ (rb - (c_racc s - w)) - 1.
Proof.
  intros (Sl & Sr & Sz & Sb) Hr Ha Hn. cbv zeta.
  set (w := Z.min (Z.min ab (c_atake s)) (c_racc s)).
  assert (Hw : 1 <= w /\ w <= c_atake s /\ w <= c_racc s /\ (w = c_atake s \/ w = c_racc s)) by (unfold w; lia).
  clearbody w. set (r := nthZ (c_res s) (c_rlimb s)) in *.
  assert (HnM : Z.abs (c_anorm s) <= 2 ^ (wd - 2)).
  { assert (2 ^ c_atake s <= 2 ^ (wd - 2)) by (apply pow2_le_mono; lia). lia. }
  destruct (extractW wd w (rb - c_racc s) r (c_anorm s) Hwd ltac:(lia) ltac:(lia) ltac:(lia) HnM Sb) as [Ex Hb].
  replace (rb - c_racc s + w) with (rb - (c_racc s - w)) in Hb by ring.
  split; [exact Hw|]. split; [exact Ex|]. split; [apply wrap_bdiv; lia|]. split; [apply wrap_range; lia|].
  split; [apply rest_bound; [lia|exact Hn]|]. split; [rewrite upd_length; exact Sl|].
  split.
  { rewrite Vres_upd by auto. fold r. rewrite <- (weight_atW s Sr ltac:(lia)). ring. }
  split.
  { rewrite nth_upd, Sl, Nat.eqb_refl. destruct (Nat.ltb_spec (c_rlimb s) rsz); [reflexivity|lia]. }
  split; [|exact Hb].
  intros i Hi. rewrite nth_upd. destruct (Nat.eqb_spec i (c_rlimb s)); [lia|]. apply Sz; exact Hi.
Qed.

(* the current res limb is full and is not the first: the loop moves to the limb above *)
Lemma next_limb (s : cstate) (res1 : list Z) (n1 at1 w : Z) : (c_rlimb s < rsz)%nat -> c_rlimb s <> 0%nat ->
  length res1 = rsz -> (forall i, (i < c_rlimb s)%nat -> nthZ res1 i = 0) -> c_racc s - w = 0 ->
  let s2 := {| c_res := res1; c_anorm := n1; c_acarry := c_acarry s; c_rcarry := c_rcarry s;
               c_atake := at1; c_racc := c_racc s - w + rb; c_rlimb := (c_rlimb s - 1)%nat |} in
  shape s2 /\ Fpos s2 = Fpos s + w.
Proof.
  intros Sr Erl L1 N1z Hr0. cbv zeta. unfold C08CrossInner.shape, C08CrossInner.Fpos. cbn [c_res c_rlimb c_racc].
  split.
  - split; [exact L1|]. split; [lia|]. split; [intros i Hi; apply N1z; lia|].
    rewrite N1z by lia. rewrite Hr0. replace (rb - (0 + rb)) with 0 by lia. cbn. lia.
  - unfold zn. rewrite Nat2Z.inj_sub by lia. change (Z.of_nat 1) with 1. lia.
Qed.

Variable a_limb : nat.

Definition preW (s : cstate) : Prop :=
  shape s /\ 0 < c_racc s <= rb /\ 0 < c_atake s <= ab /\ Z.abs (c_anorm s) <= 2 ^ c_atake s /\
  Z.abs (c_acarry s) <= 2 ^ (wd - 2) /\ c_rcarry s = 0 /\
  (a_limb = 0%nat -> Fpos s + c_atake s = zn rsz * rb).

Theorem cross_inner_specW : forall (fuel : nat) (s : cstate),
  preW s -> c_atake s <= Z.of_nat fuel ->
  post s (fst (cross_inner wd fuel rb ab a_limb s)) (snd (cross_inner wd fuel rb ab a_limb s)).
Proof.
  induction fuel as [|f IH]; intros s Hpre Hf.
  { destruct Hpre as (_ & _ & Ha & _). lia. }
  destruct Hpre as (Hsh & Hr & Ha & Hn & Hc & Hrc & Hal).
  destruct (round_facts s Hsh Hr Ha Hn) as (Hw & Ex & Hdec & Hdr & Hn1 & L1 & V1 & N1r & N1z & Hrb').
  cbv zeta in Hw, Ex, Hdec, Hdr, Hn1, L1, V1, N1r, N1z, Hrb'.
  destruct Hsh as (Sl & Sr & Sz & Sb).
  cbn [cross_inner].
  set (w := Z.min (Z.min ab (c_atake s)) (c_racc s)) in *.
  destruct (Z.eqb_spec w 0) as [E|_]; [clear - E Hw; lia|].
  clearbody w. rewrite Ex. clear Ex.
  set (d := wrap w (c_anorm s)) in *. set (n1 := bdiv w (c_anorm s)) in *. clearbody d n1.
  set (res1 := upd (c_res s) (c_rlimb s) (nthZ (c_res s) (c_rlimb s) + d * 2 ^ (rb - c_racc s))) in *.
  cbn [c_res c_anorm c_acarry c_rcarry c_atake c_racc c_rlimb].
  set (atake1 := c_atake s - w) in *. set (racc1 := c_racc s - w) in *.
  (* unfolded only now: `post` mentions the result of the loop eleven times, and each is the whole loop body *)
  unfold C08CrossInner.post.
  assert (Hz : 0 <= atake1 /\ 0 <= racc1 /\ (atake1 = 0 \/ racc1 = 0) /\ atake1 < c_atake s)
    by (unfold atake1, racc1; clear - Hw; lia).
  pose proof (Fpos_nonnegW s Sr ltac:(clear - Hr; lia)) as HF0.
  (* facts shared by the InnerDone exits: all atake bits consumed *)
  assert (Hdone : atake1 = 0 ->
    c_anorm s = d + 2 ^ c_atake s * n1 /\ Z.abs d <= 2 ^ c_atake s - 1 /\ Z.abs n1 <= 1 /\
    wadd wd (c_acarry s) n1 = c_acarry s + n1).
  { intros E0. assert (Ew : w = c_atake s) by (unfold atake1 in E0; clear - E0; lia).
    rewrite <- Ew. replace atake1 with 0 in Hn1 by (symmetry; exact E0).
    split; [symmetry; exact Hdec|]. split; [apply bal_abs; [clear - Hw; lia|exact Hdr]|].
    split; [exact Hn1|]. apply wadd_small; [exact Hwd|exact Hc|exact Hn1]. }
  destruct ((racc1 =? 0) || Nat.eqb a_limb 0)%bool eqn:Eb.
  - destruct (Nat.eqb a_limb 0 && (atake1 =? 0))%bool eqn:Ec.
    + (* the last a-limb is consumed: by alignment the res limbs are full *)
      apply andb_true_iff in Ec. destruct Ec as [Ea0 Et0].
      apply Nat.eqb_eq in Ea0. apply Z.eqb_eq in Et0.
      specialize (Hal Ea0).
      assert (Hfull : c_rlimb s = 0%nat /\ racc1 = 0).
      { destruct (full_pos (zn rsz) (zn (c_rlimb s)) rb racc1) as [Q1 Q2];
          [unfold zn; clear; lia|clear - Hrb; lia|clear - Hz; lia|
           unfold C08CrossInner.Fpos in Hal; unfold atake1, racc1 in *; clear - Hal Et0; lia|].
        split; [unfold zn in Q1; clear - Q1; lia|exact Q2]. }
      destruct Hfull as [Hrl0 Hr0].
      destruct (Z.eqb_spec racc1 0) as [_|Hne]; [|clear - Hne Hr0; lia].
      set (x0 := nthZ res1 (c_rlimb s)) in *.
      assert (Hx0 : Z.abs x0 <= 2 ^ (wd - 2)).
      { rewrite N1r. assert (H1 : 2 ^ (rb - racc1) <= 2 ^ (wd - 2)) by (apply pow2_le_mono; clear - Hz Hrb Hr0; lia).
        clear - H1 Hrb'. lia. }
      unfold middle_step_assign.
      rewrite (mcW wd rb Hrb 0 x0 (c_rcarry s)); [|clear - Hrb; lia|exact Hx0|rewrite Hrc; cbn [Z.abs]; apply Z.pow_nonneg; lia].
      cbn [fst snd c_res]. split; [discriminate|]. split; [discriminate|]. intros _.
      split; [clear - Hal; lia|]. split; [rewrite upd_length; exact L1|].
      rewrite Hrc, Z.pow_0_r, Z.mul_1_r, Z.add_0_r.
      exists (- n1 - bdiv rb x0).
      rewrite Vres_upd by (auto; clear - Sr; lia). fold x0. rewrite V1.
      pose proof (wrap_bdiv rb x0 ltac:(clear - Hrb; lia)) as Hdx.
      assert (Ew : w = c_atake s) by (unfold atake1 in Et0; clear - Et0; lia).
      assert (EF : 2 ^ Fpos s * 2 ^ w = 2 ^ (zn rsz * rb)).
      { rewrite <- pow2_add by (clear - HF0 Hw; lia). f_equal. clear - Hal Ew. lia. }
      assert (EW : 2 ^ (zn rsz * rb) = 2 ^ rb * 2 ^ ((zn rsz - 1 - zn (c_rlimb s)) * rb)).
      { rewrite Hrl0. change (zn 0) with 0.
        assert (HR1 : 0 <= zn rsz - 1 - 0) by (unfold zn; clear - Sr; lia).
        rewrite <- pow2_add; [f_equal; ring|clear - Hrb; lia|apply Z.mul_nonneg_nonneg; [exact HR1|clear - Hrb; lia]]. }
      set (W := 2 ^ ((zn rsz - 1 - zn (c_rlimb s)) * rb)) in *.
      replace (wrap rb x0 - x0) with (- 2 ^ rb * bdiv rb x0) by (clear - Hdx; lia).
      rewrite <- Hdec.
      replace (2 ^ Fpos s * (d + 2 ^ w * n1)) with (2 ^ Fpos s * d + (2 ^ Fpos s * 2 ^ w) * n1) by ring.
      rewrite EF, EW. ring.
    + assert (Hr0 : racc1 = 0).
      { destruct (Z.eqb_spec racc1 0) as [|Hne]; [assumption|]. cbn [orb] in Eb.
        apply Nat.eqb_eq in Eb. rewrite Eb in Ec. cbn [andb] in Ec. apply Z.eqb_neq in Ec. clear - Ec Hz Hne. lia. }
      destruct (Nat.eqb_spec (c_rlimb s) 0) as [Erl|Erl].
      * (* res is full *)
        cbn [fst snd c_res c_anorm]. split; [discriminate|]. split; [discriminate|]. intros _.
        assert (EFw : zn rsz * rb = Fpos s + w).
        { unfold C08CrossInner.Fpos, racc1 in *. rewrite Erl. change (zn 0) with 0. clear - Hr0. lia. }
        split; [clear - EFw Hw; lia|]. split; [exact L1|].
        exists (- n1). rewrite V1.
        assert (EF : 2 ^ (zn rsz * rb) = 2 ^ Fpos s * 2 ^ w).
        { rewrite <- pow2_add by (clear - HF0 Hw; lia). f_equal. exact EFw. }
        rewrite EF. rewrite <- Hdec. ring.
      * (* move on to the next res limb *)
        cbn [c_res c_anorm c_acarry c_rcarry c_atake c_racc c_rlimb].
        destruct (next_limb s res1 n1 atake1 w Sr Erl L1 N1z Hr0) as [Sh2 F2]. cbv zeta in Sh2, F2.
        fold racc1 in Sh2, F2.
        set (s2 := {| c_res := res1; c_anorm := n1; c_acarry := c_acarry s; c_rcarry := c_rcarry s;
                      c_atake := atake1; c_racc := racc1 + rb; c_rlimb := (c_rlimb s - 1)%nat |}) in *.
        destruct (Z.eqb_spec atake1 0) as [E0|E0].
        -- cbn [fst snd]. split; [discriminate|]. split; [|discriminate]. intros _.
           destruct (Hdone E0) as (D1 & D2 & D3 & D4).
           exists d. cbn [c_acarry c_res c_racc c_rcarry]. rewrite D4.
           replace (c_acarry s + n1 - c_acarry s) with n1 by ring.
           split; [exact D1|]. split; [exact D2|]. split; [exact V1|].
           split; [change (Fpos s2 = Fpos s + c_atake s); rewrite F2; unfold atake1 in E0; clear - E0; lia|].
           split; [exact Sh2|]. split; [clear - Hr0 Hrb; lia|]. split; [exact Hrc|exact D3].
        -- (* recursion *)
           assert (Hpre2 : preW s2).
           { unfold preW. split; [exact Sh2|]. unfold s2; cbn [c_racc c_atake c_anorm c_acarry c_rcarry].
             split; [clear - Hr0 Hrb; lia|]. split; [clear - Hz E0 Ha; lia|]. split; [exact Hn1|]. split; [exact Hc|].
             split; [exact Hrc|].
             intros Ea0. fold s2. rewrite F2. specialize (Hal Ea0). unfold atake1. clear - Hal. lia. }
           destruct (IH s2 Hpre2 ltac:(unfold s2; cbn [c_atake]; clear - Hz Hf; lia)) as (P1 & P2 & P3).
           set (s' := fst (cross_inner wd f rb ab a_limb s2)) in *.
           set (o := snd (cross_inner wd f rb ab a_limb s2)) in *.
           assert (Ea : 2 ^ c_atake s = 2 ^ w * 2 ^ atake1)
             by (rewrite <- pow2_add by (clear - Hw Hz; lia); f_equal; unfold atake1; ring).
           assert (EF : 2 ^ Fpos s2 = 2 ^ Fpos s * 2 ^ w).
           { rewrite F2. apply pow2_add; [exact HF0|clear - Hw; lia]. }
           split; [exact P1|]. split.
           ++ intros Ho. destruct (P2 Ho) as (Pi1 & Q1 & Q2 & Q3 & Q4 & Q5 & Q6 & Q7 & Q8).
              change (c_anorm s2) with n1 in Q1. change (c_atake s2) with atake1 in Q1, Q2.
              change (c_acarry s2) with (c_acarry s) in Q1, Q8. change (c_res s2) with res1 in Q3.
              exists (d + 2 ^ w * Pi1).
              split; [rewrite Ea; rewrite <- Hdec, Q1; ring|].
              split; [rewrite Ea; apply pieces_bound; [clear - Hw; lia|clear - Hz; lia|exact Hdr|exact Q2]|].
              split; [rewrite Q3, V1, EF; ring|].
              split; [rewrite Q4, F2; change (c_atake s2) with atake1; unfold atake1; ring|].
              split; [exact Q5|]. split; [exact Q6|]. split; [exact Q7|exact Q8].
           ++ intros Ho. destruct (P3 Ho) as (Q0 & QL & K & Q).
              change (c_res s2) with res1 in Q. change (c_anorm s2) with n1 in Q.
              change (c_atake s2) with atake1 in Q0.
              split; [rewrite F2 in Q0; unfold atake1 in Q0; clear - Q0; lia|]. split; [exact QL|].
              exists K. rewrite Q, V1, EF. rewrite <- Hdec. ring.
  - (* the res limb is not full and more a-limbs follow: this a-limb is exhausted *)
    apply Bool.orb_false_iff in Eb. destruct Eb as [Eb _]. apply Z.eqb_neq in Eb.
    destruct (Z.eqb_spec atake1 0) as [E0|E0]; [|clear - E0 Eb Hz; lia].
    cbn [fst snd]. split; [discriminate|]. split; [|discriminate]. intros _.
    destruct (Hdone E0) as (D1 & D2 & D3 & D4).
    exists d. cbn [c_acarry c_res c_racc c_rcarry c_rlimb]. rewrite D4.
    replace (c_acarry s + n1 - c_acarry s) with n1 by ring.
    split; [exact D1|]. split; [exact D2|]. split; [exact V1|].
    split; [unfold C08CrossInner.Fpos; cbn [c_rlimb c_racc]; unfold racc1, atake1 in *; clear - E0; lia|].
    split.
    { unfold C08CrossInner.shape. cbn [c_res c_rlimb c_racc]. split; [exact L1|]. split; [exact Sr|].
      split; [exact N1z|]. rewrite N1r. exact Hrb'. }
    split; [clear - Eb Hz Hw Hr; unfold racc1 in *; lia|]. split; [exact Hrc|exact D3].
Qed.

End InnerW.

(* C14: what lookup_table_set writes, and which entry a rotation brings to a given coefficient. *)
From PV Require Import Base.MachineInt Model.Znx Model.Limbs Model.Ring Model.Poly Model.C14Lut Model.C14Spec.
From PV Require Import Proofs.C09Lists Proofs.C09Ring Proofs.C14Rotate Proofs.C08ShiftValue.
Open Scope Z_scope.

Lemma eqb_pred_of_nat (j : nat) (nl : Z) : 1 <= nl -> (Z.of_nat j =? nl - 1) = Nat.eqb j (Z.to_nat nl - 1).
Proof. intros H. destruct (Z.eqb_spec (Z.of_nat j) (nl - 1)); destruct (Nat.eqb_spec j (Z.to_nat nl - 1)); lia. Qed.

Lemma hdZ_nthZ l : hdZ l = nthZ l 0.
Proof. destruct l; reflexivity. Qed.
Lemma nthZ_tl l t : nthZ (tl l) t = nthZ l (S t).
Proof. destruct l; [destruct t; reflexivity | reflexivity]. Qed.

Lemma cols_of_length n ls : length (cols_of n ls) = n.
Proof. revert ls; induction n; intros; cbn [cols_of length]; auto. Qed.
Lemma cols_of_nth n ls t : (t < n)%nat -> nth t (cols_of n ls) [] = map (fun l => nthZ l t) ls.
Proof.
  revert ls t; induction n as [|n IH]; intros ls t Ht; [lia|].
  cbn [cols_of]. destruct t as [|t]; cbn [nth].
  - apply map_ext. intros; apply hdZ_nthZ.
  - rewrite IH by lia. rewrite map_map. apply map_ext. intros; apply nthZ_tl.
Qed.
Lemma rows_of_cols_of n ls : rows_of n ls = cols_of n ls.
Proof. revert ls; induction n as [|n IH]; intros ls; cbn [rows_of cols_of]; [reflexivity|]. rewrite IH. reflexivity. Qed.
Lemma rows_of_length n ls : length (rows_of n ls) = n.
Proof. rewrite rows_of_cols_of. apply cols_of_length. Qed.
Lemma rows_of_nth n ls t : (t < n)%nat -> nth t (rows_of n ls) [] = map (fun l => nthZ l t) ls.
Proof. rewrite rows_of_cols_of. apply cols_of_nth. Qed.

Lemma nth_map_g {A B} (g : A -> B) (l : list A) (i : nat) (da : A) (db : B) :
  (i < length l)%nat -> nth i (map g l) db = g (nth i l da).
Proof.
  intros Hi. rewrite (nth_indep _ db (g da)) by (rewrite map_length; auto). apply map_nth.
Qed.

(* coefficient t, limb l of a normalised polynomial *)
Lemma poly_normalize_nth n b (p : limbs) l t :
  (l < length p)%nat -> (t < n)%nat ->
  nthZ (lnth (poly_normalize_assign n b p) l) t = nthZ (normalize_assign 64 b (map (fun limb => nthZ limb t) p)) l.
Proof.
  intros Hl Ht. unfold poly_normalize_assign, lnth.
  rewrite rows_of_nth by auto.
  unfold nthZ at 1. rewrite (nth_map_g (fun c => nthZ c l) _ t [] 0) by (rewrite map_length, cols_of_length; auto).
  rewrite (nth_map_g (normalize_assign 64 b) _ t [] []) by (rewrite cols_of_length; auto).
  rewrite cols_of_nth by auto. reflexivity.
Qed.
Lemma poly_normalize_shape n b (p : limbs) :
  length (poly_normalize_assign n b p) = length p /\
  Forall (fun limb : list Z => length limb = n) (poly_normalize_assign n b p).
Proof.
  unfold poly_normalize_assign. split; [apply rows_of_length|].
  apply Forall_forall. intros limb Hin. destruct (In_nth _ _ [] Hin) as [j [Hj Hx]].
  rewrite rows_of_length in Hj. rewrite rows_of_nth in Hx by auto. subst limb.
  rewrite !map_length. apply cols_of_length.
Qed.

Lemma nthZ_repeat x s u : (u < s)%nat -> nthZ (repeat x s) u = x.
Proof. revert u; induction s as [|s IH]; intros [|u] Hu; cbn [repeat]; try lia; [reflexivity|]. unfold nthZ in *. cbn [nth]. apply IH. lia. Qed.

Lemma flat_map_repeat_length (g : Z -> Z) (f : list Z) (s : nat) :
  length (flat_map (fun x => repeat (g x) s) f) = (length f * s)%nat.
Proof. induction f as [|h t IH]; cbn [flat_map length]; [reflexivity|]. rewrite app_length, repeat_length, IH. lia. Qed.

Lemma flat_map_repeat_nth (g : Z -> Z) (f : list Z) (s u : nat) :
  (0 < s)%nat -> (u < length f * s)%nat ->
  nthZ (flat_map (fun x => repeat (g x) s) f) u = g (nthZ f (u / s)).
Proof.
  intros Hs. revert u. induction f as [|h t IH]; intros u Hu; cbn [length] in Hu; [lia|].
  cbn [flat_map]. destruct (Nat.lt_ge_cases u s) as [Hlt|Hge].
  - rewrite nthZ_app_l by (rewrite repeat_length; auto). rewrite nthZ_repeat by auto.
    rewrite Nat.div_small by auto. reflexivity.
  - rewrite nthZ_app_r by (rewrite repeat_length; auto). rewrite repeat_length.
    rewrite IH by lia.
    replace u with ((u - s) + 1 * s)%nat at 2 by lia. rewrite Nat.div_add by lia.
    replace ((u - s) / s + 1)%nat with (S ((u - s) / s)) by lia. reflexivity.
Qed.

Definition rot1 : limbs -> limbs := vec_rotate_assign 64 (-1).

Fixpoint iterN {A} (k : nat) (g : A -> A) (a : A) : A := match k with O => a | S k' => g (iterN k' g a) end.
Lemma iter_shift {A} (g : A -> A) (i : nat) (a : A) : iterN i g (g a) = g (iterN i g a).
Proof. induction i; cbn [iterN]; [reflexivity|]. rewrite IHi. reflexivity. Qed.

Lemma split_fold (n : nat) (r0 : limbs) (k s : nat) (acc : lut) (cur : limbs) :
  fold_left (fun (st : lut * limbs) (_ : nat) => (fst st ++ [vec_switch_ring n (snd st) r0], rot1 (snd st))) (seq s k) (acc, cur)
  = (acc ++ map (fun i => vec_switch_ring n (iterN i rot1 cur) r0) (seq 0 k), iterN k rot1 cur).
Proof.
  revert s acc cur. induction k as [|k IH]; intros s acc cur.
  - cbn [seq fold_left map iterN]. rewrite app_nil_r. reflexivity.
  - cbn [seq fold_left fst snd]. rewrite IH. f_equal.
    + rewrite <- app_assoc. f_equal. cbn [app map iterN]. f_equal.
      rewrite <- seq_shift, map_map. apply map_ext. intros i.
      cbn [iterN]. rewrite iter_shift. reflexivity.
    + cbn [iterN]. apply iter_shift.
Qed.

Lemma iter_rot1_lnth (i : nat) (L : limbs) l :
  (l < length L)%nat -> lnth (iterN i rot1 L) l = iterN i (znx_rotate 64 (-1)) (lnth L l)
  /\ length (iterN i rot1 L) = length L.
Proof.
  intros Hl. induction i as [|i [IH1 IH2]]; cbn [iterN]; [auto|].
  unfold rot1 at 1 3. rewrite lnth_vec_rotate_assign. rewrite IH2.
  destruct (Nat.ltb_spec l (length L)); [|lia]. rewrite IH1. split; [reflexivity|].
  unfold vec_rotate_assign, vec_unary_assign. rewrite map_length. exact IH2.
Qed.

Lemma iter_rotate_nth (i : nat) (a : list Z) (u : nat) :
  (u + i < length a)%nat ->
  nthZ (iterN i (znx_rotate 64 (-1)) a) u = nthZ a (u + i) /\ length (iterN i (znx_rotate 64 (-1)) a) = length a.
Proof.
  revert u. induction i as [|i IH]; intros u Hu; cbn [iterN].
  - rewrite Nat.add_0_r. auto.
  - destruct (IH (S u) ltac:(lia)) as [IH1 IH2]. split; [|rewrite rotate_length; exact IH2].
    rewrite rotate_nth by (rewrite IH2; lia).
    replace (Z.of_nat u - -1) with (Z.of_nat (S u)) by lia.
    rewrite ext_small by (rewrite IH2; lia). rewrite IH1. f_equal. lia.
Qed.

Lemma switch_ring_down (n : nat) (r a : list Z) (g : nat) :
  (0 < n)%nat -> (2 <= g)%nat -> length a = (n * g)%nat ->
  znx_switch_ring n r a = map (fun t => nthZ a (t * g)) (seq 0 n).
Proof.
  intros Hn Hg Hl. unfold znx_switch_ring. rewrite Hl.
  destruct (Nat.eqb_spec (n * g) n); [nia|].
  destruct (Nat.ltb_spec n (n * g)); [|nia].
  rewrite Nat.mul_comm, Nat.div_mul by lia. reflexivity.
Qed.

Lemma nat_of_product (a d : nat) (s : Z) : Z.of_nat a * s = Z.of_nat d -> 0 <= s -> (a * Z.to_nat s = d)%nat.
Proof. intros H Hs. apply Nat2Z.inj. rewrite Nat2Z.inj_mul, Z2Nat.id by exact Hs. exact H. Qed.

Section Set_.
Variables (m x : nat) (b klut kmsg : Z) (f : list Z).
Let n := (2 ^ m)%nat.
Let ext := (2 ^ x)%nat.
Let domain := (n * ext)%nat.
Let flen := Z.of_nat (length f).
Let nl := div_ceil kmsg b.
Let size := Z.to_nat (div_ceil klut b).
Let scale := lut_scale b kmsg.
Let step := Z.of_nat domain / flen.
Let drift := step / 2.

Hypothesis Hmx : (m + x + 1 <= 62)%nat.
Hypothesis Hb : 1 <= b <= 62.
Hypothesis Hlen : 1 <= flen <= Z.of_nat n.
Hypothesis Hdiv : Z.of_nat domain mod flen = 0.
(* the code's debug assertion (no overflow of f_i * scale), with two bits of headroom for the normalisation *)
Hypothesis Hhead : Forall (fun fi => Z.abs (wmul 64 fi scale) <= 2 ^ 62) f.

Variables (data : lut) (drift' : Z).
Hypothesis Hset : lookup_table_set n ext b klut kmsg f = Some (data, drift').

Lemma n_pos : (0 < n)%nat.
Proof. unfold n. pose proof (Nat.pow_nonzero 2 m ltac:(lia)). lia. Qed.
Lemma ext_pos : (0 < ext)%nat.
Proof. unfold ext. pose proof (Nat.pow_nonzero 2 x ltac:(lia)). lia. Qed.

Lemma step_exact : flen * step = Z.of_nat domain /\ 1 <= step.
Proof.
  unfold step. pose proof n_pos. pose proof ext_pos.
  pose proof (Z.div_mod (Z.of_nat domain) flen ltac:(lia)) as Hd. rewrite Hdiv in Hd.
  split; [lia|]. assert (Z.of_nat n <= Z.of_nat domain) by (unfold domain; nia). nia.
Qed.

Lemma div_round_exact : div_round (Z.of_nat domain) flen = step.
Proof.
  destruct step_exact as [Hs Hs1]. unfold div_round.
  rewrite <- Hs. replace (flen * step + flen / 2) with (flen / 2 + step * flen) by ring.
  rewrite Z.div_add by lia. rewrite Z.div_small; [lia|].
  pose proof (Z.div_lt_upper_bound flen 2 flen ltac:(lia)). split; [apply Z.div_pos; lia | apply H; lia].
Qed.

Lemma domain_pos : (0 < domain)%nat.
Proof. apply Nat.mul_pos_pos; [exact n_pos | exact ext_pos]. Qed.
Lemma steps_cover : (length f * Z.to_nat step = domain)%nat.
Proof. destruct step_exact as [Hs Hs1]. apply nat_of_product; [exact Hs | lia]. Qed.

(* unfolding the definition under the hypotheses *)
Let lut_at := flat_map (fun fi => repeat (wmul 64 fi scale) (Z.to_nat step)) f
              ++ zeros (domain - Z.to_nat (flen * step)).
Let lut_full : limbs := map (fun j => if Z.of_nat j =? nl - 1 then lut_at else zeros domain) (seq 0 size).
Let r0 : limbs := repeat (zlimb n) size.
Let data0 : lut :=
    if Nat.ltb 1 ext then
      fst (fold_left (fun (s : lut * limbs) (_ : nat) =>
             (fst s ++ [vec_switch_ring n (snd s) r0], vec_rotate_assign 64 (-1) (snd s)))
           (seq 0 ext) ([], lut_full))
    else [vec_unary n (fun l => l) lut_full r0].
Let data1 := map (poly_normalize_assign n b) data0.

Lemma set_unfold :
  1 <= nl <= Z.of_nat size /\ drift' = drift /\ data = lookup_table_rotate n (wneg 64 drift) data1.
Proof.
  pose proof Hset as H. unfold lookup_table_set in H. cbv zeta in H.
  fold flen nl size domain in H. rewrite div_round_exact in H.
  destruct step_exact as [Hs Hs1].
  destruct (Z.ltb_spec (Z.of_nat n) flen); [lia|].
  destruct (Z.eqb_spec flen 0); [lia|].
  destruct (Z.ltb_spec nl 1); cbn [orb] in H; [discriminate|].
  destruct (Z.ltb_spec (Z.of_nat size) nl); cbn [orb] in H; [discriminate|].
  destruct (Z.ltb_spec (Z.of_nat domain) (flen * step)); [lia|].
  injection H as Hd1 Hd2. split; [lia|]. split; [symmetry; exact Hd2|]. symmetry. exact Hd1.
Qed.

Lemma lut_at_length : length lut_at = domain.
Proof.
  destruct step_exact as [Hs Hs1]. unfold lut_at.
  rewrite app_length, flat_map_repeat_length, zeros_length, steps_cover, Hs, Nat2Z.id. lia.
Qed.

Lemma lut_at_nth u : (u < domain)%nat ->
  nthZ lut_at u = wmul 64 (nthZ f (Z.to_nat (Z.of_nat u / step))) scale.
Proof.
  intros Hu. destruct step_exact as [Hs Hs1]. unfold lut_at.
  pose proof steps_cover as Hfl.
  rewrite nthZ_app_l by (rewrite flat_map_repeat_length; lia).
  rewrite (flat_map_repeat_nth (fun fi => wmul 64 fi scale)) by lia.
  f_equal. f_equal.
  rewrite <- (Z2Nat.id step) at 2 by lia. rewrite <- Nat2Z.inj_div, Nat2Z.id. reflexivity.
Qed.

Lemma lut_full_shape : length lut_full = size /\ forall l, (l < size)%nat -> length (lnth lut_full l) = domain.
Proof.
  unfold lut_full. split; [apply map_seq_length|]. intros l Hl. unfold lnth.
  rewrite nth_map_seq by auto. destruct (_ =? _); [apply lut_at_length | unfold zeros; apply repeat_length].
Qed.
Lemma lut_full_nth l u : (l < size)%nat ->
  nthZ (lnth lut_full l) u = if Z.of_nat l =? nl - 1 then nthZ lut_at u else 0.
Proof.
  intros Hl. unfold lut_full, lnth. rewrite nth_map_seq by auto.
  destruct (_ =? _); [reflexivity|]. apply nthZ_zeros.
Qed.

Lemma data0_shape : length data0 = ext /\ lut_wf n size data0.
Proof.
  destruct lut_full_shape as [HL1 HL2]. pose proof n_pos as Hn. pose proof ext_pos as He.
  assert (Hr0 : length r0 = size) by (unfold r0; apply repeat_length).
  assert (Hsw : forall a, length (vec_switch_ring n a r0) = size /\ Forall (fun limb : list Z => length limb = n) (vec_switch_ring n a r0)).
  { intros a. unfold vec_switch_ring, build. rewrite Hr0. split; [apply map_seq_length|].
    apply Forall_forall. intros limb Hin. apply in_map_iff in Hin. destruct Hin as [j [<- _]].
    destruct (Nat.ltb j (length a)); [|unfold zlimb, zeros; apply repeat_length].
    unfold znx_switch_ring. destruct (Nat.eqb_spec (length (lnth a j)) n); [auto|].
    destruct (Nat.ltb n (length (lnth a j))); apply map_seq_length. }
  unfold data0. destruct (Nat.ltb_spec 1 ext).
  - rewrite split_fold. cbn [fst app]. split; [apply map_seq_length|].
    unfold lut_wf. apply Forall_forall. intros p Hp. apply in_map_iff in Hp. destruct Hp as [i [<- _]]. apply Hsw.
  - split; [cbn [length]; lia|]. unfold lut_wf. constructor; [|constructor].
    unfold vec_unary, build. rewrite Hr0. split; [apply map_seq_length|].
    apply Forall_forall. intros limb Hin. apply in_map_iff in Hin. destruct Hin as [j [<- Hj]].
    apply in_seq in Hj. rewrite HL1. destruct (Nat.ltb_spec j size); [|lia].
    rewrite HL2 by auto. unfold domain. replace ext with 1%nat by lia. lia.
Qed.

(* polynomial i, limb l, coefficient t of the table before normalisation = big-ring coefficient t*ext + i *)
Lemma data0_nth i l t : (i < ext)%nat -> (l < size)%nat -> (t < n)%nat ->
  nthZ (lnth (nth i data0 []) l) t = nthZ (lnth lut_full l) (t * ext + i).
Proof.
  intros Hi Hl Ht. destruct lut_full_shape as [HL1 HL2]. pose proof n_pos as Hn.
  assert (Hr0 : length r0 = size) by (unfold r0; apply repeat_length).
  unfold data0. destruct (Nat.ltb_spec 1 ext) as [He|He].
  - rewrite split_fold. cbn [fst app]. rewrite nth_map_seq by auto.
    destruct (iter_rot1_lnth i lut_full l ltac:(lia)) as [HI1 HI2].
    unfold vec_switch_ring, build, lnth at 1. rewrite Hr0. rewrite nth_map_seq by auto.
    rewrite HI2, HL1. destruct (Nat.ltb_spec l size); [|lia].
    fold (lnth (iterN i rot1 lut_full) l). rewrite HI1.
    assert (Hd : (t * ext + i < domain)%nat) by (unfold domain; nia).
    destruct (iter_rotate_nth i (lnth lut_full l) (t * ext) ltac:(rewrite HL2 by auto; lia)) as [HR1 HR2].
    rewrite (switch_ring_down n _ _ ext) by (auto; rewrite HR2, HL2 by auto; reflexivity).
    rewrite nthZ_map_seq by auto. exact HR1.
  - assert (ext = 1%nat) by (pose proof ext_pos; lia). replace i with 0%nat by lia. cbn [nth].
    unfold vec_unary, build, lnth at 1. rewrite Hr0, nth_map_seq by auto. rewrite HL1.
    destruct (Nat.ltb_spec l size); [|lia]. f_equal. lia.
Qed.

(* the normalised table, read in the big ring *)
Lemma data1_shape : length data1 = ext /\ lut_wf n size data1.
Proof.
  destruct data0_shape as [H1 H2]. unfold data1. split; [rewrite map_length; auto|].
  unfold lut_wf in *. apply Forall_forall. intros p Hp. apply in_map_iff in Hp. destruct Hp as [p0 [<- Hp0]].
  rewrite Forall_forall in H2. destruct (H2 p0 Hp0) as [Hs _].
  destruct (poly_normalize_shape n b p0) as [Ha Hb']. rewrite Ha. auto.
Qed.

Definition col_of (xv : Z) : list Z := map (fun j => if Nat.eqb j (Z.to_nat nl - 1) then xv else 0) (seq 0 size).

Lemma data1_big l u : (l < size)%nat -> (u < domain)%nat ->
  nthZ (lut_big n data1 l) u
  = nthZ (entry_limbs b size (Z.to_nat nl) (wmul 64 (nthZ f (Z.to_nat (Z.of_nat u / step))) scale)) l.
Proof.
  intros Hl Hu. destruct data0_shape as [H01 H02]. destruct data1_shape as [H11 H12].
  destruct set_unfold as [Hnl _]. pose proof ext_pos as He.
  rewrite lut_big_nth, H11 by (rewrite H11; exact Hu).
  set (i := (u mod ext)%nat). set (t := (u / ext)%nat).
  assert (Hi : (i < ext)%nat) by (apply Nat.mod_upper_bound; lia).
  assert (Ht : (t < n)%nat) by (apply Nat.div_lt_upper_bound; unfold domain in Hu; lia).
  assert (Hut : u = (t * ext + i)%nat) by (pose proof (Nat.div_mod u ext ltac:(lia)); unfold t, i; lia).
  unfold data1. rewrite (nth_map_g (poly_normalize_assign n b) _ i [] []) by (rewrite H01; auto).
  destruct (lut_wf_nth n size data0 i H02 ltac:(rewrite H01; auto)) as [Hs1 Hs2].
  rewrite poly_normalize_nth by (rewrite ?Hs1; auto).
  unfold entry_limbs. f_equal. f_equal.
  apply (nth_ext _ _ 0 0).
  - rewrite !map_length, seq_length. exact Hs1.
  - intros j Hj. rewrite map_length, Hs1 in Hj.
    rewrite (nth_map_g (fun limb => nthZ limb t) _ j [] 0) by (rewrite Hs1; auto).
    fold (lnth (nth i data0 []) j). rewrite data0_nth by auto.
    rewrite lut_full_nth by auto. rewrite <- Hut.
    fold (nthZ (map (fun j0 : nat => if Nat.eqb j0 (Z.to_nat nl - 1) then wmul 64 (nthZ f (Z.to_nat (Z.of_nat u / step))) scale else 0) (seq 0 size)) j).
    rewrite nthZ_map_seq by auto.
    rewrite (eqb_pred_of_nat j nl) by exact (proj1 Hnl).
    destruct (Nat.eqb j (Z.to_nat nl - 1)); [apply lut_at_nth; auto | reflexivity].
Qed.

Lemma entry_limbs_facts xv : Z.abs xv <= 2 ^ 62 ->
  length (entry_limbs b size (Z.to_nat nl) xv) = size /\ Forall (in_range 64) (entry_limbs b size (Z.to_nat nl) xv).
Proof.
  intros Hx. unfold entry_limbs.
  assert (Hh : hr62 (map (fun j : nat => if Nat.eqb j (Z.to_nat nl - 1) then xv else 0) (seq 0 size))).
  { unfold hr62. apply Forall_forall. intros y Hy. apply in_map_iff in Hy. destruct Hy as [j [<- _]].
    destruct (Nat.eqb j _); [exact Hx|]. cbn [Z.abs]. pose proof (pow2_pos 62 ltac:(lia)). lia. }
  destruct (normalize_assign_value b Hb _ Hh) as [HL [HB _]]. cbv zeta in HL, HB.
  split; [rewrite HL, map_seq_length; reflexivity|].
  eapply Forall_impl; [|exact HB]. intros a [Ha1 Ha2]. unfold in_range.
  assert (2 ^ (b - 1) <= 2 ^ (64 - 1)) by (apply Z.pow_le_mono_r; lia). lia.
Qed.

Lemma head_nth j : Z.abs (wmul 64 (nthZ f j) scale) <= 2 ^ 62.
Proof.
  destruct (Nat.lt_ge_cases j (length f)) as [Hj|Hj].
  - rewrite Forall_forall in Hhead. apply Hhead. unfold nthZ. apply nth_In. auto.
  - rewrite nthZ_overflow by auto. unfold wmul. rewrite Z.mul_0_l.
    rewrite wrap_id by (unfold in_range; pose proof (pow2_pos (64 - 1) ltac:(lia)); lia).
    cbn [Z.abs]. pose proof (pow2_pos 62 ltac:(lia)). lia.
Qed.

Lemma data1_big_range l : (l < size)%nat -> Forall (in_range 64) (lut_big n data1 l) /\ length (lut_big n data1 l) = domain.
Proof.
  intros Hl. destruct data1_shape as [H11 _].
  assert (HL : length (lut_big n data1 l) = domain) by (unfold lut_big; rewrite interleave_length, H11; reflexivity).
  split; [|exact HL]. apply Forall_of_nthZ. intros u Hu. rewrite HL in Hu.
  rewrite data1_big by auto.
  destruct (entry_limbs_facts _ (head_nth (Z.to_nat (Z.of_nat u / step)))) as [HA HB].
  apply Forall_nthZ; [exact HB | rewrite HA; exact Hl].
Qed.

Lemma drift_small : 0 <= drift < 2 ^ 61.
Proof.
  destruct step_exact as [Hs Hs1]. unfold drift.
  assert (Hd : Z.of_nat domain <= 2 ^ 61).
  { unfold domain, n, ext. rewrite Nat2Z.inj_mul, !Nat2Z.inj_pow. cbn [Z.of_nat Pos.of_succ_nat Pos.succ].
    rewrite <- Z.pow_add_r by lia. apply Z.pow_le_mono_r; lia. }
  assert (step <= Z.of_nat domain) by nia.
  split; [apply Z.div_pos; lia|]. apply Z.div_lt_upper_bound; lia.
Qed.

Lemma pow2_T : exists c, 2 ^ 64 = c * (2 * Z.of_nat n * Z.of_nat ext).
Proof. apply pow2_T_gen. lia. Qed.

(* the table rule, every limb, every big-ring coefficient, every rotation *)
Theorem set_then_rotate_limb (k : Z) (l u : nat) : (l < size)%nat -> (u < domain)%nat ->
  nthZ (lut_big n (lookup_table_rotate n k data) l) u
  = nthZ (selected_limbs (Z.of_nat domain) step drift b size (Z.to_nat nl) scale f k (Z.of_nat u)) l.
Proof.
  intros Hl Hu.
  destruct set_unfold as [Hnl [_ Hdata]]. destruct data1_shape as [H11 H12].
  destruct pow2_T as [c Hc]. pose proof n_pos as Hn. pose proof ext_pos as He.
  pose proof drift_small as Hdr.
  assert (Hwd : wneg 64 drift = - drift).
  { unfold wneg. apply wrap_id; [lia|]. unfold in_range. replace (64 - 1) with 63 by lia.
    assert (2 ^ 61 < 2 ^ 63) by (apply Z.pow_lt_mono_r; lia). lia. }
  assert (Hc1 : 2 ^ 64 = c * (2 * Z.of_nat n * Z.of_nat (length data1))) by (rewrite H11; exact Hc).
  pose proof (rot_wf n size data1 (wneg 64 drift) Hn ltac:(rewrite H11; auto) H12) as Hwf2.
  pose proof (rot_length n data1 (wneg 64 drift) Hn ltac:(rewrite H11; auto)) as Hlen2. rewrite <- Hdata in Hwf2, Hlen2. rewrite H11 in Hlen2.
  assert (Hc2 : 2 ^ 64 = c * (2 * Z.of_nat n * Z.of_nat (length data))) by (rewrite Hlen2; exact Hc).
  rewrite (rotate_is_big_ring_rotation_gen n size data k Hn ltac:(rewrite Hlen2; auto) Hwf2 c Hc2 l Hl).
  rewrite Hdata.
  rewrite (rotate_is_big_ring_rotation_gen n size data1 (wneg 64 drift) Hn ltac:(rewrite H11; auto) H12 c Hc1 l Hl).
  destruct (data1_big_range l Hl) as [HR HL].
  rewrite monomial_mul_compose by (auto; lia).
  rewrite monomial_mul_nth by (rewrite HL; auto).
  rewrite Hwd.
  unfold selected_limbs. cbv zeta.
  set (t := Z.of_nat u + drift - k).
  replace (Z.of_nat u - (k + - drift)) with t by (unfold t; lia).
  assert (Hdpos : 0 < Z.of_nat domain) by (pose proof domain_pos; lia).
  pose proof (Z.mod_pos_bound t (Z.of_nat domain) Hdpos) as Hmb.
  unfold Poly.ext. cbv zeta. rewrite HL.
  rewrite data1_big by (auto; lia). rewrite Z2Nat.id by lia.
  destruct (entry_limbs_facts _ (head_nth (Z.to_nat (t mod Z.of_nat domain / step)))) as [HA HB].
  destruct (Z.even (t / Z.of_nat domain)); [reflexivity|].
  rewrite nthZ_map by (rewrite HA; auto). reflexivity.
Qed.

(* coefficient 0 of polynomial 0 *)
Theorem set_then_rotate_selects (k : Z) :
  coeff0 (lookup_table_rotate n k data) = selected_limbs (Z.of_nat domain) step drift b size (Z.to_nat nl) scale f k 0.
Proof.
  destruct set_unfold as [Hnl [_ Hdata]]. destruct data1_shape as [H11 H12].
  pose proof n_pos as Hn. pose proof ext_pos as He.
  pose proof (rot_wf n size data1 (wneg 64 drift) Hn ltac:(rewrite H11; auto) H12) as Hwf2.
  pose proof (rot_length n data1 (wneg 64 drift) Hn ltac:(rewrite H11; auto)) as Hlen2. rewrite <- Hdata in Hwf2, Hlen2. rewrite H11 in Hlen2.
  pose proof (rot_wf n size data k Hn ltac:(rewrite Hlen2; auto) Hwf2) as Hwf3.
  pose proof (rot_length n data k Hn ltac:(rewrite Hlen2; auto)) as Hlen3. rewrite Hlen2 in Hlen3.
  destruct (lut_wf_nth n size _ 0 Hwf3 ltac:(rewrite Hlen3; auto)) as [Hs1 Hs2].
  assert (Hsel : length (selected_limbs (Z.of_nat domain) step drift b size (Z.to_nat nl) scale f k 0) = size).
  { unfold selected_limbs. cbv zeta.
    destruct (entry_limbs_facts _ (head_nth (Z.to_nat ((0 + drift - k) mod Z.of_nat domain / step)))) as [HA _].
    destruct (Z.even _); [exact HA | rewrite map_length; exact HA]. }
  apply nthZ_ext.
  - unfold coeff0. rewrite map_length, Hs1, Hsel. reflexivity.
  - intros l Hl. unfold coeff0 in Hl. rewrite map_length, Hs1 in Hl.
    pose proof domain_pos as Hd0.
    pose proof (set_then_rotate_limb k l 0 Hl Hd0) as Hlimb. cbn [Z.of_nat] in Hlimb. rewrite <- Hlimb.
    unfold coeff0. unfold nthZ at 1. rewrite (nth_map_g hdZ _ l [] 0) by (rewrite Hs1; auto).
    fold (lnth (nth 0 (lookup_table_rotate n k data) []) l).
    rewrite lut_big_nth, Hlen3 by (rewrite Hlen3; exact Hd0). rewrite Nat.mod_0_l, Nat.div_0_l by lia.
    rewrite hdZ_nthZ. reflexivity.
Qed.

End Set_.

Lemma mod_div_mul (t len step : Z) : 0 < len -> 0 < step -> (t mod (len * step)) / step = (t / step) mod len.
Proof.
  intros Hl Hs.
  pose proof (Z.div_mod t step ltac:(lia)) as H1. pose proof (Z.mod_pos_bound t step Hs) as B1.
  pose proof (Z.div_mod (t / step) len ltac:(lia)) as H2. pose proof (Z.mod_pos_bound (t / step) len Hl) as B2.
  set (q := t / step) in *. set (r := t mod step) in *. set (a := q / len) in *. set (c := q mod len) in *.
  assert (Hm : t mod (len * step) = step * c + r).
  { symmetry. apply (Z.mod_unique_pos t (len * step) a (step * c + r)); nia. }
  rewrite Hm. symmetry. apply (Z.div_unique_pos (step * c + r) step c r); lia.
Qed.

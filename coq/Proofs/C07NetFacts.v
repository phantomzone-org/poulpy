(* C07 butterfly networks: the facts that are finite by nature, established by evaluating boolean checks on the generated
   constants: per prime set the split point of the reduction (computed once), per prime that OMEGA_k^(2^16) = -1 with
   2^17 | Q_k - 1, and that the lazy budgets of the two table builders hold for the 16 sizes.  The sizes share their
   levels (forward: the first m-1 levels of size 2^m are those of every larger size, only the level nn = 2 is special;
   inverse: the levels of size 2^m are the first m levels of every larger size), so one walk down the levels, checking at
   each depth what the size ending there adds, covers them all.  What the checks imply is proved in C07NetTable.v. *)
From PV Require Import Base.MachineInt Model.C07Ntt120 Model.C07NttNet Proofs.C07NetBase Proofs.C07NetLazy.
Open Scope Z_scope.

(* (notations, not constants: no proof may hinge on unfolding an alias of modq_pow on an abstract prime) *)
Notation phi_of P k m := (modq_pow (omega_n P k m) (-1) (qk P k)).
Notation ninv_of P k m := (modq_pow (2 ^ Z.of_nat m) (-1) (qk P k)).
Notation step_of P k m l := (modq_pow (omega_n P k m) (2 ^ Z.of_nat (m - l)) (qk P k)).
Notation istep_of P k m l := (modq_pow (omega_n P k m) (- 2 ^ Z.of_nat (m - l)) (qk P k)).

Definition three : list primeset := [primes29; primes30; primes31].

(* w^(2^16) = -1 and 2^17 | q - 1, so every power of w has order dividing q - 1; 2^(q-1) = 1 (for the inverse of n) *)
Definition root_ok (q w : Z) : bool :=
  (1 <? q) && (q <? 2 ^ 32) && ((q - 1) mod 2 ^ 17 =? 0) && (0 <=? w) && (w <? q) &&
  (pow_loop 64 (2 ^ 16) w 1 q =? q - 1) && (pow_loop 64 (q - 1) 2 1 q =? 1).

(* forward, `bs` and the bound U after some levels with nn > 2: the size that ends here passes its level nn = 2, and up
   to n more levels with nn > 2 may follow *)
Fixpoint fwd_sizes (q : Z) (rm : redmeta) (bsr logq : Z) (n : nat) (bs U : Z) : bool :=
  match fwd_chain q rm 1 (fwd_metas bsr logq q 1 bs) U with
  | None => false
  | Some _ =>
      match n with
      | O => true
      | S n' => let sm := hd dsm (fwd_metas bsr logq q 2 bs) in
                match fwd_lvl q rm sm 2 U with Some U' => fwd_sizes q rm bsr logq n' (sm_bs sm) U' | None => false end
      end
  end.
Definition fwd_ok (q : Z) (rm : redmeta) (bsr logq : Z) : bool :=
  if rmwf_b q rm then
    match ew_lvl q rm (fwd_meta0 logq) (2 ^ 64 - 1) with
    | Some U1 => fwd_sizes q rm bsr logq 15 (sm_bs (fwd_meta0 logq)) U1
    | None => false
    end
  else false.

(* inverse, `bs` and the two bounds after some levels: the size that ends here passes its element-wise pass, and up to
   n more levels may follow *)
Fixpoint inv_sizes (q : Z) (rm : redmeta) (bsr logq : Z) (n : nat) (bs U0 U : Z) : bool :=
  match ew_lvl q rm (inv_meta_last bsr logq q bs) U with
  | None => false
  | Some _ =>
      match n with
      | O => true
      | S n' => let sm := hd dsm (inv_metas bsr logq q 1 bs) in
                match inv_lvl q rm sm 2 U0 U with
                | Some (U0', U') => inv_sizes q rm bsr logq n' (sm_bs sm) U0' U'
                | None => false
                end
      end
  end.
Definition inv_ok (q : Z) (rm : redmeta) (bsr logq : Z) : bool :=
  if rmwf_b q rm then
    let mf := inv_meta_first bsr logq q in
    match inv_lvl q rm mf 1 (2 ^ 64 - 1) (2 ^ 64 - 1) with
    | Some (U0, U) => inv_sizes q rm bsr logq 15 (sm_bs mf) U0 U
    | None => false
    end
  else false.

(* fr = fill_red P 64, evaluated once per prime set *)
Definition red_with (fr : Z * Z) (q : Z) : redmeta := {| rm_h := fst fr; rm_mask := mask_of (fst fr); rm_cst := pow2_mod (fst fr) q |}.
Definition prime_ok (fr : Z * Z) (logq q w : Z) : bool :=
  if root_ok q w then if fwd_ok q (red_with fr q) (snd fr) logq then inv_ok q (red_with fr q) (snd fr) logq else false else false.
Definition set_ok (P : primeset) : bool :=
  let fr := fill_red P 64 in forallb (fun k => prime_ok fr (ps_LOG_Q P) (qk P k) (omegak P k)) (seq 0 4).

Lemma sets_ok : forallb set_ok three = true.
Proof. vm_compute. reflexivity. Qed.

(* (lets an example on primes30 evaluate the split point once instead of once per table) *)
Lemma fill_red_primes30 : fill_red primes30 64 = (47, 48).
Proof. vm_compute. reflexivity. Qed.

Lemma red_of_with P q : red_of P q = red_with (fill_red P 64) q.
Proof. reflexivity. Qed.
Lemma bs_red_snd P : bs_red P = snd (fill_red P 64).
Proof. reflexivity. Qed.

Lemma prime_facts P k : In P three -> (k < 4)%nat ->
  root_ok (qk P k) (omegak P k) = true /\ fwd_ok (qk P k) (red_of P (qk P k)) (bs_red P) (ps_LOG_Q P) = true /\
  inv_ok (qk P k) (red_of P (qk P k)) (bs_red P) (ps_LOG_Q P) = true.
Proof.
  intros HP Hk. pose proof (proj1 (forallb_forall _ _) sets_ok P HP) as H. unfold set_ok in H. cbv zeta in H.
  pose proof (proj1 (forallb_forall _ _) H k ltac:(apply in_seq; lia)) as Hp. cbv beta in Hp. unfold prime_ok in Hp.
  rewrite <- red_of_with, <- bs_red_snd in Hp.
  destruct (root_ok (qk P k) (omegak P k)); [|discriminate].
  destruct (fwd_ok (qk P k) (red_of P (qk P k)) (bs_red P) (ps_LOG_Q P)); [|discriminate]. repeat split. exact Hp.
Qed.

(* C15 — word operations: the homomorphic BDD evaluator refines C13's [eval_stale] under [cmux_selects]; composition
   with the circuit theorems of C13, the bit layout and the packing lemma gives: packed encryption -> prepare ->
   circuit evaluation -> repack decrypts to the word operation. *)
From Coq Require Import ZArith List Bool Arith Lia.
From PV Require Import Gen.C15_gen Model.C13Bdd Model.C15Uint Model.C15Word
  Proofs.C13Circuits Proofs.C15Layout Proofs.C15Surgery Proofs.ListFacts.
Import ListNotations.
Open Scope nat_scope.

Lemma Forall2_firstn {A B} (R : A -> B -> Prop) n l l' : Forall2 R l l' -> Forall2 R (firstn n l) (firstn n l').
Proof. intros H; revert n; induction H; intros [|n]; cbn; constructor; auto. Qed.

Lemma Forall2_skipn {A B} (R : A -> B -> Prop) n l l' : Forall2 R l l' -> Forall2 R (skipn n l) (skipn n l').
Proof. intros H; revert n; induction H; intros [|n]; cbn; auto. Qed.

Section Eval.
  Variables glwe ggsw : Type.
  Variable cmux : glwe -> glwe -> ggsw -> glwe.
  Variables ct_zero ct_one : glwe.
  Variable enc_bit : glwe -> bool -> Prop.       (* the ciphertext's ideal plaintext is this bit (scale 2^-2, coefficient 0) *)
  Variable enc_sel : ggsw -> bool -> Prop.       (* the prepared GGSW encrypts this bit *)
  Variable quiet : glwe -> Prop.                 (* its accumulated error is below the decoding threshold *)
  Hypothesis zero_ok : enc_bit ct_zero false.
  Hypothesis one_ok : enc_bit ct_one true.
  (* C04: cmux(t, f, s) = (t - f) * s + f selects t when s encrypts 1, f when it encrypts 0 *)
  Hypothesis cmux_selects : forall t f s bt bf b,
    enc_bit t bt -> enc_bit f bf -> enc_sel s b -> quiet (cmux t f s) -> enc_bit (cmux t f s) (if b then bt else bf).

  Notation hnode := (hnode glwe ggsw cmux ct_zero).
  Notation hlevel := (hlevel glwe ggsw cmux ct_zero).
  Notation hstep := (hstep glwe ggsw cmux ct_zero).
  Notation hinit := (hinit glwe ct_zero ct_one).
  Notation hroot := (hroot glwe ggsw cmux ct_zero).
  Notation hrun := (hrun glwe ggsw cmux ct_zero).
  Notation heval := (heval glwe ggsw cmux ct_zero ct_one).

  Lemma F2_nth l l' i : Forall2 enc_bit l l' -> enc_bit (nth i l ct_zero) (nth i l' false).
  Proof. intros H; revert i; induction H; intros [|i]; cbn; auto. Qed.

  Section Fixed.
    Variable s : nat -> ggsw.
    Variable e : env.
    Variables nb w : nat.
    Hypothesis Hsel : forall v, v < nb -> enc_sel (s v) (e v).

    Lemma hlevel_ok L : forall j prev pb next nx,
      Forall2 enc_bit prev pb -> Forall2 enc_bit next nx ->
      forallb (node_safe nb w) L = true -> Forall quiet (hlevel s prev next j L) ->
      Forall2 enc_bit (hlevel s prev next j L) (level_stale e pb nx j L).
    Proof.
      induction L as [|nd L IH]; intros j prev pb next nx Hp Hn Hs Hq; cbn; [constructor|].
      cbn in Hs. apply andb_true_iff in Hs as [Hnd Hs]. cbn in Hq. inversion Hq as [|? ? Hq1 Hq2]; subst.
      constructor; [|apply IH; auto].
      destruct nd as [v hi lo| |]; cbn in *.
      - apply andb_true_iff in Hnd as [Hnd _]. apply andb_true_iff in Hnd as [Hv _]. apply Nat.ltb_lt in Hv.
        apply cmux_selects; auto using F2_nth.
      - apply F2_nth; auto.
      - apply F2_nth; auto.
    Qed.

    Definition Inv (st : hstate glwe) (sb : list bool * list bool) : Prop :=
      Forall2 enc_bit (fst st) (fst sb) /\ Forall2 enc_bit (snd st) (snd sb).

    Lemma hrun_ok lv : forall st sb, Inv st sb ->
      forallb (forallb (node_safe nb w)) lv = true -> Forall quiet (snd (hrun s st lv)) ->
      Inv (fst (hrun s st lv)) (fold_left (step_stale e) lv sb).
    Proof.
      induction lv as [|L lv IH]; intros st sb [H1 H2] Hs Hq; cbn; [split; auto|].
      cbn in Hs. apply andb_true_iff in Hs as [HL Hs]. cbn in Hq. apply Forall_app in Hq as [Hq1 Hq2].
      apply IH; auto. split; cbn; [|exact H1]. apply hlevel_ok; auto.
    Qed.

    Lemma hinit_ok : Inv (hinit w) (init_buf w).
    Proof.
      unfold Inv, hinit, init_buf, init_level. cbn [fst snd].
      assert (H : Forall2 enc_bit (map (fun i => if Nat.eqb 1 i then ct_one else ct_zero) (seq 0 (2 * w)))
                                  (map (Nat.eqb 1) (seq 0 (2 * w)))).
      { apply Forall2_map_in. intros x _. destruct (Nat.eqb 1 x); auto. }
      split; [apply Forall2_firstn | apply Forall2_skipn]; exact H.
    Qed.
  End Fixed.

  (* the homomorphic evaluation of one output bit encrypts what C13's evaluator computes on the selector bits *)
  Lemma heval_correct c s e nb : exec_safe nb c = true -> (forall v, v < nb -> enc_sel (s v) (e v)) ->
    Forall quiet (snd (heval c s)) -> enc_bit (fst (heval c s)) (eval_stale c e).
  Proof.
    intros Hsafe Hsel Hq. unfold heval, eval_stale, exec_safe in *.
    destruct (c_width c) as [|w'] eqn:Ew; [exact zero_ok|].
    destruct (levels_of c) as [lv|]; [|discriminate].
    unfold heval_levels, eval_levels_stale in *. destruct lv as [|L0 lv0]; [discriminate|].
    set (lv := L0 :: lv0) in *. apply andb_true_iff in Hsafe as [Hs1 Hs2].
    cbn [fst snd] in *. apply Forall_app in Hq as [Hq1 Hq2].
    pose proof (hrun_ok s e nb (S w') Hsel (removelast lv) (hinit (S w')) (init_buf (S w')) (hinit_ok (S w')) Hs1 Hq1) as [Hf _].
    destruct (last lv []) as [|nd tl]; [discriminate|]. destruct nd as [v hi lo| |]; try discriminate.
    cbn [hroot root_stale] in *. cbn [C15Word.hroot] in *. inversion Hq2 as [|? ? Hq3 _]; subst.
    cbn in Hs2. apply andb_true_iff in Hs2 as [Hs2 _]. apply andb_true_iff in Hs2 as [Hv _]. apply Nat.ltb_lt in Hv.
    apply cmux_selects; auto using F2_nth.
  Qed.
End Eval.

(* the ten two-word u32 operations (the eleventh circuit, identity, has its own theorem) *)
Inductive wop := Wadd | Wsub | Wsll | Wsrl | Wsra | Wslt | Wsltu | Wand | Wor | Wxor.
Definition wop_circ (o : wop) : nat -> circuit :=
  match o with
  | Wadd => circuit_add | Wsub => circuit_sub | Wsll => circuit_sll | Wsrl => circuit_srl | Wsra => circuit_sra
  | Wslt => circuit_slt | Wsltu => circuit_sltu | Wand => circuit_and | Wor => circuit_or | Wxor => circuit_xor
  end.
(* the RISC-V word operation (definitions of Model/C13Bdd.v: (a+b) mod 2^32, a << (b & 31), signed <, ...) *)
Definition wop_fun (o : wop) : Z -> Z -> Z :=
  match o with
  | Wadd => op_add | Wsub => op_sub | Wsll => op_sll | Wsrl => op_srl | Wsra => op_sra
  | Wslt => op_slt | Wsltu => op_sltu | Wand => op_and | Wor => op_or | Wxor => op_xor
  end.

Open Scope Z_scope.

Lemma wop_correct o a b : 0 <= a < 2 ^ 32 -> 0 <= b < 2 ^ 32 -> forall i, (i < 32)%nat ->
  eval_stale (wop_circ o i) (env_of a b) = Z.testbit (wop_fun o a b) (Z.of_nat i).
Proof.
  destruct o; cbn [wop_circ wop_fun];
    [apply circuit_add_correct | apply circuit_sub_correct | apply circuit_sll_correct | apply circuit_srl_correct
     | apply circuit_sra_correct | apply circuit_slt_correct | apply circuit_sltu_correct | apply circuit_and_correct
     | apply circuit_or_correct | apply circuit_xor_correct].
Qed.

Lemma family_safe nin nout hb tab i : FamilyWellFormed nin nout hb tab -> exec_safe hb (circuit_at tab i) = true.
Proof.
  intros (_ & _ & _ & H). unfold circuit_at. destruct (nth_error tab i) as [c|] eqn:E.
  - rewrite (nth_error_nth _ _ _ E). apply (H i c E).
  - rewrite nth_overflow by (apply nth_error_None; exact E). reflexivity.
Qed.

Lemma wop_safe o i : exec_safe 64 (wop_circ o i) = true.
Proof.
  destruct o; cbn [wop_circ];
    [apply (family_safe _ _ _ _ _ wellformed_add) | apply (family_safe _ _ _ _ _ wellformed_sub)
     | apply (family_safe _ _ _ _ _ wellformed_sll) | apply (family_safe _ _ _ _ _ wellformed_srl)
     | apply (family_safe _ _ _ _ _ wellformed_sra) | apply (family_safe _ _ _ _ _ wellformed_slt)
     | apply (family_safe _ _ _ _ _ wellformed_sltu) | apply (family_safe _ _ _ _ _ wellformed_and)
     | apply (family_safe _ _ _ _ _ wellformed_or) | apply (family_safe _ _ _ _ _ wellformed_xor)].
Qed.

Lemma high_bits_false x n m : 0 <= x < 2 ^ n -> n <= m -> Z.testbit x m = false.
Proof.
  intros Hx Hm. assert (0 <= n) by (destruct (Z_lt_le_dec n 0); [rewrite Z.pow_neg_r in Hx by lia; lia | lia]).
  rewrite <- (Z.mod_small x (2 ^ n)) by lia. apply Z.mod_pow2_bits_high. lia.
Qed.

Lemma lt_pow2_of_bits x n : 0 <= n -> 0 <= x -> (forall m, n <= m -> Z.testbit x m = false) -> x < 2 ^ n.
Proof.
  intros Hn Hx H. assert (E : x = x mod 2 ^ n).
  { apply Z.bits_inj'. intros m Hm. destruct (Z_lt_le_dec m n).
    - now rewrite Z.mod_pow2_bits_low.
    - rewrite Z.mod_pow2_bits_high by lia. apply H; lia. }
  rewrite E. apply Z.mod_pos_bound, pow2_pos'. lia.
Qed.

Lemma wop_range o a b : 0 <= a < 2 ^ 32 -> 0 <= b < 2 ^ 32 -> 0 <= wop_fun o a b < 2 ^ 32.
Proof.
  intros Ha Hb. pose proof (pow2_pos' 32 ltac:(lia)) as Hp.
  destruct o; cbn [wop_fun]; unfold op_add, op_sub, op_sll, op_srl, op_sra, op_slt, op_sltu, op_and, op_or, op_xor;
    try (apply Z.mod_pos_bound; exact Hp).
  - assert (0 <= Z.land b 31) by (apply Z.land_nonneg; lia).
    rewrite Z.shiftr_div_pow2 by lia. pose proof (pow2_pos' (Z.land b 31) ltac:(lia)).
    split; [apply Z.div_pos; lia|]. apply Z.le_lt_trans with a; [|lia]. apply Z.div_le_upper_bound; nia.
  - destruct (sgn32 a <? sgn32 b); lia.
  - destruct (a <? b); lia.
  - split; [apply Z.land_nonneg; lia|]. apply lt_pow2_of_bits; [lia | apply Z.land_nonneg; lia|].
    intros m Hm. rewrite Z.land_spec, (high_bits_false a 32 m) by lia. reflexivity.
  - split; [apply Z.lor_nonneg; lia|]. apply lt_pow2_of_bits; [lia | apply Z.lor_nonneg; lia|].
    intros m Hm. rewrite Z.lor_spec, (high_bits_false a 32 m), (high_bits_false b 32 m) by lia. reflexivity.
  - split; [apply Z.lxor_nonneg; lia|]. apply lt_pow2_of_bits; [lia | apply Z.lxor_nonneg; lia|].
    intros m Hm. rewrite Z.lxor_spec, (high_bits_false a 32 m), (high_bits_false b 32 m) by lia. reflexivity.
Qed.

Section WordOp.
  Variables glwe ggsw lwe : Type.
  Variable cmux : glwe -> glwe -> ggsw -> glwe.
  Variables ct_zero ct_one : glwe.
  Variable get_lwe : glwe -> Z -> lwe.
  Variable cbt : lwe -> ggsw.
  Variable gpack : list glwe -> glwe.
  Variable decrypt : glwe -> Z.
  Variable logn : Z.
  Hypothesis Hlogn : 5 <= logn.
  Let T := std_wty 2.                                  (* u32 *)

  Variable enc_poly : glwe -> poly -> Prop.            (* the ciphertext's ideal plaintext (scale 2^-2) is this polynomial *)
  Variable lwe_msg : lwe -> Z -> Prop.                 (* the LWE ciphertext's ideal message (scale 2^-2) *)
  Variable enc_sel : ggsw -> bool -> Prop.             (* the prepared GGSW encrypts this bit in every cell *)
  (* noise side conditions: the accumulated error of the object is below its decoding threshold *)
  Variable quiet : glwe -> Prop.
  Variable quiet_lwe : lwe -> Prop.
  Variable quiet_ggsw : ggsw -> Prop.
  Let enc_bit (c : glwe) (b : bool) : Prop := enc_poly c (p_const (if b then 1 else 0)).

  Hypothesis zero_ok : enc_bit ct_zero false.
  Hypothesis one_ok : enc_bit ct_one true.
  (* C04 *)
  Hypothesis cmux_selects : forall t f s bt bf b,
    enc_bit t bt -> enc_bit f bf -> enc_sel s b -> quiet (cmux t f s) -> enc_bit (cmux t f s) (if b then bt else bf).
  (* C03: key-switch to the LWE key, rotation by -idx and sample extraction read coefficient idx *)
  Hypothesis extract_bit : forall c q i, enc_poly c q -> 0 <= i < 32 -> quiet_lwe (get_lwe c i) ->
    lwe_msg (get_lwe c i) (get_bit_lwe T logn i q).
  (* C15_circuit_bootstrap_cells (constant mode, log_domain 1) followed by ggsw_prepare *)
  Hypothesis circuit_bootstrap : forall l m b, lwe_msg l m -> cb_bit m = Some b -> quiet_ggsw (cbt l) -> enc_sel (cbt l) b.
  (* C03: glwe_pack puts the constant coefficient of ciphertext k at position k and clears the rest *)
  Hypothesis pack_places : forall cts qs q, Forall2 enc_poly cts qs -> pack T logn qs = Some q -> quiet (gpack cts) ->
    enc_poly (gpack cts) q.
  (* C01: decryption decodes the ideal plaintext when the error is below the threshold *)
  Hypothesis decrypt_decodes : forall c q, enc_poly c q -> quiet c -> decrypt c = p_dec T logn q.

  Notation heval := (heval glwe ggsw cmux ct_zero ct_one).
  Notation hword := (hword glwe ggsw cmux ct_zero ct_one gpack).
  Notation prepare_ct := (prepare_ct glwe ggsw lwe get_lwe cbt).

  (* noise side condition of one operand's preparation *)
  Definition operand_quiet (c : glwe) : Prop :=
    forall i, 0 <= i < 32 -> quiet_lwe (get_lwe c i) /\ quiet_ggsw (cbt (get_lwe c i)).

  Lemma prepare_ok c w : enc_poly c (p_enc T logn w) -> operand_quiet c ->
    forall i, (i < 32)%nat -> enc_sel (prepare_ct c i) (Z.testbit w (Z.of_nat i)).
  Proof.
    intros Hc Hq i Hi. unfold C15Word.prepare_ct. destruct (Hq (Z.of_nat i) ltac:(lia)) as [Q1 Q2].
    apply (circuit_bootstrap _ (bitz w (Z.of_nat i))); auto.
    - rewrite <- (get_bit_lwe_enc 2 logn ltac:(lia) ltac:(lia) w (Z.of_nat i)) by (change (8 * 2 ^ 2) with 32; lia).
      apply extract_bit; auto. lia.
    - unfold cb_bit, bitz. destruct (Z.testbit w (Z.of_nat i)); reflexivity.
  Qed.

  (* 32 circuits on selectors that encrypt the environment e, repacked: the decryption is the word whose bits the
     circuits compute *)
  Lemma hword_correct circ nb s e r :
    (forall i, (i < 32)%nat -> exec_safe nb (circ i) = true) ->
    (forall v, (v < nb)%nat -> enc_sel (s v) (e v)) ->
    (forall i, (i < 32)%nat -> eval_stale (circ i) e = Z.testbit r (Z.of_nat i)) ->
    0 <= r < 2 ^ 32 ->
    Forall quiet (snd (hword circ s)) -> quiet (fst (hword circ s)) ->
    decrypt (fst (hword circ s)) = r.
  Proof.
    intros Hsafe Hsel Hcirc Hr Hq Hqp. unfold C15Word.hword in *. cbn [fst snd] in *.
    set (outs := map (fun i => heval (circ i) s) (seq 0 32)) in *.
    set (bits := map (fun i => Z.testbit r (Z.of_nat i)) (seq 0 32)).
    assert (Hout : Forall2 enc_poly (map fst outs) (map (fun b : bool => p_const (if b then 1 else 0)) bits)).
    { unfold outs, bits. rewrite !map_map. apply Forall2_map_in. intros i Hi. apply in_seq in Hi.
      rewrite <- Hcirc by lia.
      apply (heval_correct glwe ggsw cmux ct_zero ct_one enc_bit enc_sel quiet zero_ok one_ok cmux_selects _ _ _ nb); auto.
      - apply Hsafe; lia.
      - apply Forall_concat in Hq. rewrite Forall_forall in Hq. apply Hq. unfold outs. rewrite map_map.
        apply in_map_iff. exists i; split; [reflexivity | apply in_seq; lia]. }
    destruct (pack_bits 2 logn ltac:(lia) ltac:(lia) bits ltac:(unfold bits; rewrite map_length, seq_length; reflexivity))
      as (q & Eq & Edec & _).
    rewrite (decrypt_decodes _ q); [| eapply pack_places; eauto | exact Hqp].
    fold T in Edec. rewrite Edec. assert (En : nbits T = 32%nat) by reflexivity. rewrite En.
    rewrite (wob_ext _ _ (Z.testbit r)); [apply wob_of_testbit; exact Hr|].
    intros i Hi. unfold bits. rewrite nth_map_seq by lia. f_equal; lia.
  Qed.

  (* C15_word_op_correct: two packed encryptions, prepared through circuit bootstrapping, one of the ten two-word
     circuits, repacked: the decryption is the RISC-V word operation, provided every intermediate ciphertext stays
     below its decoding threshold *)
  Theorem word_op_correct : forall (o : wop) (a b : Z) (ca cb : glwe),
    0 <= a < 2 ^ 32 -> 0 <= b < 2 ^ 32 ->
    enc_poly ca (p_enc T logn a) -> enc_poly cb (p_enc T logn b) ->
    operand_quiet ca -> operand_quiet cb ->
    let res := hop2 glwe ggsw cmux ct_zero ct_one lwe get_lwe cbt gpack (wop_circ o) ca cb in
    Forall quiet (snd res) -> quiet (fst res) ->
    decrypt (fst res) = wop_fun o a b.
  Proof.
    intros o a b ca cb Ha Hb Hca Hcb Hqa Hqb res Hq Hqp. unfold res, hop2 in *.
    apply (hword_correct (wop_circ o) 64%nat _ (env_of a b)); auto.
    - intros; apply wop_safe.
    - intros v Hv. unfold helper2, env_of. destruct (Nat.ltb_spec v 32).
      + apply prepare_ok; auto.
      + apply prepare_ok; auto. lia.
    - intros; apply wop_correct; auto.
    - apply wop_range; auto.
  Qed.

  Theorem identity_correct : forall (a : Z) (ca : glwe),
    0 <= a < 2 ^ 32 -> enc_poly ca (p_enc T logn a) -> operand_quiet ca ->
    let res := hop1 glwe ggsw cmux ct_zero ct_one lwe get_lwe cbt gpack circuit_identity ca in
    Forall quiet (snd res) -> quiet (fst res) ->
    decrypt (fst res) = a.
  Proof.
    intros a ca Ha Hca Hqa res Hq Hqp. unfold res, hop1 in *.
    apply (hword_correct circuit_identity 32%nat _ (env_of a 0)); auto.
    - intros; apply (family_safe _ _ _ _ _ wellformed_identity).
    - intros v Hv. unfold env_of. destruct (Nat.ltb_spec v 32); [|lia]. apply prepare_ok; auto.
    - intros i Hi. apply (circuit_identity_correct a 0); auto. lia.
  Qed.
End WordOp.

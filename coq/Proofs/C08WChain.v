(* C08, width-generic tools: headroom of a limb vector at width w (|x| <= 2^(w-2)). *)
From PV Require Import Base.MachineInt Model.Znx Model.Limbs Proofs.ZnxDigit Proofs.C08Steps Proofs.C08Chain.
Open Scope Z_scope.

(* headroom of a limb vector at width w, by index (the default 0 is inside) *)
Definition hrlw (w : Z) (l : list Z) : Prop := forall i, Z.abs (nthZ l i) <= 2 ^ (w - 2).

Lemma hrlw_of_Forall (w : Z) (l : list Z) : Forall (fun x => Z.abs x <= 2 ^ (w - 2)) l -> hrlw w l.
Proof.
  intros HF i. destruct (Nat.lt_ge_cases i (length l)) as [Hi|Hi].
  - rewrite Forall_forall in HF. apply HF. unfold nthZ. apply nth_In; auto.
  - rewrite nthZ_overflow by auto. pose proof (Z.pow_nonneg 2 (w - 2) ltac:(lia)). cbn [Z.abs]. lia.
Qed.

Lemma hrlw_zeros (w : Z) (k : nat) : hrlw w (zeros k).
Proof. intros i. rewrite nthZ_zeros. pose proof (Z.pow_nonneg 2 (w - 2) ltac:(lia)). cbn [Z.abs]. lia. Qed.

Lemma hrlw_64 (l : list Z) : hrlw 64 l <-> hrl l.
Proof. unfold hrlw, hrl. change (2 ^ (64 - 2)) with (2 ^ 62). tauto. Qed.

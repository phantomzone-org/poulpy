(* C07 butterfly networks, the mathematics over Z modulo q (no primality used):
   - the recursive Gentleman-Sande network computes sum_j x_j w^(brev(p) j), the recursive Cooley-Tukey network
     computes sum_p y_p w^(brev(p) j)   (w^(2^(m-1)) = -1),
   - sum_i z^(2i+1) = 0 for z = psi^d, 0 < d < n (product formula, only psi^n = -1 is used), the inversion formula,
   - evaluation at a point z with z^n = -1 is multiplicative for the negacyclic product pmul. *)
From PV Require Import Base.MachineInt Model.Limbs Model.DftAbs Model.C07Ntt120 Model.C07NttNet Proofs.C07Ring
  Proofs.C07NetBase Proofs.C07NetStruct.
From Coq Require Import Morphisms Setoid.
Open Scope Z_scope.

Lemma brev_lt m : forall p, (p < pow2n m)%nat -> (brev m p < pow2n m)%nat.
Proof.
  induction m as [|m IH]; intros p H; [cbn; unfold pow2n; cbn; lia|].
  cbn [brev]. rewrite pow2n_S in *. destruct (Nat.ltb_spec p (pow2n m)) as [Hp|Hp].
  - specialize (IH p Hp). lia.
  - specialize (IH (p - pow2n m)%nat ltac:(lia)). lia.
Qed.
Lemma brev_S_lo m p : (p < pow2n m)%nat -> brev (S m) p = (2 * brev m p)%nat.
Proof. intros H. cbn [brev]. destruct (Nat.ltb_spec p (pow2n m)); [reflexivity|lia]. Qed.
Lemma brev_S_hi m p : brev (S m) (pow2n m + p) = (2 * brev m p + 1)%nat.
Proof.
  cbn [brev]. destruct (Nat.ltb_spec (pow2n m + p) (pow2n m)); [lia|].
  replace (pow2n m + p - pow2n m)%nat with p by lia. reflexivity.
Qed.
(* summing over the bit-reversed index is summing over the index *)
Lemma zsum_brev m : forall f : nat -> Z, zsum (fun p => f (brev m p)) (pow2n m) = zsum f (pow2n m).
Proof.
  induction m as [|m IH]; intros f; [reflexivity|].
  rewrite pow2n_S. replace (2 * pow2n m)%nat with (pow2n m + pow2n m)%nat by lia.
  rewrite zsum_app.
  rewrite (zsum_ext (fun p => f (brev (S m) p)) (fun p => f (2 * brev m p)%nat))
    by (intros p Hp; rewrite brev_S_lo by exact Hp; reflexivity).
  rewrite (zsum_ext (fun i => f (brev (S m) (pow2n m + i))) (fun p => f (2 * brev m p + 1)%nat))
    by (intros p Hp; rewrite brev_S_hi; reflexivity).
  rewrite (IH (fun i => f (2 * i)%nat)), (IH (fun i => f (2 * i + 1)%nat)).
  replace (pow2n m + pow2n m)%nat with (2 * pow2n m)%nat by lia.
  symmetry. apply zsum_even_odd.
Qed.

Section Mod.
Variable q : Z.
Local Notation "a == b" := (cong q a b) (at level 70, no associativity).

Lemma zp_sq w e : zp (w * w) e = zp w (2 * e).
Proof. rewrite zp_mul_base, <- zp_add. f_equal. lia. Qed.
Lemma zp_shift_even w h b j : zp w h == -1 -> zp w (2 * b * (h + j)) == zp w (2 * b * j).
Proof.
  intros Hh. replace (2 * b * (h + j))%nat with (2 * b * j + h * (2 * b))%nat by lia.
  rewrite zp_add, (zp_mul w h (2 * b)), Hh, zp_m1_even. rewrite Z.mul_1_r. reflexivity.
Qed.
Lemma zp_shift_odd w h b j : zp w h == -1 -> zp w ((2 * b + 1) * (h + j)) == - zp w ((2 * b + 1) * j).
Proof.
  intros Hh. replace ((2 * b + 1) * (h + j))%nat with ((2 * b + 1) * j + h * (2 * b + 1))%nat by lia.
  rewrite zp_add, (zp_mul w h (2 * b + 1)), Hh, zp_m1_odd. rewrite <- Z.opp_eq_mul_m1. reflexivity.
Qed.

(* Gentleman-Sande (decimation in frequency): natural order in, bit-reversed order out *)
Definition laneF (w : Z) : lanefn := fun i a b => (a + b, (a - b) * zp w i).
Fixpoint dif_lanes (m : nat) (w : Z) : list lanefn :=
  match m with O => [] | S m' => laneF w :: dif_lanes m' (w * w) end.
Lemma dif_lanes_length m : forall w, length (dif_lanes m w) = m.
Proof. induction m as [|m IH]; intros w; cbn [dif_lanes length]; [reflexivity|rewrite IH; reflexivity]. Qed.

Theorem dif_spec m : forall w x, length x = pow2n m ->
  (forall m', m = S m' -> zp w (pow2n m') == -1) ->
  forall p, (p < pow2n m)%nat ->
  nth p (rnet (dif_lanes m w) x) 0 == zsum (fun j => nth j x 0 * zp w (brev m p * j)) (pow2n m).
Proof.
  induction m as [|m IH]; intros w x Hx Hw p Hp.
  - cbn [dif_lanes rnet brev]. change (pow2n 0) with 1%nat in *. assert (p = 0)%nat as -> by lia.
    rewrite zsum_S, zsum_0. cbn [zp Nat.mul]. replace (0 + nth 0 x 0 * 1) with (nth 0 x 0) by ring. reflexivity.
  - cbn [dif_lanes rnet]. rewrite dif_lanes_length. set (h := pow2n m) in *.
    rewrite pow2n_S in Hx, Hp. fold h in Hx, Hp.
    pose proof (Hw m eq_refl) as Hh. fold h in Hh.
    assert (Hw' : forall m', m = S m' -> zp (w * w) (pow2n m') == -1).
    { intros m' ->. rewrite zp_sq, <- pow2n_S. exact Hh. }
    pose proof (bfly_length (laneF w) x h Hx) as Hb.
    assert (Hl1 : length (firstn h (bfly (laneF w) x)) = pow2n m) by (rewrite firstn_length; fold h; lia).
    assert (Hl2 : length (skipn h (bfly (laneF w) x)) = pow2n m) by (rewrite skipn_length; fold h; lia).
    assert (HA : length (rnet (dif_lanes m (w * w)) (firstn h (bfly (laneF w) x))) = h).
    { pose proof (rnet_length (dif_lanes m (w * w)) (firstn h (bfly (laneF w) x))) as R.
      rewrite dif_lanes_length in R. apply R. exact Hl1. }
    rewrite pow2n_S. fold h. rewrite zsum_double.
    destruct (Nat.ltb_spec p h) as [Hph|Hph].
    + rewrite app_nth1 by lia. rewrite (IH (w * w) _ Hl1 Hw' p Hph). fold h.
      rewrite brev_S_lo by exact Hph. apply zsum_cong. intros j Hj.
      rewrite (firstn_bfly _ _ _ Hx), nth_map_seq by exact Hj. unfold lane_lo, laneF. cbn [fst].
      rewrite zp_sq. rewrite (zp_shift_even w h (brev m p) j Hh).
      replace (2 * (brev m p * j))%nat with (2 * brev m p * j)%nat by lia. ring_simplify. reflexivity.
    + rewrite app_nth2 by lia. rewrite HA.
      assert (Hp' : (p - h < pow2n m)%nat) by (fold h; lia).
      rewrite (IH (w * w) _ Hl2 Hw' (p - h)%nat Hp'). fold h.
      assert (Ep : brev (S m) p = (2 * brev m (p - h) + 1)%nat).
      { replace p with (pow2n m + (p - h))%nat at 1 by (fold h; lia). apply brev_S_hi. }
      rewrite Ep.
      apply zsum_cong. intros j Hj.
      rewrite (skipn_bfly _ _ _ Hx), nth_map_seq by exact Hj. unfold lane_hi, laneF. cbn [snd].
      rewrite zp_sq. rewrite (zp_shift_odd w h (brev m (p - h)) j Hh).
      replace ((2 * brev m (p - h) + 1) * j)%nat with (j + 2 * (brev m (p - h) * j))%nat by lia.
      rewrite zp_add. ring_simplify. reflexivity.
Qed.

(* Cooley-Tukey (decimation in time): bit-reversed order in, natural order out *)
Definition laneI (w : Z) : lanefn := fun i a b => (a + b * zp w i, a - b * zp w i).
Fixpoint dit_lanes (m : nat) (w : Z) : list lanefn :=
  match m with O => [] | S m' => laneI w :: dit_lanes m' (w * w) end.
Lemma dit_lanes_length m : forall w, length (dit_lanes m w) = m.
Proof. induction m as [|m IH]; intros w; cbn [dit_lanes length]; [reflexivity|rewrite IH; reflexivity]. Qed.

Theorem dit_spec m : forall w y, length y = pow2n m ->
  (forall m', m = S m' -> zp w (pow2n m') == -1) ->
  forall j, (j < pow2n m)%nat ->
  nth j (irnet (dit_lanes m w) y) 0 == zsum (fun p => nth p y 0 * zp w (brev m p * j)) (pow2n m).
Proof.
  induction m as [|m IH]; intros w y Hy Hw j Hj.
  - cbn [dit_lanes irnet brev]. change (pow2n 0) with 1%nat in *. assert (j = 0)%nat as -> by lia.
    rewrite zsum_S, zsum_0. cbn [zp Nat.mul]. replace (0 + nth 0 y 0 * 1) with (nth 0 y 0) by ring. reflexivity.
  - cbn [dit_lanes irnet]. rewrite dit_lanes_length. set (h := pow2n m) in *.
    rewrite pow2n_S in Hy, Hj. fold h in Hy, Hj.
    pose proof (Hw m eq_refl) as Hh. fold h in Hh.
    assert (Hw' : forall m', m = S m' -> zp (w * w) (pow2n m') == -1).
    { intros m' ->. rewrite zp_sq, <- pow2n_S. exact Hh. }
    assert (Hl1 : length (firstn h y) = pow2n m) by (rewrite firstn_length; fold h; lia).
    assert (Hl2 : length (skipn h y) = pow2n m) by (rewrite skipn_length; fold h; lia).
    set (U := irnet (dit_lanes m (w * w)) (firstn h y)).
    set (V := irnet (dit_lanes m (w * w)) (skipn h y)).
    assert (HU : length U = h).
    { pose proof (irnet_length (dit_lanes m (w * w)) (firstn h y)) as R. rewrite dit_lanes_length in R. apply R. exact Hl1. }
    assert (HV : length V = h).
    { pose proof (irnet_length (dit_lanes m (w * w)) (skipn h y)) as R. rewrite dit_lanes_length in R. apply R. exact Hl2. }
    assert (HUV : length (U ++ V) = (2 * h)%nat) by (rewrite app_length; lia).
    assert (EU : forall i, (i < h)%nat -> nth i (U ++ V) 0 == zsum (fun p => nth p y 0 * zp w (2 * brev m p * i)) h).
    { intros i Hi. rewrite app_nth1 by lia. unfold U. rewrite (IH (w * w) _ Hl1 Hw' i Hi). fold h.
      apply zsum_cong. intros p Hp. rewrite nth_firstn_lt by exact Hp. rewrite zp_sq.
      replace (2 * (brev m p * i))%nat with (2 * brev m p * i)%nat by lia. reflexivity. }
    assert (EV : forall i, (i < h)%nat -> nth (h + i) (U ++ V) 0 == zsum (fun p => nth (h + p) y 0 * zp w (2 * brev m p * i)) h).
    { intros i Hi. rewrite app_nth2 by lia. rewrite HU. replace (h + i - h)%nat with i by lia.
      unfold V. rewrite (IH (w * w) _ Hl2 Hw' i Hi). fold h.
      apply zsum_cong. intros p Hp. rewrite nth_skipn. rewrite zp_sq.
      replace (2 * (brev m p * i))%nat with (2 * brev m p * i)%nat by lia. reflexivity. }
    rewrite pow2n_S. fold h. replace (2 * h)%nat with (h + h)%nat by lia. rewrite zsum_app.
    destruct (Nat.ltb_spec j h) as [Hjh|Hjh].
    + rewrite (nth_bfly_lo _ _ _ _ HUV Hjh). unfold lane_lo, laneI. cbn [fst].
      rewrite (EU j Hjh), (EV j Hjh). rewrite <- zsum_mul_r, <- zsum_add.
      rewrite <- zsum_add. apply zsum_cong. intros p Hp.
      rewrite brev_S_lo by exact Hp. rewrite (brev_S_hi m p : brev (S m) (h + p) = _).
      replace ((2 * brev m p + 1) * j)%nat with (2 * brev m p * j + j)%nat by lia.
      rewrite zp_add. ring_simplify. reflexivity.
    + replace j with (h + (j - h))%nat at 1 by lia.
      assert (Hj' : (j - h < h)%nat) by lia.
      rewrite (nth_bfly_hi _ _ _ _ HUV Hj'). unfold lane_hi, laneI. cbn [snd].
      rewrite (EU _ Hj'), (EV _ Hj'). rewrite <- zsum_mul_r, <- zsum_sub.
      rewrite <- zsum_add. apply zsum_cong. intros p Hp.
      rewrite brev_S_lo by exact Hp. rewrite (brev_S_hi m p : brev (S m) (h + p) = _).
      replace (zp w (2 * brev m p * j)) with (zp w (2 * brev m p * (h + (j - h)))) by (f_equal; f_equal; lia).
      replace (zp w ((2 * brev m p + 1) * j)) with (zp w ((2 * brev m p + 1) * (h + (j - h)))) by (f_equal; f_equal; lia).
      rewrite (zp_shift_even w h (brev m p) (j - h) Hh), (zp_shift_odd w h (brev m p) (j - h) Hh).
      replace ((2 * brev m p + 1) * (j - h))%nat with (2 * brev m p * (j - h) + (j - h))%nat by lia.
      rewrite zp_add. ring_simplify. reflexivity.
Qed.

(* geometric sums: only psi^(2^m) = -1 is used *)
Lemma geo_double y h : zsum (zp y) (2 * h) = (1 + zp y h) * zsum (zp y) h.
Proof.
  rewrite zsum_double, <- zsum_mul_l. apply zsum_ext. intros i _. rewrite zp_add. ring.
Qed.
Lemma geo_vanish m : forall y, (exists t, (t < m)%nat /\ zp y (pow2n t) == -1) -> zsum (zp y) (pow2n m) == 0.
Proof.
  induction m as [|m IH]; intros y [t [Ht Hy]]; [lia|].
  rewrite pow2n_S, geo_double. destruct (Nat.eq_dec t m) as [->|Hne].
  - rewrite Hy. replace (1 + -1) with 0 by ring. rewrite Z.mul_0_l. reflexivity.
  - rewrite IH by (exists t; split; [lia|exact Hy]). rewrite Z.mul_0_r. reflexivity.
Qed.
Lemma root_factor m : forall psi d, (0 < d < pow2n m)%nat -> zp psi (pow2n m) == -1 ->
  exists t, (t < m)%nat /\ zp (zp psi (2 * d)) (pow2n t) == -1.
Proof.
  induction m as [|m IH]; intros psi d Hd Hpsi; [change (pow2n 0) with 1%nat in Hd; lia|].
  destruct (Nat.Even_or_Odd d) as [[e He]|[e He]].
  - rewrite pow2n_S in Hd. destruct (IH (psi * psi) e ltac:(lia)) as [t [Ht H]].
    { rewrite zp_sq, <- pow2n_S. exact Hpsi. }
    exists t. split; [lia|]. rewrite zp_sq in H. replace (2 * d)%nat with (2 * (2 * e))%nat by lia. exact H.
  - exists m. split; [lia|]. rewrite <- zp_mul.
    replace (2 * d * pow2n m)%nat with (pow2n (S m) * d)%nat by (rewrite pow2n_S; lia).
    rewrite zp_mul, Hpsi. rewrite He. rewrite zp_m1_odd. reflexivity.
Qed.
(* sum over the odd powers of z = psi^d *)
Lemma ortho m psi d : (0 < d < pow2n m)%nat -> zp psi (pow2n m) == -1 ->
  zsum (fun i => zp (zp psi d) (2 * i + 1)) (pow2n m) == 0.
Proof.
  intros Hd Hpsi.
  rewrite (zsum_ext _ (fun i => zp psi d * zp (zp psi (2 * d)) i)).
  - rewrite zsum_mul_l. rewrite (geo_vanish m _ (root_factor m psi d Hd Hpsi)). rewrite Z.mul_0_r. reflexivity.
  - intros i _. rewrite zp_add, zp_1_r. rewrite <- !zp_mul. rewrite Z.mul_comm. f_equal. f_equal. lia.
Qed.

(* evaluation of the coefficient list a (n entries) at z *)
Definition peval (a : list Z) (z : Z) (n : nat) : Z := zsum (fun j => nth j a 0 * zp z j) n.

Lemma inv_pow psi phi e : psi * phi == 1 -> zp psi e * zp phi e == 1.
Proof. intros H. rewrite <- zp_mul_base, H, zp_1_l. reflexivity. Qed.

(* the inversion formula behind intt(ntt(x)) = x *)
Theorem inversion m psi phi ninv x : psi * phi == 1 -> zp psi (pow2n m) == -1 -> ninv * Z.of_nat (pow2n m) == 1 ->
  forall j, (j < pow2n m)%nat ->
  ninv * zsum (fun p => peval x (zp psi (2 * brev m p + 1)) (pow2n m) * zp phi ((2 * brev m p + 1) * j)) (pow2n m)
  == nth j x 0.
Proof.
  intros Hinv Hpsi Hn j Hj. set (n := pow2n m) in *.
  assert (Hphi : zp phi n == -1).
  { pose proof (inv_pow psi phi n Hinv) as H. rewrite Hpsi in H.
    replace (zp phi n) with (-1 * (-1 * zp phi n)) by ring. rewrite H. reflexivity. }
  pose proof (zsum_brev m (fun i => peval x (zp psi (2 * i + 1)) n * zp phi ((2 * i + 1) * j))) as Eb.
  fold n in Eb. cbv beta in Eb. rewrite Eb. clear Eb.
  unfold peval.
  rewrite (zsum_ext _ (fun i => zsum (fun j' => nth j' x 0 * (zp psi ((2 * i + 1) * j') * zp phi ((2 * i + 1) * j))) n)).
  2:{ intros i _. rewrite <- zsum_mul_r. apply zsum_ext. intros j' _. rewrite <- zp_mul. ring. }
  rewrite zsum_swap.
  rewrite (zsum_ext _ (fun j' => nth j' x 0 * zsum (fun i => zp psi ((2 * i + 1) * j') * zp phi ((2 * i + 1) * j)) n))
    by (intros j' _; rewrite zsum_mul_l; reflexivity).
  assert (HS : forall j', (j' < n)%nat ->
     zsum (fun i => zp psi ((2 * i + 1) * j') * zp phi ((2 * i + 1) * j)) n == if Nat.eqb j' j then Z.of_nat n else 0).
  { intros j' Hj'. destruct (Nat.eqb_spec j' j) as [->|Hne].
    - rewrite <- (Z.mul_1_r (Z.of_nat n)), <- zsum_const. apply zsum_cong. intros i _. apply inv_pow. exact Hinv.
    - destruct (Nat.lt_ge_cases j j') as [Hlt|Hge].
      + rewrite <- (ortho m psi (j' - j)) by (fold n; try lia; exact Hpsi). fold n.
        apply zsum_cong. intros i _.
        replace ((2 * i + 1) * j')%nat with ((j' - j) * (2 * i + 1) + (2 * i + 1) * j)%nat by nia.
        rewrite zp_add, zp_mul. rewrite <- Z.mul_assoc. rewrite (inv_pow psi phi _ Hinv). rewrite Z.mul_1_r. reflexivity.
      + rewrite <- (ortho m phi (j - j')) by (fold n; try lia; exact Hphi). fold n.
        apply zsum_cong. intros i _.
        replace ((2 * i + 1) * j)%nat with ((j - j') * (2 * i + 1) + (2 * i + 1) * j')%nat by nia.
        rewrite (zp_add phi), (zp_mul phi (j - j') (2 * i + 1)).
        set (A := zp psi _). set (B := zp (zp phi _) _). set (C := zp phi _).
        replace (A * (B * C)) with (B * (A * C)) by ring. unfold A, C.
        rewrite (inv_pow psi phi _ Hinv). rewrite Z.mul_1_r. reflexivity. }
  rewrite (zsum_cong q _ (fun j' => if Nat.eqb j' j then nth j' x 0 * Z.of_nat n else 0)).
  2:{ intros j' Hj'. rewrite (HS j' Hj'). destruct (Nat.eqb j' j); [reflexivity|rewrite Z.mul_0_r; reflexivity]. }
  rewrite (zsum_single (fun j' => nth j' x 0 * Z.of_nat n) j n Hj).
  replace (ninv * (nth j x 0 * Z.of_nat n)) with (nth j x 0 * (ninv * Z.of_nat n)) by ring.
  rewrite Hn, Z.mul_1_r. reflexivity.
Qed.

Theorem peval_pmul a b z : length b = length a -> zp z (length a) == -1 ->
  peval (pmul a b) z (length a) == peval a z (length a) * peval b z (length a).
Proof.
  intros Hl Hz. set (n := length a) in *. unfold peval.
  rewrite (zsum_ext _ (fun k => zsum (fun i => zsum (fun j => nth i a 0 * nth j b 0 * delta n i j k * zp z k) n) n)).
  2:{ intros k Hk. rewrite pmul_delta by (fold n; assumption). fold n. unfold nthZ.
      rewrite <- zsum_mul_r. apply zsum_ext. intros i _. rewrite <- zsum_mul_r. reflexivity. }
  rewrite (sum3_rot (fun k i j => nth i a 0 * nth j b 0 * delta n i j k * zp z k) n).
  rewrite <- zsum_mul_r. apply zsum_cong. intros i Hi.
  rewrite <- zsum_mul_l. apply zsum_cong. intros j Hj.
  rewrite (zsum_ext _ (fun k => (nth i a 0 * nth j b 0) * (delta n i j k * zp z k))) by (intros; ring).
  rewrite zsum_mul_l, (delta_sum_k n i j (zp z) Hi Hj).
  destruct (Nat.ltb_spec (i + j) n) as [H|H].
  - rewrite zp_add. ring_simplify. reflexivity.
  - transitivity (nth i a 0 * nth j b 0 * zp z (i + j)); [|rewrite zp_add; ring_simplify; reflexivity].
    assert (E : zp z (i + j) == - zp z (i + j - n)).
    { replace (i + j)%nat with ((i + j - n) + n)%nat at 1 by lia. rewrite zp_add, Hz. ring_simplify. reflexivity. }
    rewrite E. reflexivity.
Qed.
End Mod.

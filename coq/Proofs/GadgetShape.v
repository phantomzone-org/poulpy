(* the key switch does not depend on the gadget shape: two shapes (dsize, dnum, msize, key) in one radix whose keys encrypt the
   same s_in -> s_out, and one input that fits both: the two results have the same plaintext image; they differ by E1 - E2 + 2^P(..),
   at torus distance <= env1 + env2; and (Model/C03Run.decode) every fitting shape decodes to the encrypted message. *)
From PV Require Import Base.MachineInt Model.Znx Model.Limbs Model.Flat Model.Ring Model.Poly Model.DftAbs Model.Gadget Model.GadgetSpec Model.GadgetDerived Model.C03Run
  Proofs.C07Dft Proofs.C07Ring Proofs.GadgetDecomp Proofs.GadgetPhase Proofs.GadgetBound Proofs.C03Phase.
Open Scope Z_scope.

(* one shape whose key has enough rows and limbs for the input: nothing of the input is lost *)
Section OneShape.
Variables (P b : Z) (n rin msize a_size dsize dnum : nat).
Variable ct : cols_t.
Variable res0 : cols_t.
Variable K : pmat.
Variable sk_out : list (list Z).
Variables (s_in : nat -> list Z) (e I : nat -> nat -> list Z).
Hypothesis Hct : wf_cols n (S rin) a_size ct.
Hypothesis HK : wf_pmat_in n (dnum * rin) (msize * S (length sk_out)) K.
Hypothesis Hn : (1 <= n)%nat.
Hypothesis Hd : (1 <= dsize)%nat.
Hypothesis Hdrop : (dsize - 2 <= msize)%nat.
Hypothesis Hfit1 : (a_size <= dnum * dsize)%nat.
Hypothesis Hfit2 : (a_size <= msize)%nat.
Hypothesis Hsk : forall s, In s sk_out -> length s = n.
Hypothesis Hsin : forall ci, length (s_in ci) = n.
Hypothesis He : forall row ci, length (e row ci) = n.
Hypothesis HI : forall row ci, length (I row ci) = n.
Hypothesis Hb : 0 <= b.
Hypothesis HP : Z.of_nat msize * b <= P.
Hypothesis HP2 : Z.of_nat dnum * Z.of_nat dsize * b <= P.
Hypothesis key_row : key_rows_ok P b n rin (S (length sk_out)) msize dsize dnum K (sk_ext n sk_out) s_in e I.

Theorem keyswitch_phase_fit :
  exists ks, keyswitch_internal n (S (length sk_out)) msize res0 ct a_size dsize dnum msize K = Some ks /\
    phase_val P b n sk_out ks
    = padd (padd (phase_in_full P b n rin a_size ct s_in)
                 (gadget_err P b n rin (S (length sk_out)) msize dsize dnum (acol n (tl ct)) K (sk_ext n sk_out) e))
           (pscale (2 ^ P) (gadget_int b n rin (S (length sk_out)) msize dsize dnum (acol n (tl ct)) K (sk_ext n sk_out) I)).
Proof.
  destruct (C03_keyswitch_internal_phase_val_lemma P b n rin msize a_size dsize dnum ct res0 K sk_out s_in e I
              Hct HK Hn Hd Hdrop Hsk Hsin He HI Hb HP HP2 key_row) as [ks [E1 E2]].
  exists ks. split; [exact E1|]. rewrite E2. unfold phase_in_full, pval_used.
  rewrite (Nat.min_r msize a_size) by exact Hfit2. rewrite (Nat.min_l a_size (dnum * dsize)) by exact Hfit1. reflexivity.
Qed.
End OneShape.

Section Distance.
(* centred distance on the torus of two values that differ by small terms and a multiple of 2^P *)
Lemma tor_norm_diff P (n : nat) (X E1 E2 J1 J2 : list Z) (B1 B2 : Z) :
  1 <= P -> length X = n -> length E1 = n -> length E2 = n -> length J1 = n -> length J2 = n ->
  pnorm E1 <= B1 -> pnorm E2 <= B2 -> B1 + B2 < 2 ^ (P - 1) ->
  psub (padd (padd X E1) (pscale (2 ^ P) J1)) (padd (padd X E2) (pscale (2 ^ P) J2)) = padd (psub E1 E2) (pscale (2 ^ P) (psub J1 J2)) /\
  tor_norm P (psub (padd (padd X E1) (pscale (2 ^ P) J1)) (padd (padd X E2) (pscale (2 ^ P) J2))) <= B1 + B2.
Proof.
  intros HP LX L1 L2 L3 L4 H1 H2 HB.
  assert (Eq : psub (padd (padd X E1) (pscale (2 ^ P) J1)) (padd (padd X E2) (pscale (2 ^ P) J2)) = padd (psub E1 E2) (pscale (2 ^ P) (psub J1 J2))).
  { pcoeff n. ring. }
  split; [exact Eq|]. rewrite Eq. unfold tor_norm, center.
  pose proof (pnorm_nonneg E1). pose proof (pnorm_nonneg E2).
  apply pnorm_le_nth; [lia|]. rewrite map_length. intros k Hk.
  rewrite (nth_map' (wrap P) _ k 0 0) by exact Hk.
  rewrite nth_padd by (rewrite psub_length, pscale_length, psub_length; lia).
  rewrite nth_pscale, nth_psub by lia.
  set (d := nth k E1 0 - nth k E2 0).
  assert (Hd : Z.abs d <= B1 + B2).
  { pose proof (pnorm_nth E1 k). pose proof (pnorm_nth E2 k). unfold d. lia. }
  replace (wrap P (d + 2 ^ P * nth k (psub J1 J2) 0)) with (wrap P d).
  - rewrite wrap_id; [exact Hd|lia|]. unfold in_range. lia.
  - apply wrap_eq_mod; [lia|]. rewrite Z.mul_comm, Z_mod_plus_full. reflexivity.
Qed.
End Distance.


(* two gadget shapes in one radix b, keys for the SAME s_in -> sk_out, one input ct that fits both shapes *)
Section TwoShapes.
Variables (P b : Z) (n rin a_size : nat).
Variable ct : cols_t.
Variable sk_out : list (list Z).
Variable s_in : nat -> list Z.
Variables (msize1 dsize1 dnum1 msize2 dsize2 dnum2 : nat).
Variables (res01 res02 : cols_t) (K1 K2 : pmat) (e1 I1 e2 I2 : nat -> nat -> list Z).
Variables (env1 env2 : Z).
Hypothesis Hct : wf_cols n (S rin) a_size ct.
Hypothesis Hn : (1 <= n)%nat.
Hypothesis Hsk : forall s, In s sk_out -> length s = n.
Hypothesis Hsin : forall ci, length (s_in ci) = n.
Hypothesis Hb : 0 <= b.
Hypothesis HP1 : 1 <= P.
(* shape 1 *)
Hypothesis HK1 : wf_pmat_in n (dnum1 * rin) (msize1 * S (length sk_out)) K1.
Hypothesis Hd1 : (1 <= dsize1)%nat.
Hypothesis Hdrop1 : (dsize1 - 2 <= msize1)%nat.
Hypothesis Hfit11 : (a_size <= dnum1 * dsize1)%nat.
Hypothesis Hfit12 : (a_size <= msize1)%nat.
Hypothesis He1 : forall row ci, length (e1 row ci) = n.
Hypothesis HI1 : forall row ci, length (I1 row ci) = n.
Hypothesis HPa1 : Z.of_nat msize1 * b <= P.
Hypothesis HPb1 : Z.of_nat dnum1 * Z.of_nat dsize1 * b <= P.
Hypothesis key_row1 : key_rows_ok P b n rin (S (length sk_out)) msize1 dsize1 dnum1 K1 (sk_ext n sk_out) s_in e1 I1.
(* shape 2 *)
Hypothesis HK2 : wf_pmat_in n (dnum2 * rin) (msize2 * S (length sk_out)) K2.
Hypothesis Hd2 : (1 <= dsize2)%nat.
Hypothesis Hdrop2 : (dsize2 - 2 <= msize2)%nat.
Hypothesis Hfit21 : (a_size <= dnum2 * dsize2)%nat.
Hypothesis Hfit22 : (a_size <= msize2)%nat.
Hypothesis He2 : forall row ci, length (e2 row ci) = n.
Hypothesis HI2 : forall row ci, length (I2 row ci) = n.
Hypothesis HPa2 : Z.of_nat msize2 * b <= P.
Hypothesis HPb2 : Z.of_nat dnum2 * Z.of_nat dsize2 * b <= P.
Hypothesis key_row2 : key_rows_ok P b n rin (S (length sk_out)) msize2 dsize2 dnum2 K2 (sk_ext n sk_out) s_in e2 I2.

Let E1 := gadget_err P b n rin (S (length sk_out)) msize1 dsize1 dnum1 (acol n (tl ct)) K1 (sk_ext n sk_out) e1.
Let E2 := gadget_err P b n rin (S (length sk_out)) msize2 dsize2 dnum2 (acol n (tl ct)) K2 (sk_ext n sk_out) e2.
Let J1 := gadget_int b n rin (S (length sk_out)) msize1 dsize1 dnum1 (acol n (tl ct)) K1 (sk_ext n sk_out) I1.
Let J2 := gadget_int b n rin (S (length sk_out)) msize2 dsize2 dnum2 (acol n (tl ct)) K2 (sk_ext n sk_out) I2.
(* the envelopes: C03_keyswitch_bound(_env) gives them for the gadget noise (= E_i when dsize_i <= 2) *)
Hypothesis Henv1 : pnorm E1 <= env1.
Hypothesis Henv2 : pnorm E2 <= env2.
Hypothesis Hsmall : env1 + env2 < 2 ^ (P - 1).

Theorem keyswitch_shape_independent :
  exists ks1 ks2,
    keyswitch_internal n (S (length sk_out)) msize1 res01 ct a_size dsize1 dnum1 msize1 K1 = Some ks1 /\
    keyswitch_internal n (S (length sk_out)) msize2 res02 ct a_size dsize2 dnum2 msize2 K2 = Some ks2 /\
    phase_val P b n sk_out ks1 = padd (padd (phase_in_full P b n rin a_size ct s_in) E1) (pscale (2 ^ P) J1) /\
    phase_val P b n sk_out ks2 = padd (padd (phase_in_full P b n rin a_size ct s_in) E2) (pscale (2 ^ P) J2) /\
    psub (phase_val P b n sk_out ks1) (phase_val P b n sk_out ks2) = padd (psub E1 E2) (pscale (2 ^ P) (psub J1 J2)) /\
    tor_norm P (psub (phase_val P b n sk_out ks1) (phase_val P b n sk_out ks2)) <= env1 + env2.
Proof.
  destruct (keyswitch_phase_fit P b n rin msize1 a_size dsize1 dnum1 ct res01 K1 sk_out s_in e1 I1
              Hct HK1 Hn Hd1 Hdrop1 Hfit11 Hfit12 Hsk Hsin He1 HI1 Hb HPa1 HPb1 key_row1) as [ks1 [A1 A2]].
  destruct (keyswitch_phase_fit P b n rin msize2 a_size dsize2 dnum2 ct res02 K2 sk_out s_in e2 I2
              Hct HK2 Hn Hd2 Hdrop2 Hfit21 Hfit22 Hsk Hsin He2 HI2 Hb HPa2 HPb2 key_row2) as [ks2 [B1 B2]].
  exists ks1, ks2. split; [exact A1|]. split; [exact B1|].
  fold E1 J1 in A2. fold E2 J2 in B2. split; [exact A2|]. split; [exact B2|].
  rewrite A2, B2.
  pose proof (acol_length n rin a_size (tl ct) (wf_tl n rin a_size ct Hct)) as LA.
  pose proof (acol_length n (S rin) a_size ct Hct) as LB.
  apply (tor_norm_diff P n); try assumption; unfold phase_in_full, E1, E2, J1, J2; plen.
Qed.
End TwoShapes.

(* decoding (Model/C03Run.decode: the kpt top bits): a value M 2^(P-kpt) + err + 2^P I with |err| < half a message step decodes to M *)
Section Decode.
Lemma decode_coeff_correct P kpt m e i : 1 <= kpt -> kpt < P -> Z.abs e < 2 ^ (P - kpt - 1) ->
  wrap kpt ((wrap P (m * 2 ^ (P - kpt) + e + 2 ^ P * i) + 2 ^ (P - kpt - 1)) / 2 ^ (P - kpt)) = wrap kpt m.
Proof.
  intros Hk HP He.
  destruct (wrap_exists P (m * 2 ^ (P - kpt) + e + 2 ^ P * i) ltac:(lia)) as [q Eq]. rewrite Eq.
  set (u := 2 ^ (P - kpt)). assert (Hu : 0 < u) by (apply pow2_pos; lia).
  assert (Eh : u = 2 * 2 ^ (P - kpt - 1)) by (unfold u; apply pow2_split; lia).
  assert (EP : 2 ^ P = 2 ^ kpt * u) by (unfold u; rewrite <- Z.pow_add_r by lia; f_equal; lia).
  assert (Ediv : (m * u + e + 2 ^ P * i - q * 2 ^ P + 2 ^ (P - kpt - 1)) / u = m + (i - q) * 2 ^ kpt).
  { symmetry. apply (Z.div_unique _ _ _ (e + 2 ^ (P - kpt - 1))); [lia|]. rewrite EP. ring. }
  rewrite Ediv. apply wrap_eq_mod; [lia|]. apply Z_mod_plus_full.
Qed.

Theorem decode_correct P kpt (n : nat) (msg err I : list Z) : 1 <= kpt -> kpt < P ->
  length msg = n -> length err = n -> length I = n -> pnorm err < 2 ^ (P - kpt - 1) ->
  decode P kpt (padd (padd (pscale (2 ^ (P - kpt)) msg) err) (pscale (2 ^ P) I)) = map (wrap kpt) msg.
Proof.
  intros Hk HP L1 L2 L3 He. unfold decode.
  apply list_eq_nth; [rewrite !map_length; repeat (rewrite ?padd_length, ?pscale_length); lia|].
  rewrite map_length. intros k Hk'.
  rewrite (nth_map' _ _ k 0 0) by exact Hk'.
  repeat (rewrite ?padd_length, ?pscale_length in Hk').
  rewrite (nth_map' (wrap kpt) msg k 0 0) by lia.
  repeat first [ rewrite nth_padd by (repeat (rewrite ?padd_length, ?pscale_length); lia) | rewrite nth_pscale ].
  rewrite (Z.mul_comm (2 ^ (P - kpt))). apply decode_coeff_correct; try assumption.
  pose proof (pnorm_nth err k). lia.
Qed.
End Decode.

Section DecodeShift.
(* (M 2^(P-kpt) + e_in) + E + 2^P J decodes to M when |e_in| + |E| stays below half a message step *)
Lemma decode_noisy P kpt (n : nat) (msg e_in E J : list Z) (B : Z) : 1 <= kpt -> kpt < P ->
  length msg = n -> length e_in = n -> length E = n -> length J = n -> pnorm E <= B -> pnorm e_in + B < 2 ^ (P - kpt - 1) ->
  decode P kpt (padd (padd (padd (pscale (2 ^ (P - kpt)) msg) e_in) E) (pscale (2 ^ P) J)) = map (wrap kpt) msg.
Proof.
  intros Hk HP L1 L2 L3 L4 HB Hs. rewrite (padd_assoc (pscale (2 ^ (P - kpt)) msg) e_in E).
  apply (decode_correct P kpt n); try assumption; [apply padd_len; assumption|].
  pose proof (pnorm_padd e_in E). lia.
Qed.
End DecodeShift.

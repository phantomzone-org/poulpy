(* C12 - a buffer at least as large as the declared size of each of a set of operations serves all of them: the sets of
   operations whose sizes the crate's own test helpers combine into ONE scratch buffer (with `|`, which dominates the maximum on non-negative sizes, or
   with `.max`): poulpy-core/src/test_suite/{keyswitch/glwe_ct, external_product/glwe_ct, automorphism/ggsw_ct, trace,
   glwe_packing, keyswitch/lwe_ct}.rs. *)
From PV Require Import Base.MachineInt Model.C12Scratch Gen.C12TmpBytes_gen Model.C12Trees
  Proofs.C12Arena Proofs.C12Hal Proofs.C12Core Proofs.C12KeySwitch Proofs.C12More Proofs.C12Conv Proofs.C12Ggsw Proofs.C12KeyEnc.
Open Scope Z_scope.

Lemma lor_ge (a b : Z) : 0 <= a -> 0 <= b -> a <= Z.lor a b /\ b <= Z.lor a b /\ 0 <= Z.lor a b.
Proof.
  intros Ha Hb. assert (Hn : 0 <= Z.lor a b) by (apply Z.lor_nonneg; auto).
  assert (L : forall x y, 0 <= Z.lor x y -> x <= Z.lor x y).
  { intros x y H. apply Z.ldiff_le; [exact H|]. apply Z.bits_inj'. intros k Hk.
    rewrite Z.ldiff_spec, Z.lor_spec, Z.bits_0. destruct (Z.testbit x k), (Z.testbit y k); reflexivity. }
  split; [apply L; exact Hn | split; [rewrite Z.lor_comm; apply L; rewrite Z.lor_comm; exact Hn | exact Hn]].
Qed.

(* each member of the set has a budget at its own declared size (its *_spec lemma), hence at the combined size *)
Section Helpers.
  Variables fam n : Z.
  Hypothesis Hf : is_fam fam.
  Hypothesis Hn0 : 0 <= n.
  Hypothesis Hn8 : n mod 8 = 0.

  Lemma nn_pack (r k : infos) : wf_infos r -> wf_infos k -> i_n r = n -> i_rank r = i_rank_in k -> 0 <= glwe_pack_tmp_bytes fam n r k.
  Proof using Hf Hn0 Hn8.
    intros Hr Hk Hn Hrk. pose proof (budget_nonneg _ _ (trace_spec fam n Hf Hn0 Hn8 r r k 0 Hr Hr Hk Hn Hrk)).
    unfold glwe_pack_tmp_bytes, glwe_pack_tmp_bytes_for_input. cbv zeta. lia.
  Qed.

  (* test_suite/keyswitch/glwe_ct.rs: switching-key encryption | ciphertext encryption | key-switch *)
  Lemma helper_keyswitch_glwe (ksk gin gout : infos) :
    wf_infos ksk -> wf_infos gin -> wf_infos gout -> i_n ksk = n -> i_n gin = n -> i_rank gin = i_rank_in ksk ->
    let B := Z.lor (Z.lor (glwe_switching_key_encrypt_sk_tmp_bytes fam n ksk) (glwe_encrypt_sk_tmp_bytes fam n gin))
                   (glwe_keyswitch_tmp_bytes fam n gout gin ksk) in
    run_takes (tree_glwe_switching_key_encrypt_sk fam n ksk) (0, B) <> None /\
    run_takes (tree_glwe_encrypt_sk fam n gin) (0, B) <> None /\
    run_takes (tree_glwe_keyswitch fam n gout gin ksk) (0, B) <> None.
  Proof using Hf Hn0 Hn8.
    intros Hk Hi Ho Nk Ni Hrk B.
    pose proof (switching_key_spec fam n Hf Hn0 Hn8 ksk Hk Nk) as B1.
    pose proof (enc_sk_spec fam n Hf Hn0 Hn8 gin ltac:(destruct Hi as (_&?&_); lia)) as B2.
    pose proof (keyswitch_spec fam n Hf Hn0 Hn8 gout gin ksk Ho Hi Hk Ni Hrk) as B3.
    destruct (lor_ge _ _ (budget_nonneg _ _ B1) (budget_nonneg _ _ B2)) as (L1 & L2 & N12).
    destruct (lor_ge _ _ N12 (budget_nonneg _ _ B3)) as (L3 & L4 & _).
    split; [|split]; apply budget_suffices; (eapply budget_mono; [eassumption | unfold B; lia]).
  Qed.

  (* test_suite/external_product/glwe_ct.rs: GGSW encryption | ciphertext encryption | external product *)
  Lemma helper_external_product_glwe (ggsw gin gout : infos) :
    wf_infos ggsw -> wf_infos gin -> wf_infos gout -> i_n ggsw = n -> i_n gin = n ->
    let B := Z.lor (Z.lor (ggsw_encrypt_sk_tmp_bytes fam n ggsw) (glwe_encrypt_sk_tmp_bytes fam n gin))
                   (glwe_external_product_tmp_bytes fam n gout gin ggsw) in
    run_takes (tree_ggsw_encrypt_sk fam n ggsw) (0, B) <> None /\
    run_takes (tree_glwe_encrypt_sk fam n gin) (0, B) <> None /\
    run_takes (tree_glwe_external_product fam n gout gin ggsw) (0, B) <> None.
  Proof using Hf Hn0 Hn8.
    intros Hg Hi Ho Ng Ni B.
    pose proof (ggsw_encrypt_spec fam n Hf Hn0 Hn8 ggsw Hg Ng) as B1.
    pose proof (enc_sk_spec fam n Hf Hn0 Hn8 gin ltac:(destruct Hi as (_&?&_); lia)) as B2.
    pose proof (external_product_spec fam n Hf Hn0 Hn8 gout gin ggsw Ho Hi Hg Ni) as B3.
    destruct (lor_ge _ _ (budget_nonneg _ _ B1) (budget_nonneg _ _ B2)) as (L1 & L2 & N12).
    destruct (lor_ge _ _ N12 (budget_nonneg _ _ B3)) as (L3 & L4 & _).
    split; [|split]; apply budget_suffices; (eapply budget_mono; [eassumption | unfold B; lia]).
  Qed.

  (* test_suite/automorphism/ggsw_ct.rs: GGSW encryption | automorphism-key encryption | tensor-switching-key encryption |
     GGSW automorphism *)
  Lemma helper_automorphism_ggsw (cin cout key tsk : infos) :
    wf_infos cin -> wf_infos cout -> wf_infos key -> wf_infos tsk -> i_n cin = n -> i_n key = n -> i_n tsk = n ->
    i_rank cin = i_rank_in key -> i_rank cout = i_rank_in tsk ->
    let B := Z.lor (Z.lor (Z.lor (ggsw_encrypt_sk_tmp_bytes fam n cin) (glwe_automorphism_key_encrypt_sk_tmp_bytes fam n key))
                          (gglwe_to_ggsw_key_encrypt_sk_tmp_bytes fam n tsk))
                   (ggsw_automorphism_tmp_bytes fam n cout cin key tsk) in
    run_takes (tree_ggsw_encrypt_sk fam n cin) (0, B) <> None /\
    run_takes (tree_glwe_automorphism_key_encrypt_sk fam n key) (0, B) <> None /\
    run_takes (tree_gglwe_to_ggsw_key_encrypt_sk fam n tsk) (0, B) <> None /\
    run_takes (tree_ggsw_automorphism fam n cout cin key tsk) (0, B) <> None.
  Proof using Hf Hn0 Hn8.
    intros Hi Ho Hk Ht Ni Nk Nt Hrk Hrt B.
    pose proof (ggsw_encrypt_spec fam n Hf Hn0 Hn8 cin Hi Ni) as B1.
    pose proof (automorphism_key_spec fam n Hf Hn0 Hn8 key Hk Nk) as B2.
    pose proof (gglwe_to_ggsw_key_spec fam n Hf Hn0 Hn8 tsk Ht Nt) as B3.
    pose proof (ggsw_automorphism_spec fam n Hf Hn0 Hn8 cout cin key tsk Ho Hi Hk Ht Ni Hrk Hrt) as B4.
    destruct (lor_ge _ _ (budget_nonneg _ _ B1) (budget_nonneg _ _ B2)) as (L1 & L2 & N12).
    destruct (lor_ge _ _ N12 (budget_nonneg _ _ B3)) as (L3 & L4 & N123).
    destruct (lor_ge _ _ N123 (budget_nonneg _ _ B4)) as (L5 & L6 & _).
    split; [|split; [|split]]; apply budget_suffices; (eapply budget_mono; [eassumption | unfold B; lia]).
  Qed.

  (* test_suite/trace.rs: encryption | decryption | automorphism-key encryption | trace *)
  Lemma helper_trace (g key : infos) (steps : Z) :
    wf_infos g -> wf_infos key -> i_n g = n -> i_n key = n -> i_rank g = i_rank_in key ->
    let B := Z.lor (Z.lor (Z.lor (glwe_encrypt_sk_tmp_bytes fam n g) (glwe_decrypt_tmp_bytes fam n g))
                          (glwe_automorphism_key_encrypt_sk_tmp_bytes fam n key))
                   (glwe_trace_tmp_bytes fam n g g key) in
    run_takes (tree_glwe_encrypt_sk fam n g) (0, B) <> None /\
    run_takes (tree_glwe_decrypt fam n g) (0, B) <> None /\
    run_takes (tree_glwe_automorphism_key_encrypt_sk fam n key) (0, B) <> None /\
    run_takes (tree_glwe_trace fam n g g key steps) (0, B) <> None.
  Proof using Hf Hn0 Hn8.
    intros Hg Hk Ng Nk Hrk B.
    assert (Hs : 0 <= i_size g) by (destruct Hg as (_&?&_); lia). assert (Hr : 0 <= i_rank g) by (destruct Hg as (_&_&?&_); lia).
    pose proof (enc_sk_spec fam n Hf Hn0 Hn8 g Hs) as B1.
    pose proof (decrypt_spec fam n Hf Hn0 Hn8 g Hs Hr) as B2.
    pose proof (automorphism_key_spec fam n Hf Hn0 Hn8 key Hk Nk) as B3.
    pose proof (trace_spec fam n Hf Hn0 Hn8 g g key steps Hg Hg Hk Ng Hrk) as B4.
    destruct (lor_ge _ _ (budget_nonneg _ _ B1) (budget_nonneg _ _ B2)) as (L1 & L2 & N12).
    destruct (lor_ge _ _ N12 (budget_nonneg _ _ B3)) as (L3 & L4 & N123).
    destruct (lor_ge _ _ N123 (budget_nonneg _ _ B4)) as (L5 & L6 & _).
    split; [|split; [|split]]; apply budget_suffices; (eapply budget_mono; [eassumption | unfold B; lia]).
  Qed.

  (* test_suite/glwe_packing.rs: encryption .max automorphism-key encryption .max packing (inputs with the layout of the result) *)
  Lemma helper_packing (g key : infos) (iters steps : Z) :
    wf_infos g -> wf_infos key -> i_n g = n -> i_n key = n -> i_rank g = i_rank_in key ->
    let B := Z.max (Z.max (glwe_encrypt_sk_tmp_bytes fam n g) (glwe_automorphism_key_encrypt_sk_tmp_bytes fam n key))
                   (glwe_pack_tmp_bytes fam n g key) in
    run_takes (tree_glwe_encrypt_sk fam n g) (0, B) <> None /\
    run_takes (tree_glwe_automorphism_key_encrypt_sk fam n key) (0, B) <> None /\
    run_takes (tree_glwe_pack fam n g g key iters steps) (0, B) <> None.
  Proof using Hf Hn0 Hn8.
    intros Hg Hk Ng Nk Hrk B.
    pose proof (enc_sk_spec fam n Hf Hn0 Hn8 g ltac:(destruct Hg as (_&?&_); lia)) as B1.
    pose proof (automorphism_key_spec fam n Hf Hn0 Hn8 key Hk Nk) as B2.
    pose proof (pack_spec fam n Hf Hn0 Hn8 g g key iters steps Hg Hg Hk Ng Ng Hrk Hrk) as B3.
    unfold glwe_pack_tmp_bytes in B3 at 1.
    split; [|split]; apply budget_suffices; (eapply budget_mono; [eassumption | unfold B, glwe_pack_tmp_bytes; lia]).
  Qed.

  (* test_suite/keyswitch/lwe_ct.rs: LWE switching-key encryption | LWE key-switch *)
  Lemma helper_keyswitch_lwe (key lin lout : infos) :
    wf_infos key -> wf_infos lin -> wf_infos lout -> i_n key = n -> i_rank_in key = 1 ->
    let B := Z.lor (lwe_switching_key_encrypt_sk_tmp_bytes fam n key) (lwe_keyswitch_tmp_bytes fam n lout lin key) in
    run_takes (tree_lwe_switching_key_encrypt_sk fam n key) (0, B) <> None /\
    run_takes (tree_lwe_keyswitch fam n lout lin key) (0, B) <> None.
  Proof using Hf Hn0 Hn8.
    intros Hk Hi Ho Nk Hrk B.
    pose proof (lwe_switching_key_spec fam n Hf Hn0 Hn8 key Hk Nk) as B1.
    pose proof (lwe_keyswitch_spec fam n Hf Hn0 Hn8 lout lin key Ho Hi Hk Hrk) as B2.
    destruct (lor_ge _ _ (budget_nonneg _ _ B1) (budget_nonneg _ _ B2)) as (L1 & L2 & _).
    split; apply budget_suffices; (eapply budget_mono; [eassumption | unfold B; lia]).
  Qed.
End Helpers.

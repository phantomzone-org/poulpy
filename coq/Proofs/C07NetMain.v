(* C07 butterfly networks: the theorems about the model of ntt_ref / intt_ref (one prime at a time), for the three
   prime sets, the four primes, every n = 2^m with 1 <= m <= 16 and every u64 input. *)
From PV Require Import Base.MachineInt Model.Limbs Model.DftAbs Model.C07Ntt120 Model.C07NttNet Proofs.C07Ring
  Proofs.C07Ntt Proofs.C07NetBase Proofs.C07NetStruct Proofs.C07NetAbs Proofs.C07NetLazy Proofs.C07NetRefine
  Proofs.C07NetFacts Proofs.C07NetTable Proofs.C07NetFlat.
From Coq Require Import Morphisms Setoid.
Open Scope Z_scope.

Definition u64s (x : list Z) : Prop := Forall (fun v => 0 <= v < 2 ^ 64) x.
Lemma u64s_rng x : u64s x -> Forall (rng (2 ^ 64 - 1)) x.
Proof. intros H. eapply Forall_impl; [|exact H]. intros v Hv. cbv beta in Hv. unfold rng. lia. Qed.
Lemma rng_below bits U x : Forall (rng U) x -> U < 2 ^ bits -> Forall (fun v => 0 <= v < 2 ^ bits) x.
Proof. intros H HU. eapply Forall_impl; [|exact H]. intros v Hv. unfold rng in Hv. cbv beta. lia. Qed.

Section Case.
Variables (P : primeset) (k m : nat).
Hypothesis HP : In P three.
Hypothesis Hk : (k < 4)%nat.
Hypothesis Hm : (S m <= 16)%nat.
Notation q := (qk P k).
Notation psi := (omega_n P k (S m)).
Notation phi := (phi_of P k (S m)).
Notation ninv := (ninv_of P k (S m)).
Notation n := (pow2n (S m)).

Notation case_facts := (prime_facts P k HP Hk).

Lemma q_pos : 1 <= q.
Proof. destruct case_facts as [HR _]. pose proof (q_range _ _ HR). lia. Qed.

(* no wrap, the wrapped run equals the exact run, documented bounds *)
Theorem ntt_no_overflow x : length x = n -> u64s x ->
  ntt_safe P k (S m) x = true /\ ntt_k w64 P k (S m) x = ntt_k idz P k (S m) x /\
  Forall (fun v => 0 <= v < 2 ^ fwd_out_bits P (S m)) (ntt_k w64 P k (S m) x) /\ length (ntt_k w64 P k (S m) x) = n.
Proof.
  intros Hx Hu. destruct case_facts as [HF [HO _]].
  destruct (fwd_ok_split P k m Hm HO) as [Uf [Hc Hlt]].
  destruct (ntt_with_sound q (fwd_table P k (S m)) m x _ Uf q_pos Hc (proj1 (fwd_table_facts P k m Hm HF HO)) Hx (u64s_rng x Hu)) as [O [E [R L]]].
  unfold ntt_safe, ntt_k. rewrite E. repeat split; try assumption. apply (rng_below _ Uf); assumption.
Qed.
Theorem intt_no_overflow x : length x = n -> u64s x ->
  intt_safe P k (S m) x = true /\ intt_k w64 P k (S m) x = intt_k idz P k (S m) x /\
  Forall (fun v => 0 <= v < 2 ^ inv_out_bits P (S m)) (intt_k w64 P k (S m) x) /\ length (intt_k w64 P k (S m) x) = n.
Proof.
  intros Hx Hu. destruct case_facts as [HF [_ HO]].
  destruct (inv_ok_split P k m Hm HO) as [Uf [Hc Hlt]].
  destruct (intt_with_sound q (inv_table P k (S m)) m x _ Uf q_pos Hc (proj1 (inv_table_facts P k m Hm HF HO)) Hx (u64s_rng x Hu)) as [O [E [R L]]].
  unfold intt_safe, intt_k. rewrite E. repeat split; try assumption. apply (rng_below _ Uf); assumption.
Qed.

(* the roots *)
Lemma roots : cong q (zp psi n) (-1) /\ cong q (psi * phi) 1 /\ cong q (ninv * Z.of_nat n) 1.
Proof.
  destruct case_facts as [HF _]. split; [|split].
  - apply (psi_root P k (S m) Hm HF).
  - apply (psi_phi P k (S m) Hm HF).
  - apply (ninv_n P k (S m) Hm HF).
Qed.

(* refinement to the ideal transforms *)
Lemma ntt_lcong x : length x = n -> u64s x -> lcong q (ntt_k w64 P k (S m) x) (nttA psi (S m) x).
Proof.
  intros Hx Hu. destruct (ntt_no_overflow x Hx Hu) as [_ [E _]]. rewrite E.
  destruct case_facts as [HF [HO _]]. unfold ntt_k.
  apply ntt_refine; [apply (fwd_table_facts P k m Hm HF HO)|exact Hx].
Qed.
Lemma intt_lcong y : length y = n -> u64s y -> lcong q (intt_k w64 P k (S m) y) (inttA phi ninv (S m) y).
Proof.
  intros Hy Hu. destruct (intt_no_overflow y Hy Hu) as [_ [E _]]. rewrite E.
  destruct case_facts as [HF [_ HO]]. unfold intt_k.
  apply intt_refine; [apply (inv_table_facts P k m Hm HF HO)|exact Hy].
Qed.

(* the forward network evaluates at the odd powers of psi, in bit-reversed order *)
Theorem ntt_spec x p : length x = n -> u64s x -> (p < n)%nat ->
  cong q (nth p (ntt_k w64 P k (S m) x) 0) (peval x (zp psi (2 * brev (S m) p + 1)) n).
Proof.
  intros Hx Hu Hp. destruct (ntt_lcong x Hx Hu) as [_ H]. rewrite (H p).
  destruct roots as [Hr _]. apply nttA_spec; assumption.
Qed.

(* intt (ntt x) = x, more generally intt y = x for every u64 vector y with the residues of ntt x *)
Theorem intt_of_ntt x y j : length x = n -> u64s x -> length y = n -> u64s y ->
  (forall p, (p < n)%nat -> cong q (nth p y 0) (nth p (ntt_k w64 P k (S m) x) 0)) -> (j < n)%nat ->
  cong q (nth j (intt_k w64 P k (S m) y) 0) (nth j x 0).
Proof.
  intros Hx Hux Hy Huy Hyx Hj. destruct (intt_lcong y Hy Huy) as [_ H]. rewrite (H j).
  destruct roots as [Hr [Hi Hn]].
  apply (inttA_nttA q psi phi ninv (S m) x j Hi Hr Hn Hj y).
  destruct (ntt_lcong x Hx Hux) as [Hl Hc]. split; [rewrite nttA_length; exact Hy|].
  intros p. destruct (Nat.ltb_spec p n) as [Hp|Hp].
  - rewrite (Hyx p Hp). apply Hc.
  - rewrite !nth_overflow; [reflexivity|rewrite nttA_length; lia|lia].
Qed.

(* the convolution theorem *)
Theorem convolution a b c j : length a = n -> u64s a -> length b = n -> u64s b -> length c = n -> u64s c ->
  (forall p, (p < n)%nat -> cong q (nth p c 0) (nth p (ntt_k w64 P k (S m) a) 0 * nth p (ntt_k w64 P k (S m) b) 0)) ->
  (j < n)%nat -> cong q (nth j (intt_k w64 P k (S m) c) 0) (nth j (pmul a b) 0).
Proof.
  intros Ha Hua Hb Hub Hc Huc Hprod Hj. destruct (intt_lcong c Hc Huc) as [_ H]. rewrite (H j).
  destruct roots as [Hr [Hi Hn]].
  apply (conv_A q psi phi ninv (S m) a b c j Hi Hr Hn Ha Hb Hc); [|exact Hj].
  intros p Hp. rewrite (Hprod p Hp).
  destruct (ntt_lcong a Ha Hua) as [_ Ca]. destruct (ntt_lcong b Hb Hub) as [_ Cb]. rewrite (Ca p), (Cb p). reflexivity.
Qed.
End Case.

Lemma out_bits_64 P m : In P three -> (1 <= m <= 16)%nat -> fwd_out_bits P m <= 64 /\ inv_out_bits P m <= 64.
Proof.
  intros HP Hm. destruct m as [|m]; [lia|]. destruct (prime_facts P 0 HP ltac:(lia)) as [HR [HF HI]]. split.
  - destruct (fwd_wf P 0 m ltac:(lia) HF) as [_ [_ Hwf]]. unfold fwd_out_bits.
    assert (Hne : fwd_ms P 0 (S m) <> []) by (intros E; pose proof (fwd_ms_length P 0 (S m)) as Hl; rewrite E in Hl; discriminate).
    rewrite (app_removelast_last (fwd_meta0 0) Hne) in Hwf. apply Forall_app in Hwf. destruct Hwf as [_ Hwf].
    apply Forall_cons_iff in Hwf. apply Hwf.
  - destruct (inv_wf P 0 m ltac:(lia) HI) as [_ [Hwf _]]. apply Hwf.
Qed.
Lemma below_u64s bits x : bits <= 64 -> Forall (fun v => 0 <= v < 2 ^ bits) x -> u64s x.
Proof.
  intros Hb H. eapply Forall_impl; [|exact H]. intros v Hv. cbv beta in Hv.
  assert (2 ^ bits <= 2 ^ 64) by (apply Z.pow_le_mono_r; lia). lia.
Qed.

Lemma zp_Zpow z a b : zp (zp z a) b = z ^ Z.of_nat (a * b).
Proof. rewrite <- zp_mul. apply zp_pow. Qed.

Lemma pmul_lcong q a b A B k : lcong q a A -> lcong q b B -> length b = length a -> (k < length a)%nat ->
  cong q (nth k (pmul a b) 0) (nth k (pmul A B) 0).
Proof.
  intros [Hla Ha] [Hlb Hb] Hl Hk.
  rewrite (pmul_delta a b k Hl Hk), (pmul_delta A B k ltac:(lia) ltac:(lia)). rewrite <- Hla. unfold nthZ.
  apply zsum_cong. intros i _. apply zsum_cong. intros j _. rewrite (Ha i), (Hb j). reflexivity.
Qed.

Lemma colk_u64s n d k : length d = (4 * n)%nat -> (k < 4)%nat -> u64s d -> u64s (colk k d).
Proof.
  intros Hd Hk Hu. apply Forall_nth'. rewrite (colk_length n d k Hd Hk). intros i Hi.
  rewrite (colk_nth n d k i Hd Hk Hi). apply (Forall_nth_elim _ d (4 * i + k) 0 Hu). lia.
Qed.

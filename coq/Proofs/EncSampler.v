(* The rejection loop of znx_add_normal_f64_ref / znx_fill_normal_f64_ref over an ARBITRARY stream of samples:
   every value it returns is bounded by ceil(bound). *)
From PV Require Import Base.MachineInt Model.Znx Model.Limbs Model.EncModel.
Open Scope Z_scope.

(* ceil(bn / 2^bl) *)
Definition ceil_bound (bn bl : Z) : Z := (bn + 2 ^ bl - 1) / 2 ^ bl.

Lemma round_half_away_bound (num dl bn bl : Z) : 0 <= dl -> 0 <= bl -> 0 <= bn ->
  exceeds num dl bn bl = false -> Z.abs (round_half_away num dl) <= ceil_bound bn bl.
Proof.
  intros Hdl Hbl Hbn Hex. unfold exceeds in Hex. apply Z.ltb_ge in Hex.
  pose proof (pow2_pos dl Hdl) as Hd. pose proof (pow2_pos bl Hbl) as Hl.
  unfold ceil_bound. set (c := (bn + 2 ^ bl - 1) / 2 ^ bl).
  assert (Hc : bn <= c * 2 ^ bl).
  { unfold c. pose proof (Z.div_mod (bn + 2 ^ bl - 1) (2 ^ bl) ltac:(lia)).
    pose proof (Z.mod_pos_bound (bn + 2 ^ bl - 1) (2 ^ bl) Hl). nia. }
  assert (Hc0 : 0 <= c) by (unfold c; apply Z.div_pos; lia).
  assert (Hn : Z.abs num <= c * 2 ^ dl).
  { apply (Zmult_le_reg_r _ _ (2 ^ bl)); [lia|].
    assert (bn * 2 ^ dl <= c * 2 ^ bl * 2 ^ dl) by (apply Z.mul_le_mono_nonneg_r; lia). lia. }
  assert (Hq : (2 * Z.abs num + 2 ^ dl) / (2 * 2 ^ dl) <= c).
  { assert ((2 * Z.abs num + 2 ^ dl) / (2 * 2 ^ dl) < c + 1); [|lia]. apply Z.div_lt_upper_bound; [lia|]. nia. }
  assert (Hq0 : 0 <= (2 * Z.abs num + 2 ^ dl) / (2 * 2 ^ dl)) by (apply Z.div_pos; lia).
  unfold round_half_away. destruct (Z.leb_spec 0 num).
  - rewrite Z.abs_eq in Hq by lia. rewrite Z.abs_eq in Hq0 by lia. lia.
  - rewrite Z.abs_neq in Hq by lia. rewrite Z.abs_neq in Hq0 by lia. lia.
Qed.

Definition wf_samples (xs : list (Z * Z)) : Prop := Forall (fun x => 0 <= snd x) xs.

Lemma sample_one_bound (bn bl : Z) : 0 <= bl -> 0 <= bn -> forall (xs : list (Z * Z)) (e : Z) (rest : list (Z * Z)),
  wf_samples xs -> sample_one bn bl xs = Some (e, rest) ->
  Z.abs e <= ceil_bound bn bl /\ wf_samples rest /\ (length rest < length xs)%nat.
Proof.
  intros Hbl Hbn. induction xs as [|[num dl] xs IH]; intros e rest Hwf H; cbn [sample_one] in H; [discriminate|].
  inversion Hwf as [|? ? Hx Hwf']; subst. cbn [snd] in Hx.
  destruct (exceeds num dl bn bl) eqn:Ex.
  - destruct (IH e rest Hwf' H) as (A & B & C). repeat split; auto. cbn [length]. lia.
  - inversion H; subst. split; [apply round_half_away_bound; auto|]. split; [exact Hwf'|cbn [length]; lia].
Qed.

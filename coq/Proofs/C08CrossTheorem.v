(* C08, cross-radix normalisation with a non-negative offset: the value theorem at width 64, the instance of
   `normalize_cross_c_value_pos` (Proofs/C08WCrossTheorem.v) that Props/C08.v states. *)
From PV Require Import Base.MachineInt Model.Znx Model.Limbs Model.C08Oracle
  Proofs.ZnxDigit Proofs.C08Steps Proofs.C08Chain Proofs.C08Loops Proofs.C08Value Proofs.C08Normalize
  Proofs.C08WShift Proofs.C08ShiftValue Proofs.C08CrossInner Proofs.C08CrossGeom Proofs.C08CrossOuter Proofs.C08CrossMain Proofs.C08WCrossTheorem.
Open Scope Z_scope.

Section Thm.
Variables rb ab : Z.
Hypothesis Hrb : 1 <= rb <= 62.
Hypothesis Hab : 1 <= ab <= 62.

Theorem normalize_cross_value (off : Z) (a r0 : list Z) : 0 <= off -> hr62 a ->
  exists out, normalize_cross 64 rb ab off a r0 = Some out /\ length out = length r0 /\
    forall P, zn (length r0) * rb + zn (length a) * ab + off <= P ->
      let D := tor_abs P (val_scaled P rb out - val_scaled (P + off) ab a) in
      D <= 2 ^ (P - zn (length r0) * rb) /\ (zn (length a) * ab - off <= zn (length r0) * rb -> D = 0).
Proof.
  intros Hoff Ha. rewrite normalize_cross_is_c128.
  exact (normalize_cross_c_value_pos 64 128 rb ab Hrb Hab off a r0 Hoff Ha).
Qed.

End Thm.

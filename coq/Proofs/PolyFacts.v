(* Coefficient lists as Z[X]/(X^n+1) (Model/DftAbs.v: padd, psub, pneg, pzero, pmul): lengths, coefficients, the module laws,
   scaling, finite sums.  Scaling by c is `map (Z.mul c)` here; the models name it three times (Gadget.pscale, C05Spec.pscale,
   C14Blind.pscale, all with this body), so the scale_* lemmas apply to each of them up to conversion (`apply`, `exact`), and a
   development that wants to rewrite with them restates the few it needs over its own name in one line.  In the same way `psum` is
   the body shared by GadgetSpec.psumf and C05Cnv.psumf. *)
From PV Require Import Base.MachineInt Model.Znx Model.Limbs Model.DftAbs.
From PV Require Export Proofs.ListFacts.
Open Scope Z_scope.

Section Lists.
Lemma list_eq_nth (a b : list Z) : length a = length b ->
  (forall k, (k < length a)%nat -> nth k a 0 = nth k b 0) -> a = b.
Proof. apply nthZ_ext. Qed.

Lemma nth_map' {A B} (g : A -> B) l k d d' : (k < length l)%nat -> nth k (map g l) d = g (nth k l d').
Proof.
  revert k; induction l as [|x l IH]; intros [|k] H; cbn [length] in H; try lia; cbn [map nth]; [reflexivity|apply IH; lia].
Qed.
End Lists.

Section Lengths.
Lemma padd_length a b : length (padd a b) = Nat.min (length a) (length b).
Proof. apply map2_length. Qed.
Lemma psub_length a b : length (psub a b) = Nat.min (length a) (length b).
Proof. apply map2_length. Qed.
Lemma pneg_length a : length (pneg a) = length a.
Proof. apply map_length. Qed.
Lemma pzero_length n : length (pzero n) = n.
Proof. apply zeros_length. Qed.
Lemma scale_length c (a : list Z) : length (map (Z.mul c) a) = length a.
Proof. apply map_length. Qed.
Lemma pmul_length (a b : list Z) : length (pmul a b) = length a.
Proof. unfold pmul; rewrite map_length, seq_length; reflexivity. Qed.

Lemma padd_len n a b : length a = n -> length b = n -> length (padd a b) = n.
Proof. intros Ha Hb. rewrite padd_length, Ha, Hb. apply Nat.min_id. Qed.
Lemma psub_len n a b : length a = n -> length b = n -> length (psub a b) = n.
Proof. intros Ha Hb. rewrite psub_length, Ha, Hb. apply Nat.min_id. Qed.
End Lengths.

Section Coefficients.
Lemma nth_padd a b k : length b = length a -> nth k (padd a b) 0 = nth k a 0 + nth k b 0.
Proof.
  intros Hl. destruct (Nat.lt_ge_cases k (length a)) as [H|H].
  - apply nthZ_map2; lia.
  - rewrite !nth_overflow; [reflexivity|lia|lia|rewrite padd_length; lia].
Qed.
Lemma nth_psub a b k : length b = length a -> nth k (psub a b) 0 = nth k a 0 - nth k b 0.
Proof.
  intros Hl. destruct (Nat.lt_ge_cases k (length a)) as [H|H].
  - apply nthZ_map2; lia.
  - rewrite !nth_overflow; [reflexivity|lia|lia|rewrite psub_length; lia].
Qed.
Lemma nth_pneg a k : nth k (pneg a) 0 = - nth k a 0.
Proof.
  unfold pneg. destruct (Nat.lt_ge_cases k (length a)) as [H|H].
  - apply nth_map'; exact H.
  - rewrite !nth_overflow; [reflexivity|lia|rewrite map_length; lia].
Qed.
Lemma nth_pzero n k : nth k (pzero n) 0 = 0.
Proof. apply nthZ_zeros. Qed.
Lemma nth_scale c (a : list Z) k : nth k (map (Z.mul c) a) 0 = c * nth k a 0.
Proof.
  destruct (Nat.lt_ge_cases k (length a)) as [H|H].
  - apply nth_map'; exact H.
  - rewrite !nth_overflow; [ring|lia|rewrite map_length; lia].
Qed.

Lemma nth_padd_n n a b k : length a = n -> length b = n -> nth k (padd a b) 0 = nth k a 0 + nth k b 0.
Proof. intros Ha Hb. apply nth_padd. rewrite Ha, Hb. reflexivity. Qed.
Lemma nth_psub_n n a b k : length a = n -> length b = n -> nth k (psub a b) 0 = nth k a 0 - nth k b 0.
Proof. intros Ha Hb. apply nth_psub. rewrite Ha, Hb. reflexivity. Qed.

(* Lists of length n form a Z-module under padd / psub / pneg / scaling, all acting coefficient by coefficient:
   an identity between such expressions holds as soon as it holds in Z for the k-th coefficients. *)
Lemma poly_ext n a b : length a = n -> length b = n -> (forall k, nth k a 0 = nth k b 0) -> a = b.
Proof. intros Ha Hb H. apply list_eq_nth; [rewrite Ha, Hb; reflexivity|]. intros k _. apply H. Qed.
End Coefficients.

(* the laws that hold for all lengths (padd truncates to the shorter list) are stated without a length *)
Section Module.
Lemma padd_comm (a b : list Z) : padd a b = padd b a.
Proof.
  unfold padd, map2. revert b; induction a as [|x a IH]; intros [|y b]; cbn [combine map]; try reflexivity.
  cbn [fst snd]. rewrite IH. f_equal. lia.
Qed.

Lemma padd_assoc (a b c : list Z) : padd (padd a b) c = padd a (padd b c).
Proof.
  unfold padd, map2. revert b c; induction a as [|x a IH]; intros [|y b] [|z c]; cbn [combine map]; try reflexivity.
  cbn [fst snd]. f_equal; [lia|]. apply IH.
Qed.

Lemma padd_swap4 (a b c d : list Z) : padd (padd a b) (padd c d) = padd (padd a c) (padd b d).
Proof. rewrite !padd_assoc. f_equal. rewrite <- !padd_assoc. f_equal. apply padd_comm. Qed.

Lemma padd_pzero_l n a : length a = n -> padd (pzero n) a = a.
Proof.
  intros H. apply (poly_ext n); [apply padd_len; [apply pzero_length|exact H]|exact H|].
  intros k. rewrite (nth_padd_n n), nth_pzero by (try apply pzero_length; exact H). ring.
Qed.
Lemma padd_pzero_r n a : length a = n -> padd a (pzero n) = a.
Proof. intros H. rewrite padd_comm. apply padd_pzero_l; exact H. Qed.
Lemma padd_pzero_pzero n : padd (pzero n) (pzero n) = pzero n.
Proof. apply padd_pzero_l, pzero_length. Qed.

Lemma psub_pzero_l n a : length a = n -> psub (pzero n) a = pneg a.
Proof.
  intros H. apply (poly_ext n); [apply psub_len; [apply pzero_length|exact H]|rewrite pneg_length; exact H|].
  intros k. rewrite (nth_psub_n n), nth_pzero, nth_pneg by (try apply pzero_length; exact H). ring.
Qed.
Lemma psub_pzero_r n a : length a = n -> psub a (pzero n) = a.
Proof.
  intros H. apply (poly_ext n); [apply psub_len; [exact H|apply pzero_length]|exact H|].
  intros k. rewrite (nth_psub_n n), nth_pzero by (try apply pzero_length; exact H). ring.
Qed.

Lemma scale_padd c a b : map (Z.mul c) (padd a b) = padd (map (Z.mul c) a) (map (Z.mul c) b).
Proof.
  unfold padd, map2. revert b; induction a as [|x a IH]; intros [|y b]; cbn [combine map]; try reflexivity.
  cbn [fst snd]. rewrite IH. f_equal. ring.
Qed.
Lemma scale_psub c a b : map (Z.mul c) (psub a b) = psub (map (Z.mul c) a) (map (Z.mul c) b).
Proof.
  unfold psub, map2. revert b; induction a as [|x a IH]; intros [|y b]; cbn [combine map]; try reflexivity.
  cbn [fst snd]. rewrite IH. f_equal. ring.
Qed.
Lemma scale_pzero c n : map (Z.mul c) (pzero n) = pzero n.
Proof. unfold pzero, zeros. induction n as [|n IH]; cbn [repeat map]; [reflexivity|]. rewrite IH. f_equal. ring. Qed.
Lemma scale_scale c d (a : list Z) : map (Z.mul c) (map (Z.mul d) a) = map (Z.mul (c * d)) a.
Proof. rewrite map_map. apply map_ext; intros; ring. Qed.
Lemma scale_1 (a : list Z) : map (Z.mul 1) a = a.
Proof. rewrite <- (map_id a) at 2. apply map_ext; intros; ring. Qed.
Lemma scale_0 (a : list Z) : map (Z.mul 0) a = pzero (length a).
Proof. unfold pzero, zeros. induction a as [|x a IH]; cbn [map length repeat]; [reflexivity|]. rewrite IH. reflexivity. Qed.
End Module.

Section Product.
(* the accumulation loop of pmul when every step leaves the accumulator alone *)
Lemma fold_left_fixed {A B} (f : A -> B -> A) l a : (forall acc i, f acc i = acc) -> fold_left f l a = a.
Proof. intros H. induction l as [|h l IH]; cbn [fold_left]; [reflexivity|]. rewrite H. exact IH. Qed.

Lemma map_seq_zero (f : nat -> Z) m : (forall k, f k = 0) -> map f (seq 0 m) = pzero m.
Proof.
  intros H. apply list_eq_nth; [rewrite map_length, seq_length, pzero_length; reflexivity|].
  rewrite map_length, seq_length. intros k Hk. rewrite nth_pzero, (nth_map' _ _ _ _ 0%nat) by (rewrite seq_length; exact Hk). apply H.
Qed.

(* both for every length of the other factor *)
Lemma pmul_pzero_r a n : pmul a (pzero n) = pzero (length a).
Proof.
  unfold pmul. cbv zeta. apply map_seq_zero; intros k.
  apply fold_left_fixed; intros acc i. unfold nthZ. rewrite !nth_pzero. destruct (Nat.leb i k); ring.
Qed.
Lemma pmul_pzero_l n a : pmul (pzero n) a = pzero n.
Proof.
  unfold pmul. cbv zeta. rewrite pzero_length. apply map_seq_zero; intros k.
  apply fold_left_fixed; intros acc i. unfold nthZ at 1 3. rewrite nth_pzero. destruct (Nat.leb i k); ring.
Qed.
End Product.

(* sum_{i<m} f i in Z[X]/(X^n+1) *)
Definition psum (n : nat) (f : nat -> list Z) (m : nat) : list Z :=
  fold_left (fun acc i => padd acc (f i)) (seq 0 m) (pzero n).

Section Sums.
Lemma psum_S n f m : psum n f (S m) = padd (psum n f m) (f m).
Proof. unfold psum. rewrite seq_S, fold_left_app. reflexivity. Qed.

Lemma psum_ext n f g m : (forall i, (i < m)%nat -> f i = g i) -> psum n f m = psum n g m.
Proof.
  induction m as [|m IH]; intros H; [reflexivity|].
  rewrite !psum_S, IH, H by auto with arith. reflexivity.
Qed.

Lemma psum_length n f m : (forall i, (i < m)%nat -> length (f i) = n) -> length (psum n f m) = n.
Proof.
  induction m as [|m IH]; intros H; [apply pzero_length|].
  rewrite psum_S. apply padd_len; auto with arith.
Qed.

(* the coefficients add up; the right-hand side is the fold that later files name zsum *)
Lemma psum_coeff n f m k : (forall i, (i < m)%nat -> length (f i) = n) ->
  nth k (psum n f m) 0 = fold_left (fun acc i => acc + nth k (f i) 0) (seq 0 m) 0.
Proof.
  induction m as [|m IH]; intros H; [apply nth_pzero|].
  rewrite psum_S, seq_S, fold_left_app, (nth_padd_n n), IH by (try apply psum_length; auto with arith). reflexivity.
Qed.

Lemma psum_pzero n m : psum n (fun _ => pzero n) m = pzero n.
Proof. induction m as [|m IH]; [reflexivity|]. rewrite psum_S, IH. apply padd_pzero_pzero. Qed.

Lemma psum_zero n f m : (forall i, (i < m)%nat -> f i = pzero n) -> psum n f m = pzero n.
Proof. intros H. rewrite (psum_ext n f (fun _ => pzero n)) by exact H. apply psum_pzero. Qed.
End Sums.

(* `plen` proves  length e = n  by following the structure of e (linear in its size, where rewriting with padd_length and
   `lia` is exponential in the nesting of Nat.min); `psum_length` also opens every sum that unfolds to `psum`.  A development
   adds the length facts of its own operations: premise-free ones (its copy of pscale) to the rewrite database poly_length,
   the others to the hint database plen. *)
Create HintDb plen discriminated.
#[export] Hint Resolve padd_len psub_len pzero_length : plen.
#[export] Hint Rewrite scale_length : poly_length.
Ltac plen :=
  repeat lazymatch goal with
  | |- forall _, _ => intros
  | |- length (pmul _ _) = _ => rewrite pmul_length
  | |- length (pneg _) = _ => rewrite pneg_length
  | |- length (pzero _) = _ => apply pzero_length
  | |- length (padd _ _) = _ => apply padd_len
  | |- length (psub _ _) = _ => apply psub_len
  | |- length (if ?c then _ else _) = _ => destruct c
  | |- length _ = _ => first [solve [auto with plen] | progress autorewrite with poly_length | apply psum_length]
  | _ => solve [auto with plen]
  end.

(* `pcoeff n` turns an equation between polynomials of length n into the equation of their k-th coefficients in Z
   (coefficient lemmas of further operations: rewrite database poly_nth) *)
#[export] Hint Rewrite nth_scale nth_pneg nth_pzero : poly_nth.
Ltac pcoeff_as n k :=
  apply (poly_ext n); [solve [plen] | solve [plen] | intros k;
    repeat first [ rewrite (nth_padd_n n) by plen | rewrite (nth_psub_n n) by plen | progress autorewrite with poly_nth ]].
Ltac pcoeff n := let k := fresh "k" in pcoeff_as n k.

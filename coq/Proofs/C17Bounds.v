(* C17 - addressing logic of the layouts: what Inv gives the accessors, which constructors establish it. *)
From PV Require Import Base.MachineInt Model.C12Scratch Model.C17Mem Proofs.C12Arena.
Open Scope Z_scope.

Lemma Invb_spec (v : vhdr) : Invb v = true <-> Inv v.
Proof. unfold Invb, Inv. rewrite !andb_true_iff, !Z.leb_le. tauto. Qed.
Lemma wf_vb_spec (v : vhdr) : wf_vb v = true <-> wf_v v.
Proof. unfold wf_vb, wf_v. rewrite !andb_true_iff, !Z.leb_le, Z.ltb_lt. tauto. Qed.

(* q*w <= len -> q <= len / w *)
Lemma words_le_cap (q len w : Z) : 0 < w -> q * w <= len -> q <= len / w.
Proof. intros Hw H. apply Z.div_le_lower_bound; lia. Qed.

Lemma round64_ge (x : Z) : x <= round64 x.
Proof. unfold round64. lia. Qed.
Lemma round64_aligned (x : Z) : round64 x mod 64 = 0.
Proof. unfold round64. apply Z.mod_mul. lia. Qed.

Lemma limb_index_le (cols size i j : Z) :
  0 <= i < cols -> 0 <= j < size -> j * cols + i + 1 <= size * cols.
Proof. intros Hi Hj. nia. Qed.

(* limb j < size of column i ends inside the buffer as soon as n * cols * size words fit: the one fact behind `at`,
   for the active size and for the capacity *)
Lemma at_end_bytes (v : vhdr) (size i j : Z) :
  wf_v v -> 0 <= i < v_cols v -> 0 <= j < size -> v_n v * v_cols v * size * v_w v <= v_len v ->
  at_end v i j * v_w v <= v_len v.
Proof.
  intros (Hn & Hc & Hs & Hm & Hl & Hw) Hi Hj H. unfold at_end, at_off.
  pose proof (limb_index_le _ _ _ _ Hi Hj) as Hk.
  assert (v_n v * (j * v_cols v + i) + v_n v <= v_n v * (size * v_cols v)) by nia.
  nia.
Qed.

(* the same in bytes, as the hook checks it *)
Lemma at_in_bounds_bytes (v : vhdr) (i j : Z) :
  wf_v v -> Inv v -> 0 <= i < v_cols v -> 0 <= j < v_size v ->
  at_end v i j * v_w v <= v_len v.
Proof. intros Hwf (H1 & _) Hi Hj. exact (at_end_bytes v (v_size v) i j Hwf Hi Hj H1). Qed.

(* ZnxView::at / at_mut: the n scalars of limb j of column i lie inside the buffer *)
Lemma at_in_bounds (v : vhdr) (i j : Z) :
  wf_v v -> Inv v -> 0 <= i < v_cols v -> 0 <= j < v_size v ->
  0 <= at_off v i j /\ at_end v i j <= cap_words v.
Proof.
  intros Hwf HI Hi Hj. split.
  - destruct Hwf as (Hn & Hc & _). unfold at_off. nia.
  - apply words_le_cap; [apply Hwf | apply at_in_bounds_bytes; assumption].
Qed.

Lemma raw_in_bounds (v : vhdr) : wf_v v -> Inv v -> raw_words v * v_w v <= v_len v /\ raw_words v <= cap_words v.
Proof.
  intros (Hn & Hc & Hs & Hm & Hl & Hw) (H1 & H2 & H3). unfold raw_words, cap_words.
  assert (v_n v * (1 * v_cols v * v_size v) * v_w v <= v_len v) by nia.
  split; [assumption | apply words_le_cap; assumption].
Qed.

(* conversely, when the hook's raw check passes, the first clause of Inv holds *)
Lemma hook_raw_complete (v : vhdr) : hook_raw_ok v = true -> v_n v * v_cols v * v_size v * v_w v <= v_len v.
Proof. unfold hook_raw_ok, raw_words. rewrite Z.leb_le. nia. Qed.

Lemma set_size_preserves_inv (v v' : vhdr) (s : Z) :
  wf_v v -> Inv v -> 0 <= s -> v_set_size v s = Some v' ->
  wf_v v' /\ Inv v' /\ v_size v' = s /\ v_max v' = v_max v /\ v_len v' = v_len v.
Proof.
  intros (Hn & Hc & Hs & Hm & Hl & Hw) (H1 & H2 & H3) Hs0. unfold v_set_size.
  destruct (Z.leb_spec s (v_max v)) as [Hle|]; [|discriminate]. intros E; inversion E; subst; clear E.
  unfold wf_v, Inv; cbn.
  assert (0 <= v_n v * v_cols v * v_w v) by nia.
  assert (v_n v * v_cols v * s * v_w v <= v_n v * v_cols v * v_max v * v_w v) by nia.
  repeat split; lia.
Qed.

(* without the assert (mutation (c) of the self-test) the statement is false *)
Lemma set_size_unchecked_refuted :
  exists v s, wf_v v /\ Inv v /\ 0 <= s /\ ~ Inv (mkV (v_n v) (v_cols v) s (v_max v) (v_len v) (v_w v)).
Proof.
  exists (mkV 4 1 2 2 64 8), 3. unfold wf_v, Inv; cbn. repeat split; try lia.
Qed.

Lemma alloc_inv (n cols size w : Z) :
  0 <= n -> 0 <= cols -> 0 <= size -> 0 < w -> wf_v (v_alloc n cols size w) /\ Inv (v_alloc n cols size w).
Proof.
  intros Hn Hc Hs Hw. unfold v_alloc, wf_v, Inv, bytes_of; cbn.
  pose proof (round64_ge (n * cols * size * w)).
  assert (0 <= n * cols * size * w) by nia. repeat split; lia.
Qed.

Lemma realloc_inv (v : vhdr) (new_size : Z) :
  wf_v v -> Inv v -> 0 <= new_size -> wf_v (v_realloc v new_size) /\ Inv (v_realloc v new_size) /\ v_size (v_realloc v new_size) = new_size.
Proof.
  intros Hwf HI Hs. unfold v_realloc. destruct (Z.eqb_spec (v_size v) new_size) as [E|E].
  - auto.
  - destruct Hwf as (Hn & Hc & _ & _ & _ & Hw). destruct (alloc_inv (v_n v) (v_cols v) new_size (v_w v)) as (A & B); auto.
Qed.

Lemma from_bytes_inv (n cols size w len : Z) (v : vhdr) :
  0 <= n -> 0 <= cols -> 0 <= size -> 0 < w -> v_from_bytes n cols size w len = Some v -> wf_v v /\ Inv v.
Proof.
  intros Hn Hc Hs Hw. unfold v_from_bytes, bytes_of. destruct (Z.eqb_spec len (n * cols * size * w)); [|discriminate].
  intros E; inversion E; subst. unfold wf_v, Inv; cbn. assert (0 <= n * cols * size * w) by nia. repeat split; lia.
Qed.

(* the unchecked from_data establishes Inv exactly when the caller's buffer is large enough *)
Lemma from_data_inv_iff (len n cols size w : Z) :
  Inv (v_from_data len n cols size w) <-> n * cols * size * w <= len.
Proof. unfold Inv, v_from_data; cbn. lia. Qed.


Lemma to_ref_inv (v : vhdr) : Inv v -> Inv (v_to_ref v) /\ v_to_ref v = v.
Proof. destruct v; cbn; auto. Qed.

Lemma into_big_inv (v : vhdr) (w_big : Z) :
  wf_v v -> Inv v -> 0 < w_big <= v_w v -> Inv (v_into_big v w_big).
Proof.
  intros (Hn & Hc & Hs & Hm & Hl & Hw) (H1 & H2 & H3) Hb. unfold v_into_big. rewrite from_data_inv_iff.
  assert (0 <= v_n v * v_cols v * v_size v) by nia. nia.
Qed.

Lemma scalar_as_vec_inv (v : vhdr) : v_size v = 1 -> v_max v = 1 -> Inv v -> Inv (v_scalar_as_vec v).
Proof. intros E1 E2 (H1 & H2 & H3). unfold Inv, v_scalar_as_vec; cbn. rewrite E1 in H1. lia. Qed.

Lemma as_scalar_inv (v : vhdr) : Inv (v_as_scalar v).
Proof. unfold Inv, v_as_scalar; cbn. lia. Qed.

Definition wf_s (h : stream_hdr) : Prop := 0 <= sh_n h /\ 0 <= sh_cols h /\ 0 <= sh_size h /\ 0 <= sh_max h.

(* read_from (after repair 206cd69) leaves a well-formed receiver whatever the stream says *)
Lemma read_from_establishes_inv (v v' : vhdr) (h : stream_hdr) (avail : Z) :
  wf_v v -> v_w v = 8 -> wf_s h -> v_read_from v h avail = ROk v' ->
  wf_v v' /\ Inv v' /\ v_len v' = v_len v /\ v_size v' = sh_size h /\ v_max v' <= sh_max h.
Proof.
  intros (Hn & Hc & Hs & Hm & Hl & Hw) Hw8 (Sn & Sc & Ss & Sm). unfold v_read_from.
  destruct ((U64 <=? sh_n h * sh_cols h) || (U64 <=? sh_n h * sh_cols h * 8) || (U64 <=? sh_n h * sh_cols h * 8 * sh_size h)); [discriminate|].
  destruct (Z.eqb_spec (sh_n h * sh_cols h * 8 * sh_size h) (sh_len h)) as [E|]; [|discriminate]. cbn [negb].
  destruct (Z.ltb_spec (sh_max h) (sh_size h)); [discriminate|].
  destruct (Z.ltb_spec (v_len v) (sh_len h)); [discriminate|].
  destruct (Z.ltb_spec avail (sh_len h)); [discriminate|].
  intros R; inversion R; subst; clear R. unfold wf_v, Inv; cbn. rewrite Hw8.
  assert (0 <= sh_n h * sh_cols h) as Hnc by nia.
  destruct (Z.eqb_spec (sh_n h * sh_cols h * 8) 0) as [Z0|NZ].
  - assert (sh_n h * sh_cols h = 0) as Hz by lia. rewrite Z.min_id. rewrite Hz. repeat split; lia.
  - set (lb := sh_n h * sh_cols h * 8) in *. assert (0 < lb) by lia.
    set (cap := v_len v / lb).
    assert (lb * cap <= v_len v) by (unfold cap; apply Z.mul_div_le; lia).
    assert (sh_size h <= cap) by (unfold cap; apply Z.div_le_lower_bound; lia).
    assert (0 <= cap) by lia.
    assert (sh_n h * sh_cols h * Z.min (sh_max h) cap * 8 <= lb * cap) by (unfold lb; nia).
    repeat split; try lia; try (unfold lb in *; nia).
Qed.

(* the code before the repair (v_read_from_old): witnesses of the two defects *)
Lemma read_from_old_max_size_refuted :
  exists writer receiver v' grown,
    wf_v writer /\ Inv writer /\ wf_v receiver /\ Inv receiver /\
    v_read_from_old receiver (v_write_hdr writer) (sh_len (v_write_hdr writer)) = ROk v' /\ ~ Inv v' /\
    v_set_size v' (v_max v') = Some grown /\
    ~ (at_end grown 0 (v_size grown - 1) <= cap_words grown).
Proof.
  exists (mkV 4 1 1 3 128 8), (mkV 4 1 1 1 64 8), (mkV 4 1 1 3 64 8), (mkV 4 1 3 3 64 8).
  unfold wf_v, Inv; cbn. repeat split; try lia.
Qed.
Lemma read_from_old_wrap_refuted :
  exists receiver h v', wf_v receiver /\ Inv receiver /\ v_read_from_old receiver h 0 = ROk v' /\
    ~ (v_n v' * v_cols v' * v_size v' * v_w v' <= v_len v').
Proof.
  exists (mkV 4 1 1 1 64 8), (mkS (2 ^ 61) 1 1 1 0), (mkV (2 ^ 61) 1 1 1 64 8).
  split; [unfold wf_v; cbn; lia|]. split; [unfold Inv; cbn; lia|]. split; [vm_compute; reflexivity|]. cbn; lia.
Qed.
(* the same streams are handled by the repaired reader: clamped resp. rejected *)
Lemma read_from_repaired_examples :
  v_read_from (mkV 4 1 1 1 64 8) (v_write_hdr (mkV 4 1 1 3 128 8)) 32 = ROk (mkV 4 1 1 2 64 8) /\
  v_read_from (mkV 4 1 1 1 64 8) (mkS (2 ^ 61) 1 1 1 0) 0 = RErr.
Proof. split; vm_compute; reflexivity. Qed.

(* VecZnx / ScalarZnx::from_data after repair 2067fe8 *)
Lemma from_data_checked_inv (len n cols size w : Z) (v : vhdr) :
  0 <= n -> 0 <= cols -> 0 <= size -> 0 < w -> 0 <= len ->
  v_from_data_checked len n cols size w = Some v -> wf_v v /\ Inv v.
Proof.
  intros Hn Hc Hs Hw Hl. unfold v_from_data_checked.
  destruct (Z.ltb_spec (n * cols * size * w) U64); cbn [andb]; [|discriminate].
  destruct (Z.leb_spec (n * cols * size * w) len); [|discriminate].
  intros E; inversion E; subst. unfold wf_v, Inv; cbn. repeat split; lia.
Qed.


(* a successful take: the window has the requested length, starts 64-aligned, and (when non-empty) lies inside the
   parent; the remainder starts exactly where the window ends (disjoint) and (when non-empty) ends inside the parent *)
Lemma take_in_window (k off len : Z) (win : window) (rest : arena) :
  0 <= k -> take k (off, len) = Some (win, rest) ->
  snd win = k /\ fst win mod 64 = 0 /\
  (0 < k -> off <= fst win /\ fst win + snd win <= off + len) /\
  fst rest = fst win + snd win /\ 0 <= snd rest /\
  (0 < snd rest -> off <= fst rest /\ fst rest + snd rest <= off + len).
Proof.
  intros Hk H. destruct (C12Arena.take_in_window k off len win rest Hk H) as (H1 & H2 & H3 & H4 & H5 & H6). auto 7.
Qed.

(* a take that fails is a panic, never a short window *)
Lemma take_none_iff (k off len : Z) : take k (off, len) = None <-> avail (off, len) < k.
Proof. unfold take; cbn [fst snd]. destruct (Z.leb_spec k (avail (off, len))); split; intros; try discriminate; try reflexivity; lia. Qed.

(* mutation (d) of the self-test: the remainder computed from the unpadded length overruns the parent *)
Definition take_bad (k : Z) (s : arena) : option (window * arena) :=
  let off := fst s in let pad := pad_of off in
  if k <=? avail s then Some ((off + pad, k), (off + pad + k, snd s - k)) else None.
Lemma take_bad_refuted :
  exists k off len win rest, take_bad k (off, len) = Some (win, rest) /\ 0 < snd rest /\ off + len < fst rest + snd rest.
Proof. exists 64, 8, 192, (64, 64), (128, 128). split; [vm_compute; reflexivity | cbn; lia]. Qed.

(* distinct entries are disjoint byte ranges *)
Lemma mat_at_disjoint (m : mhdr) (row col row' col' : Z) :
  0 <= m_nb m -> 0 <= col < m_cin m -> 0 <= col' < m_cin m -> 0 <= row -> 0 <= row' -> (row, col) <> (row', col') ->
  m_at_end m row col <= m_at_start m row' col' \/ m_at_end m row' col' <= m_at_start m row col.
Proof.
  intros Hnb Hc Hc' Hr Hr' Hne. unfold m_at_end, m_at_start.
  assert (m_cin m * row + col <> m_cin m * row' + col') as Hd.
  { intros E. apply Hne. assert (row = row') by nia. subst. f_equal. lia. }
  destruct (Z.lt_ge_cases (m_cin m * row + col) (m_cin m * row' + col')); [left|right]; nia.
Qed.

Lemma mat_alloc_inv (n rows cin cout size w : Z) :
  0 <= n -> 0 <= rows -> 0 <= cin -> 0 <= cout -> 0 <= size -> 0 < w ->
  wf_m (m_alloc n rows cin cout size w) /\ InvM (m_alloc n rows cin cout size w).
Proof.
  intros. unfold m_alloc, wf_m, InvM; cbn. pose proof (round64_ge (m_bytes_of n rows cin cout size w)).
  assert (0 <= m_bytes_of n rows cin cout size w) by (unfold m_bytes_of; nia). repeat split; lia.
Qed.

Lemma mat_from_bytes_inv (n rows cin cout size w len : Z) (m : mhdr) :
  m_from_bytes n rows cin cout size w len = Some m -> InvM m.
Proof.
  unfold m_from_bytes. destruct (Z.eqb_spec len (m_bytes_of n rows cin cout size w)); [|discriminate].
  intros E; inversion E; subst. unfold InvM; cbn. lia.
Qed.

Lemma mat_take_inv (n rows cin cout size w off len : Z) (m : mhdr) (win : window) (rest : arena) :
  0 <= n -> 0 <= rows -> 0 <= cin -> 0 <= cout -> 0 <= size -> 0 < w ->
  m_take n rows cin cout size w (off, len) = Some (m, win, rest) ->
  InvM m /\ m_len m = snd win /\ fst win mod 64 = 0 /\ (0 < snd win -> off <= fst win /\ fst win + snd win <= off + len).
Proof.
  intros Hn Hr Hci Hco Hs Hw. unfold m_take.
  destruct (take (m_bytes_of n rows cin cout size w) (off, len)) as [[wi re]|] eqn:E; [|discriminate].
  intros R; inversion R; subst; clear R.
  assert (0 <= m_bytes_of n rows cin cout size w) as Hb by (unfold m_bytes_of; nia).
  apply take_in_window in E; [|exact Hb]. destruct E as (E1 & E2 & E3 & _).
  unfold InvM, m_from_data; cbn. rewrite E1. repeat split; try lia; apply E3; lia.
Qed.

Lemma mat_read_from_inv (m m' : mhdr) (n size rows cin cout len avail : Z) :
  m_w m = 8 -> m_read_from m n size rows cin cout len avail = Some m' -> InvM m' /\ m_len m' = m_len m.
Proof.
  intros Hw8. unfold m_read_from.
  destruct ((U64 <=? rows * cin) || (U64 <=? rows * cin * n) || (U64 <=? rows * cin * n * cout) || (U64 <=? rows * cin * n * cout * size)
            || (U64 <=? rows * cin * n * cout * size * 8)); [discriminate|].
  destruct (Z.eqb_spec (rows * cin * n * cout * size * 8) len) as [E|]; [|discriminate]. cbn [negb].
  destruct (Z.ltb_spec (m_len m) len); [discriminate|].
  destruct (Z.ltb_spec avail len); [discriminate|].
  intros R; inversion R; subst. unfold InvM, m_bytes_of; cbn. rewrite Hw8.
  assert (rows * cin * (n * cout * size * 8) = rows * cin * n * cout * size * 8) by ring. split; [lia|reflexivity].
Qed.

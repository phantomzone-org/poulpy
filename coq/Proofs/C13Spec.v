(* C13 — the bit-serial specification automata compute the bits of the RISC-V word operations:
     run (A_op i) (env_of a b) = Z.testbit (op a b) i     for all a, b in [0,2^32) and all i < 32
   (carry / borrow chains, most-significant-first comparison, barrel shift), by induction — no enumeration. *)
From Coq Require Import ZArith List Bool Arith Lia.
From PV Require Import Model.C13Bdd Proofs.C13Check.
Import ListNotations.
Open Scope Z_scope.
(* the C13 files do not import Base/MachineInt, which sets the same hook *)
Ltac Zify.zify_post_hook ::= Z.div_mod_to_equations.

(** * The automata are well-formed (sound equality test, decreasing rank) *)

Ltac eqb_solve :=
  let p := fresh "p" in let q := fresh "q" in let H := fresh "H" in
  intros p q H; destruct p, q; cbn in H; try discriminate;
  repeat (apply andb_true_iff in H; let H' := fresh "H" in destruct H as [H H']);
  repeat match goal with
         | H : Nat.eqb _ _ = true |- _ => apply Nat.eqb_eq in H
         | H : Bool.eqb _ _ = true |- _ => apply eqb_prop in H
         end; subst; reflexivity.

Lemma A_carry_ok sub i : automaton_ok (A_carry sub i).
Proof.
  split; cbn [st_eqb next rank A_carry state].
  - eqb_solve.
  - intros q v q1 q0 H. destruct q as [k c|k c x|b]; cbn [cnext] in H.
    + injection H as _ <- <-. cbn [crank]. lia.
    + destruct (i <=? k)%nat eqn:E.
      * injection H as _ <- <-. cbn [crank]. lia.
      * apply Nat.leb_gt in E. injection H as _ <- <-. cbn [crank]. lia.
    + discriminate.
Qed.

Lemma A_cmp_ok signed i : automaton_ok (A_cmp signed i).
Proof.
  split; cbn [st_eqb next rank A_cmp state].
  - eqb_solve.
  - intros q v q1 q0 H. destruct q as [k|k x|b]; cbn [pnext] in H.
    + injection H as _ <- <-. cbn [prank]. lia.
    + injection H as _ <- <-. unfold p_eq, p_res. destruct x, k; cbn [prank]; lia.
    + discriminate.
Qed.

Lemma A_shift_ok kd i : automaton_ok (A_shift kd i).
Proof.
  split; cbn [st_eqb next rank A_shift state].
  - eqb_solve.
  - intros q v q1 q0 H. destruct q as [k s|b]; cbn [hnext] in H.
    + destruct (k <? 5)%nat eqn:E.
      * apply Nat.ltb_lt in E. injection H as _ <- <-. cbn [hrank]. lia.
      * destruct (hsel kd i s); [|discriminate]. injection H as _ <- <-. cbn [hrank]. lia.
    + discriminate.
Qed.

Lemma A_bit_ok f i : automaton_ok (A_bit f i).
Proof.
  split; cbn [st_eqb next rank A_bit state].
  - eqb_solve.
  - intros q v q1 q0 H. destruct q; cbn [bnext] in H; try discriminate;
      injection H as _ <- <-; cbn [brank]; lia.
Qed.

Lemma A_identity_ok i : automaton_ok (A_identity i).
Proof.
  split; cbn [st_eqb next rank A_identity state].
  - eqb_solve.
  - intros q v q1 q0 H. destruct q; cbn [inext] in H; try discriminate;
      injection H as _ <- <-; cbn [brank]; lia.
Qed.

(** * Input bits *)

Lemma env_a a b k : (k < 32)%nat -> env_of a b k = Z.testbit a (Z.of_nat k).
Proof. intros H. unfold env_of. apply Nat.ltb_lt in H. rewrite H. reflexivity. Qed.

Lemma env_b a b k : env_of a b (32 + k)%nat = Z.testbit b (Z.of_nat k).
Proof.
  unfold env_of. replace (32 + k <? 32)%nat with false by (symmetry; apply Nat.ltb_ge; lia).
  replace (32 + k - 32)%nat with k by lia. reflexivity.
Qed.

Lemma testbit_b2z_high (c : bool) n : 0 < n -> Z.testbit (Z.b2z c) n = false.
Proof.
  intros Hn. destruct c; cbn [Z.b2z].
  - apply Z.bits_above_log2; [lia | cbn; lia].
  - apply Z.testbit_0_l.
Qed.

Lemma testbit_high a n m : 0 <= a < 2 ^ n -> 0 <= n <= m -> Z.testbit a m = false.
Proof.
  intros [Ha0 Ha] Hn. destruct (Z.eq_dec a 0) as [->|Hne]; [apply Z.testbit_0_l|].
  apply Z.bits_above_log2; [exact Ha0|].
  assert (Z.log2 a < n) by (apply Z.log2_lt_pow2; lia). lia.
Qed.

(** * and / or / xor / identity *)

Section Bitwise.
  Variables (a b : Z) (i : nat).
  Hypothesis Hi : (i < 32)%nat.
  Let e := env_of a b.

  Lemma run_bit f : run (A_bit f i) e = f (Z.testbit a (Z.of_nat i)) (Z.testbit b (Z.of_nat i)).
  Proof.
    unfold run. cbn [start A_bit].
    rewrite (run_unfold _ (A_bit_ok f i)). cbn [next A_bit bnext].
    unfold e. rewrite env_a by exact Hi.
    destruct (Z.testbit a (Z.of_nat i));
      rewrite (run_unfold _ (A_bit_ok f i)); cbn [next A_bit bnext]; rewrite env_b;
      destruct (Z.testbit b (Z.of_nat i));
      rewrite (run_unfold _ (A_bit_ok f i)); cbn [next A_bit bnext]; reflexivity.
  Qed.

  Lemma spec_and_correct : run (A_and i) e = Z.testbit (op_and a b) (Z.of_nat i).
  Proof. unfold A_and, op_and. rewrite run_bit, Z.land_spec. reflexivity. Qed.
  Lemma spec_or_correct : run (A_or i) e = Z.testbit (op_or a b) (Z.of_nat i).
  Proof. unfold A_or, op_or. rewrite run_bit, Z.lor_spec. reflexivity. Qed.
  Lemma spec_xor_correct : run (A_xor i) e = Z.testbit (op_xor a b) (Z.of_nat i).
  Proof. unfold A_xor, op_xor. rewrite run_bit, Z.lxor_spec. reflexivity. Qed.

  Lemma spec_identity_correct : run (A_identity i) e = Z.testbit (op_identity a b) (Z.of_nat i).
  Proof.
    unfold run, op_identity. cbn [start A_identity].
    rewrite (run_unfold _ (A_identity_ok i)). cbn [next A_identity inext].
    unfold e. rewrite env_a by exact Hi.
    destruct (Z.testbit a (Z.of_nat i));
      rewrite (run_unfold _ (A_identity_ok i)); cbn [next A_identity inext]; reflexivity.
  Qed.
End Bitwise.

(** * add / sub: the carry chain *)

Section Carry.
  Variables (sub : bool) (i : nat) (e : env).
  (* x k, y k: the input bits; cs k: the flag (carry resp. borrow) entering bit k *)
  Variables (x y cs : nat -> bool).
  Hypothesis Hx : forall k, (k <= i)%nat -> e k = x k.
  Hypothesis Hy : forall k, (k <= i)%nat -> e (32 + k)%nat = y k.
  Hypothesis Hcs : forall k, cs (S k) = maj (if sub then negb (x k) else x k) (y k) (cs k).

  Lemma run_carry : forall n k, (k + n = i)%nat ->
    run_from (A_carry sub i) (CA k (cs k)) e = xorb (xorb (x i) (y i)) (cs i).
  Proof.
    induction n as [|n IH]; intros k Hk.
    - assert (k = i) by lia. subst k.
      rewrite (run_unfold _ (A_carry_ok sub i)). cbn [next A_carry cnext].
      rewrite Hx by lia.
      destruct (x i);
        rewrite (run_unfold _ (A_carry_ok sub i)); cbn [next A_carry cnext];
        rewrite Nat.leb_refl, Hy by lia;
        destruct (y i);
        rewrite (run_unfold _ (A_carry_ok sub i)); cbn [next A_carry cnext]; reflexivity.
    - assert (Hlt : (i <=? k)%nat = false) by (apply Nat.leb_gt; lia).
      specialize (IH (S k) ltac:(lia)). rewrite Hcs in IH.
      rewrite (run_unfold _ (A_carry_ok sub i)). cbn [next A_carry cnext].
      rewrite Hx by lia.
      destruct (x k);
        rewrite (run_unfold _ (A_carry_ok sub i)); cbn [next A_carry cnext];
        rewrite Hlt, Hy by lia;
        destruct (y k); exact IH.
  Qed.
End Carry.

Lemma carry_next a b c k : 0 <= k ->
  c / 2 = Z.lor (Z.land a b) (Z.land c (Z.lor a b)) ->
  Z.testbit c (Z.succ k) = maj (Z.testbit a k) (Z.testbit b k) (Z.testbit c k).
Proof.
  intros Hk Hc. rewrite <- Z.div2_bits by exact Hk. rewrite Hc.
  rewrite Z.lor_spec, !Z.land_spec, Z.lor_spec. reflexivity.
Qed.

Lemma spec_add_correct a b i : (i < 32)%nat ->
  run (A_add i) (env_of a b) = Z.testbit (op_add a b) (Z.of_nat i).
Proof.
  intros Hi. destruct (Z.add_carry_bits a b false) as [c [Hsum [Hc Hc0]]].
  cbn [Z.b2z] in Hsum. rewrite Z.add_0_r in Hsum.
  unfold op_add. rewrite Z.mod_pow2_bits_low by lia. rewrite Hsum, !Z.lxor_spec.
  unfold run, A_add. cbn [start A_carry].
  pose (cs := fun k : nat => Z.testbit c (Z.of_nat k)).
  assert (HX : forall k, (k <= i)%nat -> env_of a b k = Z.testbit a (Z.of_nat k)) by (intros; apply env_a; lia).
  assert (HY : forall k, (k <= i)%nat -> env_of a b (32 + k)%nat = Z.testbit b (Z.of_nat k)) by (intros; apply env_b).
  assert (HC : forall k, cs (S k) = maj (Z.testbit a (Z.of_nat k)) (Z.testbit b (Z.of_nat k)) (cs k)).
  { intros k. unfold cs. rewrite Nat2Z.inj_succ. apply carry_next; [lia | exact Hc]. }
  pose proof (run_carry false i (env_of a b) (fun k => Z.testbit a (Z.of_nat k))
                (fun k => Z.testbit b (Z.of_nat k)) cs HX HY HC i 0%nat (Nat.add_0_l i)) as Hrun.
  cbv beta in Hrun. unfold cs in Hrun. cbn [Z.of_nat] in Hrun. rewrite Hc0 in Hrun. exact Hrun.
Qed.

Lemma maj_dual p q r : negb (maj p (negb q) r) = maj (negb p) q (negb r).
Proof. destruct p, q, r; reflexivity. Qed.

Lemma spec_sub_correct a b i : (i < 32)%nat ->
  run (A_sub i) (env_of a b) = Z.testbit (op_sub a b) (Z.of_nat i).
Proof.
  intros Hi. destruct (Z.add_carry_bits a (Z.lnot b) true) as [c [Hsum [Hc Hc0]]].
  cbn [Z.b2z] in Hsum.
  assert (Hab : a - b = a + Z.lnot b + 1) by (unfold Z.lnot; lia).
  unfold op_sub. rewrite Z.mod_pow2_bits_low by lia. rewrite Hab, Hsum, !Z.lxor_spec.
  rewrite Z.lnot_spec by lia.
  unfold run, A_sub. cbn [start A_carry].
  pose (cs := fun k : nat => negb (Z.testbit c (Z.of_nat k))).
  assert (HX : forall k, (k <= i)%nat -> env_of a b k = Z.testbit a (Z.of_nat k)) by (intros; apply env_a; lia).
  assert (HY : forall k, (k <= i)%nat -> env_of a b (32 + k)%nat = Z.testbit b (Z.of_nat k)) by (intros; apply env_b).
  assert (HC : forall k, cs (S k) = maj (negb (Z.testbit a (Z.of_nat k))) (Z.testbit b (Z.of_nat k)) (cs k)).
  { intros k. unfold cs. rewrite Nat2Z.inj_succ.
    rewrite (carry_next a (Z.lnot b) c) by (lia || exact Hc).
    rewrite Z.lnot_spec by lia. apply maj_dual. }
  pose proof (run_carry true i (env_of a b) (fun k => Z.testbit a (Z.of_nat k))
                (fun k => Z.testbit b (Z.of_nat k)) cs HX HY HC i 0%nat (Nat.add_0_l i)) as Hrun.
  cbv beta in Hrun. unfold cs in Hrun. cbn [Z.of_nat] in Hrun. rewrite Hc0 in Hrun. cbn [negb] in Hrun.
  rewrite Hrun.
  destruct (Z.testbit a (Z.of_nat i)), (Z.testbit b (Z.of_nat i)), (Z.testbit c (Z.of_nat i)); reflexivity.
Qed.

(** * slt / sltu: most-significant-first comparison *)

Lemma mod_pow2_succ x k : 0 <= k ->
  x mod 2 ^ (Z.succ k) = x mod 2 ^ k + 2 ^ k * Z.b2z (Z.testbit x k).
Proof.
  intros Hk. rewrite Z.pow_succ_r by exact Hk. rewrite (Z.mul_comm 2).
  rewrite Z.rem_mul_r by (try apply Z.pow_nonzero; lia).
  rewrite Z.testbit_spec' by exact Hk. reflexivity.
Qed.

Section Compare.
  Variables (signed : bool) (i : nat) (a b : Z).
  Let e := env_of a b.
  Let Aok := A_cmp_ok signed i.

  (* below the sign rule, the chain decides  a mod 2^k < b mod 2^k *)
  Lemma run_cmp : forall k : nat, (k <= 32)%nat -> (signed = false \/ k <= 31)%nat ->
    run_from (A_cmp signed i) (p_eq k) e = (a mod 2 ^ Z.of_nat k <? b mod 2 ^ Z.of_nat k).
  Proof.
    induction k as [|k IH]; intros Hk Hs.
    - cbn [p_eq]. rewrite (run_unfold _ Aok). cbn [next A_cmp pnext].
      cbn [Z.of_nat]. rewrite Z.pow_0_r, !Z.mod_1_r. reflexivity.
    - specialize (IH ltac:(lia) ltac:(destruct Hs; [left; assumption | right; lia])).
      assert (Hns : signed && Nat.eqb k 31 = false).
      { destruct Hs as [->|Hs]; [reflexivity|]. replace (Nat.eqb k 31) with false; [apply andb_false_r|].
        symmetry. apply Nat.eqb_neq. lia. }
      rewrite Nat2Z.inj_succ, !mod_pow2_succ by lia.
      pose proof (Z.mod_pos_bound a (2 ^ Z.of_nat k) ltac:(apply Z.pow_pos_nonneg; lia)) as Ba.
      pose proof (Z.mod_pos_bound b (2 ^ Z.of_nat k) ltac:(apply Z.pow_pos_nonneg; lia)) as Bb.
      cbn [p_eq]. rewrite (run_unfold _ Aok). cbn [next A_cmp pnext].
      unfold e at 1. rewrite env_a by lia.
      destruct (Z.testbit a (Z.of_nat k));
        rewrite (run_unfold _ Aok); cbn [next A_cmp pnext]; unfold e at 1; rewrite env_b;
        destruct (Z.testbit b (Z.of_nat k)); unfold p_res; rewrite ?Hns;
        try rewrite IH; try (rewrite (run_unfold _ Aok); cbn [next A_cmp pnext]);
        cbn [Z.b2z]; symmetry;
        match goal with
        | |- (?u <? ?v) = (?u' <? ?v') => destruct (Z.ltb_spec u v), (Z.ltb_spec u' v'); try reflexivity; lia
        | |- (?u <? ?v) = true => apply Z.ltb_lt; lia
        | |- (?u <? ?v) = false => apply Z.ltb_ge; lia
        end.
  Qed.
End Compare.

Lemma spec_sltu_correct a b i : 0 <= a < 2 ^ 32 -> 0 <= b < 2 ^ 32 -> (i < 32)%nat ->
  run (A_sltu i) (env_of a b) = Z.testbit (op_sltu a b) (Z.of_nat i).
Proof.
  intros Ha Hb Hi. unfold run, A_sltu, op_sltu. cbn [start A_cmp].
  destruct i as [|i].
  - change (PA 31) with (p_eq 32). rewrite run_cmp by (try left; auto).
    change (Z.of_nat 32) with 32. rewrite !Z.mod_small by lia.
    destruct (a <? b); reflexivity.
  - rewrite (run_unfold _ (A_cmp_ok false (S i))). cbn [next A_cmp pnext].
    change (if a <? b then 1 else 0) with (Z.b2z (a <? b)). symmetry. apply testbit_b2z_high. lia.
Qed.

Lemma spec_slt_correct a b i : 0 <= a < 2 ^ 32 -> 0 <= b < 2 ^ 32 -> (i < 32)%nat ->
  run (A_slt i) (env_of a b) = Z.testbit (op_slt a b) (Z.of_nat i).
Proof.
  intros Ha Hb Hi. unfold run, A_slt, op_slt. cbn [start A_cmp].
  destruct i as [|i].
  - pose proof (mod_pow2_succ a 31 ltac:(lia)) as Ea. pose proof (mod_pow2_succ b 31 ltac:(lia)) as Eb.
    change (Z.succ 31) with 32 in Ea, Eb. rewrite Z.mod_small in Ea, Eb by lia.
    pose proof (Z.mod_pos_bound a (2 ^ 31) ltac:(lia)) as Ba.
    pose proof (Z.mod_pos_bound b (2 ^ 31) ltac:(lia)) as Bb.
    pose proof (run_cmp true 0 a b 31 ltac:(lia) ltac:(right; lia)) as Hlow.
    change (Z.of_nat 31) with 31 in Hlow. cbn [p_eq] in Hlow.
    set (Aok := A_cmp_ok true 0).
    rewrite (run_unfold _ Aok). cbn [next A_cmp pnext].
    rewrite env_a by lia. change (Z.of_nat 31) with 31.
    unfold sgn32. change (2 ^ 32) with 4294967296 in *. change (2 ^ 31) with 2147483648 in *.
    destruct (Z.testbit a 31);
      rewrite (run_unfold _ Aok); cbn [next A_cmp pnext]; rewrite env_b; change (Z.of_nat 31) with 31;
      destruct (Z.testbit b 31); unfold p_res, p_eq; cbn [andb Nat.eqb];
      try rewrite Hlow; try (rewrite (run_unfold _ Aok); cbn [next A_cmp pnext]);
      cbn [Z.b2z] in Ea, Eb;
      destruct (Z.ltb_spec a 2147483648), (Z.ltb_spec b 2147483648); try lia;
      repeat match goal with
             | |- context [?u <? ?v] => destruct (Z.ltb_spec u v)
             end; try reflexivity; lia.
  - rewrite (run_unfold _ (A_cmp_ok true (S i))). cbn [next A_cmp pnext].
    change (if sgn32 a <? sgn32 b then 1 else 0) with (Z.b2z (sgn32 a <? sgn32 b)).
    symmetry. apply testbit_b2z_high. lia.
Qed.

(** * sll / srl / sra: barrel shift *)

Fixpoint acc_bits (n k : nat) (e : env) : nat :=
  match n with
  | O => O
  | S n' => ((if e (32 + k)%nat then 2 ^ k else 0) + acc_bits n' (S k) e)%nat
  end.

Section Shift.
  Variables (kd : shkind) (i : nat) (e : env).
  Let Aok := A_shift_ok kd i.

  Definition shift_out (s : nat) : bool :=
    match hsel kd i s with Some j => e j | None => false end.

  Lemma run_shift : forall n k s, (k + n = 5)%nat ->
    run_from (A_shift kd i) (HS k s) e = shift_out (s + acc_bits n k e)%nat.
  Proof.
    induction n as [|n IH]; intros k s Hk.
    - assert (k = 5)%nat by lia. subst k. cbn [acc_bits]. rewrite Nat.add_0_r.
      rewrite (run_unfold _ Aok). cbn [next A_shift hnext]. unfold shift_out.
      change (5 <? 5)%nat with false. cbv iota.
      destruct (hsel kd i s) as [j|]; [|reflexivity].
      destruct (e j); rewrite (run_unfold _ Aok); cbn [next A_shift hnext]; reflexivity.
    - assert (Hlt : (k <? 5)%nat = true) by (apply Nat.ltb_lt; lia).
      rewrite (run_unfold _ Aok). cbn [next A_shift hnext]. rewrite Hlt.
      cbn [acc_bits]. destruct (e (32 + k)%nat); rewrite IH by lia; f_equal; lia.
  Qed.
End Shift.

Lemma shamt_bits a b : 0 <= b ->
  Z.of_nat (acc_bits 5 0 (env_of a b)) = Z.land b 31.
Proof.
  intros Hb. change 31 with (Z.ones 5). rewrite Z.land_ones by lia.
  assert (E : b mod 2 ^ 5 = Z.b2z (Z.testbit b 0) + 2 * Z.b2z (Z.testbit b 1) + 4 * Z.b2z (Z.testbit b 2)
                            + 8 * Z.b2z (Z.testbit b 3) + 16 * Z.b2z (Z.testbit b 4)).
  { rewrite !Z.testbit_spec' by lia.
    change (2 ^ 0) with 1. change (2 ^ 1) with 2. change (2 ^ 2) with 4. change (2 ^ 3) with 8.
    change (2 ^ 4) with 16. change (2 ^ 5) with 32. lia. }
  rewrite E. cbn [acc_bits]. rewrite !env_b.
  change (Z.of_nat 0) with 0. change (Z.of_nat 1) with 1. change (Z.of_nat 2) with 2. change (Z.of_nat 3) with 3. change (Z.of_nat 4) with 4.
  destruct (Z.testbit b 0), (Z.testbit b 1), (Z.testbit b 2), (Z.testbit b 3), (Z.testbit b 4); reflexivity.
Qed.

Lemma acc_bits_bound e : (acc_bits 5 0 e < 32)%nat.
Proof.
  cbn [acc_bits].
  destruct (e (32 + 0)%nat), (e (32 + 1)%nat), (e (32 + 2)%nat), (e (32 + 3)%nat), (e (32 + 4)%nat); cbn; lia.
Qed.

Section ShiftOps.
  Variables (a b : Z) (i : nat).
  Hypothesis Ha : 0 <= a < 2 ^ 32.
  Hypothesis Hb : 0 <= b.
  Hypothesis Hi : (i < 32)%nat.
  Let e := env_of a b.
  Let s := acc_bits 5 0 e.
  Let Hs : Z.of_nat s = Z.land b 31 := shamt_bits a b Hb.

  Lemma spec_sll_correct : run (A_sll i) e = Z.testbit (op_sll a b) (Z.of_nat i).
  Proof.
    unfold run, A_sll, op_sll. cbn [start A_shift].
    rewrite (run_shift Ksll i e 5 0 0) by reflexivity. cbn [plus]. fold s.
    rewrite Z.mod_pow2_bits_low by lia. rewrite Z.shiftl_spec by lia. rewrite <- Hs.
    unfold shift_out. cbn [hsel].
    destruct (s <=? i)%nat eqn:E.
    - apply Nat.leb_le in E. unfold e. rewrite env_a by lia. f_equal. lia.
    - apply Nat.leb_gt in E. symmetry. apply Z.testbit_neg_r. lia.
  Qed.

  Lemma spec_srl_correct : run (A_srl i) e = Z.testbit (op_srl a b) (Z.of_nat i).
  Proof.
    unfold run, A_srl, op_srl. cbn [start A_shift].
    rewrite (run_shift Ksrl i e 5 0 0) by reflexivity. cbn [plus]. fold s.
    rewrite Z.shiftr_spec by lia. rewrite <- Hs.
    unfold shift_out. cbn [hsel].
    destruct (i + s <? 32)%nat eqn:E.
    - apply Nat.ltb_lt in E. unfold e. rewrite env_a by lia. f_equal. lia.
    - apply Nat.ltb_ge in E. symmetry. apply (testbit_high a 32); lia.
  Qed.

  (* bits of the sign-extended value *)
  Lemma sgn32_bits n : 0 <= n -> Z.testbit (sgn32 a) n = Z.testbit a (Z.min n 31).
  Proof.
    intros Hn. unfold sgn32. change (2 ^ 32) with 4294967296 in *. change (2 ^ 31) with 2147483648.
    destruct (Z.ltb_spec a 2147483648) as [Hlt|Hge].
    - destruct (Z_le_gt_dec n 31) as [Hle|Hgt].
      + rewrite Z.min_l by lia. reflexivity.
      + rewrite Z.min_r by lia.
        rewrite (testbit_high a 31 n), (testbit_high a 31 31); try reflexivity;
          change (2 ^ 31) with 2147483648; lia.
    - assert (H31 : Z.testbit a 31 = true).
      { pose proof (Z.testbit_spec' a 31 ltac:(lia)) as T. change (2 ^ 31) with 2147483648 in T.
        destruct (Z.testbit a 31); [reflexivity|]. cbn [Z.b2z] in T. lia. }
      destruct (Z_le_gt_dec n 31) as [Hle|Hgt].
      + rewrite Z.min_l by lia.
        rewrite <- (Z.mod_pow2_bits_low (a - 4294967296) 32 n), <- (Z.mod_pow2_bits_low a 32 n) by lia.
        f_equal. change (2 ^ 32) with 4294967296.
        replace (a - 4294967296) with (a + (-1) * 4294967296) by ring.
        apply Z.mod_add. lia.
      + rewrite Z.min_r by lia. rewrite H31.
        apply Z.bits_above_log2_neg; [lia|].
        set (t := Z.pred (- (a - 4294967296))).
        assert (Ht : 0 <= t < 2 ^ 31) by (change (2 ^ 31) with 2147483648; unfold t; lia).
        destruct (Z.eq_dec t 0) as [->|Hne]; [cbn; lia|].
        assert (Z.log2 t < 31) by (apply Z.log2_lt_pow2; lia). lia.
  Qed.

  Lemma spec_sra_correct : run (A_sra i) e = Z.testbit (op_sra a b) (Z.of_nat i).
  Proof.
    unfold run, A_sra, op_sra. cbn [start A_shift].
    rewrite (run_shift Ksra i e 5 0 0) by reflexivity. cbn [plus]. fold s.
    rewrite Z.mod_pow2_bits_low by lia. rewrite Z.shiftr_spec by lia. rewrite <- Hs.
    rewrite sgn32_bits by lia.
    unfold shift_out. cbn [hsel]. unfold e. rewrite env_a by lia.
    f_equal. rewrite Nat2Z.inj_min, Nat2Z.inj_add. reflexivity.
  Qed.
End ShiftOps.

(* The exact Galois automorphism sigmaE g (Model/GadgetDerived.v) on Z[X]/(X^n+1), gcd g (2n) = 1:
   agreement with Poly.sigma w g on small coefficients (so that C09's theorems transfer), the characterisation
   sigma_g a (X^g) = a (X) on the exact extension ext', uniqueness, and from it the ring-homomorphism facts
   sigmaE_padd / psub / pscale / pzero / pmul (all valuewise ones from sigmaE_hom1 / sigmaE_hom2), sup-norm invariance, composition, inverse. *)
From Coq Require Import Znumtheory.
From PV Require Import Base.MachineInt Model.Znx Model.Limbs Model.Flat Model.Ring Model.Poly Model.DftAbs Model.Gadget Model.GadgetSpec Model.GadgetDerived
  Proofs.C07Dft Proofs.C07Ring Proofs.C09Lists Proofs.C09Ring Proofs.C09Sigma Proofs.GadgetDecomp Proofs.GadgetPhase Proofs.GadgetBound Proofs.C03Phase.
Open Scope Z_scope.

Section ExtExact.
Lemma ext'_shift (b : list Z) (k q : Z) : (0 < length b)%nat ->
  ext' b (k + q * Z.of_nat (length b)) = if Z.even q then ext' b k else - ext' b k.
Proof.
  intros Hl. unfold ext'. cbv zeta. set (n := Z.of_nat (length b)). assert (Hn : 0 < n) by (unfold n; lia).
  rewrite Z.div_add, Z.mod_add by lia.
  rewrite Z.even_add. destruct (Z.even (k / n)); destruct (Z.even q); cbn [Bool.eqb]; lia.
Qed.

Lemma ext'_anti (b : list Z) k : (0 < length b)%nat -> ext' b (k + Z.of_nat (length b)) = - ext' b k.
Proof. intros Hl. rewrite <- (Z.mul_1_l (Z.of_nat (length b))) at 1. rewrite ext'_shift by exact Hl. reflexivity. Qed.

Lemma ext'_period (b : list Z) k s : (0 < length b)%nat -> ext' b (k + s * (2 * Z.of_nat (length b))) = ext' b k.
Proof.
  intros Hl. replace (s * (2 * Z.of_nat (length b))) with ((2 * s) * Z.of_nat (length b)) by ring.
  rewrite ext'_shift by exact Hl. rewrite Z.even_mul. reflexivity.
Qed.

Lemma ext'_nth (b : list Z) (i : nat) : (i < length b)%nat -> ext' b (Z.of_nat i) = nthZ b i.
Proof.
  intros H. unfold ext'. cbv zeta. rewrite Z.div_small, Z.mod_small by lia. cbn [Z.even]. rewrite Nat2Z.id. reflexivity.
Qed.

Lemma ext'_inj (a b : list Z) : length a = length b -> (forall k, ext' a k = ext' b k) -> a = b.
Proof.
  intros Hl H. apply nthZ_ext; [exact Hl|]. intros i Hi.
  rewrite <- !ext'_nth by lia. apply H.
Qed.

Lemma ext'_pscale c (b : list Z) k : ext' (pscale c b) k = c * ext' b k.
Proof. unfold ext'. cbv zeta. rewrite pscale_length. rewrite nthZ_pscale. destruct (Z.even _); ring. Qed.

Lemma ext'_pzero n k : ext' (pzero n) k = 0.
Proof. unfold ext'. cbv zeta. unfold nthZ. rewrite nth_pzero. destruct (Z.even _); ring. Qed.

(* agreement with the wrapped extension on small coefficients *)
Lemma wneg_small w x : 1 <= w -> Z.abs x < 2 ^ (w - 1) -> wneg w x = - x.
Proof. intros Hw H. unfold wneg. apply wrap_id; [exact Hw|]. unfold in_range. lia. Qed.

Lemma nthZ_small (b : list Z) M i : (forall x, In x b -> Z.abs x < M) -> 0 < M -> Z.abs (nthZ b i) < M.
Proof.
  intros H HM. destruct (Nat.lt_ge_cases i (length b)) as [G|G].
  - apply H. unfold nthZ. apply nth_In; exact G.
  - unfold nthZ. rewrite nth_overflow by exact G. cbn. exact HM.
Qed.

Lemma ext_ext' w (b : list Z) k : 1 <= w -> (forall x, In x b -> Z.abs x < 2 ^ (w - 1)) -> ext w b k = ext' b k.
Proof.
  intros Hw H. unfold ext, ext'. cbv zeta. destruct (Z.even _); [reflexivity|].
  apply wneg_small; [exact Hw|]. apply nthZ_small; [exact H|]. apply pow2_pos. lia.
Qed.
End ExtExact.

Section Agree.
Lemma sigmaE_sigma w g (a : list Z) : 1 <= w -> (forall x, In x a -> Z.abs x < 2 ^ (w - 1)) -> sigma w g a = sigmaE g a.
Proof.
  intros Hw H. unfold sigma, sigmaE. cbv zeta. apply fold_left_ext_in. intros r j _.
  rewrite (wneg_small w (nthZ a j)); [reflexivity|exact Hw|].
  apply nthZ_small; [exact H|]. apply pow2_pos. lia.
Qed.

(* a width that fits a given list *)
Definition wfit (a : list Z) : Z := pnorm a + 2.
Lemma wfit_ok (a : list Z) : 1 <= wfit a /\ forall x, In x a -> Z.abs x < 2 ^ (wfit a - 1).
Proof.
  pose proof (pnorm_nonneg a) as H0. unfold wfit. split; [lia|]. intros x Hx.
  pose proof (pnorm_in a x Hx). replace (pnorm a + 2 - 1) with (pnorm a + 1) by lia.
  pose proof (Z.pow_gt_lin_r 2 (pnorm a + 1) ltac:(lia) ltac:(lia)). lia.
Qed.

Lemma small_in_range w (a : list Z) : (forall x, In x a -> Z.abs x < 2 ^ (w - 1)) -> Forall (in_range w) a.
Proof. intros H. apply Forall_forall. intros x Hx. specialize (H x Hx). unfold in_range. lia. Qed.
End Agree.


Section SigmaE.
Variable g : Z.
Variable a : list Z.
Local Notation n := (Z.of_nat (length a)).

Lemma sigmaE_length : length (sigmaE g a) = length a.
Proof.
  destruct (wfit_ok a) as [Hw Hs]. rewrite <- (sigmaE_sigma (wfit a) g a Hw Hs). apply sigma_length.
Qed.

(* coefficient at position sg_pos j is +- a_j *)
Lemma sigmaE_nth j : Z.gcd g n = 1 -> (j < length a)%nat ->
  nthZ (sigmaE g a) (sg_pos g a j) = if sg_e g a j <? n then nthZ a j else - nthZ a j.
Proof.
  intros Hg Hj. destruct (wfit_ok a) as [Hw Hs]. rewrite <- (sigmaE_sigma (wfit a) g a Hw Hs).
  rewrite sigma_nth by assumption. unfold sg_val. destruct (_ <? _); [reflexivity|].
  apply wneg_small; [exact Hw|]. apply nthZ_small; [exact Hs|]. apply pow2_pos; lia.
Qed.

Lemma sigmaE_in x : Z.gcd g n = 1 -> In x (sigmaE g a) -> exists j, (j < length a)%nat /\ (x = nthZ a j \/ x = - nthZ a j).
Proof.
  intros Hg Hx. destruct (In_nth _ _ 0 Hx) as [t [Ht <-]]. rewrite sigmaE_length in Ht.
  destruct (sg_pos_onto g a t Hg Ht) as [j [Hj <-]]. exists j. split; [exact Hj|].
  change (nth (sg_pos g a j) (sigmaE g a) 0) with (nthZ (sigmaE g a) (sg_pos g a j)).
  rewrite sigmaE_nth by assumption. destruct (_ <? _); auto.
Qed.

(* the sup norm is invariant *)
Theorem sigmaE_pnorm : Z.gcd g n = 1 -> pnorm (sigmaE g a) = pnorm a.
Proof.
  intros Hg. apply Z.le_antisymm.
  - apply pnorm_le; [apply pnorm_nonneg|]. intros x Hx.
    destruct (sigmaE_in x Hg Hx) as [j [Hj [-> | ->]]]; rewrite ?Z.abs_opp; apply pnorm_nth.
  - apply pnorm_le_nth; [apply pnorm_nonneg|]. intros j Hj.
    assert (Hn : 0 < n) by lia.
    pose proof (sigmaE_nth j Hg Hj) as E. pose proof (pnorm_nth (sigmaE g a) (sg_pos g a j)) as B.
    unfold nthZ in E. rewrite E in B. destruct (_ <? _); rewrite ?Z.abs_opp in B; exact B.
Qed.

Lemma sigmaE_small w : Z.gcd g n = 1 -> (forall x, In x a -> Z.abs x < 2 ^ (w - 1)) -> forall x, In x (sigmaE g a) -> Z.abs x < 2 ^ (w - 1).
Proof.
  intros Hg Hs x Hx. assert (HM : 0 < 2 ^ (w - 1)).
  { destruct (Z_lt_le_dec (w - 1) 0) as [G|G]; [|apply pow2_pos; exact G].
    destruct a as [|y l]; [destruct Hx|]. pose proof (Hs y (or_introl eq_refl)). lia. }
  destruct (sigmaE_in x Hg Hx) as [j [Hj [-> | ->]]]; rewrite ?Z.abs_opp; apply nthZ_small; assumption.
Qed.

(* sigma_g a (X^g) = a (X) on the whole exact extension *)
Theorem ext'_sigmaE k : Z.gcd g (2 * n) = 1 -> (0 < length a)%nat -> ext' (sigmaE g a) (k * g) = ext' a k.
Proof.
  intros Hg2 Hl. destruct (wfit_ok a) as [Hw Hs]. pose proof (gcd2n_gcdn g n Hg2) as Hg.
  rewrite <- (ext_ext' (wfit a) (sigmaE g a) (k * g) Hw (sigmaE_small (wfit a) Hg Hs)).
  rewrite <- (ext_ext' (wfit a) a k Hw Hs).
  rewrite <- (sigmaE_sigma (wfit a) g a Hw Hs).
  apply ext_sigma; try assumption. apply small_in_range; exact Hs.
Qed.
End SigmaE.

(* uniqueness: sigmaE g a is THE list c with c(X^g) = a(X) *)
Section Unique.
Theorem sigmaE_unique g (a c : list Z) : Z.gcd g (2 * Z.of_nat (length a)) = 1 -> (0 < length a)%nat -> length c = length a ->
  (forall k, ext' c (k * g) = ext' a k) -> c = sigmaE g a.
Proof.
  intros Hg Hl Hc H. apply ext'_inj; [rewrite sigmaE_length; exact Hc|]. intros t.
  destruct (bezout_all g _ Hg t) as [k [s ->]].
  transitivity (ext' c (k * g)).
  - rewrite <- Hc. apply ext'_period. lia.
  - rewrite H, <- (ext'_sigmaE g a k Hg Hl). symmetry.
    rewrite <- (sigmaE_length g a). apply ext'_period. rewrite sigmaE_length. exact Hl.
Qed.
End Unique.


(* ring-homomorphism facts of sigmaE on lists of length n, gcd g (2n) = 1 *)
Section Hom.
Variables (n : nat) (g : Z).
Hypothesis Hn : (0 < n)%nat.
Hypothesis Hg : Z.gcd g (2 * Z.of_nat n) = 1.

Theorem sigmaE_len a : length a = n -> length (sigmaE g a) = n.
Proof. intros H. rewrite sigmaE_length. exact H. Qed.

(* an operation that acts on the exact extension value by value commutes with sigma_g, by uniqueness *)
Lemma sigmaE_hom1 (op : list Z -> list Z) (phi : Z -> Z) a :
  (forall x, length (op x) = length x) -> (forall x k, ext' (op x) k = phi (ext' x k)) ->
  length a = n -> sigmaE g (op a) = op (sigmaE g a).
Proof.
  intros Hlen Hext Ha. symmetry. apply sigmaE_unique; rewrite ?Hlen, ?sigmaE_length, ?Ha; try assumption; [reflexivity|].
  intros k. rewrite !Hext, ext'_sigmaE by (rewrite ?Ha; assumption). reflexivity.
Qed.

Lemma sigmaE_hom2 (op : list Z -> list Z -> list Z) (phi : Z -> Z -> Z) a b :
  (forall x y, length (op x y) = Nat.min (length x) (length y)) ->
  (forall x y k, length y = length x -> ext' (op x y) k = phi (ext' x k) (ext' y k)) ->
  length a = n -> length b = n -> sigmaE g (op a b) = op (sigmaE g a) (sigmaE g b).
Proof.
  intros Hlen Hext Ha Hb. symmetry.
  apply sigmaE_unique; rewrite ?Hlen, ?sigmaE_length, ?Ha, ?Hb, ?Nat.min_id; try assumption; [reflexivity|].
  intros k. rewrite !Hext, !ext'_sigmaE by (rewrite ?sigmaE_length, ?Ha, ?Hb; assumption || reflexivity). reflexivity.
Qed.

Theorem sigmaE_padd a b : length a = n -> length b = n -> sigmaE g (padd a b) = padd (sigmaE g a) (sigmaE g b).
Proof. apply (sigmaE_hom2 padd Z.add); [apply padd_length|apply ext'_padd]. Qed.

Theorem sigmaE_psub a b : length a = n -> length b = n -> sigmaE g (psub a b) = psub (sigmaE g a) (sigmaE g b).
Proof. apply (sigmaE_hom2 psub Z.sub); [apply psub_length|apply ext'_psub]. Qed.

Theorem sigmaE_pscale c a : length a = n -> sigmaE g (pscale c a) = pscale c (sigmaE g a).
Proof. apply (sigmaE_hom1 (pscale c) (Z.mul c)); [apply pscale_length|apply ext'_pscale]. Qed.

Theorem sigmaE_pzero : sigmaE g (pzero n) = pzero n.
Proof.
  symmetry. apply sigmaE_unique; rewrite ?pzero_length; try assumption; [reflexivity|].
  intros k. rewrite !ext'_pzero. reflexivity.
Qed.
End Hom.
#[export] Hint Resolve sigmaE_len : plen.

Section Perm.
Lemma period_all (F : Z -> Z) m : (forall z, F (z + m) = F z) -> forall s z, F (z + s * m) = F z.
Proof.
  intros H s. assert (Hpos : forall t, 0 <= t -> forall z, F (z + t * m) = F z).
  { intros t Ht. pattern t. apply natlike_ind; [intros z; f_equal; lia| |exact Ht].
    intros x Hx IH z. replace (z + Z.succ x * m) with ((z + x * m) + m) by lia. rewrite H. apply IH. }
  intros z. destruct (Z_le_gt_dec 0 s) as [G|G]; [apply Hpos; exact G|].
  rewrite <- (Hpos (- s) ltac:(lia) (z + s * m)). f_equal. lia.
Qed.

(* reindexing a sum by a bijection of [0, n) *)
Lemma zsum_reindex (G : nat -> Z) (p : nat -> nat) n :
  (forall i, (i < n)%nat -> (p i < n)%nat) ->
  (forall i j, (i < n)%nat -> (j < n)%nat -> p i = p j -> i = j) ->
  (forall t, (t < n)%nat -> exists i, (i < n)%nat /\ p i = t) ->
  zsum (fun i => G (p i)) n = zsum G n.
Proof.
  intros Hlt Hinj Honto.
  rewrite (zsum_ext _ (fun i => zsum (fun j => if Nat.eqb j (p i) then G j else 0) n)).
  2:{ intros i Hi. symmetry. apply zsum_single. apply Hlt; exact Hi. }
  rewrite zsum_swap. apply zsum_ext; intros j Hj.
  destruct (Honto j Hj) as [i0 [Hi0 E]].
  rewrite (zsum_ext _ (fun i => if Nat.eqb i i0 then (fun _ => G j) i else 0)).
  - exact (zsum_single (fun _ => G j) i0 n Hi0).
  - intros i Hi. destruct (Nat.eqb_spec j (p i)) as [E1|E1]; destruct (Nat.eqb_spec i i0) as [E2|E2]; try reflexivity.
    + exfalso. apply E2. apply Hinj; try assumption. lia.
    + exfalso. apply E1. subst i. symmetry; exact E.
Qed.

(* multiplication by a unit permutes the residues mod n *)
Lemma zsum_mul_unit (F : Z -> Z) (n : nat) g : (0 < n)%nat -> Z.gcd g (Z.of_nat n) = 1 ->
  (forall z, F (z + Z.of_nat n) = F z) ->
  zsum (fun i => F (Z.of_nat i * g)) n = zsum (fun i => F (Z.of_nat i)) n.
Proof.
  intros Hn Hg Hper.
  set (l := repeat 0 n). assert (Ll : length l = n) by apply repeat_length.
  assert (Hn' : 0 < Z.of_nat (length l)) by lia.
  assert (Hg' : Z.gcd g (Z.of_nat (length l)) = 1) by (rewrite Ll; exact Hg).
  rewrite (zsum_ext _ (fun i => (fun t => F (Z.of_nat t)) (sg_pos g l i))).
  - apply (zsum_reindex (fun t => F (Z.of_nat t)) (sg_pos g l) n).
    + intros i _. pose proof (sg_pos_lt g l i Hn') as G. rewrite Ll in G. exact G.
    + intros i j Hi Hj. apply sg_pos_inj; rewrite ?Ll; assumption.
    + intros t Ht. rewrite <- Ll in Ht. destruct (sg_pos_onto g l t Hg' Ht) as [i [Hi E]]. exists i. rewrite Ll in Hi. auto.
  - intros i _. cbv beta. rewrite (sg_pos_mod g l i Hn'). rewrite Ll.
    pose proof (Z.div_mod (Z.of_nat i * g) (Z.of_nat n) ltac:(lia)) as E.
    rewrite E at 1. rewrite Z.add_comm, (Z.mul_comm (Z.of_nat n)). apply period_all; exact Hper.
Qed.
End Perm.


Section Mul.
(* the convolution formula on the whole extension *)
Lemma ext'_pmul (a b : list Z) t : length b = length a -> (0 < length a)%nat ->
  ext' (pmul a b) t = zsum (fun i => nthZ a i * ext' b (t - Z.of_nat i)) (length a).
Proof.
  intros Hb Hl. set (n := Z.of_nat (length a)). assert (Hn : 0 < n) by (unfold n; lia).
  pose proof (Z.div_mod t n ltac:(lia)) as E. pose proof (Z.mod_pos_bound t n Hn) as Hr.
  set (q := t / n) in *. set (r := t mod n) in *.
  assert (Et : t = r + q * n) by lia.
  replace (ext' (pmul a b) t) with (ext' (pmul a b) (r + q * Z.of_nat (length (pmul a b))))
    by (rewrite pmul_length; fold n; rewrite <- Et; reflexivity).
  rewrite ext'_shift by (rewrite pmul_length; exact Hl).
  assert (Er : ext' (pmul a b) r = zsum (fun i => nthZ a i * ext' b (r - Z.of_nat i)) (length a)).
  { rewrite <- (Z2Nat.id r) by lia. rewrite ext'_nth by (rewrite pmul_length; lia).
    unfold nthZ at 1. rewrite pmul_spec by (try assumption; lia). reflexivity. }
  assert (Es : forall i, ext' b (t - Z.of_nat i) = if Z.even q then ext' b (r - Z.of_nat i) else - ext' b (r - Z.of_nat i)).
  { intros i. replace (t - Z.of_nat i) with ((r - Z.of_nat i) + q * Z.of_nat (length b)) by (rewrite Hb; fold n; lia).
    apply ext'_shift. lia. }
  rewrite Er. destruct (Z.even q) eqn:Hq.
  - apply zsum_ext; intros i _. rewrite Es. reflexivity.
  - rewrite <- zsum_opp. apply zsum_ext; intros i _. rewrite Es. ring.
Qed.

Variables (n : nat) (g : Z).
Hypothesis Hn : (0 < n)%nat.
Hypothesis Hg : Z.gcd g (2 * Z.of_nat n) = 1.

(* sigma_g is multiplicative *)
Theorem sigmaE_pmul a b : length a = n -> length b = n -> sigmaE g (pmul a b) = pmul (sigmaE g a) (sigmaE g b).
Proof.
  intros Ha Hb. pose proof (gcd2n_gcdn g (Z.of_nat n) Hg) as Hgn.
  assert (L : length (pmul a b) = n) by (rewrite pmul_length; exact Ha).
  assert (La : length (sigmaE g a) = n) by (rewrite sigmaE_length; exact Ha).
  assert (Lb : length (sigmaE g b) = n) by (rewrite sigmaE_length; exact Hb).
  symmetry. apply sigmaE_unique; rewrite ?L; try assumption; [rewrite pmul_length; exact La|].
  intros k.
  rewrite ext'_pmul by lia. rewrite ext'_pmul by lia. rewrite La, Ha.
  set (F := fun z => ext' (sigmaE g a) z * ext' (sigmaE g b) (k * g - z)).
  assert (Hper : forall z, F (z + Z.of_nat n) = F z).
  { intros z. unfold F.
    replace (z + Z.of_nat n) with (z + 1 * Z.of_nat (length (sigmaE g a))) by (rewrite La; lia).
    rewrite ext'_shift by lia. cbn [Z.even].
    replace (k * g - (z + 1 * Z.of_nat (length (sigmaE g a)))) with ((k * g - z) + (-1) * Z.of_nat (length (sigmaE g b))) by (rewrite La, Lb; lia).
    rewrite ext'_shift by lia. cbn [Z.even]. ring. }
  transitivity (zsum (fun i => F (Z.of_nat i)) n).
  - apply zsum_ext; intros i Hi. unfold F. rewrite ext'_nth by lia. reflexivity.
  - rewrite <- (zsum_mul_unit F n g Hn Hgn Hper). apply zsum_ext; intros i Hi. unfold F.
    rewrite ext'_sigmaE by (rewrite ?Ha; assumption || lia).
    replace (k * g - Z.of_nat i * g) with ((k - Z.of_nat i) * g) by ring.
    rewrite ext'_sigmaE by (rewrite ?Hb; assumption || lia).
    rewrite ext'_nth by lia. reflexivity.
Qed.
End Mul.


Section Group.
Variable a : list Z.
Hypothesis Hl : (0 < length a)%nat.
Local Notation n2 := (2 * Z.of_nat (length a)).

Theorem sigmaE_compose g h : Z.gcd g n2 = 1 -> Z.gcd h n2 = 1 -> sigmaE g (sigmaE h a) = sigmaE (g * h) a.
Proof.
  intros Hg Hh. apply sigmaE_unique; try assumption.
  - apply gcd_mul_2n; assumption.
  - rewrite !sigmaE_length. reflexivity.
  - intros k. replace (k * (g * h)) with ((k * h) * g) by ring.
    rewrite ext'_sigmaE by (rewrite sigmaE_length; assumption). apply ext'_sigmaE; assumption.
Qed.

Theorem sigmaE_1 : sigmaE 1 a = a.
Proof.
  symmetry. apply sigmaE_unique; try assumption; [apply Z.gcd_1_l|reflexivity|].
  intros k. rewrite Z.mul_1_r. reflexivity.
Qed.

Theorem sigmaE_congr g h : Z.gcd g n2 = 1 -> Z.gcd h n2 = 1 -> g mod n2 = h mod n2 -> sigmaE g a = sigmaE h a.
Proof.
  intros Hg Hh E. apply sigmaE_unique; try assumption; [apply sigmaE_length|].
  intros k.
  pose proof (Z.div_mod g n2 ltac:(lia)) as Eg. pose proof (Z.div_mod h n2 ltac:(lia)) as Eh.
  rewrite E in Eg.
  assert (Eh' : h = g + (h / n2 - g / n2) * n2) by (rewrite Eh at 1; rewrite Eg at 1; ring).
  replace (k * h) with (k * g + (k * (h / n2 - g / n2)) * (2 * Z.of_nat (length (sigmaE g a))))
    by (rewrite sigmaE_length; rewrite Eh' at 2; ring).
  rewrite ext'_period by (rewrite sigmaE_length; exact Hl). apply ext'_sigmaE; assumption.
Qed.

Theorem sigmaE_inverse g h : Z.gcd g n2 = 1 -> (g * h) mod n2 = 1 -> sigmaE h (sigmaE g a) = a.
Proof.
  intros Hg Hinv.
  assert (Hh : Z.gcd h n2 = 1).
  { apply Zgcd_1_rel_prime. apply bezout_rel_prime.
    pose proof (Z.div_mod (g * h) n2 ltac:(lia)) as Hd. rewrite Hinv in Hd.
    apply (Bezout_intro h n2 1 g (- ((g * h) / n2))). lia. }
  rewrite sigmaE_compose by assumption.
  rewrite (sigmaE_congr (h * g) 1).
  - apply sigmaE_1.
  - apply gcd_mul_2n; assumption.
  - apply Z.gcd_1_l.
  - rewrite (Z.mul_comm h g), Hinv. symmetry. apply Z.mod_small. lia.
Qed.
End Group.

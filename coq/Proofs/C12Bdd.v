(* C12 - poulpy-bin-fhe two-word BDD operations (FheUint add / sub / shifts / comparisons / and / or / xor), multi-thread entry point:
   the size query reserves threads x per-thread arenas and that is what the executor asserts and carves with Scratch::split_mut;
   each worker's arena suffices for its BDD level evaluation. *)
From PV Require Import Base.MachineInt Model.C12Scratch Gen.C12TmpBytes_gen Model.C12Trees
  Proofs.C12Arena Proofs.C12Hal Proofs.C12Core Proofs.C12KeySwitch Proofs.C12More Proofs.C12Conv Proofs.C12Cmux.
Open Scope Z_scope.

Lemma mod64_divide (x : Z) : x mod 64 = 0 <-> (64 | x).
Proof. apply Z.mod_divide. lia. Qed.

Lemma budget_suffices_at (t : tree) (off b : Z) : budget t b -> off mod 64 = 0 -> run_tree t (off, b) <> None.
Proof.
  intros H Ho. destruct (budget_demand t b H) as (Hal & Hd & Hb).
  destruct (run_aligned t off b Hal Ho Hb) as [H1 _]. destruct (H1 Hd) as (ws & E). rewrite E. congruence.
Qed.

(* the regions handed out by Scratch::split_mut start at aligned addresses and have exactly the requested length *)
Lemma rep_take_windows (len : Z) (k : nat) : 0 <= len -> len mod 64 = 0 -> forall off L ws r,
  off mod 64 = 0 -> 0 <= L -> run_tree (rep k (Take len)) (off, L) = Some (ws, r) ->
  Forall (fun w : window => fst w mod 64 = 0 /\ snd w = len) ws.
Proof.
  intros Hl Hm. induction k as [|k IH]; intros off L ws r Ho HL H; cbn [rep run_tree] in H.
  - injection H as <- <-. constructor.
  - rewrite (take_aligned len off L Ho HL) in H. destruct (Z.leb_spec len L) as [Hle|]; [|discriminate].
    destruct (run_tree (rep k (Take len)) (off + len, L - len)) as [[ws' r']|] eqn:E; [|discriminate].
    injection H as <- <-. constructor; [cbn [fst snd]; split; [exact Ho | reflexivity]|].
    apply (IH (off + len) (L - len) ws' r'); auto; [|lia].
    apply mod64_divide. apply Z.divide_add_r; apply mod64_divide; auto.
Qed.

Section Bdd.
  Variables fam n : Z.
  Hypothesis Hf : is_fam fam.
  Hypothesis Hn0 : 0 <= n.
  Hypothesis Hn8 : n mod 8 = 0.

  Lemma vmp_div64 (rs a rows ci co size : Z) : (64 | hal_vmp_apply_dft_to_dft_tmp_bytes fam n rs a rows ci co size).
  Proof using Hf Hn0 Hn8.
    autounfold with c12gen. destruct Hf as [-> | ->]; cbn [Z.eqb].
    - exists (2 + Z.min a rows * ci). lia.
    - exists (2 + Z.min a rows * ci). lia.
  Qed.

  Lemma bnorm_div64 : (64 | hal_vec_znx_big_normalize_tmp_bytes fam n).
  Proof using Hf Hn0 Hn8.
    apply mod64_divide. autounfold with c12gen. destruct Hf as [-> | ->]; cbn [Z.eqb]; lia.
  Qed.

  Lemma max_div64 (a b : Z) : (64 | a) -> (64 | b) -> (64 | Z.max a b).
  Proof. intros. destruct (Z.max_spec a b) as [[_ ->] | [_ ->]]; auto. Qed.

  (* the declared size of cmux is a multiple of the alignment *)
  Lemma cmux_bytes_div64 (res s : infos) : wf_infos res -> wf_infos s -> i_n res = n -> (64 | cmux_tmp_bytes fam n res res s).
  Proof using Hf Hn0 Hn8.
    intros Hr Hs Hn.
    destruct (cmux_layout_facts fam n Hf Hn0 Hn8 res res Hr Hr Hn) as (Wt & Nt & Rt & Bt & St & Mt & T0 & T64).
    set (t := cmux_tmp_layout res res) in *.
    assert (Hsr : 0 <= i_rank s) by (destruct Hs as (_&_&?&_); lia).
    assert (Hss : 0 <= i_size s) by (destruct Hs as (_&?&_); lia).
    pose proof (al_dft fam n Hf Hn0 Hn8 (i_rank s + 1) (i_size s) ltac:(lia) Hss) as HD.
    assert (Hep : (64 | glwe_external_product_internal_tmp_bytes fam n res t s)).
    { unfold glwe_external_product_internal_tmp_bytes. cbv zeta.
      destruct Hs as (Hsb & _ & _ & _ & _ & Hsd).
      assert (Hin : 0 <= div_ceil (div_ceil (i_max_k t) (i_base2k s)) (i_dsize s)).
      { apply div_ceil_nonneg; [|lia]. apply div_ceil_nonneg; lia. }
      apply Z.divide_add_r; [apply Z.divide_add_r|].
      - apply mod64_divide. apply (al_dft fam n Hf Hn0 Hn8); lia.
      - destruct (1 <? i_dsize s); [apply mod64_divide; apply (al_dft fam n Hf Hn0 Hn8); lia | exists 0; lia].
      - apply vmp_div64. }
    unfold cmux_tmp_bytes; cbv zeta; fold (cmux_tmp_layout res res); fold t; rewrite (glwe_bytes_eq t Wt).
    apply Z.divide_add_r; [apply Z.divide_add_r; apply mod64_divide; lia | apply max_div64; [exact Hep | apply bnorm_div64]].
  Qed.

  Lemma glwe_slot_facts (res : infos) : wf_infos res -> i_n res = n ->
    GLWE_bytes_of_from_infos res = VecZnx_bytes_of (i_n res) (i_rank res + 1) (i_size res) /\
    0 <= VecZnx_bytes_of (i_n res) (i_rank res + 1) (i_size res) /\ VecZnx_bytes_of (i_n res) (i_rank res + 1) (i_size res) mod 64 = 0.
  Proof using Hf Hn0 Hn8.
    intros Hr Hn. split; [apply glwe_bytes_eq; auto|]. rewrite Hn.
    apply (al_vec_znx fam n Hf Hn0 Hn8); [destruct Hr as (_&_&?&_); lia | destruct Hr as (_&?&_); lia].
  Qed.

  (* the per-thread arena *)
  Lemma per_thread_facts (res s : infos) (state_size : Z) :
    wf_infos res -> wf_infos s -> i_n res = n -> i_base2k res = i_base2k s -> i_rank res = i_rank s -> 0 <= state_size ->
    0 <= execute_bdd_circuit_tmp_bytes fam n res state_size s /\ execute_bdd_circuit_tmp_bytes fam n res state_size s mod 64 = 0.
  Proof using Hf Hn0 Hn8.
    intros Hr Hs Hn Hb Hrk Hst. pose proof (budget_nonneg _ _ (cmux_spec fam n Hf Hn0 Hn8 res res s Hr Hr Hs Hn Hb Hrk)) as C0.
    pose proof (cmux_bytes_div64 res s Hr Hs Hn) as C64.
    destruct (glwe_slot_facts res Hr Hn) as (E & B0 & B64). unfold execute_bdd_circuit_tmp_bytes. rewrite E.
    set (B := VecZnx_bytes_of (i_n res) (i_rank res + 1) (i_size res)) in *. split; [nia|].
    apply mod64_divide. apply Z.divide_add_r; [|exact C64]. apply Z.divide_mul_r. apply mod64_divide; exact B64.
  Qed.

  (* what a worker runs inside its region: eval_level on an arena of exactly the per-thread size, at any aligned address *)
  Lemma suffices_bdd_eval_level (res s : infos) (state_size nodes off : Z) :
    wf_infos res -> wf_infos s -> i_n res = n -> i_base2k res = i_base2k s -> i_rank res = i_rank s -> 0 <= state_size ->
    off mod 64 = 0 ->
    run_tree (tree_bdd_eval_level fam n state_size nodes res s) (off, execute_bdd_circuit_tmp_bytes fam n res state_size s) <> None.
  Proof using Hf Hn0 Hn8.
    intros Hr Hs Hn Hb Hrk Hst Ho. pose proof (cmux_spec fam n Hf Hn0 Hn8 res res s Hr Hr Hs Hn Hb Hrk) as Bc.
    pose proof (budget_nonneg _ _ Bc).
    destruct (glwe_slot_facts res Hr Hn) as (E & B0 & B64).
    set (B := VecZnx_bytes_of (i_n res) (i_rank res + 1) (i_size res)) in *.
    pose proof (budget_rep_take (Z.to_nat (2 * state_size)) B B0 B64) as Hrep. rewrite Z2Nat.id in Hrep by lia.
    apply budget_suffices_at; [|exact Ho]. unfold tree_bdd_eval_level, execute_bdd_circuit_tmp_bytes, t_take_glwe; fold B; rewrite E.
    cbn [budget persist]. rewrite persist_rep, Z2Nat.id by lia. cbn [persist]. split; [apply Hrep; lia | eapply budget_mono; [exact Bc | lia]].
  Qed.

  (* the executor: T::BITS output GLWEs, the split into threads regions, the packing *)
  Lemma suffices_bdd_2w_to_1w_multi_thread (res s key : infos) (bits threads state_size : Z) :
    wf_infos res -> wf_infos s -> wf_infos key -> i_n res = n -> i_base2k res = i_base2k s -> i_rank res = i_rank s ->
    i_rank res = i_rank_in key -> 0 <= bits -> 0 <= threads -> 0 <= state_size ->
    run_takes (tree_bdd_2w_to_1w_multi_thread fam n bits threads state_size res s key)
              (0, execute_bdd_circuit_2w_to_1w_multi_thread_tmp_bytes fam n bits threads state_size res s key) <> None.
  Proof using Hf Hn0 Hn8.
    intros Hr Hs Hk Hn Hb Hrk Hrkk Hbits Hth Hst.
    destruct (per_thread_facts res s state_size Hr Hs Hn Hb Hrk Hst) as [P0 P64].
    set (per := execute_bdd_circuit_tmp_bytes fam n res state_size s) in *.
    destruct (glwe_slot_facts res Hr Hn) as (E & B0 & B64).
    set (B := VecZnx_bytes_of (i_n res) (i_rank res + 1) (i_size res)) in *.
    pose proof (pack_spec fam n Hf Hn0 Hn8 res res key (Z.log2 n) (Z.log2 bits) Hr Hr Hk Hn Hn Hrkk Hrkk) as Bpk.
    unfold glwe_pack_tmp_bytes in Bpk. rewrite Z.max_id in Bpk. fold (glwe_pack_tmp_bytes fam n res key) in Bpk.
    pose proof (budget_nonneg _ _ Bpk).
    pose proof (budget_rep_take (Z.to_nat bits) B B0 B64) as HrepB. pose proof (budget_rep_take (Z.to_nat threads) per P0 P64) as HrepP.
    rewrite Z2Nat.id in HrepB, HrepP by lia.
    assert (Htp : 0 <= threads * per) by nia. assert (Hbb : 0 <= bits * B) by nia.
    apply budget_suffices; unfold tree_bdd_2w_to_1w_multi_thread, execute_bdd_circuit_2w_to_1w_multi_thread_tmp_bytes, split_mut, t_take_glwe;
      cbv zeta; fold per; fold B; rewrite ?E.
    cbn [budget persist]. rewrite persist_rep, Z2Nat.id by lia. cbn [persist]. leaves.
    - apply HrepB. lia.
    - apply HrepP. lia.
    - eapply budget_mono; [exact Bpk | lia].
  Qed.
End Bdd.

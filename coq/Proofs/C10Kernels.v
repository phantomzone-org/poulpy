(* C10: what the per-kernel theorems of Props/C10.v (AVX kernel body of znx_avx/{normalization,mul}.rs, as a lane
   function, = scalar reference kernel of Model/Znx.v) rest on: the constants of a radix as a tuple, the rewriting set
   `avx_norm` (digit, carry, variable shift -> their scalar counterparts), the bodies shared by the middle and by the
   final steps, the body of the negative power of two.  No range hypothesis is needed for the normalisation kernels:
   every intermediate is re-wrapped. *)
From PV Require Import Base.MachineInt Model.Znx Proofs.ZnxDigit Model.C10AvxLanes Proofs.C10Avx Proofs.C10Simd.
Open Scope Z_scope.

(* consts at radix b, as rewriting rule on the 4-tuple *)
Lemma consts_eq (b : Z) : 1 <= b <= 63 ->
  normalize_consts_avx b = (2 ^ b - 1, 2 ^ (b - 1), b, - 2 ^ (64 - b)).
Proof.
  intros Hb. unfold normalize_consts_avx, mm_set1.
  rewrite mask_k_eq, sign_k_eq, topmask_eq by lia. reflexivity.
Qed.

Ltac avx_norm :=
  cbv beta iota zeta delta [mm_set1 mm_add mm_sub wadd wsub];
  repeat first
    [ rewrite avx_digit_raw by lia
    | rewrite avx_carry_raw by lia
    | rewrite mm_sllv_shl by lia ].

Lemma avx_middle_body_eq_ref (b lsh a c : Z) : 1 <= b <= 63 -> 0 <= lsh < b ->
  middle_body_avx b lsh a c = middle_core 64 b lsh a c.
Proof.
  intros Hb Hl. unfold middle_body_avx, middle_core.
  rewrite consts_eq by lia.
  destruct (Z.eqb_spec lsh 0) as [H0|H0].
  - avx_norm. reflexivity.
  - rewrite consts_eq by lia. avx_norm. reflexivity.
Qed.

Lemma avx_final_body_eq_ref (b lsh a c : Z) : 1 <= b <= 63 -> 0 <= lsh < b ->
  final_body_avx b lsh a c = final_core 64 b lsh a c.
Proof.
  intros Hb Hl. unfold final_body_avx, final_core.
  rewrite consts_eq by lia.
  destruct (Z.eqb_spec lsh 0) as [H0|H0].
  - avx_norm. reflexivity.
  - rewrite consts_eq by lia. avx_norm. reflexivity.
Qed.

(* sign bit by logical shift *)
Lemma mm_srli_63 (x : Z) : in_range 64 x -> mm_srli x 63 = Z.land (asr x 63) 1.
Proof.
  intros Hx. apply in_range_64_elim in Hx. unfold mm_srli, asr.
  destruct (Z.ltb_spec 63 64); [|lia]. rewrite Z.shiftr_div_pow2 by lia.
  destruct (Z_lt_le_dec x 0) as [Hneg|Hpos].
  - rewrite (to_u_neg x) by lia.
    assert (H1 : (x + 2 ^ 64) / 2 ^ 63 = 1) by (symmetry; apply Z.div_unique with (r := x + 2 ^ 63); lia).
    assert (H2 : x / 2 ^ 63 = -1) by (symmetry; apply Z.div_unique with (r := x + 2 ^ 63); lia).
    rewrite H1, H2. reflexivity.
  - rewrite (to_u_small x) by lia. rewrite Z.div_small by lia. reflexivity.
Qed.

Lemma avx_mul_pow2_neg_body (kp x : Z) : 1 <= kp <= 63 -> in_range 64 x ->
  mul_pow2_neg_body_avx kp x =
  asr (wadd 64 x (wsub 64 (shl 64 1 (kp - 1)) (Z.land (asr x (64 - 1)) 1))) kp.
Proof.
  intros Hk Hx. unfold mul_pow2_neg_body_avx.
  cbv beta iota zeta delta [mm_set1].
  rewrite mm_srli_63 by exact Hx.
  rewrite wrap_neg_pow2 by lia.
  unfold mm_srl, mm_cvtsi32_si128, wrapu. rewrite (Z.mod_small kp) by lia.
  destruct (Z.ltb_spec kp 64); [|lia].
  unfold mm_add at 2. 
  rewrite lsr_fill_asr; [|lia|apply wrap_range; lia].
  change (64 - 1) with 63. unfold mm_add, mm_sub, asr, wadd, wsub, shl. reflexivity.
Qed.


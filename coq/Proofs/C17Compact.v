(* C17 - the in-place 32-byte -> 16-byte compaction of NTT120 idft_apply_consume (reference and AVX twins):
   index inequalities of docs/ntt120-backend.md, and the functional statement "in place = out of place". *)
From PV Require Import Base.MachineInt Model.C12Scratch Model.C17Mem.
From Coq Require Import Arith PeanoNat.
Open Scope Z_scope.

(* the two words written for (k, c) end before the first source word of every coefficient processed later
   (the k >= 1 non-overlap and the same-block ordering in one statement) *)
Lemma compact_write_before_later_src (n k c k' c' : Z) :
  0 < n -> 0 <= k -> 0 <= c < n -> 0 <= c' < n -> cb_before k c k' c' ->
  cb_dst n k c + 2 <= cb_src n k' c'.
Proof. intros Hn Hk Hc Hc' [Hlt | (-> & Hlt)]; unfold cb_dst, cb_src; nia. Qed.

(* the block on which the inverse NTT of step k' runs in place has not been written by any earlier block *)
Lemma compact_block_intact (n k c k' : Z) :
  0 < n -> 0 <= k < k' -> 0 <= c < n -> cb_dst n k c + 2 <= 4 * n * k'.
Proof. intros Hn Hk Hc; unfold cb_dst; nia. Qed.

(* a coefficient's own destination may overlap its own source only at the very first coefficient; there the four
   residues are read into locals before the write (program order; see compact_inplace_correct) *)
Lemma compact_self_overlap_only_first (n k c : Z) :
  0 < n -> 0 <= k -> 0 <= c < n -> cb_src n k c < cb_dst n k c + 2 -> k = 0 /\ c = 0.
Proof. intros Hn Hk Hc; unfold cb_dst, cb_src; nia. Qed.

(* every access is inside the n * n_blocks q120b coefficients = 4 * n * n_blocks words the raw view covers *)
Lemma compact_in_bounds (n nb k c : Z) :
  0 < n -> 0 <= k < nb -> 0 <= c < n ->
  0 <= cb_src n k c /\ cb_src n k c + 4 <= 4 * n * nb /\ 0 <= cb_dst n k c /\ cb_dst n k c + 2 <= 2 * n * nb.
Proof. intros Hn Hk Hc; unfold cb_dst, cb_src; nia. Qed.

Section Func.
Variable g : Z -> Z -> Z -> Z -> Z * Z.

Lemma setw_length (l : list Z) (i : nat) (x : Z) : length (setw l i x) = length l.
Proof. revert i; induction l as [|h t IH]; intros [|i]; cbn; auto. Qed.

Lemma nthw_setw (l : list Z) (i j : nat) (x : Z) :
  nthw (setw l i x) j = if Nat.eqb j i && Nat.ltb i (length l) then x else nthw l j.
Proof.
  unfold nthw. revert i j; induction l as [|h t IH]; intros i j.
  - cbn. rewrite andb_false_r. destruct i; reflexivity.
  - destruct i as [|i]; destruct j as [|j]; cbn [setw nth length]; try reflexivity.
    rewrite IH. replace (Nat.ltb (S i) (S (length t))) with (Nat.ltb i (length t)) by reflexivity. reflexivity.
Qed.

Definition cinv (orig : list Z) (m : nat) (s : list Z) : Prop :=
  length s = length orig /\
  (forall i, (2 * m <= i)%nat -> nthw s i = nthw orig i) /\
  (forall m', (m' < m)%nat -> (nthw s (2 * m'), nthw s (2 * m' + 1)) = compact_spec g orig m').

Lemma compact_step_inv (orig s : list Z) (m : nat) :
  (4 * m + 4 <= length orig)%nat -> cinv orig m s -> cinv orig (S m) (compact_step g s m).
Proof.
  intros Hlen (HL & Hun & Hdone). unfold compact_step.
  rewrite !Hun by lia. fold (compact_spec g orig m). destruct (compact_spec g orig m) as [lo hi] eqn:Esp.
  unfold cinv. rewrite !setw_length. split; [exact HL|]. split.
  - intros i Hi. rewrite !nthw_setw, !setw_length.
    destruct (Nat.eqb_spec i (2 * m + 1)); [lia|]. destruct (Nat.eqb_spec i (2 * m)); [lia|]. cbn. apply Hun. lia.
  - intros m' Hm'. rewrite !nthw_setw, !setw_length.
    assert (Nat.ltb (2 * m + 1) (length s) = true) as -> by (apply Nat.ltb_lt; lia).
    assert (Nat.ltb (2 * m) (length s) = true) as -> by (apply Nat.ltb_lt; lia).
    destruct (Nat.eq_dec m' m) as [->|Hne].
    + rewrite Nat.eqb_refl.
      destruct (Nat.eqb_spec (2 * m) (2 * m + 1)); [lia|]. destruct (Nat.eqb_spec (2 * m + 1) (2 * m)); [lia|].
      rewrite Nat.eqb_refl. cbn. symmetry. exact Esp.
    + destruct (Nat.eqb_spec (2 * m') (2 * m + 1)); [lia|]. destruct (Nat.eqb_spec (2 * m') (2 * m)); [lia|].
      destruct (Nat.eqb_spec (2 * m' + 1) (2 * m + 1)); [lia|]. destruct (Nat.eqb_spec (2 * m' + 1) (2 * m)); [lia|].
      cbn. apply Hdone. lia.
Qed.

Lemma compact_inplace_inv (orig : list Z) (M : nat) :
  (4 * M <= length orig)%nat -> cinv orig M (compact_inplace g orig M).
Proof.
  unfold compact_inplace. induction M as [|M IH]; intros Hlen.
  - cbn. unfold cinv. repeat split; auto. intros m' H; lia.
  - rewrite seq_S, fold_left_app. cbn [fold_left Nat.add]. apply compact_step_inv; [lia|]. apply IH. lia.
Qed.

(* processing the coefficients in increasing order IN PLACE gives, for every coefficient, the recombination of the
   ORIGINAL four residues: no source word is overwritten before it is read; words beyond the compacted half keep
   their old content *)
Theorem compact_inplace_correct (orig : list Z) (M : nat) :
  (4 * M <= length orig)%nat ->
  length (compact_inplace g orig M) = length orig /\
  (forall m, (m < M)%nat ->
     (nthw (compact_inplace g orig M) (2 * m), nthw (compact_inplace g orig M) (2 * m + 1)) = compact_spec g orig m) /\
  (forall i, (2 * M <= i)%nat -> nthw (compact_inplace g orig M) i = nthw orig i).
Proof.
  intros H. destruct (compact_inplace_inv orig M H) as (A & B & C). auto.
Qed.
End Func.

(* a compaction in DECREASING order would read overwritten words: the order matters *)
Lemma compact_reverse_order_refuted :
  exists (g : Z -> Z -> Z -> Z -> Z * Z) orig,
    let s := compact_step g (compact_step g orig 1) 0 in
    (nthw s 0, nthw s 1) <> compact_spec g orig 0.
Proof.
  exists (fun a b c d => (a + b, c + d)), [1; 2; 3; 4; 5; 6; 7; 8]. cbn. intros H; inversion H.
Qed.

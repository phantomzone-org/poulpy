(* C12 - poulpy-core operations, encryption and decryption: the declared size suffices (nested takes: on ring degrees
   that are multiples of 8). *)
From PV Require Import Base.MachineInt Model.C12Scratch Gen.C12TmpBytes_gen Model.C12Trees Proofs.C12Arena Proofs.C12Hal.
Open Scope Z_scope.

(* admissible layout descriptions: every field a natural number, base2k and dsize positive *)
Definition wf_infos (i : infos) : Prop :=
  1 <= i_base2k i /\ 0 <= i_size i /\ 0 <= i_rank i /\ 0 <= i_rank_in i /\ 0 <= i_dnum i /\ 1 <= i_dsize i.

Lemma div_ceil_nonneg (a b : Z) : 0 <= a -> 1 <= b -> 0 <= div_ceil a b.
Proof. intros. unfold div_ceil. apply Z.div_pos; lia. Qed.

Lemma div_ceil_mono (a a' b : Z) : a' <= a -> 1 <= b -> div_ceil a' b <= div_ceil a b.
Proof. intros. unfold div_ceil. apply Z.div_le_mono; lia. Qed.

(* ceil(size * b / b) = size *)
Lemma div_ceil_mul (s b : Z) : 1 <= b -> div_ceil (s * b) b = s.
Proof. intros. unfold div_ceil. replace (s * b + b - 1) with (b - 1 + s * b) by lia. rewrite Z.div_add by lia. rewrite Z.div_small; lia. Qed.

Lemma budget_seq_scoped (l : list tree) (b : Z) : 0 <= b -> (forall t, In t l -> budget t b) -> budget (seq_scoped l) b.
Proof.
  intros Hb. induction l as [|t l IH]; intros H; cbn [seq_scoped fold_right budget persist]; [exact Hb|].
  split; [apply H; left; reflexivity|]. rewrite Z.sub_0_r. apply IH. intros t' Ht'. apply H. right. exact Ht'.
Qed.

Lemma in_zrange (k x : Z) : In x (zrange k) -> 0 <= x < k.
Proof.
  unfold zrange, nat_of. intros H. apply in_map_iff in H. destruct H as (i & <- & Hi). apply in_seq in Hi. lia.
Qed.

(* operations that loop over single HAL takes on the whole window: true for every n *)
Lemma need_loop_take (b k : Z) (c : nat) : 0 <= k <= b ->
  run_takes (Seq (Need b) (Loop c (Take k))) (0, b) <> None.
Proof.
  intros Hk. apply fail_kind_run_takes. cbn [fail_kind run_tree]. unfold avail; cbn [fst snd]. change (pad_of 0) with 0.
  destruct (Z.leb_spec b (Z.max 0 (b - 0))); [|lia]. destruct c; [reflexivity|].
  unfold take, avail; cbn [fst snd]. change (pad_of 0) with 0. destruct (Z.leb_spec k (Z.max 0 (b - 0))); [reflexivity|lia].
Qed.

Lemma need_scoped_take (b k : Z) : 0 <= k <= b -> run_takes (Seq (Need b) (Scoped (Take k))) (0, b) <> None.
Proof.
  intros Hk. apply fail_kind_run_takes. cbn [fail_kind run_tree]. unfold avail; cbn [fst snd]. change (pad_of 0) with 0.
  destruct (Z.leb_spec b (Z.max 0 (b - 0))); [|lia].
  unfold take, avail; cbn [fst snd]. change (pad_of 0) with 0. destruct (Z.leb_spec k (Z.max 0 (b - 0))); [reflexivity|lia].
Qed.

(* LWE: one-coefficient plaintext (8 * size bytes), then the 64-aligned normalisation scratch; the formula rounds the
   first level up to DEFAULTALIGN (fix 936bfd3; before it the call failed whenever size was not a multiple of 8) *)
Lemma lwe_tree_ok (n b1 sz : Z) : 0 <= n -> 0 <= sz -> b1 = next_multiple_of (8 * sz) 64 + 24 * n ->
  run_takes (Seq (Need b1) (Seq (Take (8 * sz)) (Scoped (Take (24 * n / 8 * 8))))) (0, b1) <> None.
Proof.
  intros Hn Hs ->. unfold next_multiple_of. rewrite <- fail_kind_run_takes. cbn [fail_kind run_tree]. unfold avail; cbn [fst snd]. change (pad_of 0) with 0.
  set (B := (8 * sz + 64 - 1) / 64 * 64 + 24 * n).
  assert (HB : 8 * sz + 24 * n <= B) by (unfold B; lia).
  destruct (Z.leb_spec B (Z.max 0 (B - 0))); [|lia].
  unfold take, avail; cbn [fst snd]. change (pad_of 0) with 0.
  destruct (Z.leb_spec (8 * sz) (Z.max 0 (B - 0))); [|lia].
  cbn [fst snd]. unfold pad_of, ALIGN.
  match goal with |- context [?a <=? ?b] => destruct (Z.leb_spec a b) end; [reflexivity|]. unfold B in *. lia.
Qed.

(* nested operations: ring degrees that are multiples of 8 (every power of two >= 8) *)
Section Aligned.
  Variables fam n : Z.
  Hypothesis Hf : is_fam fam.
  Hypothesis Hn0 : 0 <= n.
  Hypothesis Hn8 : n mod 8 = 0.

  Let c_norm := budget_normalize fam n Hf Hn0 Hn8.
  Let c_bnorm := budget_big_normalize fam n Hf Hn0 Hn8.
  Let nn1 := nn_norm fam n Hf Hn0 Hn8.
  Let nn2 := nn_bnorm fam n Hf Hn0 Hn8.

  Lemma enc_sk_internal_spec (size cols : Z) (flag : bool) : 0 <= size ->
    budget (t_glwe_encrypt_sk_internal fam n size cols flag)
      (VecZnx_bytes_of n 1 size +
       Z.max (VecZnx_bytes_of n 1 size + hal_bytes_of_vec_znx_dft fam n 1 size +
                Z.max (if flag then hal_vec_znx_normalize_tmp_bytes fam n else 0) (hal_vec_znx_big_normalize_tmp_bytes fam n))
             (hal_vec_znx_normalize_tmp_bytes fam n)).
  Proof.
    intros Hs.
    pose proof (al_vec_znx fam n Hf Hn0 Hn8 1 size ltac:(lia) Hs) as Hvz.
    pose proof (al_dft fam n Hf Hn0 Hn8 1 size ltac:(lia) Hs) as Hdft.
    pose proof c_norm as Bn. pose proof c_bnorm as Bb. pose proof nn1. pose proof nn2.
    unfold t_glwe_encrypt_sk_internal. destruct flag; cbn [budget persist].
    all: leaves.
    all: eapply budget_mono; [eassumption | lia].
  Qed.

  Lemma enc_sk_spec (glwe : infos) : 0 <= i_size glwe ->
    budget (tree_glwe_encrypt_sk fam n glwe) (glwe_encrypt_sk_tmp_bytes fam n glwe).
  Proof.
    intros Hs. pose proof (enc_sk_internal_spec (i_size glwe) (i_rank glwe + 1) false Hs) as Bi.
    pose proof (al_vec_znx fam n Hf Hn0 Hn8 1 (i_size glwe) ltac:(lia) Hs) as Hvz.
    pose proof (al_dft fam n Hf Hn0 Hn8 1 (i_size glwe) ltac:(lia) Hs) as Hdft. pose proof nn1. pose proof nn2.
    unfold tree_glwe_encrypt_sk, glwe_encrypt_sk_tmp_bytes in *. cbv zeta in *. cbn [budget persist].
    split; [lia|]. eapply budget_mono; [exact Bi | lia].
  Qed.

  Lemma suffices_glwe_encrypt_sk (glwe : infos) : 0 <= i_size glwe ->
    run_takes (tree_glwe_encrypt_sk fam n glwe) (0, glwe_encrypt_sk_tmp_bytes fam n glwe) <> None.
  Proof. intros Hs. apply budget_suffices, enc_sk_spec, Hs. Qed.

  Lemma decrypt_spec (glwe : infos) : 0 <= i_size glwe -> 0 <= i_rank glwe ->
    budget (tree_glwe_decrypt fam n glwe) (glwe_decrypt_tmp_bytes fam n glwe).
  Proof using Hf Hn0 Hn8.
    intros Hs Hr.
    pose proof (al_big fam n Hf Hn0 Hn8 1 (i_size glwe) ltac:(lia) Hs) as Hbig.
    pose proof (al_dft fam n Hf Hn0 Hn8 1 (i_size glwe) ltac:(lia) Hs) as Hdft.
    pose proof c_bnorm as Bb. pose proof nn2.
    unfold tree_glwe_decrypt, glwe_decrypt_tmp_bytes; cbv zeta; cbn [budget persist].
    leaves.
    eapply budget_mono; [exact Bb | lia].
  Qed.

  Lemma suffices_glwe_decrypt (glwe : infos) : 0 <= i_size glwe -> 0 <= i_rank glwe ->
    run_takes (tree_glwe_decrypt fam n glwe) (0, glwe_decrypt_tmp_bytes fam n glwe) <> None.
  Proof using Hf Hn0 Hn8. intros. apply budget_suffices, decrypt_spec; assumption. Qed.

  (* glwe_encrypt_pk: the public key has the size of the ciphertext *)
  Lemma suffices_glwe_encrypt_pk (res : infos) : 0 <= i_size res -> 0 <= i_rank res ->
    run_takes (tree_glwe_encrypt_pk fam n res (i_size res)) (0, glwe_encrypt_pk_tmp_bytes fam n res) <> None.
  Proof using Hf Hn0 Hn8.
    intros Hs Hr.
    pose proof (al_big fam n Hf Hn0 Hn8 1 (i_size res) ltac:(lia) Hs) as Hbig.
    pose proof (al_dft fam n Hf Hn0 Hn8 1 (i_size res) ltac:(lia) Hs) as Hdft.
    pose proof (al_svp fam n Hf Hn0 Hn8 1 ltac:(lia)) as Hsvp.
    pose proof (al_scalar_znx fam n Hf Hn0 Hn8 1 ltac:(lia)) as Hsz.
    pose proof c_bnorm as Bb. pose proof nn2.
    apply budget_suffices; unfold tree_glwe_encrypt_pk, glwe_encrypt_pk_tmp_bytes; cbv zeta; cbn [budget persist].
    leaves.
    eapply budget_mono; [exact Bb | lia].
  Qed.
End Aligned.

(* C12 - poulpy-bin-fhe cmux / cmux_assign / cmux_assign_neg (size query repaired by 3f00261): the declared size suffices on
   ring degrees that are multiples of 8. *)
From PV Require Import Base.MachineInt Model.C12Scratch Gen.C12TmpBytes_gen Model.C12Trees
  Proofs.C12Arena Proofs.C12Hal Proofs.C12Core Proofs.C12KeySwitch Proofs.C12More Proofs.C12Conv.
Open Scope Z_scope.

Lemma div_ceil_mul_ge (x b : Z) : 1 <= b -> x <= div_ceil x b * b.
Proof.
  intros Hb. unfold div_ceil. pose proof (Z.div_mod (x + b - 1) b ltac:(lia)). pose proof (Z.mod_pos_bound (x + b - 1) b ltac:(lia)). nia.
Qed.

Section Cmux.
  Variables fam n : Z.
  Hypothesis Hf : is_fam fam.
  Hypothesis Hn0 : 0 <= n.
  Hypothesis Hn8 : n mod 8 = 0.

  (* the product's need grows with the precision of its input *)
  Lemma ep_internal_mono (r r' a a' g : infos) : wf_infos g -> 0 <= i_max_k a' <= i_max_k a ->
    glwe_external_product_internal_tmp_bytes fam n r' a' g <= glwe_external_product_internal_tmp_bytes fam n r a g.
  Proof using Hf Hn0 Hn8.
    intros (Hb & Hsz & Hr & Hri & Hdn & Hds) Hk.
    unfold glwe_external_product_internal_tmp_bytes. cbv zeta.
    set (x' := div_ceil (div_ceil (i_max_k a') (i_base2k g)) (i_dsize g)). set (x := div_ceil (div_ceil (i_max_k a) (i_base2k g)) (i_dsize g)).
    assert (Hx : 0 <= x' <= x).
    { unfold x, x'. pose proof (div_ceil_nonneg (i_max_k a') (i_base2k g) ltac:(lia) Hb).
      pose proof (div_ceil_mono (i_max_k a) (i_max_k a') (i_base2k g) ltac:(lia) Hb).
      split; [apply div_ceil_nonneg; lia | apply div_ceil_mono; lia]. }
    clearbody x x'.
    pose proof (dft_mono fam n Hf Hn0 Hn8 (i_rank g + 1) x x' ltac:(lia) ltac:(lia)).
    assert (hal_vmp_apply_dft_to_dft_tmp_bytes fam n (i_size r') x' x' (i_rank g + 1) (i_rank g + 1) (i_size g)
            <= hal_vmp_apply_dft_to_dft_tmp_bytes fam n (i_size r) x x (i_rank g + 1) (i_rank g + 1) (i_size g)).
    { autounfold with c12gen. rewrite !Z.min_id.
      assert (x' * (i_rank g + 1) <= x * (i_rank g + 1)) by (apply Z.mul_le_mono_nonneg_r; lia).
      destruct Hf as [-> | ->]; cbn [Z.eqb]; lia. }
    lia.
  Qed.

  Lemma cmux_layout_facts (res a : infos) : wf_infos res -> wf_infos a -> i_n res = n ->
    let t := cmux_tmp_layout res a in
    wf_infos t /\ i_n t = n /\ i_rank t = i_rank res /\ i_base2k t = i_base2k res /\ 0 <= i_size t /\
    0 <= i_max_k res <= i_max_k t /\
    0 <= VecZnx_bytes_of (i_n t) (i_rank t + 1) (i_size t) /\ VecZnx_bytes_of (i_n t) (i_rank t + 1) (i_size t) mod 64 = 0.
  Proof using Hf Hn0 Hn8.
    intros (Hb & Hs & Hr & Hri & Hdn & Hds) (Hab & Has & _) Hn t.
    assert (Hmr : 0 <= i_max_k res) by (unfold i_max_k; nia). assert (Hma : 0 <= i_max_k a) by (unfold i_max_k; nia).
    set (mk := Z.max (i_max_k res) (i_max_k a)).
    assert (Hsz : 0 <= div_ceil mk (i_base2k res)) by (apply div_ceil_nonneg; unfold mk; lia).
    pose proof (div_ceil_mul_ge mk (i_base2k res) Hb) as Hge.
    assert (Et : i_size t = div_ceil mk (i_base2k res)) by reflexivity.
    split; [unfold wf_infos, t, cmux_tmp_layout, mk_glwe_layout; cbn [i_base2k i_size i_rank i_rank_in i_dnum i_dsize]; fold mk; lia|].
    split; [exact Hn|]. split; [reflexivity|]. split; [reflexivity|]. split; [lia|].
    split; [unfold i_max_k at 3; rewrite Et; change (i_base2k t) with (i_base2k res); unfold mk in *; lia|].
    change (i_n t) with (i_n res). change (i_rank t) with (i_rank res). rewrite Hn, Et.
    apply (al_vec_znx fam n Hf Hn0 Hn8); lia.
  Qed.

  (* cmux and cmux_assign *)
  Lemma cmux_spec (res a s : infos) :
    wf_infos res -> wf_infos a -> wf_infos s -> i_n res = n -> i_base2k res = i_base2k s -> i_rank res = i_rank s ->
    budget (tree_cmux fam n res s) (cmux_tmp_bytes fam n res a s).
  Proof using Hf Hn0 Hn8.
    intros Hr Ha Hs Hn Hb Hrk.
    destruct (cmux_layout_facts res a Hr Ha Hn) as (Wt & Nt & Rt & Bt & St & Mt & T0 & T64).
    set (t := cmux_tmp_layout res a) in *.
    assert (Hrs : 0 <= i_size res) by (destruct Hr as (_&?&_); lia).
    pose proof (ep_internal_spec fam n Hf Hn0 Hn8 res s Hs Hrs Hb) as Bi. pose proof (budget_nonneg _ _ Bi).
    pose proof (ep_internal_mono res s t res s Hs Mt) as Hm.
    pose proof (budget_big_normalize fam n Hf Hn0 Hn8) as Bb. pose proof (nn_bnorm fam n Hf Hn0 Hn8).
    pose proof (al_dft fam n Hf Hn0 Hn8 (i_rank res + 1) (i_size s) ltac:(destruct Hr as (_&_&?&_); lia) ltac:(destruct Hs as (_&?&_); lia)) as HD.
    unfold tree_cmux, cmux_tmp_bytes; cbv zeta; fold (cmux_tmp_layout res a); fold t; rewrite ?(glwe_bytes_eq t Wt), <- ?Hrk.
    cbn [budget persist]. leaves.
    all: eapply budget_mono; [eassumption | lia].
  Qed.

  Lemma suffices_cmux (res a s : infos) :
    wf_infos res -> wf_infos a -> wf_infos s -> i_n res = n -> i_base2k res = i_base2k s -> i_rank res = i_rank s ->
    run_takes (tree_cmux fam n res s) (0, cmux_tmp_bytes fam n res a s) <> None.
  Proof using Hf Hn0 Hn8. intros. apply budget_suffices, cmux_spec; assumption. Qed.

  (* cmux_assign_neg: the difference lives in a temporary taken from the scratch *)
  Lemma suffices_cmux_assign_neg (res a s : infos) :
    wf_infos res -> wf_infos a -> wf_infos s -> i_n res = n -> i_base2k res = i_base2k s -> i_rank res = i_rank s ->
    run_takes (tree_cmux_assign_neg fam n res a s) (0, cmux_tmp_bytes fam n res a s) <> None.
  Proof using Hf Hn0 Hn8.
    intros Hr Ha Hs Hn Hb Hrk.
    destruct (cmux_layout_facts res a Hr Ha Hn) as (Wt & Nt & Rt & Bt & St & Mt & T0 & T64).
    set (t := cmux_tmp_layout res a) in *.
    pose proof (ep_internal_spec fam n Hf Hn0 Hn8 t s Hs St ltac:(lia)) as Bi. pose proof (budget_nonneg _ _ Bi).
    rewrite (ep_internal_res_indep fam n Hf Hn0 Hn8 s res t s) in *.
    pose proof (budget_big_normalize fam n Hf Hn0 Hn8) as Bb. pose proof (nn_bnorm fam n Hf Hn0 Hn8).
    pose proof (al_dft fam n Hf Hn0 Hn8 (i_rank res + 1) (i_size s) ltac:(destruct Hr as (_&_&?&_); lia) ltac:(destruct Hs as (_&?&_); lia)) as HD.
    apply budget_suffices; unfold tree_cmux_assign_neg, cmux_tmp_bytes, t_take_glwe; cbv zeta; fold (cmux_tmp_layout res a); fold t;
      rewrite ?(glwe_bytes_eq t Wt), <- ?Hrk.
    cbn [budget persist]. leaves.
    all: eapply budget_mono; [eassumption | lia].
  Qed.
End Cmux.

(* C12 - HAL operations: a single take of at most the whole window succeeds for every n (the HAL theorems of Props/C12.v),
   the HAL callees as take trees, and the byte sizes of the containers. *)
From PV Require Import Base.MachineInt Model.C12Scratch Gen.C12TmpBytes_gen Model.C12Trees Proofs.C12Arena.
Open Scope Z_scope.

Definition pow2 (n : Z) : Prop := exists e, 0 <= e /\ n = 2 ^ e.
Definition is_fam (fam : Z) : Prop := fam = 0 \/ fam = 1.

Lemma pow2_ge1 (n : Z) : pow2 n -> 1 <= n.
Proof. intros (e & He & ->). pose proof (Z.pow_pos_nonneg 2 e ltac:(lia) He). lia. Qed.

Lemma pow2_nonneg (n : Z) : pow2 n -> 0 <= n.
Proof. intros H. pose proof (pow2_ge1 n H). lia. Qed.

Lemma pow2_ge8 (n : Z) : pow2 n -> 8 <= n -> n mod 8 = 0.
Proof.
  intros (e & He & ->) H8.
  destruct (Z_lt_le_dec e 3) as [Hlt|Hge].
  - assert (e = 0 \/ e = 1 \/ e = 2) as [->|[->| ->]] by lia; cbn in H8; lia.
  - replace e with (3 + (e - 3)) by lia. rewrite Z.pow_add_r by lia.
    change (2 ^ 3) with 8. rewrite Z.mul_comm, Z.mod_mul; lia.
Qed.

(* a single take of at most the whole window, at the start of a 64-aligned window *)
Lemma single_take (k b : Z) : k <= b -> 0 <= b -> run_takes (Take k) (0, b) <> None.
Proof.
  intros Hk Hb. unfold run_takes; cbn [run_tree]. unfold take, avail; cbn [fst snd].
  change (pad_of 0) with 0. destruct (Z.leb_spec k (Z.max 0 (b - 0))); [congruence|lia].
Qed.

Lemma take_words_le (w b : Z) : 0 < w -> 0 <= b -> 0 <= b / w * w <= b.
Proof.
  intros Hw Hb. pose proof (Z.mul_div_le b w Hw) as H1. pose proof (Z.div_pos b w Hb Hw) as H2.
  rewrite (Z.mul_comm (b / w) w). split; [apply Z.mul_nonneg_nonneg; lia | exact H1].
Qed.

Lemma single_take_words (w b : Z) : 0 < w -> 0 <= b -> run_takes (take_words w b) (0, b) <> None.
Proof. intros Hw Hb. unfold take_words. apply single_take; [apply take_words_le|]; auto. Qed.

Ltac fam_cases Hf := destruct Hf as [-> | ->]; cbn [Z.eqb].

(* non-negativity of products / min, for the size formulas *)
Ltac nn := repeat first [ apply Z.mul_nonneg_nonneg | apply Z.add_nonneg_nonneg | apply Z.min_glb | lia ].

(* what aligned_tree and demand compute on the HAL callees: on n = 0 mod 8 each is an aligned tree whose demand is exactly
   its declared size (the proofs of the composite operations use the budgets of the next section) *)
Section Callee.
  Variables fam n : Z.
  Hypothesis Hf : is_fam fam.
  Hypothesis Hn0 : 0 <= n.
  Hypothesis Hn8 : n mod 8 = 0.

  Lemma callee_normalize :
    aligned_tree (t_vec_znx_normalize n) /\ demand (t_vec_znx_normalize n) = hal_vec_znx_normalize_tmp_bytes fam n.
  Proof using Hf Hn0 Hn8. unfold t_vec_znx_normalize, take_words. autounfold with c12gen. cbn [aligned_tree demand]. unfold ALIGN. lia. Qed.
  Lemma callee_rsh : aligned_tree (t_vec_znx_rsh n) /\ demand (t_vec_znx_rsh n) = hal_vec_znx_rsh_tmp_bytes fam n.
  Proof using Hf Hn0 Hn8. unfold t_vec_znx_rsh, take_words. autounfold with c12gen. cbn [aligned_tree demand]. unfold ALIGN. lia. Qed.
  Lemma callee_lsh : aligned_tree (t_vec_znx_lsh n) /\ demand (t_vec_znx_lsh n) = hal_vec_znx_lsh_tmp_bytes fam n.
  Proof using Hf Hn0 Hn8. unfold t_vec_znx_lsh, take_words. autounfold with c12gen. cbn [aligned_tree demand]. unfold ALIGN. lia. Qed.
  Lemma callee_rotate_assign :
    aligned_tree (t_vec_znx_rotate_assign n) /\ demand (t_vec_znx_rotate_assign n) = hal_vec_znx_rotate_assign_tmp_bytes fam n.
  Proof using Hf Hn0 Hn8. unfold t_vec_znx_rotate_assign, take_words. autounfold with c12gen. cbn [aligned_tree demand]. unfold ALIGN. lia. Qed.
  Lemma callee_automorphism_assign :
    aligned_tree (t_vec_znx_automorphism_assign n) /\
    demand (t_vec_znx_automorphism_assign n) = hal_vec_znx_automorphism_assign_tmp_bytes fam n.
  Proof using Hf Hn0 Hn8. unfold t_vec_znx_automorphism_assign, take_words. autounfold with c12gen. cbn [aligned_tree demand]. unfold ALIGN. lia. Qed.
  Lemma callee_big_normalize :
    aligned_tree (t_big_normalize fam n) /\ demand (t_big_normalize fam n) = hal_vec_znx_big_normalize_tmp_bytes fam n.
  Proof using Hf Hn0 Hn8.
    unfold t_big_normalize, take_words. autounfold with c12gen.
    destruct Hf as [-> | ->]; cbn [Z.eqb aligned_tree demand]; unfold ALIGN; lia.
  Qed.
  Lemma callee_big_automorphism_assign :
    aligned_tree (t_big_automorphism_assign fam n) /\
    demand (t_big_automorphism_assign fam n) = hal_vec_znx_big_automorphism_assign_tmp_bytes fam n.
  Proof using Hf Hn0 Hn8.
    unfold t_big_automorphism_assign, take_words. autounfold with c12gen.
    destruct Hf as [-> | ->]; cbn [Z.eqb aligned_tree demand]; unfold ALIGN; lia.
  Qed.
  Lemma callee_vmp (res_size a_size rows cols_in cols_out size : Z) :
    0 <= a_size -> 0 <= rows -> 0 <= cols_in ->
    aligned_tree (t_vmp_apply_dft_to_dft fam a_size rows cols_in) /\
    demand (t_vmp_apply_dft_to_dft fam a_size rows cols_in)
      = hal_vmp_apply_dft_to_dft_tmp_bytes fam n res_size a_size rows cols_in cols_out size.
  Proof using Hf Hn0 Hn8.
    intros Ha Hr Hc. unfold t_vmp_apply_dft_to_dft, take_words. autounfold with c12gen.
    assert (0 <= Z.min a_size rows * cols_in) by nn.
    destruct Hf as [-> | ->]; cbn [Z.eqb aligned_tree demand]; unfold ALIGN; lia.
  Qed.
End Callee.

(* the same callees as budgets, the form in which the poulpy-core proofs use them *)
Section CalleeBudget.
  Variables fam n : Z.
  Hypothesis Hf : is_fam fam.
  Hypothesis Hn0 : 0 <= n.
  Hypothesis Hn8 : n mod 8 = 0.

  Lemma budget_normalize : budget (t_vec_znx_normalize n) (hal_vec_znx_normalize_tmp_bytes fam n).
  Proof using Hf Hn0 Hn8. unfold t_vec_znx_normalize, take_words. autounfold with c12gen. cbn [budget]. lia. Qed.
  Lemma budget_rsh : budget (t_vec_znx_rsh n) (hal_vec_znx_rsh_tmp_bytes fam n).
  Proof using Hf Hn0 Hn8. unfold t_vec_znx_rsh, take_words. autounfold with c12gen. cbn [budget]. lia. Qed.
  Lemma budget_rotate_assign : budget (t_vec_znx_rotate_assign n) (hal_vec_znx_rotate_assign_tmp_bytes fam n).
  Proof using Hf Hn0 Hn8. unfold t_vec_znx_rotate_assign, take_words. autounfold with c12gen. cbn [budget]. lia. Qed.
  Lemma budget_automorphism_assign :
    budget (t_vec_znx_automorphism_assign n) (hal_vec_znx_automorphism_assign_tmp_bytes fam n).
  Proof using Hf Hn0 Hn8. unfold t_vec_znx_automorphism_assign, take_words. autounfold with c12gen. cbn [budget]. lia. Qed.
  Lemma budget_big_normalize : budget (t_big_normalize fam n) (hal_vec_znx_big_normalize_tmp_bytes fam n).
  Proof using Hf Hn0 Hn8.
    unfold t_big_normalize, take_words. autounfold with c12gen. destruct Hf as [-> | ->]; cbn [Z.eqb budget]; lia.
  Qed.
  Lemma budget_big_automorphism_assign :
    budget (t_big_automorphism_assign fam n) (hal_vec_znx_big_automorphism_assign_tmp_bytes fam n).
  Proof using Hf Hn0 Hn8.
    unfold t_big_automorphism_assign, take_words. autounfold with c12gen. destruct Hf as [-> | ->]; cbn [Z.eqb budget]; lia.
  Qed.
  Lemma budget_vmp (res_size a_size rows cols_in cols_out size : Z) :
    0 <= a_size -> 0 <= rows -> 0 <= cols_in ->
    budget (t_vmp_apply_dft_to_dft fam a_size rows cols_in)
      (hal_vmp_apply_dft_to_dft_tmp_bytes fam n res_size a_size rows cols_in cols_out size).
  Proof using Hf Hn0 Hn8.
    intros Ha Hr Hc. unfold t_vmp_apply_dft_to_dft, take_words. autounfold with c12gen.
    assert (0 <= Z.min a_size rows * cols_in) by nn.
    destruct Hf as [-> | ->]; cbn [Z.eqb budget]; lia.
  Qed.
End CalleeBudget.

(* the size of a vmp scratch is monotone in the number of input limbs *)
Lemma vmp_bytes_mono (fam n rs a a' rows ci co size : Z) :
  is_fam fam -> a' <= a -> 0 <= ci ->
  hal_vmp_apply_dft_to_dft_tmp_bytes fam n rs a' rows ci co size <= hal_vmp_apply_dft_to_dft_tmp_bytes fam n rs a rows ci co size.
Proof.
  intros Hf Ha Hc. autounfold with c12gen.
  assert (Z.min a' rows * ci <= Z.min a rows * ci) by (apply Z.mul_le_mono_nonneg_r; lia).
  fam_cases Hf; lia.
Qed.

(* byte sizes of the polynomial containers are multiples of 64 when n is a multiple of 8 *)
Section Bytes.
  Variables fam n : Z.
  Hypothesis Hf : is_fam fam.
  Hypothesis Hn0 : 0 <= n.
  Hypothesis Hn8 : n mod 8 = 0.

  Lemma al_vec_znx (c s : Z) : 0 <= c -> 0 <= s -> 0 <= VecZnx_bytes_of n c s /\ VecZnx_bytes_of n c s mod 64 = 0.
  Proof using Hf Hn0 Hn8. intros. unfold VecZnx_bytes_of. assert (0 <= n * c * s) by nn. lia. Qed.
  Lemma al_scalar_znx (c : Z) : 0 <= c -> 0 <= ScalarZnx_bytes_of n c /\ ScalarZnx_bytes_of n c mod 64 = 0.
  Proof using Hf Hn0 Hn8. intros. unfold ScalarZnx_bytes_of. assert (0 <= n * c) by nn. lia. Qed.
  Lemma al_dft (c s : Z) : 0 <= c -> 0 <= s ->
    0 <= hal_bytes_of_vec_znx_dft fam n c s /\ hal_bytes_of_vec_znx_dft fam n c s mod 64 = 0.
  Proof using Hf Hn0 Hn8. intros. autounfold with c12gen. assert (0 <= n * c * s) by nn. fam_cases Hf; lia. Qed.
  Lemma al_big (c s : Z) : 0 <= c -> 0 <= s ->
    0 <= hal_bytes_of_vec_znx_big fam n c s /\ hal_bytes_of_vec_znx_big fam n c s mod 64 = 0.
  Proof using Hf Hn0 Hn8. intros. autounfold with c12gen. assert (0 <= n * c * s) by nn. fam_cases Hf; lia. Qed.
  Lemma al_svp (c : Z) : 0 <= c -> 0 <= hal_bytes_of_svp_ppol fam n c /\ hal_bytes_of_svp_ppol fam n c mod 64 = 0.
  Proof using Hf Hn0 Hn8. intros. autounfold with c12gen. assert (0 <= n * c) by nn. fam_cases Hf; lia. Qed.
  Lemma nn_norm : 0 <= hal_vec_znx_normalize_tmp_bytes fam n.
  Proof using Hf Hn0 Hn8. autounfold with c12gen. lia. Qed.
  Lemma nn_bnorm : 0 <= hal_vec_znx_big_normalize_tmp_bytes fam n.
  Proof using Hf Hn0 Hn8. autounfold with c12gen. fam_cases Hf; lia. Qed.
  (* sizes grow with the number of limbs *)
  Lemma dft_mono (c s s' : Z) : 0 <= c -> s' <= s -> hal_bytes_of_vec_znx_dft fam n c s' <= hal_bytes_of_vec_znx_dft fam n c s.
  Proof using Hf Hn0 Hn8.
    intros. autounfold with c12gen. assert (n * c * s' <= n * c * s) by (apply Z.mul_le_mono_nonneg_l; [nn|lia]).
    fam_cases Hf; lia.
  Qed.
  Lemma big_mono (c s s' : Z) : 0 <= c -> s' <= s -> hal_bytes_of_vec_znx_big fam n c s' <= hal_bytes_of_vec_znx_big fam n c s.
  Proof using Hf Hn0 Hn8.
    intros. autounfold with c12gen. assert (n * c * s' <= n * c * s) by (apply Z.mul_le_mono_nonneg_l; [nn|lia]).
    fam_cases Hf; lia.
  Qed.
End Bytes.

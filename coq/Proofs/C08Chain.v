(* C08, tools: loops over `seq`, lists by index, finite sums, and the ideal carry chain
   (iterated balanced division) with its telescoping identity and bounds. *)
From PV Require Import Base.MachineInt Model.Znx Model.Limbs Proofs.ZnxDigit Proofs.C08Steps.
From PV Require Export Proofs.ListFacts.
Open Scope Z_scope.

Lemma fold_left_seq_ind_from {S : Type} (f : S -> nat -> S) (Inv : nat -> S -> Prop) (a n : nat) (s0 : S) :
  Inv 0%nat s0 ->
  (forall j s, (j < n)%nat -> Inv j s -> Inv (Datatypes.S j) (f s (a + j)%nat)) ->
  Inv n (fold_left f (seq a n) s0).
Proof.
  induction n as [|n IH]; intros H0 Hstep; [exact H0|].
  rewrite seq_S, fold_left_app. cbn [fold_left].
  apply Hstep; [lia|]. apply IH; auto.
Qed.

Lemma fold_left_seq_ind {S : Type} (f : S -> nat -> S) (Inv : nat -> S -> Prop) (n : nat) (s0 : S) :
  Inv 0%nat s0 ->
  (forall j s, (j < n)%nat -> Inv j s -> Inv (Datatypes.S j) (f s j)) ->
  Inv n (fold_left f (seq 0 n) s0).
Proof. intros H0 Hs. apply (fold_left_seq_ind_from f Inv 0 n s0 H0). exact Hs. Qed.

Definition nth_zeros := nthZ_zeros.
Definition list_eq_nth := nthZ_ext.

Lemma nth_upd (l : list Z) (k i : nat) (x : Z) :
  nthZ (upd l k x) i = if (Nat.eqb i k && Nat.ltb k (length l))%bool then x else nthZ l i.
Proof.
  unfold nthZ. revert k i; induction l as [|h t IH]; intros k i.
  - cbn [upd length]. destruct (Nat.eqb i k); reflexivity.
  - destruct k as [|k], i as [|i]; cbn [upd nth length]; try reflexivity.
    rewrite IH. replace (Nat.ltb (S k) (S (length t))) with (Nat.ltb k (length t)); [reflexivity|].
    destruct (Nat.ltb_spec k (length t)), (Nat.ltb_spec (S k) (S (length t))); auto; lia.
Qed.

(* case analysis on every nat comparison in the goal (index conditions `lo <= i < hi` of a list given by index);
   the calls close the contradictory combinations by lia and the others by reflexivity *)
Ltac natb :=
  repeat match goal with
  | |- context [Nat.leb ?a ?b] => destruct (Nat.leb_spec a b)
  | |- context [Nat.ltb ?a ?b] => destruct (Nat.ltb_spec a b)
  | |- context [Nat.eqb ?a ?b] => destruct (Nat.eqb_spec a b)
  end; cbn [andb orb negb].

Lemma zero_range_spec (r : list Z) (lo hi : nat) :
  length (zero_range r lo hi) = length r /\
  forall i, nthZ (zero_range r lo hi) i = if (Nat.leb lo i && Nat.ltb i hi)%bool then 0 else nthZ r i.
Proof.
  unfold zero_range.
  pose proof (fold_left_seq_ind_from (fun r0 j => upd r0 j 0) (fun j (r' : list Z) => length r' = length r /\
    forall i, nthZ r' i = if (Nat.leb lo i && Nat.ltb i (lo + j))%bool then 0 else nthZ r i)
    lo (hi - lo) r) as HI.
  destruct HI as [I1 I2].
  - split; [reflexivity|]. intros i. natb; try reflexivity; lia.
  - intros j r' Hj [Il In]. split; [rewrite upd_length; exact Il|].
    intros i. rewrite nth_upd, Il, In. natb; try reflexivity; try lia.
    rewrite nthZ_overflow by lia. reflexivity.
  - split; [exact I1|]. intros i. rewrite I2. natb; try reflexivity; lia.
Qed.

(* headroom of a limb vector, by index (the default 0 is inside) *)
Definition hrl (l : list Z) : Prop := forall i, Z.abs (nthZ l i) <= 2 ^ 62.

Lemma hrl_of_Forall (l : list Z) : Forall (fun x => Z.abs x <= 2 ^ 62) l -> hrl l.
Proof.
  intros HF i. destruct (Nat.lt_ge_cases i (length l)) as [Hi|Hi].
  - rewrite Forall_forall in HF. apply HF. unfold nthZ. apply nth_In; auto.
  - rewrite nthZ_overflow by auto. cbn. lia.
Qed.

Lemma hrl_zeros (k : nat) : hrl (zeros k).
Proof. intros i. rewrite nth_zeros. cbn; lia. Qed.

Fixpoint sumn (n : nat) (f : nat -> Z) : Z :=
  match n with O => 0 | S n' => sumn n' f + f n' end.

Lemma sumn_ext (n : nat) (f g : nat -> Z) : (forall t, (t < n)%nat -> f t = g t) -> sumn n f = sumn n g.
Proof.
  induction n as [|n IH]; intros Hfg; cbn [sumn]; [reflexivity|].
  rewrite IH, Hfg by (auto; intros; apply Hfg; lia). reflexivity.
Qed.

Lemma sumn_add (n m : nat) (f : nat -> Z) : sumn (n + m) f = sumn n f + sumn m (fun t => f (n + t)%nat).
Proof.
  induction m as [|m IH]; cbn [sumn].
  - rewrite Nat.add_0_r. lia.
  - rewrite Nat.add_succ_r. cbn [sumn]. rewrite IH. lia.
Qed.

Lemma sumn_scale (n : nat) (k : Z) (f : nat -> Z) : sumn n (fun t => k * f t) = k * sumn n f.
Proof. induction n as [|n IH]; cbn [sumn]; [lia|]. rewrite IH. ring. Qed.

Lemma sumn_plus (n : nat) (f g : nat -> Z) : sumn n (fun t => f t + g t) = sumn n f + sumn n g.
Proof. induction n as [|n IH]; cbn [sumn]; [lia|]. rewrite IH. ring. Qed.

Lemma sumn_zero (n : nat) (f : nat -> Z) : (forall t, (t < n)%nat -> f t = 0) -> sumn n f = 0.
Proof.
  induction n as [|n IH]; intros Hf; cbn [sumn]; [reflexivity|].
  rewrite IH, Hf by (auto; intros; apply Hf; lia). reflexivity.
Qed.

Lemma sumn_rev (n : nat) (f : nat -> Z) : sumn n f = sumn n (fun t => f (n - 1 - t)%nat).
Proof.
  induction n as [|n IH]; [reflexivity|].
  replace (S n) with (1 + n)%nat at 2 by lia. rewrite sumn_add. cbn [sumn].
  rewrite IH. replace (S n - 1 - 0)%nat with n by lia.
  rewrite Z.add_0_l, Z.add_comm. f_equal. apply sumn_ext. intros t Ht. f_equal. lia.
Qed.

Section Chain.
Variable b : Z.
Hypothesis Hb : 1 <= b.

(* carry entering position j, for inputs v (least significant first) and initial carry c0 *)
Fixpoint car (v : nat -> Z) (c0 : Z) (j : nat) : Z :=
  match j with O => c0 | S j' => bdiv b (v j' + car v c0 j') end.

(* digit produced at position j *)
Definition dig (v : nat -> Z) (c0 : Z) (j : nat) : Z := wrap b (v j + car v c0 j).

Lemma car_S (v : nat -> Z) (c0 : Z) (j : nat) : car v c0 (S j) = bdiv b (v j + car v c0 j).
Proof. reflexivity. Qed.

Lemma car_ext (v v' : nat -> Z) (c0 : Z) (j : nat) :
  (forall t, (t < j)%nat -> v t = v' t) -> car v c0 j = car v' c0 j.
Proof.
  induction j as [|j IH]; intros Hv; cbn [car]; [reflexivity|].
  rewrite IH, Hv by (auto; intros; apply Hv; lia). reflexivity.
Qed.

Lemma dig_ext (v v' : nat -> Z) (c0 : Z) (j : nat) :
  (forall t, (t <= j)%nat -> v t = v' t) -> dig v c0 j = dig v' c0 j.
Proof.
  intros Hv. unfold dig. rewrite (car_ext v v' c0 j), Hv by (auto; intros; apply Hv; lia). reflexivity.
Qed.

Lemma car_shift (v : nat -> Z) (c0 : Z) (p j : nat) :
  car v c0 (p + j) = car (fun t => v (p + t)%nat) (car v c0 p) j.
Proof.
  induction j as [|j IH]; [rewrite Nat.add_0_r; reflexivity|].
  rewrite Nat.add_succ_r. cbn [car]. rewrite IH. reflexivity.
Qed.

Lemma dig_shift (v : nat -> Z) (c0 : Z) (p j : nat) :
  dig v c0 (p + j) = dig (fun t => v (p + t)%nat) (car v c0 p) j.
Proof. unfold dig. rewrite car_shift. reflexivity. Qed.

Lemma dig_range (v : nat -> Z) (c0 : Z) (j : nat) : in_range b (dig v c0 j).
Proof. apply wrap_range; auto. Qed.

Lemma car_bound (H : Z) (v : nat -> Z) (c0 : Z) (j : nat) : 0 <= H ->
  (forall t, (t < j)%nat -> Z.abs (v t) <= H * 2 ^ (b - 1)) -> Z.abs c0 <= H -> Z.abs (car v c0 j) <= H.
Proof.
  intros HH. induction j as [|j IH]; intros Hv Hc; cbn [car]; [exact Hc|].
  apply bdiv_chain; [exact Hb | exact HH | apply Hv; lia | apply IH; [intros; apply Hv; lia | exact Hc]].
Qed.

(* telescoping: inputs + initial carry = digits + final carry, as integers (little endian weights) *)
Lemma chain_sum (v : nat -> Z) (c0 : Z) (j : nat) :
  sumn j (fun t => v t * 2 ^ (zn t * b)) + c0
  = sumn j (fun t => dig v c0 t * 2 ^ (zn t * b)) + 2 ^ (zn j * b) * car v c0 j.
Proof.
  induction j as [|j IH]; cbn [sumn car].
  - change (zn 0) with 0. rewrite Z.mul_0_l, Z.pow_0_r. lia.
  - pose proof (wrap_bdiv b (v j + car v c0 j) Hb) as Hd. fold (dig v c0 j) in Hd.
    assert (E : 2 ^ (zn (S j) * b) = 2 ^ (zn j * b) * 2 ^ b).
    { unfold zn. rewrite <- Z.pow_add_r by lia. f_equal. lia. }
    rewrite E. nia.
Qed.

(* a run of balanced digits is smaller than one unit of the next position *)
Lemma digits_small (d : nat -> Z) (j : nat) : (forall t, (t < j)%nat -> in_range b (d t)) ->
  Z.abs (sumn j (fun t => d t * 2 ^ (zn t * b))) <= 2 ^ (zn j * b) - 1.
Proof.
  induction j as [|j IH]; intros Hd; cbn [sumn].
  - change (zn 0) with 0. rewrite Z.mul_0_l, Z.pow_0_r. lia.
  - assert (E : 2 ^ (zn (S j) * b) = 2 ^ (zn j * b) * 2 ^ b).
    { unfold zn. rewrite <- Z.pow_add_r by lia. f_equal. lia. }
    specialize (IH ltac:(intros; apply Hd; lia)).
    destruct (Hd j ltac:(lia)) as [D1 D2].
    pose proof (pow2_pos (zn j * b) ltac:(unfold zn; lia)) as Hp.
    pose proof (pow2_pos (b - 1) ltac:(lia)) as Hp1.
    pose proof (pow2_split b Hb) as Hs. rewrite E. nia.
Qed.

(* the carry through a gap of zero limbs reaches a fixed point *)

Definition zseq : nat -> Z := fun _ => 0.

Lemma car_zseq_S (c : Z) (j : nat) : car zseq c (S j) = car zseq (bdiv b c) j.
Proof.
  replace (S j) with (1 + j)%nat by lia. rewrite car_shift. cbn [car]. unfold zseq at 2. cbn.
  apply car_ext. reflexivity.
Qed.

(* one step over a zero limb divides the magnitude bound by 2^b (down to 1) *)
Lemma bdiv_shrink (e c : Z) : 0 <= e -> Z.abs c <= 2 ^ e -> Z.abs (bdiv b c) <= 2 ^ (Z.max (e - b) 0).
Proof.
  intros He Hc. pose proof (bdiv_abs b c Hb) as Hk.
  pose proof (pow2_pos (b - 1) ltac:(lia)) as Hp.
  pose proof (pow2_split b Hb) as Hs.
  set (K := Z.abs (bdiv b c)) in *.
  destruct (Z_le_gt_dec b e) as [Hbe|Hbe].
  - rewrite Z.max_l by lia.
    assert (E : 2 ^ e = 2 ^ b * 2 ^ (e - b)) by (rewrite <- Z.pow_add_r by lia; f_equal; lia).
    pose proof (pow2_pos (e - b) ltac:(lia)) as Hq.
    destruct (Z_le_gt_dec K (2 ^ (e - b))) as [|Hgt]; auto.
    assert ((2 ^ (e - b) + 1) * 2 ^ b <= K * 2 ^ b) by (apply Z.mul_le_mono_nonneg_r; lia).
    nia.
  - rewrite Z.max_r by lia. change (2 ^ 0) with 1.
    assert (Hle : 2 ^ e <= 2 ^ (b - 1)) by (apply Z.pow_le_mono_r; lia).
    destruct (Z_le_gt_dec K 1) as [|Hgt]; auto.
    assert (2 * 2 ^ b <= K * 2 ^ b) by (apply Z.mul_le_mono_nonneg_r; lia).
    lia.
Qed.

(* k steps over zero limbs bring a carry within 2^e, e <= k b, down to {-1, 0, 1} *)
Lemma car_zseq_small_w (k : nat) : forall (e c : Z), 0 <= e -> e <= zn k * b -> Z.abs c <= 2 ^ e ->
  Z.abs (car zseq c k) <= 1.
Proof.
  induction k as [|k IH]; intros e c He Hek Hc.
  - cbn [car]. assert (e = 0) by (unfold zn in Hek; lia). subst e. exact Hc.
  - rewrite car_zseq_S. apply (IH (Z.max (e - b) 0)).
    + lia.
    + unfold zn in *. lia.
    + apply bdiv_shrink; auto.
Qed.

Lemma bdiv_fix_of_small (c : Z) : Z.abs c <= 1 -> bdiv b (bdiv b c) = bdiv b c.
Proof.
  intros Hc.
  pose proof (pow2_pos (b - 1) ltac:(lia)) as Hp.
  pose proof (pow2_split b Hb) as Hs.
  assert (Hcases : c = -1 \/ c = 0 \/ c = 1) by lia.
  assert (E0 : bdiv b 0 = 0) by (apply bdiv_zero; auto).
  destruct Hcases as [ -> | [ -> | -> ] ].
  - assert (E : bdiv b (-1) = 0) by (unfold bdiv; apply Z.div_small; lia).
    rewrite E. exact E0.
  - rewrite E0. exact E0.
  - destruct (Z.eq_dec (2 ^ (b - 1)) 1) as [E1|E1].
    + assert (E : bdiv b 1 = 1) by (unfold bdiv; rewrite Hs, E1; reflexivity).
      rewrite E. exact E.
    + assert (E : bdiv b 1 = 0) by (unfold bdiv; apply Z.div_small; lia).
      rewrite E. exact E0.
Qed.

Lemma car_zseq_fix (f : Z) (j : nat) : bdiv b f = f -> car zseq f j = f.
Proof.
  intros Hf. induction j as [|j IH]; [reflexivity|]. rewrite car_zseq_S, Hf. exact IH.
Qed.

(* `cap` steps are as good as any larger number of steps when (cap - 1) b >= e; trivially when gap <= cap *)
Lemma car_zseq_sat_w (cap : nat) (e c : Z) (g : nat) : 0 <= e -> Z.abs c <= 2 ^ e ->
  e <= (zn cap - 1) * b \/ (g <= cap)%nat ->
  car zseq c (Nat.min g cap) = car zseq c g.
Proof.
  intros He Hc Hcap. destruct (Nat.le_gt_cases g cap) as [Hg|Hg].
  - rewrite Nat.min_l by auto. reflexivity.
  - destruct Hcap as [Hcap|Hcap]; [|lia]. rewrite Nat.min_r by lia.
    assert (Hc1 : (1 <= cap)%nat).
    { destruct cap as [|cap']; [|lia]. exfalso. unfold zn in Hcap. change (Z.of_nat 0) with 0 in Hcap. lia. }
    set (k := (cap - 1)%nat).
    assert (Hs : Z.abs (car zseq c k) <= 1).
    { apply (car_zseq_small_w k e c He); [|exact Hc]. unfold k, zn in *. rewrite Nat2Z.inj_sub by lia. cbn. lia. }
    assert (Ecap : car zseq c cap = bdiv b (car zseq c k)).
    { replace cap with (S k) by (unfold k; lia). rewrite car_S. unfold zseq at 1. f_equal. }
    assert (Hfix : forall j, car zseq c (cap + j) = car zseq c cap).
    { intros j. rewrite car_shift. rewrite (car_ext _ zseq) by reflexivity.
      apply car_zseq_fix. rewrite Ecap. apply bdiv_fix_of_small; exact Hs. }
    replace g with (cap + (g - cap))%nat by lia. rewrite Hfix. reflexivity.
Qed.

End Chain.

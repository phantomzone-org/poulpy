(* C09 item 5: Galois-element arithmetic: mod_exp_u64 is exponentiation mod 2^64,
   galois_element_inv inverts odd elements modulo 2n = 2^(m+1). *)
From Coq Require Import Znumtheory Zpow_facts.
From PV Require Import Base.MachineInt Model.C09Galois.
Open Scope Z_scope.

Lemma mod_exp_loop_spec fuel : forall y xp e,
  0 <= y < 2 ^ 64 -> 0 <= e < 2 ^ Z.of_nat fuel ->
  mod_exp_loop fuel y xp e = (y * xp ^ e) mod 2 ^ 64.
Proof.
  induction fuel as [|f IH]; intros y xp e Hy He.
  - cbn [mod_exp_loop]. assert (e = 0) by (cbn in He; lia). subst e.
    rewrite Z.pow_0_r, Z.mul_1_r. symmetry; apply Z.mod_small; lia.
  - cbn [mod_exp_loop]. destruct (Z.leb_spec e 0) as [H0|Hpos].
    + assert (e = 0) by lia. subst e.
      rewrite Z.pow_0_r, Z.mul_1_r. symmetry; apply Z.mod_small; lia.
    + assert (HM : 0 < 2 ^ 64) by (apply pow2_pos; lia).
      assert (He2 : 0 <= e / 2 < 2 ^ Z.of_nat f).
      { rewrite Nat2Z.inj_succ, Z.pow_succ_r in He by lia.
        split; [apply Z.div_pos; lia | apply Z.div_lt_upper_bound; lia]. }
      rewrite IH; auto.
      2:{ unfold wrapu. destruct (Z.odd e); [apply Z.mod_pos_bound; lia | lia]. }
      unfold wrapu.
      pose proof (Z.div_mod e 2 ltac:(lia)) as Hdm.
      rewrite Zmult_mod. rewrite <- Zpower_mod by lia. rewrite <- Zmult_mod.
      rewrite <- Z.pow_2_r, <- Z.pow_mul_r by lia.
      rewrite Zodd_mod.
      destruct (Zeq_bool (e mod 2) 1) eqn:Hb.
      * apply Zeq_bool_eq in Hb.
        rewrite Zmult_mod, Z.mod_mod, <- Zmult_mod by lia.
        f_equal. rewrite <- Z.mul_assoc. f_equal.
        rewrite <- (Z.pow_1_r xp) at 1. rewrite <- Z.pow_add_r by lia. f_equal. lia.
      * apply Zeq_bool_neq in Hb.
        f_equal. f_equal. f_equal. pose proof (Z.mod_pos_bound e 2 ltac:(lia)). lia.
Qed.

Lemma mod_exp_u64_spec x e : 0 <= e < 2 ^ 64 -> mod_exp_u64 x e = x ^ e mod 2 ^ 64.
Proof.
  intros He. unfold mod_exp_u64. rewrite mod_exp_loop_spec.
  - rewrite Z.mul_1_l. reflexivity.
  - split; [lia | apply (pow2_pos 64); lia].
  - exact He.
Qed.

Lemma odd_pow_pow2_nat g (k : nat) :
  Z.odd g = true -> exists t, g ^ (2 ^ Z.of_nat k) = 1 + 2 ^ (Z.of_nat k + 1) * t.
Proof.
  intros Ho. induction k as [|k [t Ht]].
  - cbn [Z.of_nat]. rewrite Z.pow_0_r, Z.pow_1_r. change (2 ^ (0 + 1)) with 2.
    apply Zodd_bool_iff, Zodd_ex_iff in Ho. destruct Ho as [t Ht]. exists t. lia.
  - rewrite Nat2Z.inj_succ.
    pose proof (pow2_pos (Z.of_nat k) ltac:(lia)) as Hp.
    rewrite (Z.pow_succ_r 2 (Z.of_nat k)) by lia.
    rewrite (Z.mul_comm 2), Z.pow_mul_r by lia.
    rewrite Ht. exists (t + 2 ^ Z.of_nat k * t * t).
    replace (Z.succ (Z.of_nat k) + 1) with (Z.of_nat k + 1 + 1) by lia.
    rewrite (Z.pow_add_r 2 (Z.of_nat k + 1) 1) by lia.
    rewrite (Z.pow_add_r 2 (Z.of_nat k) 1) by lia. rewrite Z.pow_1_r.
    ring.
Qed.

Lemma odd_pow_pow2 g m : 0 <= m -> Z.odd g = true -> g ^ (2 ^ m) mod 2 ^ (m + 1) = 1.
Proof.
  intros Hm Ho. destruct (odd_pow_pow2_nat g (Z.to_nat m) Ho) as [t Ht].
  rewrite Z2Nat.id in Ht by lia. rewrite Ht.
  pose proof (pow2_pos (m + 1) ltac:(lia)) as Hp.
  assert (2 <= 2 ^ (m + 1)) by (rewrite Z.pow_add_r, Z.pow_1_r by lia; pose proof (pow2_pos m Hm); lia).
  rewrite Z.mul_comm, Z.mod_add by lia. apply Z.mod_small. lia.
Qed.

Lemma mod_mod_pow2 x c d : 0 <= c <= d -> (x mod 2 ^ d) mod 2 ^ c = x mod 2 ^ c.
Proof.
  intros H. symmetry. apply Zmod_div_mod; try (apply pow2_pos; lia).
  exists (2 ^ (d - c)). rewrite <- Z.pow_add_r by lia. f_equal. lia.
Qed.

Lemma odd_pow_pow2_order g c : 1 <= c -> Z.odd g = true -> g ^ (2 ^ c) mod 2 ^ c = 1.
Proof.
  intros Hc Ho. rewrite <- (mod_mod_pow2 _ c (c + 1)) by lia. rewrite odd_pow_pow2 by (lia || exact Ho).
  pose proof (pow2_split c Hc). pose proof (pow2_pos (c - 1) ltac:(lia)). apply Z.mod_small. lia.
Qed.

Lemma land_pow2_mask x c : 0 <= c -> Z.land x (2 ^ c - 1) = x mod 2 ^ c.
Proof. intros Hc. rewrite <- Z.land_ones by lia. rewrite Z.ones_equiv. reflexivity. Qed.

(* common shape of galois_element / galois_element_inv for co = 2^c, 1 <= c <= 63 *)
Lemma masked_signed_value x s c :
  1 <= c <= 63 -> (s = 1 \/ s = -1) ->
  wrap 64 (wrap 64 (Z.land x (wrapu 64 (2 ^ c - 1))) * s) = (x mod 2 ^ c) * s.
Proof.
  intros Hc Hs.
  pose proof (pow2_pos c ltac:(lia)) as Hp.
  assert (Hle : 2 ^ c <= 2 ^ 63) by (apply Z.pow_le_mono_r; lia).
  assert (H64 : 2 ^ 64 = 2 * 2 ^ 63) by reflexivity.
  unfold wrapu. rewrite (Z.mod_small (2 ^ c - 1)) by lia.
  rewrite land_pow2_mask by lia.
  pose proof (Z.mod_pos_bound x (2 ^ c) Hp) as Hb.
  assert (Hr : in_range 64 (x mod 2 ^ c)).
  { unfold in_range. replace (64 - 1) with 63 by lia. lia. }
  rewrite (wrap_id 64 (x mod 2 ^ c)) by (auto; lia).
  apply wrap_id; [lia|]. unfold in_range. replace (64 - 1) with 63 by lia.
  destruct Hs; subst s; lia.
Qed.

Lemma sgn_pm g : g <> 0 -> Z.sgn g = 1 \/ Z.sgn g = -1.
Proof. intros; destruct g; cbn; auto; congruence. Qed.

(* closed forms *)
Lemma galois_element_inv_value g c :
  1 <= c <= 63 -> g <> 0 ->
  galois_element_inv g (2 ^ c) = ((Z.abs g) ^ (2 ^ c - 1) mod 2 ^ c) * Z.sgn g.
Proof.
  intros Hc Hg. unfold galois_element_inv. cbv zeta.
  pose proof (pow2_pos c ltac:(lia)) as Hp.
  assert (Hle : 2 ^ c <= 2 ^ 63) by (apply Z.pow_le_mono_r; lia).
  assert (H64 : 2 ^ 64 = 2 * 2 ^ 63) by reflexivity.
  rewrite masked_signed_value by (auto using sgn_pm).
  f_equal.
  unfold wrapu at 2. rewrite (Z.mod_small (2 ^ c - 1)) by lia.
  rewrite mod_exp_u64_spec by lia.
  rewrite mod_mod_pow2 by lia.
  unfold wrapu.
  rewrite (Zpower_mod (Z.abs g mod 2 ^ 64)) by lia.
  rewrite mod_mod_pow2 by lia.
  rewrite <- Zpower_mod by lia. reflexivity.
Qed.

Theorem galois_inv_correct g m :
  0 <= m <= 62 -> Z.odd g = true ->
  (g * galois_element_inv g (2 * 2 ^ m)) mod (2 * 2 ^ m) = 1.
Proof.
  intros Hm Ho.
  replace (2 * 2 ^ m) with (2 ^ (m + 1)) by (rewrite Z.pow_add_r by lia; lia).
  assert (Hg : g <> 0) by (intros ->; discriminate).
  rewrite galois_element_inv_value by lia.
  pose proof (pow2_pos (m + 1) ltac:(lia)) as Hp.
  rewrite <- (Z.abs_sgn g) at 1.
  replace (Z.abs g * Z.sgn g * (Z.abs g ^ (2 ^ (m + 1) - 1) mod 2 ^ (m + 1) * Z.sgn g))
    with ((Z.sgn g * Z.sgn g) * (Z.abs g * (Z.abs g ^ (2 ^ (m + 1) - 1) mod 2 ^ (m + 1)))) by ring.
  replace (Z.sgn g * Z.sgn g) with 1 by (destruct (sgn_pm g Hg) as [-> | ->]; reflexivity).
  rewrite Z.mul_1_l.
  rewrite Zmult_mod, Z.mod_mod, <- Zmult_mod by lia.
  rewrite <- (Z.pow_1_r (Z.abs g)) at 1. rewrite <- Z.pow_add_r by lia.
  replace (1 + (2 ^ (m + 1) - 1)) with (2 ^ (m + 1)) by lia.
  apply odd_pow_pow2_order; [lia|].
  destruct g; cbn [Z.abs]; auto.
Qed.

Lemma galois_element_inv_odd g m :
  0 <= m <= 62 -> Z.odd g = true -> Z.odd (galois_element_inv g (2 * 2 ^ m)) = true.
Proof.
  intros Hm Ho. pose proof (galois_inv_correct g m Hm Ho) as H.
  pose proof (pow2_pos m ltac:(lia)) as Hp.
  destruct (Z.odd (galois_element_inv g (2 * 2 ^ m))) eqn:E; auto. exfalso.
  assert (He : Z.even (galois_element_inv g (2 * 2 ^ m)) = true) by (rewrite <- Z.negb_odd, E; reflexivity).
  apply Z.even_spec in He. destruct He as [t Ht]. rewrite Ht in H.
  pose proof (Z.div_mod (g * (2 * t)) (2 * 2 ^ m) ltac:(lia)) as Hd. rewrite H in Hd. lia.
Qed.


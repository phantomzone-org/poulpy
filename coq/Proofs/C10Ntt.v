(* C10 / NTT120: the AVX2 lane code of ntt120/arithmetic_avx.rs (cond_sub, barrett_reduce with mu = floor(2^61/Q),
   reduce_b_to_canonical, the c_from_b_avx2 loop body and the b_from_znx64_avx2 loop body) equals the scalar
   reference (Model/C07Ntt120.v: c_from_b_k, b_from_znx64_k), for EVERY u64 / i64 input. *)
From PV Require Import Base.MachineInt Model.Znx Model.C10AvxLanes Proofs.C10Avx Model.C07Ntt120.
Open Scope Z_scope.

Lemma to_u_of_u (u : Z) : 0 <= u < 2 ^ 64 -> to_u (of_u u) = u.
Proof.
  intros H. unfold to_u, of_u, wrapu. rewrite wrap_congr by lia. apply Z.mod_small; lia.
Qed.

Lemma to_u_nn (a : Z) : 0 <= a < 2 ^ 63 -> to_u a = a.
Proof. intros H; apply to_u_small; lia. Qed.

Lemma of_u_nn (a : Z) : 0 <= a < 2 ^ 63 -> of_u a = a.
Proof. intros H; apply of_u_small; lia. Qed.

Lemma mm_srli_nn (a k : Z) : 0 <= a < 2 ^ 63 -> 0 <= k < 64 -> mm_srli a k = a / 2 ^ k.
Proof.
  intros Ha Hk. unfold mm_srli. destruct (Z.ltb_spec k 64); [|lia].
  rewrite to_u_nn by lia. rewrite Z.shiftr_div_pow2 by lia.
  pose proof (pow2_pos k ltac:(lia)) as Hp.
  assert (0 <= a / 2 ^ k <= a).
  { split; [apply Z.div_pos; lia|]. apply Z.div_le_upper_bound; nia. }
  apply of_u_nn; lia.
Qed.

Lemma mm_add_nn (a b : Z) : 0 <= a -> 0 <= b -> a + b < 2 ^ 63 -> mm_add a b = a + b.
Proof. intros. unfold mm_add. apply wrap_id; [lia|]. apply in_range_64; lia. Qed.

Lemma mm_sub_nn (a b : Z) : 0 <= b <= a -> a < 2 ^ 63 -> mm_sub a b = a - b.
Proof. intros. unfold mm_sub. apply wrap_id; [lia|]. apply in_range_64; lia. Qed.

Lemma mod32_small (a : Z) : 0 <= a < 2 ^ 32 -> a mod 2 ^ 32 = a.
Proof. intros; apply Z.mod_small; lia. Qed.

Lemma mm_mul_epu32_nn (a b : Z) : 0 <= a < 2 ^ 32 -> 0 <= b < 2 ^ 32 -> a * b < 2 ^ 63 ->
  mm_mul_epu32 a b = a * b.
Proof.
  intros Ha Hb Hab. unfold mm_mul_epu32. rewrite !to_u_nn by lia.
  rewrite !mod32_small by lia. apply of_u_nn; nia.
Qed.

(* the product may reach 2^64 - 1: the shift is done on the bit pattern *)
Lemma mm_srli_mul (a b k : Z) : 0 <= a < 2 ^ 32 -> 0 <= b < 2 ^ 32 -> 1 <= k < 64 ->
  mm_srli (mm_mul_epu32 a b) k = (a * b) / 2 ^ k.
Proof.
  intros Ha Hb Hk. unfold mm_srli, mm_mul_epu32. destruct (Z.ltb_spec k 64); [|lia].
  rewrite (to_u_nn a), (to_u_nn b) by lia. rewrite !mod32_small by lia.
  assert (Hab : 0 <= a * b < 2 ^ 64) by nia.
  rewrite to_u_of_u by lia. rewrite Z.shiftr_div_pow2 by lia.
  pose proof (pow2_pos k ltac:(lia)) as Hp.
  assert (H2 : 2 ^ 64 = 2 ^ (64 - k) * 2 ^ k) by (apply pow2_64_split; lia).
  assert (H3 : 2 ^ (64 - k) <= 2 ^ 63) by (apply pow2_le; lia).
  assert (0 <= a * b / 2 ^ k < 2 ^ (64 - k)).
  { split; [apply Z.div_pos; lia|]. apply Z.div_lt_upper_bound; lia. }
  apply of_u_nn; lia.
Qed.

Lemma cond_sub_nn (x q : Z) : 0 <= x < 2 ^ 63 -> 0 <= q < 2 ^ 63 ->
  cond_sub_avx x q = if x <? q then x else x - q.
Proof.
  intros Hx Hq. unfold cond_sub_avx, mm_cmpgt, mm_andnot.
  destruct (Z.ltb_spec x q) as [Hlt|Hge].
  - rewrite (to_u_neg (-1)) by lia.
    replace (2 ^ 64 - 1 - (-1 + 2 ^ 64)) with 0 by lia. rewrite Z.land_0_l.
    rewrite (of_u_nn 0) by lia. rewrite mm_sub_nn by lia. lia.
  - rewrite (to_u_nn 0) by lia. rewrite Z.sub_0_r.
    rewrite Z.land_comm, land_mask_mod by lia.
    pose proof (to_u_range q). rewrite Z.mod_small by lia.
    rewrite to_u_nn, of_u_nn by lia. apply mm_sub_nn; lia.
Qed.

(* Barrett quotient in two halves: t = B*hi + lo below M = B*C, mu = floor(M/q).  The estimate
   hi*mu/C + lo*mu/M never exceeds t/q and misses it by less than 3. *)
Lemma barrett_approx B C q mu hi lo : 0 < B -> 0 < C -> 0 < q -> 0 <= hi -> 0 <= lo -> 0 <= mu ->
  mu * q <= B * C < mu * q + q -> B * hi + lo < B * C ->
  let qa := hi * mu / C + lo * mu / (B * C) in
  0 <= qa /\ qa * q <= B * hi + lo < qa * q + 3 * q.
Proof.
  intros HB HC Hq Hhi Hlo Hmu Hm Ht. cbv zeta.
  assert (HM : 0 < B * C) by (apply Z.mul_pos_pos; assumption).
  set (M := B * C) in *. set (qh := hi * mu / C). set (ql := lo * mu / M).
  assert (Hqh : C * qh <= hi * mu < C * qh + C).
  { unfold qh. pose proof (Z.mul_div_le (hi * mu) C HC). pose proof (Z.mul_succ_div_gt (hi * mu) C HC). lia. }
  assert (Hql : M * ql <= lo * mu < M * ql + M).
  { unfold ql. pose proof (Z.mul_div_le (lo * mu) M HM). pose proof (Z.mul_succ_div_gt (lo * mu) M HM). lia. }
  assert (Hqh0 : 0 <= qh) by (apply Z.div_pos; [apply Z.mul_nonneg_nonneg|]; assumption).
  assert (Hql0 : 0 <= ql) by (apply Z.div_pos; [apply Z.mul_nonneg_nonneg|]; assumption).
  clearbody qh ql.
  (* each half of the estimate is below the matching half of t / q ... *)
  assert (A1 : C * (qh * q) <= C * (B * hi)).
  { apply Z.le_trans with (hi * mu * q).
    - replace (C * (qh * q)) with (C * qh * q) by ring. apply Z.mul_le_mono_nonneg_r; lia.
    - replace (hi * mu * q) with (hi * (mu * q)) by ring. replace (C * (B * hi)) with (hi * M) by (unfold M; ring).
      apply Z.mul_le_mono_nonneg_l; lia. }
  apply Z.mul_le_mono_pos_l in A1; [|exact HC].
  assert (A2 : M * (ql * q) <= M * lo).
  { apply Z.le_trans with (lo * mu * q).
    - replace (M * (ql * q)) with (M * ql * q) by ring. apply Z.mul_le_mono_nonneg_r; lia.
    - replace (lo * mu * q) with (lo * (mu * q)) by ring. rewrite (Z.mul_comm M lo). apply Z.mul_le_mono_nonneg_l; lia. }
  apply Z.mul_le_mono_pos_l in A2; [|exact HM].
  split; [lia|]. split; [lia|].
  (* ... and the remainders of the two divisions and of mu cost one q each *)
  set (t := B * hi + lo) in *.
  assert (U1 : t * mu < M * (qh + ql) + 2 * M).
  { assert (B * (hi * mu) < B * (C * qh + C)) by (apply Z.mul_lt_mono_pos_l; lia). unfold t, M in *. lia. }
  assert (U2 : q * (t * mu) < q * (M * (qh + ql) + 2 * M)) by (apply Z.mul_lt_mono_pos_l; lia).
  assert (U3 : t * (M - mu * q) <= t * q) by (apply Z.mul_le_mono_nonneg_l; unfold t; lia).
  assert (U4 : t * q < M * q) by (apply Z.mul_lt_mono_pos_r; lia).
  apply (Z.mul_lt_mono_pos_l M); [exact HM|]. lia.
Qed.

Lemma barrett_reduce_eq (q tmp : Z) : 2 ^ 29 < q < 2 ^ 30 -> 0 <= tmp < 2 ^ 61 ->
  barrett_reduce_avx tmp q (2 ^ 61 / q) = tmp mod q.
Proof.
  intros Hq Ht. unfold barrett_reduce_avx. cbv beta iota zeta delta [mm_set1].
  set (mu := 2 ^ 61 / q).
  assert (Hmu : mu * q <= 2 ^ 32 * 2 ^ 29 < mu * q + q).
  { change (2 ^ 32 * 2 ^ 29) with (2 ^ 61). unfold mu. pose proof (Z.div_mod (2 ^ 61) q ltac:(lia)) as Hd.
    pose proof (Z.mod_pos_bound (2 ^ 61) q ltac:(lia)). lia. }
  assert (Hmu32 : 0 <= mu < 2 ^ 32) by (unfold mu; split; [apply Z.div_pos|apply Z.div_lt_upper_bound]; lia).
  rewrite (mm_srli_nn tmp 32) by lia.
  rewrite (mm_and_mask 32 tmp) by lia.
  set (hi := tmp / 2 ^ 32). set (lo := tmp mod 2 ^ 32).
  assert (Hsplit : tmp = 2 ^ 32 * hi + lo) by (unfold hi, lo; apply Z.div_mod; lia).
  assert (Hlo : 0 <= lo < 2 ^ 32) by (unfold lo; apply Z.mod_pos_bound; lia).
  assert (Hhi : 0 <= hi < 2 ^ 29).
  { unfold hi. split; [apply Z.div_pos; lia|]. apply Z.div_lt_upper_bound; lia. }
  rewrite !mm_srli_mul by lia.
  destruct (barrett_approx (2 ^ 32) (2 ^ 29) q mu hi lo) as (Hqa0 & HA & HB); try lia.
  change (2 ^ 32 * 2 ^ 29) with (2 ^ 61) in *. rewrite <- Hsplit in HA, HB.
  set (qh := hi * mu / 2 ^ 29) in *. set (ql := lo * mu / 2 ^ 61) in *.
  assert (Hqh0 : 0 <= qh) by (apply Z.div_pos; [apply Z.mul_nonneg_nonneg|]; lia).
  assert (Hql0 : 0 <= ql) by (apply Z.div_pos; [apply Z.mul_nonneg_nonneg|]; lia).
  clearbody qh ql hi lo mu. set (qa := qh + ql) in *.
  assert (Hqa : qa < 2 ^ 32).
  { destruct (Z_lt_le_dec qa (2 ^ 32)) as [Hl|Hl]; [exact Hl|exfalso].
    assert (2 ^ 32 * q <= qa * q) by (apply Z.mul_le_mono_nonneg_r; lia). lia. }
  assert (Hqaq : 0 <= qa * q) by (apply Z.mul_nonneg_nonneg; lia).
  rewrite (mm_add_nn qh ql) by (fold qa; lia). fold qa.
  rewrite (mm_mul_epu32_nn qa q) by lia.
  rewrite mm_sub_nn by lia.
  set (r := tmp - qa * q) in *.
  rewrite (cond_sub_nn r q) by lia.
  destruct (Z.ltb_spec r q) as [H1|H1].
  - rewrite cond_sub_nn by lia. destruct (Z.ltb_spec r q); [|lia].
    apply Z.mod_unique with (q := qa); unfold r; lia.
  - rewrite cond_sub_nn by lia. destruct (Z.ltb_spec (r - q) q) as [H2|H2].
    + apply Z.mod_unique with (q := qa + 1); unfold r; lia.
    + apply Z.mod_unique with (q := qa + 2); unfold r; lia.
Qed.

(* the side condition that makes tmp < 2^61 for EVERY u64 input (not only x < Q << 33):
   x_hi_r <= max(q - 1, 2^32 - 1 - q), times POW32, plus x_lo *)
Definition pow32_small (q : Z) : Prop := (2 ^ 32 - q) * (2 ^ 32 mod q) + 2 ^ 32 <= 2 ^ 61.

Lemma reduce_b_to_canonical_eq (q x : Z) : 2 ^ 29 < q < 2 ^ 30 -> pow32_small q -> 0 <= x < 2 ^ 64 ->
  reduce_b_to_canonical_avx (load_u64 x) q (2 ^ 61 / q) (2 ^ 32 mod q) = x mod q.
Proof.
  intros Hq Hp Hx. unfold pow32_small in Hp. unfold reduce_b_to_canonical_avx, load_u64.
  cbv beta iota zeta delta [mm_set1].
  set (p := 2 ^ 32 mod q) in *.
  assert (Hp0 : 0 <= p < q) by (unfold p; apply Z.mod_pos_bound; lia).
  (* x_hi, x_lo from the bit pattern *)
  assert (Hhi : mm_srli (of_u x) 32 = x / 2 ^ 32).
  { unfold mm_srli. destruct (Z.ltb_spec 32 64); [|lia]. rewrite to_u_of_u by lia.
    rewrite Z.shiftr_div_pow2 by lia.
    assert (0 <= x / 2 ^ 32 < 2 ^ 32).
    { split; [apply Z.div_pos; lia|]. apply Z.div_lt_upper_bound; lia. }
    apply of_u_nn; lia. }
  assert (Hlo : mm_and (of_u x) (2 ^ 32 - 1) = x mod 2 ^ 32).
  { rewrite mm_and_mask by lia. unfold of_u.
    rewrite <- (mod_mod_pow2 (wrap 64 x) 64 32) by lia. rewrite wrap_congr by lia.
    apply mod_mod_pow2; lia. }
  rewrite Hhi, Hlo.
  set (hi := x / 2 ^ 32). set (lo := x mod 2 ^ 32).
  assert (Hsplit : x = 2 ^ 32 * hi + lo) by (unfold hi, lo; apply Z.div_mod; lia).
  assert (Hlo' : 0 <= lo < 2 ^ 32) by (unfold lo; apply Z.mod_pos_bound; lia).
  assert (Hhi' : 0 <= hi < 2 ^ 32).
  { unfold hi. split; [apply Z.div_pos; lia|]. apply Z.div_lt_upper_bound; lia. }
  rewrite cond_sub_nn by lia.
  set (hr := if hi <? q then hi else hi - q).
  assert (Hhr : 0 <= hr <= 2 ^ 32 - q /\ (hr = hi \/ hr = hi - q)).
  { unfold hr. destruct (Z.ltb_spec hi q); lia. }
  assert (Hprod : 0 <= hr * p /\ hr * p + lo < 2 ^ 61) by nia.
  rewrite mm_mul_epu32_nn by nia.
  rewrite mm_add_nn by lia.
  rewrite barrett_reduce_eq by lia.
  (* congruence: hr*p + lo = x (mod q) *)
  pose proof (Z.div_mod (2 ^ 32) q ltac:(lia)) as Hd. fold p in Hd.
  set (c := 2 ^ 32 / q) in *.
  assert (Hx' : x = (q * c + p) * hi + lo) by (rewrite <- Hd; exact Hsplit).
  destruct Hhr as [_ [-> | ->]].
  - assert (E : hi * p + lo = x + (- hi * c) * q) by (rewrite Hx' at 1; ring).
    rewrite E. apply Z.mod_add; lia.
  - assert (E : (hi - q) * p + lo = x + (- hi * c - p) * q) by (rewrite Hx' at 1; ring).
    rewrite E. apply Z.mod_add; lia.
Qed.

Theorem c_from_b_avx_eq_ref (q x : Z) : 2 ^ 29 < q < 2 ^ 30 -> pow32_small q -> 0 <= x < 2 ^ 64 ->
  c_from_b_k_avx q x = c_from_b_k q x.
Proof.
  intros Hq Hp Hx. unfold c_from_b_k_avx, c_from_b_k.
  set (p := 2 ^ 32 mod q).
  assert (Hp0 : 0 <= p < q) by (unfold p; apply Z.mod_pos_bound; lia).
  assert (Hmu : 0 <= 2 ^ 61 / q < 2 ^ 32).
  { split; [apply Z.div_pos; lia|]. apply Z.div_lt_upper_bound; lia. }
  unfold load_u64 at 1 2 3.
  rewrite (of_u_nn q), (of_u_nn (2 ^ 61 / q)), (of_u_nn p) by lia.
  unfold c_from_b_lane_avx. cbv beta iota zeta. unfold p.
  rewrite !reduce_b_to_canonical_eq by assumption. fold p.
  set (r := x mod q).
  assert (Hr : 0 <= r < q) by (unfold r; apply Z.mod_pos_bound; lia).
  assert (Hrp : 0 <= r * p < 2 ^ 30 * 2 ^ 30) by (split; [apply Z.mul_nonneg_nonneg|apply Z.mul_lt_mono_nonneg]; lia).
  rewrite mm_mul_epu32_nn by lia.
  rewrite barrett_reduce_eq by lia.
  assert (Hrs : (r * p) mod q = u64 (r * 2 ^ 32) mod q).
  { unfold u64, wrapu. rewrite (Z.mod_small (r * 2 ^ 32)) by lia.
    unfold p. rewrite Z.mul_mod_idemp_r by lia. reflexivity. }
  rewrite Hrs. set (s := u64 (r * 2 ^ 32) mod q).
  assert (Hs : 0 <= s < q) by (unfold s; apply Z.mod_pos_bound; lia).
  (* pack *)
  clearbody s r p. clear Hp Hmu Hx.
  assert (Hs32 : 0 <= s * 2 ^ 32 < 2 ^ 62) by lia.
  assert (Hsl : mm_slli s 32 = s * 2 ^ 32).
  { unfold mm_slli. destruct (Z.ltb_spec 32 64); [|lia]. rewrite to_u_nn by lia.
    rewrite Z.shiftl_mul_pow2 by lia. apply of_u_nn; lia. }
  rewrite Hsl. unfold mm_or. rewrite (to_u_nn r), (to_u_nn (s * 2 ^ 32)) by lia.
  rewrite lor_disjoint_add by (apply land_low_high; lia).
  unfold store_2xu32. rewrite of_u_nn by lia. rewrite to_u_nn by lia.
  unfold u32, wrapu. rewrite (Z.mod_small r (2 ^ 32)), (Z.mod_small s (2 ^ 32)) by lia.
  f_equal; [|f_equal].
  - rewrite Z.mod_add by lia. apply Z.mod_small; lia.
  - rewrite Z.div_add by lia. rewrite Z.div_small by lia. lia.
Qed.

Lemma primes30_side (q : Z) : In q primes30_Q -> 2 ^ 29 < q < 2 ^ 30 /\ pow32_small q.
Proof.
  unfold primes30_Q, pow32_small. cbn [In]. intros [<-|[<-|[<-|[<-|[]]]]]; vm_compute; repeat split; discriminate.
Qed.

Theorem b_from_znx64_avx_eq_ref (q x : Z) : 1 <= q < 2 ^ 62 -> in_range 64 x ->
  b_from_znx64_k_avx q x = b_from_znx64_k q x.
Proof.
  intros Hq Hx. apply in_range_64_elim in Hx.
  unfold b_from_znx64_k_avx, b_from_znx64_k, b_from_znx64_lane_avx, store_u64, load_u64.
  cbv beta iota zeta delta [mm_set1]. fold (oq q).
  assert (Hoq : 0 < oq q <= q).
  { unfold oq. pose proof (Z.mod_pos_bound (2 ^ 63) q ltac:(lia)). lia. }
  rewrite (of_u_nn (oq q)) by lia.
  rewrite (mm_and_mask 63 x) by lia.
  rewrite mm_and_neg_mask by (apply in_range_64; lia).
  unfold mm_add, to_u, u64, wrapu. rewrite wrap_congr by lia.
  rewrite (mod_mod_pow2 x 64 63) by lia.
  f_equal. f_equal.
  destruct (Z.ltb_spec x 0) as [Hn|Hn].
  - pose proof (to_u_neg x ltac:(lia)) as Hu. unfold to_u, wrapu in Hu. rewrite Hu.
    destruct (Z.ltb_spec (2 ^ 63 - 1) (x + 2 ^ 64)); [reflexivity|lia].
  - rewrite Z.mod_small by lia. destruct (Z.ltb_spec (2 ^ 63 - 1) x); [lia|reflexivity].
Qed.

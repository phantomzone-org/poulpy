(* C11 for the DFT-domain operations of C07 (run_c07 returns the selected output column only):
   - the output is a function of the SELECTED input columns (limbs < size), sizes and parameters: nothing else of the
     input buffers (other columns, limbs beyond the size, spare capacity) is read;
   - every limb j < rsize of the output is produced: the flat output has exactly rsize * n words. *)
From PV Require Import Base.MachineInt Model.Znx Model.Limbs Model.Flat Model.Ring Model.DftAbs Model.C07Run
  Proofs.C11Frame Proofs.C11Read Proofs.C07Dft Proofs.C07Ring Proofs.C07Shape Proofs.ListFacts.
From Coq Require Import Arith PeanoNat List Bool.
Open Scope Z_scope.

Definition c07_codes : list Z := [7001; 7002; 7003; 7004; 7005; 7006; 7007; 7008; 7009; 7010; 7011; 7012].

(* what each operation reads: selected columns (all their active limbs) / the scalar limb *)
Definition c07_sel (code : Z) (ps : list Z) (vs : list (list Z)) : list plimbs :=
  let n := np ps 1 in
  let rsz := np ps 3 in
  let acols := np ps 5 in let asz := np ps 6 in let acol := np ps 7 in
  let bcols := np ps 8 in let bsz := np ps 9 in let bcol := np ps 10 in
  let a := colof n acols asz acol (v vs 0) in
  let b := colof n bcols bsz bcol (v vs 1) in
  let r0 := colof n 1 rsz 0 (v vs 1) in
  let s := [limb_at n acols (v vs 0) acol 0] in
  match code with
  | 7001 | 7002 => [a]
  | 7003 | 7004 => [a; b]
  | 7005 | 7006 | 7007 | 7008 => [a; r0]
  | 7010 | 7011 => [s; b]
  | 7012 => [s; r0]
  | _ => []
  end.

Theorem c07_depends code ps vs1 vs2 :
  In code c07_codes -> c07_sel code ps vs1 = c07_sel code ps vs2 ->
  run_c07 code ps vs1 = run_c07 code ps vs2.
Proof.
  intros Hin H. unfold c07_codes in Hin.
  code_cases Hin ltac:(
    cbv beta iota zeta delta [run_c07 c07_sel] in H |- *;
    try (injection H; intros); congruence).
Qed.

(* vmp depends on the limbs of a and of the matrix that the shape rule selects *)
Lemma vmp_ext n rcols rsz acols asz rows msize lo aflat aflat' mflat mflat' c :
  (forall q, (q < Nat.min (acols * rows) (acols * asz))%nat -> aflat q = aflat' q) ->
  (forall q c', (q < Nat.min (acols * rows) (acols * asz))%nat -> mflat q c' = mflat' q c') ->
  vmp n rcols rsz acols asz rows msize lo aflat mflat c = vmp n rcols rsz acols asz rows msize lo aflat' mflat' c.
Proof.
  intros Ha Hm. unfold vmp. cbv zeta.
  destruct (Nat.leb _ _); [reflexivity|]. destruct (Nat.ltb _ _); [|reflexivity].
  apply fold_left_seq_ext. intros t q Hq. rewrite Ha, Hm by exact Hq. reflexivity.
Qed.

Lemma concat_map_length (A : Type) n (g : A -> list Z) (l : list A) :
  (forall x, In x l -> length (g x) = n) -> length (concat (map g l)) = (length l * n)%nat.
Proof.
  induction l as [|x l IH]; intros H; cbn [map concat length]; [reflexivity|].
  rewrite app_length, IH, (H x) by (try (intros; apply H; right; assumption); left; reflexivity). lia.
Qed.

Lemma flat_mk_length n rsz f :
  (forall j, (j < rsz)%nat -> length (f j) = n) -> length (flat (mk rsz f)) = (rsz * n)%nat.
Proof.
  intros H. unfold flat, mk. rewrite (concat_map_length _ n) by (intros j Hj; apply in_seq in Hj; apply H; lia).
  rewrite seq_length. reflexivity.
Qed.

Lemma colof_length n cols size col d : length (colof n cols size col d) = size.
Proof. apply col_limbs_length. Qed.

Lemma colof_wf n cols size col d :
  (col < cols)%nat -> (n * cols * size <= length d)%nat -> wf n (colof n cols size col d).
Proof.
  intros Hc Hd j Hj. rewrite colof_length in Hj. unfold lim, colof.
  rewrite col_limbs_nth by exact Hj. apply limb_at_length. apply (limb_fits n cols size); assumption.
Qed.

(* case analysis on every Nat.ltb / Nat.leb test in the goal *)
Ltac ifs :=
  repeat match goal with
  | |- context [Nat.ltb ?a ?b] => destruct (Nat.ltb_spec a b)
  | |- context [Nat.leb ?a ?b] => destruct (Nat.leb_spec a b)
  end; cbn [andb].

(* closes a goal about the length of a polynomial expression over limbs of a and b (Ha, Hb : their limbs have n words) *)
Ltac lens Ha Hb :=
  rewrite ?padd_length, ?psub_length, ?pneg_length, ?pmul_length, ?pzero_length;
  rewrite ?Ha, ?Hb by lia; rewrite ?pzero_length; try lia; try reflexivity.

Section Lengths.
Variables (n : nat) (a b : plimbs).
Hypothesis Ha : wf n a.
Hypothesis Hb : wf n b.

Lemma dft_select_flat_length rsz step offset :
  length (flat (dft_select n rsz step offset a)) = (rsz * n)%nat.
Proof. unfold dft_select. cbv zeta. apply flat_mk_length. intros j Hj. ifs; lens Ha Hb. Qed.

Lemma dft_add_flat_length rsz : length (flat (dft_add n rsz a b)) = (rsz * n)%nat.
Proof. unfold dft_add. cbv zeta. apply flat_mk_length. intros j Hj. ifs; lens Ha Hb. Qed.

Lemma dft_sub_flat_length rsz : length (flat (dft_sub n rsz a b)) = (rsz * n)%nat.
Proof. unfold dft_sub. cbv zeta. apply flat_mk_length. intros j Hj. ifs; lens Ha Hb. Qed.

(* in-place forms: b plays the role of the prior destination column *)
Lemma dft_add_assign_flat_length : length (flat (dft_add_assign a b)) = (length b * n)%nat.
Proof. unfold dft_add_assign. apply flat_mk_length. intros j Hj. ifs; lens Ha Hb. Qed.

Lemma dft_sub_assign_flat_length : length (flat (dft_sub_assign a b)) = (length b * n)%nat.
Proof. unfold dft_sub_assign. apply flat_mk_length. intros j Hj. ifs; lens Ha Hb. Qed.

Lemma dft_sub_negate_assign_flat_length : length (flat (dft_sub_negate_assign a b)) = (length b * n)%nat.
Proof. unfold dft_sub_negate_assign. apply flat_mk_length. intros j Hj. ifs; lens Ha Hb. Qed.

Lemma dft_add_scaled_assign_flat_length scale :
  length (flat (dft_add_scaled_assign scale a b)) = (length b * n)%nat.
Proof.
  unfold dft_add_scaled_assign. cbv zeta.
  destruct (0 <? scale); [|destruct (scale <? 0)].
  - apply flat_mk_length. intros j Hj. ifs; lens Ha Hb.
  - apply flat_mk_length. intros j Hj. ifs; lens Ha Hb.
  - apply dft_add_assign_flat_length.
Qed.

Lemma svp_apply_flat_length rsz s : length s = n -> length (flat (svp_apply n rsz s b)) = (rsz * n)%nat.
Proof. intros Hs. unfold svp_apply. apply flat_mk_length. intros j Hj. ifs; lens Ha Hb. Qed.

Lemma svp_apply_assign_flat_length s : length s = n -> length (flat (svp_apply_assign s b)) = (length b * n)%nat.
Proof.
  intros Hs. unfold svp_apply_assign, flat. apply concat_map_length. intros x _. rewrite pmul_length. exact Hs.
Qed.
End Lengths.

Lemma zero_flat_length n rsz : length (flat (mk rsz (fun _ => pzero n))) = (rsz * n)%nat.
Proof. apply flat_mk_length. intros. apply pzero_length. Qed.

(* the buffers hold the columns they are declared to hold *)
Definition c07_fits (code : Z) (ps : list Z) (vs : list (list Z)) : Prop :=
  let n := np ps 1 in
  let rsz := np ps 3 in
  let acols := np ps 5 in let asz := np ps 6 in let acol := np ps 7 in
  let bcols := np ps 8 in let bsz := np ps 9 in let bcol := np ps 10 in
  let fa := (acol < acols /\ n * acols * asz <= length (v vs 0))%nat in
  let fb := (bcol < bcols /\ n * bcols * bsz <= length (v vs 1))%nat in
  let fr := (n * 1 * rsz <= length (v vs 1))%nat in
  let fs := (n * acol + n <= length (v vs 0))%nat in
  match code with
  | 7001 | 7002 => fa
  | 7003 | 7004 => fa /\ fb
  | 7005 | 7006 | 7007 | 7008 => fa /\ fr
  | 7009 => True
  | 7010 | 7011 => fs /\ fb
  | 7012 => fs /\ fr
  | _ => False
  end.

Lemma scalar_limb_length n acols d acol :
  (n * acol + n <= length d)%nat -> length (limb_at n acols d acol 0) = n.
Proof. intros H. apply limb_at_length. cbn [Nat.mul Nat.add]. exact H. Qed.

Theorem c07_output_length code ps vs outs :
  In code c07_codes -> c07_fits code ps vs ->
  run_c07 code ps vs = Some outs ->
  exists o, outs = [o; okflags] /\ length o = (np ps 3 * np ps 1)%nat.
Proof.
  intros Hin Hf H. unfold c07_codes in Hin.
  code_cases Hin ltac:(
    cbv beta iota zeta delta [run_c07] in H; cbv beta iota zeta delta [c07_fits] in Hf;
    inversion H; subst outs; clear H; eexists; split; [reflexivity|]).
  all: try (apply dft_select_flat_length; apply colof_wf; apply Hf).
  all: try apply zero_flat_length.
  all: destruct Hf as [Hf1 Hf2].
  all: first [ apply dft_add_flat_length | apply dft_sub_flat_length | apply svp_apply_flat_length
             | rewrite dft_add_assign_flat_length with (n := np ps 1)
             | rewrite dft_sub_assign_flat_length with (n := np ps 1)
             | rewrite dft_sub_negate_assign_flat_length with (n := np ps 1)
             | rewrite dft_add_scaled_assign_flat_length with (n := np ps 1)
             | rewrite svp_apply_assign_flat_length with (n := np ps 1) ].
  all: first [ rewrite colof_length; reflexivity
             | apply scalar_limb_length; exact Hf1
             | apply colof_wf; apply Hf1
             | apply colof_wf; apply Hf2
             | apply colof_wf; [lia|exact Hf2] ].
Qed.

(* vmp: every column, every limb *)
Lemma vmp_limb_length n rcols rsz acols asz rows msize lo aflat mflat c :
  (forall q, (q < Nat.min (acols * rows) (acols * asz))%nat -> length (aflat q) = n) ->
  length (vmp n rcols rsz acols asz rows msize lo aflat mflat c) = n.
Proof.
  intros Ha. rewrite vmp_is_sum_of_row_products.
  destruct (Nat.ltb _ _); [|apply pzero_length].
  apply psum_length. intros q Hq. rewrite pmul_length. apply Ha. exact Hq.
Qed.


(* C14: mod_switch_2n (range and rounding, both branches) and set_xai_plus_y. *)
From PV Require Import Base.MachineInt Model.Znx Model.Limbs Model.Ring Model.Poly Model.C14Lut Model.C14Spec
  Model.C14Blind Model.C14Run Model.C14Oracle.
From PV Require Import Proofs.C09Lists Proofs.C09Ring Proofs.C14Rotate.
Open Scope Z_scope.

Lemma ms_log2n_pow2 t : 1 <= t -> ms_log2n (2 ^ t) = t + 1.
Proof.
  intros Ht. unfold ms_log2n, bitlen.
  assert (Hp : 2 <= 2 ^ t).
  { replace 2 with (2 ^ 1) at 1 by reflexivity. apply Z.pow_le_mono_r; lia. }
  destruct (Z.leb_spec (2 ^ t - 1) 0); [lia|].
  replace (2 ^ t - 1) with (Z.pred (2 ^ t)) by lia. rewrite Z.log2_pred_pow2 by lia. lia.
Qed.

(* (x + 2^(k-1)) >> k is x / 2^k rounded to nearest, ties up *)
Lemma div_round_by_pow2_spec x k : 1 <= k <= 62 -> Z.abs x <= 2 ^ 62 ->
  div_round_by_pow2 x k = (x + 2 ^ (k - 1)) / 2 ^ k.
Proof.
  intros Hk Hx. unfold div_round_by_pow2, asr, wadd, shl.
  assert (H1 : 0 < 2 ^ (k - 1) <= 2 ^ 61) by (split; [apply pow2_pos; lia | apply Z.pow_le_mono_r; lia]).
  assert (H62 : 2 ^ 62 = 2 * 2 ^ 61) by reflexivity.
  assert (H63 : 2 ^ (64 - 1) = 4 * 2 ^ 61) by reflexivity.
  rewrite Z.mul_1_l.
  rewrite (wrap_id 64 (2 ^ (k - 1))) by (unfold in_range; lia).
  rewrite wrap_id by (unfold in_range; lia). reflexivity.
Qed.

Lemma round_bounds (sx d : Z) : 1 <= d ->
  let r := (sx + 2 ^ (d - 1)) / 2 ^ d in
  Z.abs (r * 2 ^ d - sx) <= 2 ^ (d - 1).
Proof.
  intros Hd r. pose proof (pow2_split d Hd) as Hs. pose proof (pow2_pos (d - 1) ltac:(lia)) as Hp.
  pose proof (Z.div_mod (sx + 2 ^ (d - 1)) (2 ^ d) ltac:(lia)) as Hdm.
  pose proof (Z.mod_pos_bound (sx + 2 ^ (d - 1)) (2 ^ d) ltac:(lia)) as Hmb.
  fold r in Hdm. lia.
Qed.

Lemma round_abs_le (sx d T : Z) : 1 <= d -> Z.abs sx <= 2 ^ d * T - 1 -> Z.abs ((sx + 2 ^ (d - 1)) / 2 ^ d) <= T.
Proof.
  intros Hd Hsx. pose proof (pow2_split d Hd) as Hs. pose proof (pow2_pos (d - 1) ltac:(lia)) as Hp.
  apply Z.abs_le. split.
  - apply Z.div_le_lower_bound; lia.
  - apply Z.lt_succ_r, Z.div_lt_upper_bound; lia.
Qed.

Lemma limbs_int_app b l d : limbs_int b (l ++ [d]) = limbs_int b l * 2 ^ b + d.
Proof. unfold limbs_int. rewrite fold_left_app. reflexivity. Qed.

Lemma firstn_succ_nth (l : list Z) j : (j < length l)%nat -> firstn (S j) l = firstn j l ++ [nthZ l j].
Proof.
  revert j. induction l as [|h t IH]; intros j Hj; cbn [length] in Hj; [lia|].
  destruct j as [|j]; [reflexivity|]. cbn [firstn app]. unfold nthZ. cbn [nth]. f_equal. apply IH. lia.
Qed.

Lemma limbs_int_bound b (l : list Z) : 1 <= b ->
  Forall (fun d => Z.abs d <= 2 ^ (b - 1)) l -> Z.abs (limbs_int b l) <= 2 ^ (Z.of_nat (length l) * b) - 1.
Proof.
  intros Hb. induction l as [|d t IH] using rev_ind; intros H.
  - cbn. lia.
  - apply Forall_app in H. destruct H as [Ht Hd]. inversion Hd as [|? ? Hd1 _]; subst.
    rewrite limbs_int_app, app_length. cbn [length]. specialize (IH Ht).
    replace (Z.of_nat (length t + 1) * b) with (Z.of_nat (length t) * b + b) by lia.
    rewrite Z.pow_add_r by lia.
    pose proof (pow2_split b Hb) as Hs. pose proof (pow2_pos (b - 1) ltac:(lia)) as Hp.
    pose proof (pow2_pos (Z.of_nat (length t) * b) ltac:(lia)) as Hq.
    set (V := limbs_int b t) in *. set (P := 2 ^ (Z.of_nat (length t) * b)) in *. set (H2 := 2 ^ (b - 1)) in *.
    assert (Z.abs (V * 2 ^ b) <= (P - 1) * 2 ^ b) by (rewrite Z.abs_mul, (Z.abs_eq (2 ^ b)) by lia; nia).
    lia.
Qed.

(* appending a digit to k*b bits that fit: neither the shift nor the add wraps *)
Lemma wadd_shl_exact (b k V d : Z) : 1 <= b -> 0 <= k -> (k + 1) * b <= 62 ->
  Z.abs V <= 2 ^ (k * b) - 1 -> Z.abs d <= 2 ^ (b - 1) -> wadd 64 (shl 64 V b) d = V * 2 ^ b + d.
Proof.
  intros Hb Hk Hkb HV Hd.
  assert (Hkb0 : 0 <= k * b) by (apply Z.mul_nonneg_nonneg; lia).
  assert (Hb61 : 2 ^ (b - 1) <= 2 ^ 61) by (apply Z.pow_le_mono_r; lia).
  assert (Hp : 2 ^ (k * b) * 2 ^ b <= 2 ^ 62) by (rewrite <- Z.pow_add_r by lia; apply Z.pow_le_mono_r; lia).
  pose proof (pow2_pos b ltac:(lia)) as Hpb. pose proof (pow2_pos (k * b) Hkb0) as Hpk.
  assert (HVs : Z.abs (V * 2 ^ b) <= 2 ^ 62 - 1) by (rewrite Z.abs_mul, (Z.abs_eq (2 ^ b)) by lia; nia).
  assert (H62 : 2 ^ 62 = 2 * 2 ^ 61) by reflexivity. assert (H63 : 2 ^ (64 - 1) = 4 * 2 ^ 61) by reflexivity.
  unfold wadd, shl. rewrite (wrap_id 64 (V * 2 ^ b)) by (unfold in_range; lia).
  apply wrap_id; [lia|]. unfold in_range. lia.
Qed.

Section ModSwitch.
Variables (t b : Z) (left : bool) (ls : list (list Z)) (w : nat).
Hypothesis Ht : 1 <= t <= 61.
Hypothesis Hb : 1 <= b <= 62.
Hypothesis Hne : (0 < length ls)%nat.
Hypothesis Hw : Forall (fun l : list Z => length l = w) ls.
Hypothesis Hnorm : Forall (Forall (in_range b)) ls.        (* every limb is a balanced digit *)

Let sg (x : Z) : Z := if left then - x else x.
Let sg64 (x : Z) : Z := if left then wneg 64 x else x.
Let col (i : nat) : list Z := map (fun l => sg (nthZ l i)) ls.
Let step (res : list Z) (j : nat) : list Z := map2 (fun x y => wadd 64 (shl 64 y b) (sg64 x)) (nth j ls []) res.
Let res1 : list Z := if left then map (wneg 64) (nth 0 ls []) else nth 0 ls [].

Lemma limb_len j : (j < length ls)%nat -> length (nth j ls []) = w.
Proof. intros Hj. rewrite Forall_forall in Hw. apply Hw. apply nth_In. exact Hj. Qed.
Lemma limb_range j i : (j < length ls)%nat -> (i < w)%nat -> in_range b (nthZ (nth j ls []) i).
Proof.
  intros Hj Hi. rewrite Forall_forall in Hnorm. pose proof (Hnorm _ (nth_In ls [] Hj)) as H.
  apply Forall_nthZ; [exact H | rewrite limb_len; auto].
Qed.
Lemma sg64_exact j i : (j < length ls)%nat -> (i < w)%nat -> sg64 (nthZ (nth j ls []) i) = sg (nthZ (nth j ls []) i).
Proof.
  intros Hj Hi. unfold sg64, sg. destruct left; [|reflexivity].
  pose proof (limb_range j i Hj Hi) as [H1 H2].
  assert (2 ^ (b - 1) <= 2 ^ 61) by (apply Z.pow_le_mono_r; lia).
  unfold wneg. apply wrap_id; [lia|]. unfold in_range. assert (2 ^ (64 - 1) = 4 * 2 ^ 61) by reflexivity. lia.
Qed.
Lemma col_length i : length (col i) = length ls.
Proof. apply map_length. Qed.
Lemma col_nth i j : (j < length ls)%nat -> nthZ (col i) j = sg (nthZ (nth j ls []) i).
Proof. intros Hj. unfold col, nthZ at 1. rewrite (nth_indep _ 0 (sg (nthZ [] i))) by (rewrite map_length; auto). rewrite (map_nth (fun l => sg (nthZ l i))). reflexivity. Qed.
Lemma col_digits i : (i < w)%nat -> Forall (fun d => Z.abs d <= 2 ^ (b - 1)) (col i).
Proof.
  intros Hi. apply Forall_of_nthZ. intros j Hj. rewrite col_length in Hj. rewrite col_nth by auto.
  pose proof (limb_range j i Hj Hi) as [H1 H2]. unfold sg. destruct left; lia.
Qed.

Lemma fold_acc (k : nat) : (k < length ls)%nat -> (Z.of_nat k + 1) * b <= 62 ->
  length (fold_left step (seq 1 k) res1) = w /\
  forall i, (i < w)%nat -> nthZ (fold_left step (seq 1 k) res1) i = limbs_int b (firstn (S k) (col i)).
Proof.
  induction k as [|k IH]; intros Hk Hkb.
  - cbn [seq fold_left]. split.
    + unfold res1. destruct left; rewrite ?map_length; apply limb_len; auto.
    + intros i Hi. rewrite firstn_succ_nth by (rewrite col_length; auto). cbn [firstn app].
      rewrite col_nth by auto. unfold limbs_int. cbn [fold_left]. rewrite Z.mul_0_l, Z.add_0_l.
      rewrite <- sg64_exact by auto. unfold res1, sg64. destruct left; [|reflexivity].
      apply nthZ_map. rewrite limb_len; auto.
  - destruct (IH ltac:(lia) ltac:(lia)) as [HL HV].
    rewrite seq_S, fold_left_app. cbn [fold_left Nat.add].
    set (r := fold_left step (seq 1 k) res1) in *.
    assert (Hll : length (nth (S k) ls []) = w) by (apply limb_len; auto).
    split; [unfold step, map2; rewrite map_length, combine_length; lia|].
    intros i Hi. unfold step. rewrite nthZ_map2 by lia.
    rewrite HV by auto. rewrite sg64_exact by auto.
    rewrite (firstn_succ_nth (col i) (S k)) by (rewrite col_length; auto).
    rewrite limbs_int_app, col_nth by auto.
    apply (wadd_shl_exact b (Z.of_nat (S k))); try lia.
    + pose proof (limbs_int_bound b (firstn (S k) (col i)) ltac:(lia)
                    ltac:(apply Forall_firstn; apply col_digits; auto)) as H.
      rewrite firstn_length, col_length in H. replace (Nat.min (S k) (length ls)) with (S k) in H by lia. exact H.
    + pose proof (limb_range (S k) i Hk Hi) as [Hd1 Hd2]. unfold sg. destruct left; lia.
Qed.

Let size := Z.min (div_ceil (t + 1) b) (Z.of_nat (length ls)).
Let tot := size * b.
Hypothesis Htot : tot <= 62.

Lemma size_pos : 1 <= size <= Z.of_nat (length ls).
Proof.
  unfold size, div_ceil. assert (1 <= (t + 1 + b - 1) / b) by (apply Z.div_le_lower_bound; lia). lia.
Qed.

(* both branches: the first `size` limbs, direction sign applied, are rounded to t = log2(2N ext) bits (ties up);
   a ciphertext with fewer limbs than t bits is zero-extended *)
Theorem mod_switch_rounds :
  exists res, mod_switch_2n (2 ^ t) b left ls = Some res /\ length res = w /\
    forall i, (i < w)%nat ->
      let A := limbs_int b (firstn (Z.to_nat size) (col i)) in
      nthZ res i = (if t <? tot then (A + 2 ^ (tot - t - 1)) / 2 ^ (tot - t) else A * 2 ^ (t - tot)) /\
      Z.abs (nthZ res i * 2 ^ tot - A * 2 ^ t) <= 2 ^ (tot - 1) /\
      Z.abs (nthZ res i) <= 2 ^ t.
Proof.
  pose proof size_pos as Hsz.
  assert (Hfinal : forall (acc : list Z), length acc = w ->
            (forall i, (i < w)%nat -> nthZ acc i = limbs_int b (firstn (Z.to_nat size) (col i))) ->
            let res := if t <? tot then map (fun x => div_round_by_pow2 x (tot - t)) acc else map (fun x => shl 64 x (t - tot)) acc in
            length res = w /\ forall i, (i < w)%nat ->
              let A := limbs_int b (firstn (Z.to_nat size) (col i)) in
              nthZ res i = (if t <? tot then (A + 2 ^ (tot - t - 1)) / 2 ^ (tot - t) else A * 2 ^ (t - tot)) /\
              Z.abs (nthZ res i * 2 ^ tot - A * 2 ^ t) <= 2 ^ (tot - 1) /\
              Z.abs (nthZ res i) <= 2 ^ t).
  { intros acc Hl Hv. cbv zeta. split; [destruct (t <? tot); rewrite map_length; exact Hl|].
    intros i Hi. set (A := limbs_int b (firstn (Z.to_nat size) (col i))).
    assert (HA : Z.abs A <= 2 ^ tot - 1).
    { pose proof (limbs_int_bound b (firstn (Z.to_nat size) (col i)) ltac:(lia)
                    ltac:(apply Forall_firstn; apply col_digits; auto)) as H.
      rewrite firstn_length, col_length in H.
      replace (Z.of_nat (Nat.min (Z.to_nat size) (length ls)) * b) with tot in H by (unfold tot; lia). exact H. }
    assert (Htp : 2 ^ tot <= 2 ^ 62) by (apply Z.pow_le_mono_r; lia).
    assert (Htot1 : 1 <= tot) by (unfold tot; nia).
    pose proof (pow2_pos tot ltac:(lia)) as Hpt.
    destruct (Z.ltb_spec t tot) as [Hlt|Hge].
    - rewrite nthZ_map by (rewrite Hl; auto). rewrite Hv by auto. fold A.
      rewrite div_round_by_pow2_spec by lia.
      replace (tot - t - 1) with ((tot - t) - 1) by lia.
      split; [reflexivity|].
      pose proof (round_bounds A (tot - t) ltac:(lia)) as Hr. cbv zeta in Hr.
      set (r := (A + 2 ^ (tot - t - 1)) / 2 ^ (tot - t)) in *.
      assert (E1 : 2 ^ tot = 2 ^ (tot - t) * 2 ^ t) by (rewrite <- Z.pow_add_r by lia; f_equal; lia).
      assert (E2 : 2 ^ (tot - 1) = 2 ^ (tot - t - 1) * 2 ^ t) by (rewrite <- Z.pow_add_r by lia; f_equal; lia).
      pose proof (pow2_pos t ltac:(lia)) as Hp2.
      split.
      + rewrite E1, E2. replace (r * (2 ^ (tot - t) * 2 ^ t) - A * 2 ^ t) with ((r * 2 ^ (tot - t) - A) * 2 ^ t) by ring.
        rewrite Z.abs_mul, (Z.abs_eq (2 ^ t)) by lia. apply Z.mul_le_mono_nonneg_r; [lia | exact Hr].
      + apply round_abs_le; [lia|]. rewrite <- E1. exact HA.
    - rewrite nthZ_map by (rewrite Hl; auto). rewrite Hv by auto. fold A.
      assert (E1 : 2 ^ t = 2 ^ (t - tot) * 2 ^ tot) by (rewrite <- Z.pow_add_r by lia; f_equal; lia).
      pose proof (pow2_pos (t - tot) ltac:(lia)) as Hp2.
      assert (Ht61 : 2 ^ t <= 2 ^ 61) by (apply Z.pow_le_mono_r; lia).
      assert (HAs : Z.abs (A * 2 ^ (t - tot)) <= 2 ^ 61) by (rewrite Z.abs_mul, (Z.abs_eq (2 ^ (t - tot))) by lia; nia).
      unfold shl. rewrite wrap_id by (unfold in_range; assert (2 ^ (64 - 1) = 4 * 2 ^ 61) by reflexivity; lia).
      split; [reflexivity|]. split.
      + replace (A * 2 ^ (t - tot) * 2 ^ tot - A * 2 ^ t) with 0 by (rewrite E1; ring).
        cbn [Z.abs]. pose proof (pow2_pos (tot - 1) ltac:(lia)). lia.
      + rewrite Z.abs_mul, (Z.abs_eq (2 ^ (t - tot))) by lia. rewrite E1. nia. }
  unfold mod_switch_2n. cbv zeta. rewrite ms_log2n_pow2 by lia.
  destruct (Nat.eqb_spec (length ls) 0); [lia|].
  replace (t + 1 - 1) with t by lia.
  destruct (Z.ltb_spec (t + 1) b) as [Hbr|Hbr].
  - (* first branch: one limb *)
    assert (Hs1 : size = 1).
    { unfold size, div_ceil. replace ((t + 1 + b - 1) / b) with 1; [lia|].
      apply (Z.div_unique_pos (t + 1 + b - 1) b 1 t); lia. }
    assert (Htb : tot = b) by (unfold tot; lia).
    destruct (fold_acc 0 ltac:(lia) ltac:(lia)) as [HL HV]. cbn [seq fold_left] in HL, HV.
    pose proof (Hfinal res1 HL ltac:(intros i Hi; rewrite Hs1; apply HV; exact Hi)) as HF. cbv zeta in HF.
    fold res1. replace (b - t) with (tot - t) by lia.
    revert HF. destruct (Z.ltb_spec t tot) as [_|Hbad]; [|lia]. intros HF.
    eexists. split; [reflexivity|]. exact HF.
  - set (k := (Z.to_nat size - 1)%nat).
    assert (Hk : (k < length ls)%nat) by (unfold k; lia).
    destruct (fold_acc k Hk ltac:(unfold k, tot in *; lia)) as [HL HV].
    fold size. fold k. fold res1. fold tot.
    change (fun (res : list Z) (i : nat) => map2 (fun x y : Z => wadd 64 (shl 64 y b) (if left then wneg 64 x else x)) (nth i ls []) res) with step.
    pose proof (Hfinal (fold_left step (seq 1 k) res1) HL
                  ltac:(intros i Hi; replace (Z.to_nat size) with (S k) by (unfold k; lia); apply HV; exact Hi)) as HF.
    cbv zeta in HF. eexists. split; [reflexivity|]. exact HF.
Qed.

End ModSwitch.

Section Xai.
Variables (m : Z) (ai y : Z).
Hypothesis Hm : 0 <= m.
Let n := 2 ^ m.
Let nn := Z.to_nat n.
Hypothesis Hai : 0 <= ai < 2 * n.

Lemma n_posZ : 0 < n. Proof. apply pow2_pos. exact Hm. Qed.

Lemma xai_index_val : xai_index n ai = Z.to_nat (if ai <? n then ai else ai - n).
Proof.
  unfold xai_index. destruct (Z.ltb_spec ai n); [reflexivity|]. f_equal.
  replace (n - 1) with (Z.ones m) by (rewrite Z.ones_equiv; unfold n; lia).
  rewrite Z.land_ones by exact Hm. fold n. apply Z.mod_small. lia.
Qed.

(* coefficient j of X^ai in Z[X]/(X^n+1) *)
Lemma monomial_coeff (j : nat) : (j < nn)%nat ->
  nthZ (monomial_mul 64 ai (upd (zeros nn) 0 1)) j =
  if ai <? n then (if Z.of_nat j =? ai then 1 else 0) else (if Z.of_nat j =? ai - n then -1 else 0).
Proof.
  intros Hj. pose proof n_posZ as Hn.
  set (e0 := upd (zeros nn) 0 1).
  assert (Hl : length e0 = nn) by (unfold e0; rewrite upd_length; apply zeros_length).
  assert (He0 : forall r : nat, nthZ e0 r = if Nat.eqb r 0 then 1 else 0).
  { intros r. unfold e0. destruct (Nat.eqb_spec r 0) as [->|Hr].
    - apply nthZ_upd_eq. rewrite zeros_length. unfold nn. lia.
    - rewrite nthZ_upd_neq by lia. apply nthZ_zeros. }
  rewrite monomial_mul_nth by (rewrite Hl; auto).
  assert (Hnn : Z.of_nat nn = n) by (unfold nn; lia).
  assert (Hw1 : wneg 64 1 = -1) by reflexivity.
  assert (Hw0 : wneg 64 0 = 0) by reflexivity.
  destruct (Z.ltb_spec ai n).
  - destruct (Z.leb_spec ai (Z.of_nat j)).
    + rewrite (ext_at_nat 64 e0 _ 0 (j - Z.to_nat ai)) by (rewrite Hl; lia). cbn [Z.even]. rewrite He0.
      destruct (Z.eqb_spec (Z.of_nat j) ai); destruct (Nat.eqb_spec (j - Z.to_nat ai) 0); try lia; first [exact Hw1 | exact Hw0 | reflexivity].
    + rewrite (ext_at_nat 64 e0 _ (-1) (j + nn - Z.to_nat ai)) by (rewrite Hl; lia). cbn [Z.even]. rewrite He0.
      destruct (Z.eqb_spec (Z.of_nat j) ai); destruct (Nat.eqb_spec (j + nn - Z.to_nat ai) 0); try lia; first [exact Hw1 | exact Hw0 | reflexivity].
  - destruct (Z.leb_spec (ai - n) (Z.of_nat j)).
    + rewrite (ext_at_nat 64 e0 _ (-1) (j + nn - Z.to_nat ai)) by (rewrite Hl; lia). cbn [Z.even]. rewrite He0.
      destruct (Z.eqb_spec (Z.of_nat j) (ai - n)); destruct (Nat.eqb_spec (j + nn - Z.to_nat ai) 0); try lia; first [exact Hw1 | exact Hw0 | reflexivity].
    + rewrite (ext_at_nat 64 e0 _ (-2) (j + nn + nn - Z.to_nat ai)) by (rewrite Hl; lia). cbn [Z.even]. rewrite He0.
      destruct (Z.eqb_spec (Z.of_nat j) (ai - n)); destruct (Nat.eqb_spec (j + nn + nn - Z.to_nat ai) 0); try lia; first [exact Hw1 | exact Hw0 | reflexivity].
Qed.

(* starting from the all-zero buffer (the invariant the function restores): the polynomial handed to svp_prepare is
   X^ai + y (y added to the constant coefficient with a wrapping add), and the buffer is all zero again afterwards *)
Theorem xai_plus_y_poly :
  let r := set_xai_plus_y n ai y (zeros nn) in
  length (fst r) = nn /\ snd r = zeros nn /\
  forall j, (j < nn)%nat ->
    nthZ (fst r) j = if Nat.eqb j 0 then wadd 64 (nthZ (monomial_mul 64 ai (upd (zeros nn) 0 1)) 0) y
                     else nthZ (monomial_mul 64 ai (upd (zeros nn) 0 1)) j.
Proof.
  cbv zeta. unfold set_xai_plus_y. cbv zeta. cbn [fst snd].
  rewrite xai_index_val. pose proof n_posZ as Hn.
  set (idx := Z.to_nat (if ai <? n then ai else ai - n)).
  set (v := if ai <? n then 1 else -1).
  assert (Hidx : (idx < nn)%nat) by (unfold idx, nn; destruct (Z.ltb_spec ai n); lia).
  assert (Hnn0 : (0 < nn)%nat) by (unfold nn; lia).
  set (raw1 := upd (zeros nn) idx v).
  assert (Hl1 : length raw1 = nn) by (unfold raw1; rewrite upd_length; apply zeros_length).
  assert (Hraw1 : forall j, (j < nn)%nat -> nthZ raw1 j = nthZ (monomial_mul 64 ai (upd (zeros nn) 0 1)) j).
  { intros j Hj. rewrite monomial_coeff by auto. unfold raw1, v, idx.
    destruct (Z.ltb_spec ai n).
    - destruct (Z.eqb_spec (Z.of_nat j) ai).
      + replace (Z.to_nat ai) with j by lia. apply nthZ_upd_eq. rewrite zeros_length; auto.
      + rewrite nthZ_upd_neq by lia. apply nthZ_zeros.
    - destruct (Z.eqb_spec (Z.of_nat j) (ai - n)).
      + replace (Z.to_nat (ai - n)) with j by lia. apply nthZ_upd_eq. rewrite zeros_length; auto.
      + rewrite nthZ_upd_neq by lia. apply nthZ_zeros. }
  split; [rewrite upd_length; exact Hl1|]. split.
  - apply nthZ_ext; [rewrite !upd_length, Hl1, zeros_length; reflexivity|].
    intros j Hj. rewrite !upd_length, Hl1 in Hj. rewrite nthZ_zeros.
    destruct (Nat.eq_dec j 0) as [->|Hj0]; [apply nthZ_upd_eq; rewrite !upd_length, Hl1; auto|].
    rewrite nthZ_upd_neq by lia.
    destruct (Nat.eq_dec j idx) as [->|Hji]; [apply nthZ_upd_eq; rewrite upd_length, Hl1; auto|].
    rewrite nthZ_upd_neq by lia. rewrite nthZ_upd_neq by lia.
    unfold raw1. rewrite nthZ_upd_neq by lia. apply nthZ_zeros.
  - intros j Hj. destruct (Nat.eqb_spec j 0) as [->|Hj0].
    + rewrite nthZ_upd_eq by (rewrite Hl1; auto). rewrite Hraw1 by auto. reflexivity.
    + rewrite nthZ_upd_neq by lia. apply Hraw1; auto.
Qed.

End Xai.

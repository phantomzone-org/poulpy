(* C11 for the ring operations of C09 (opcodes 9001..9022): every operation rewrites the destination as
     putcol rs res (c09_col code ps (getcol rs res) other_inputs)
   hence (frame) nothing outside the selected column changes, (read-back) the selected column of the result IS the
   column function, (independence) for overwriting forms the column function only looks at the NUMBER of limbs of the
   prior column. *)
From PV Require Import Base.MachineInt Model.Znx Model.Limbs Model.Flat Model.Ring Model.C09Run
  Proofs.C11Frame Proofs.C11Read Proofs.C09Switch Proofs.C09Size.
From Coq Require Import Arith PeanoNat List Bool.
Open Scope Z_scope.

(* the column function of each opcode, of the prior column r0 and the other input buffers rest *)
Definition c09_col (code : Z) (ps : list Z) (r0 : limbs) (rest : list (list Z)) : option limbs :=
  let w := 64 in
  let rs := shp ps 0 in let sa := shp ps 1 in let sb := shp ps 2 in
  let a := nth 0 rest [] in let b := nth 1 rest [] in
  let al := getcol sa a in let bl := getcol sb b in
  let n := s_n rs in
  let oka := shape_ok sa a in let okb := shape_ok sb b in
  match code with
  | 9001 => if oka && okb then Some (vec_add w n al bl r0) else None
  | 9002 => if oka then Some (vec_add_assign w al r0) else None
  | 9003 => if oka && okb then Some (vec_sub w n al bl r0) else None
  | 9004 => if oka then Some (vec_sub_assign w al r0) else None
  | 9005 => if oka then Some (vec_sub_negate_assign w al r0) else None
  | 9006 => if oka then Some (vec_unary n (vneg w) al r0) else None
  | 9007 => Some (vec_unary_assign (vneg w) r0)
  | 9008 => if oka && okb then Some (vec_add_scalar w n false (lnth al 0) bl (Z.to_nat (ex ps 0)) r0) else None
  | 9009 => if oka then vec_add_scalar_assign w false (lnth al 0) (Z.to_nat (ex ps 0)) r0 else None
  | 9010 => if oka && okb then Some (vec_add_scalar w n true (lnth al 0) bl (Z.to_nat (ex ps 0)) r0) else None
  | 9011 => if oka then vec_add_scalar_assign w true (lnth al 0) (Z.to_nat (ex ps 0)) r0 else None
  | 9012 => if oka then Some (vec_unary n (fun l => l) al r0) else None
  | 9013 => Some (map (fun _ => zlimb n) r0)
  | 9014 => if oka then Some (vec_rotate w n (ex ps 0) al r0) else None
  | 9015 => Some (vec_rotate_assign w (ex ps 0) r0)
  | 9016 => if oka then Some (vec_mul_xp_minus_one w n (ex ps 0) al r0) else None
  | 9017 => Some (vec_mul_xp_minus_one_assign w (ex ps 0) r0)
  | 9018 => if oka then Some (vec_automorphism w n (ex ps 0) al r0) else None
  | 9019 => Some (vec_automorphism_assign w (ex ps 0) (repeat (ex ps 1) n) r0)
  | 9020 => if oka then Some (vec_switch_ring n al r0) else None
  | 9022 => Some (vec_merge_rings n (map (getcol sa) rest) r0)
  | _ => None
  end.

(* every opcode of run_c09 with a single destination *)
Definition c09_single_codes : list Z :=
  [9001; 9002; 9003; 9004; 9005; 9006; 9007; 9008; 9009; 9010; 9011; 9012; 9013; 9014; 9015; 9016; 9017;
   9018; 9019; 9020; 9022].
(* overwriting forms: add_into, sub, negate, add_scalar_into, sub_scalar, copy, zero, rotate, mul_xp_minus_one,
   switch_ring, merge_rings; automorphism (9018) separately, under C09's hypotheses *)
Definition c09_overwrite_codes : list Z := [9001; 9003; 9006; 9008; 9010; 9012; 9013; 9014; 9016; 9020; 9022].
(* accumulate / in-place forms *)
Definition c09_inplace_codes : list Z := [9002; 9004; 9005; 9007; 9009; 9011; 9015; 9017; 9019].

(* H : (nested ifs / option matches) = Some _ : keeps the branch that can be Some, naming each test *)
Ltac split_ifs H :=
  repeat match type of H with
  | (if ?c then _ else _) = Some _ => let E := fresh "E" in destruct c eqn:E; [|discriminate H]
  | match ?x with Some _ => _ | None => _ end = Some _ => let E := fresh "E" in destruct x eqn:E; [|discriminate H]
  end.

(* run_c09 = write the column function into the selected column *)
Theorem run_c09_col code ps res rest :
  In code c09_single_codes ->
  run_c09 code ps (res :: rest) =
  match c09_col code ps (getcol (shp ps 0) res) rest with
  | Some l => if shape_ok (shp ps 0) res then Some [putcol (shp ps 0) res l] else None
  | None => None
  end.
Proof.
  intros Hin. unfold c09_single_codes in Hin.
  code_cases Hin ltac:(
    cbv beta iota zeta delta [run_c09 c09_col v tl nth];
    try destruct (shape_ok (shp ps 1) _); try destruct (shape_ok (shp ps 2) _); cbn [andb]; reflexivity).
Qed.

Lemma automorphism_assign_length w g (r0 : limbs) : forall t (acc : limbs),
  length (snd (fold_left (fun (s : list Z * limbs) l =>
     let t := znx_automorphism_onto w g (fst s) l in (t, snd s ++ [t])) r0 (t, acc))) = (length acc + length r0)%nat.
Proof.
  induction r0 as [|l r0 IH]; intros t acc; cbn [fold_left length snd fst].
  - lia.
  - rewrite IH. cbn [snd]. rewrite app_length. cbn [length]. lia.
Qed.

Lemma vec_automorphism_assign_length w g t0 r0 : length (vec_automorphism_assign w g t0 r0) = length r0.
Proof. unfold vec_automorphism_assign. rewrite automorphism_assign_length. reflexivity. Qed.

(* length of a vector-level operation of Ring.v: all are `build (length r0) _` or a map over r0 *)
Ltac len_tac :=
  unfold vec_rotate_assign, vec_mul_xp_minus_one, vec_mul_xp_minus_one_assign, vec_rotate;
  unfold vec_add, vec_sub, vec_add_assign, vec_sub_assign, vec_sub_negate_assign, vec_unary, vec_unary_assign,
         vec_add_scalar, vec_automorphism, vec_switch_ring, vec_merge_rings;
  rewrite ?vec_automorphism_assign_length, ?build_length, ?map_length; reflexivity.

Theorem c09_col_length code ps r0 rest l :
  In code c09_single_codes -> c09_col code ps r0 rest = Some l -> length l = length r0.
Proof.
  intros Hin H. unfold c09_single_codes in Hin.
  code_cases Hin ltac:(
    cbv beta iota zeta delta [c09_col vec_add_scalar_assign] in H; split_ifs H;
    inversion H; subst l; len_tac).
Qed.

(* every single-destination opcode rewrites the selected column of its destination with its column function *)
Lemma run_c09_write code ps res rest res' :
  In code c09_single_codes -> run_c09 code ps (res :: rest) = Some [res'] ->
  col_write (shp ps 0) (fun r0 => c09_col code ps r0 rest) res res'.
Proof.
  intros Hin H. rewrite (run_c09_col code ps res rest Hin) in H.
  destruct (c09_col code ps (getcol (shp ps 0) res) rest) as [l|] eqn:El; [|discriminate].
  destruct (shape_ok (shp ps 0) res) eqn:Es; [|discriminate]. injection H as <-.
  exists l. split; [exact El|]. split; [|split; [exact Es | reflexivity]].
  rewrite (c09_col_length code ps _ rest l Hin El). apply getcol_length.
Qed.

Theorem c09_frame_cons code ps res rest res' :
  In code c09_single_codes -> (0 < s_n (shp ps 0))%nat ->
  run_c09 code ps (res :: rest) = Some [res'] ->
  length res' = length res /\
  forall idx d,
    in_col (s_n (shp ps 0)) (s_cols (shp ps 0)) (s_size (shp ps 0)) (s_col (shp ps 0)) idx = false ->
    nth idx res' d = nth idx res d.
Proof. intros Hin Hn H. exact (col_write_frame _ _ _ _ Hn (run_c09_write code ps res rest res' Hin H)). Qed.

(* the read-back statement of the C09 opcodes stands under Props.C11.C11_c09_column *)
(* accumulate / in-place forms and, a fortiori, all forms: destinations that agree on the selected column *)
Theorem c09_indep_agree code ps res1 res2 rest res1' res2' :
  In code c09_single_codes ->
  getcol (shp ps 0) res1 = getcol (shp ps 0) res2 ->
  run_c09 code ps (res1 :: rest) = Some [res1'] ->
  run_c09 code ps (res2 :: rest) = Some [res2'] ->
  getcol (shp ps 0) res1' = getcol (shp ps 0) res2'.
Proof.
  intros Hin Hag H1 H2.
  apply (col_write_same _ _ _ _ _ _ _ (run_c09_write _ _ _ _ _ Hin H1) (run_c09_write _ _ _ _ _ Hin H2)).
  rewrite Hag. reflexivity.
Qed.

(* overwriting forms: the column function only sees length r0 *)
Theorem c09_col_overwrite code ps r0 r1 rest :
  In code c09_overwrite_codes -> length r0 = length r1 ->
  c09_col code ps r0 rest = c09_col code ps r1 rest.
Proof.
  intros Hin Hl. unfold c09_overwrite_codes in Hin.
  code_cases Hin ltac:(
    cbv beta iota zeta delta [c09_col];
    try destruct (shape_ok (shp ps 1) _); try destruct (shape_ok (shp ps 2) _); cbn [andb]; try reflexivity;
    f_equal;
    unfold vec_add, vec_sub, vec_unary, vec_add_scalar, vec_rotate, vec_mul_xp_minus_one, vec_switch_ring,
           vec_merge_rings, vec_rotate, vec_unary;
    rewrite ?Hl; try reflexivity).
  (* 9013 zero: map over r0 *)
  apply map_const_length. exact Hl.
Qed.

Theorem c09_indep_overwrite code ps res1 res2 rest res1' res2' :
  In code c09_overwrite_codes ->
  run_c09 code ps (res1 :: rest) = Some [res1'] ->
  run_c09 code ps (res2 :: rest) = Some [res2'] ->
  getcol (shp ps 0) res1' = getcol (shp ps 0) res2'.
Proof.
  intros Hin H1 H2.
  assert (Hin' : In code c09_single_codes).
  { unfold c09_overwrite_codes in Hin. unfold c09_single_codes. cbn [In] in *.
    repeat (destruct Hin as [<- | Hin]; [tauto|]). contradiction. }
  apply (col_write_same _ _ _ _ _ _ _ (run_c09_write _ _ _ _ _ Hin' H1) (run_c09_write _ _ _ _ _ Hin' H2)).
  apply (c09_col_overwrite code ps _ _ rest Hin). rewrite !getcol_length. reflexivity.
Qed.

(* for the automorphism (9018), Props.C11.C11_c09_indep_automorphism *)
Lemma getcol_limbs_len s d : shape_ok s d = true -> limbs_len (s_n s) (getcol s d).
Proof.
  intros Hs j Hj. rewrite getcol_length in Hj.
  destruct (shape_fits s d Hs) as [Hc Hd].
  unfold lnth, getcol. rewrite col_limbs_nth by exact Hj.
  apply limb_at_length. apply (limb_fits _ _ (s_size s)); assumption.
Qed.


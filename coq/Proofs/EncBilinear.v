(* The negacyclic product as a bilinear form of coefficient functions (on top of C07's structure constants), and the
   value polynomial of a column: sum_j (s * limb_j)_k * weight_j = (s * V)_k. *)
From PV Require Import Base.MachineInt Model.Znx Model.Limbs Model.Flat Model.DftAbs Model.EncModel
  Proofs.C07Dft Proofs.C07Ring Proofs.EncValue Proofs.EncLists Proofs.ListFacts.
Open Scope Z_scope.

Definition bil (n : nat) (a : list Z) (f : nat -> Z) (k : nat) : Z :=
  zsum (fun i => zsum (fun j => nthZ a i * f j * delta n i j k) n) n.

Lemma pmul_bil (a b : list Z) (k : nat) : length b = length a -> (k < length a)%nat ->
  nthZ (pmul a b) k = bil (length a) a (nthZ b) k.
Proof. intros Hl Hk. unfold nthZ at 1. rewrite pmul_delta by assumption. reflexivity. Qed.

Lemma bil_ext n a f g k : (forall j, (j < n)%nat -> f j = g j) -> bil n a f k = bil n a g k.
Proof.
  intros H. unfold bil. apply zsum_ext; intros i _. apply zsum_ext; intros j Hj. rewrite H by exact Hj. reflexivity.
Qed.
Lemma bil_add n a f g k : bil n a (fun j => f j + g j) k = bil n a f k + bil n a g k.
Proof.
  unfold bil. rewrite <- zsum_add. apply zsum_ext; intros i _. rewrite <- zsum_add. apply zsum_ext; intros j _. ring.
Qed.
Lemma bil_scale n a c f k : bil n a (fun j => c * f j) k = c * bil n a f k.
Proof.
  unfold bil. rewrite <- zsum_mul_l. apply zsum_ext; intros i _. rewrite <- zsum_mul_l. apply zsum_ext; intros j _. ring.
Qed.
Lemma bil_zero n a k : bil n a (fun _ => 0) k = 0.
Proof.
  unfold bil. rewrite (zsum_ext _ (fun _ => 0)); [apply zsum_zero|]. intros i _.
  rewrite (zsum_ext _ (fun _ => 0)); [apply zsum_zero|]. intros j _. ring.
Qed.
Lemma bil_opp n a f k : bil n a (fun j => - f j) k = - bil n a f k.
Proof. rewrite (bil_ext n a _ (fun j => (-1) * f j)) by (intros; ring). rewrite bil_scale. ring. Qed.

Lemma bil_sumz n a (F : nat -> nat -> Z) (m : nat) k :
  bil n a (fun j => sumz (fun t => F t j) m) k = sumz (fun t => bil n a (F t) k) m.
Proof.
  induction m; cbn [sumz]; [apply bil_zero|]. rewrite bil_add, IHm. reflexivity.
Qed.

(* sum of a list of coefficient functions *)
Definition lsumf (fs : list (nat -> Z)) (t : nat) : Z := fold_right (fun f acc => f t + acc) 0 fs.
Lemma bil_lsumf n a (fs : list (nat -> Z)) k :
  bil n a (lsumf fs) k = fold_right (fun f acc => bil n a f k + acc) 0 fs.
Proof.
  induction fs as [|f fs IH]; cbn [lsumf fold_right]; [apply bil_zero|].
  change (bil n a (fun t => f t + lsumf fs t) k = bil n a f k + fold_right (fun f0 acc => bil n a f0 k + acc) 0 fs).
  rewrite bil_add, IH. reflexivity.
Qed.

Definition vpoly (P b : Z) (n size : nat) (c : ccol) : list Z := map (fun t => lval P b size (coef c t)) (seq 0 n).
Lemma vpoly_length P b n size c : length (vpoly P b n size c) = n.
Proof. unfold vpoly. rewrite map_length, seq_length. reflexivity. Qed.
Lemma nth_vpoly P b n size c t : (t < n)%nat -> nthZ (vpoly P b n size c) t = lval P b size (coef c t).
Proof. intros H. unfold vpoly, nthZ. apply (nth_map_seq (fun t0 => lval P b size (coef c t0))). exact H. Qed.

(* the value of the product column is the product with the value polynomial *)
Theorem svp_value (P b : Z) (n size : nat) (s : poly) (c : ccol) (k : nat) :
  length s = n -> length c = n -> (k < n)%nat ->
  lval P b size (coef (svp s n size c) k) = nthZ (pmul s (vpoly P b n size c)) k.
Proof.
  intros Hs Hc Hk.
  rewrite pmul_bil by (rewrite ?vpoly_length; lia). rewrite Hs.
  rewrite (bil_ext n s _ (fun t => sumz (fun j => nthZ (coef c t) j * wt P b j) size))
    by (intros t Ht; rewrite nth_vpoly by lia; reflexivity).
  rewrite (bil_sumz n s (fun j t => nthZ (coef c t) j * wt P b j) size k).
  unfold lval. apply sumz_ext. intros j Hj.
  rewrite coef_svp by lia. unfold nthZ at 1. rewrite nth_map_seq by lia.
  rewrite pmul_bil by (rewrite ?limb_poly_length; lia). rewrite Hs.
  rewrite (bil_ext n s (nthZ (limb_poly c j)) (fun t => nthZ (coef c t) j)) by (intros; apply nth_limb_poly).
  rewrite (bil_ext n s (fun t => nthZ (coef c t) j * wt P b j) (fun t => wt P b j * nthZ (coef c t) j)) by (intros; ring).
  rewrite bil_scale. ring.
Qed.

(* a congruence modulo M, coefficient by coefficient, passes through the product with a fixed polynomial *)
Lemma pmul_cong (a X : list Z) (g : nat -> Z) (M : Z) (k : nat) : length X = length a -> (k < length a)%nat ->
  (forall t, (t < length a)%nat -> exists q, nthZ X t = g t + M * q) ->
  exists z, nthZ (pmul a X) k = bil (length a) a g k + M * z.
Proof.
  intros LX Hk H. destruct (finite_choice 0 (length a) (fun t q => nthZ X t = g t + M * q) H) as [Q [_ HQ]].
  exists (bil (length a) a (nthZ Q) k).
  rewrite pmul_bil by assumption.
  rewrite (bil_ext _ a (nthZ X) (fun t => g t + M * nthZ Q t)) by exact HQ.
  rewrite bil_add, bil_scale. reflexivity.
Qed.

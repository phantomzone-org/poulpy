(* C08: the executable per-coefficient oracle `coeff_ok` (Model/C08Oracle.v) never answers 0 (= fails)
   on the outputs of the same-radix models: it answers 1 (holds) whenever its headroom guard is met. *)
From PV Require Import Base.MachineInt Model.Znx Model.Limbs Model.C08Oracle
  Proofs.C08Chain Proofs.C08Value Proofs.C08WChain Proofs.C08WNormalize Proofs.C08WShift Proofs.C08WRsh
  Proofs.C08ShiftValue Proofs.C08RshValue.
Open Scope Z_scope.

Lemma all_hr_hr62 (l : list Z) : all_hr l = true -> hr62 l.
Proof.
  unfold all_hr, hr62. intros Hf. rewrite forallb_forall in Hf. apply Forall_forall. intros x Hx.
  specialize (Hf x Hx). apply Z.leb_le in Hf. change (2 ^ 60) with 1152921504606846976 in Hf.
  change (2 ^ 62) with 4611686018427387904. lia.
Qed.

Lemma all_bal_of_Forall (b : Z) (l : list Z) : Forall (in_range b) l -> all_bal b l = true.
Proof.
  unfold all_bal. intros HF. apply forallb_forall. intros x Hx. rewrite Forall_forall in HF.
  destruct (HF x Hx) as [H1 H2]. unfold balanced, in_rangeb.
  apply andb_true_intro. split; [apply Z.leb_le|apply Z.ltb_lt]; auto.
Qed.

Lemma coeff_ok_holds (rb ab off keep sgn : Z) (nb : bool) (a r0 out : list Z) :
  (all_hr a = true -> (all_hr r0 = true \/ keep = 0) ->
   let rsz := Z.of_nat (length out) in let asz := Z.of_nat (length a) in
   let P := rsz * rb + asz * ab + Z.abs off + 2 in
   let D := tor_abs P (val_scaled P rb out - keep * val_scaled P rb r0 - sgn * val_scaled (P + off) ab a) in
   D <= 2 ^ (P - rsz * rb) /\ (asz * ab - off <= rsz * rb -> D = 0) /\
   (nb = true -> Forall (in_range rb) out)) ->
  coeff_ok rb ab off keep sgn nb a r0 out <> 0.
Proof.
  intros H. unfold coeff_ok.
  destruct (all_hr a) eqn:Ea; [|cbn; discriminate].
  destruct (all_hr r0 || (keep =? 0))%bool eqn:Er; [|cbn; discriminate].
  cbn [andb negb].
  assert (Hk : all_hr r0 = true \/ keep = 0).
  { apply Bool.orb_true_iff in Er. destruct Er as [E|E]; [left; exact E|right; apply Z.eqb_eq; exact E]. }
  specialize (H eq_refl Hk). cbv zeta in H. destruct H as (H1 & H2 & H3).
  cbv zeta.
  match goal with |- ob ?c <> 0 => assert (Hc : c = true); [|rewrite Hc; cbn; discriminate] end.
  apply andb_true_intro. split; [apply andb_true_intro; split|].
  - apply Z.leb_le. exact H1.
  - destruct (Z.leb_spec (Z.of_nat (length a) * ab - off) (Z.of_nat (length out) * rb)) as [Hx|Hx]; cbn [negb orb].
    + apply Z.eqb_eq. apply H2. exact Hx.
    + reflexivity.
  - destruct nb; cbn [negb orb]; [|reflexivity]. apply all_bal_of_Forall. apply H3. reflexivity.
Qed.

Lemma all_hr_hrlw (l : list Z) : all_hr l = true -> hrlw 64 l.
Proof. intros H. apply hrlw_of_Forall. exact (hr62_w l (all_hr_hr62 l H)). Qed.

(* a routine whose output is  keep * r0 + s * (window of the balanced expansion of a 2^off),  off = lo b + lsh:
   the oracle's three tests are affine_window_value and, where balance is asked for, the window itself *)
Lemma coeff_ok_window (b off lo lsh keep s : Z) (nb : bool) (a r0 out : list Z) :
  1 <= b -> 0 <= lsh < b -> off = lo * b + lsh -> s = 1 \/ s = -1 -> (nb = true -> keep = 0 /\ s = 1) ->
  (all_hr a = true -> (all_hr r0 = true \/ keep = 0) ->
   length out = length r0 /\
   forall i, (i < length r0)%nat ->
     nthZ out i = keep * nthZ r0 i + s * dgz b (vin a lsh) (zn (length a) - lo - 1 - zn i)) ->
  coeff_ok b b off keep s nb a r0 out <> 0.
Proof.
  intros Hb Hl -> Hs Hnb H. apply coeff_ok_holds. intros Ha Hr. destruct (H Ha Hr) as [L N]. cbv zeta.
  rewrite <- L in N.
  destruct (affine_window_value b (Z.of_nat (length out) * b + Z.of_nat (length a) * b + Z.abs (lo * b + lsh) + 2)
              lo lsh keep s a r0 out Hb Hl Hs L N ltac:(unfold zn; lia)) as [V1 V2].
  split; [exact V1|]. split; [exact V2|].
  intros E. destruct (Hnb E) as [-> ->]. apply (window_balanced b (vin a lsh) (zn (length a) - lo)); [exact Hb|].
  intros i Hi. rewrite N by exact Hi. ring.
Qed.

Lemma off_split (b off : Z) : 1 <= b -> 0 <= off mod b < b /\ off = off / b * b + off mod b.
Proof. intros Hb. pose proof (Z.div_mod off b ltac:(lia)). pose proof (Z.mod_pos_bound off b ltac:(lia)). lia. Qed.

Section CoeffOk.
Variable b : Z.
Hypothesis Hb : 1 <= b <= 62.

Let Hb1 : 1 <= b. Proof. lia. Qed.

(* 8101 with equal radices: vec_znx_normalize *)
Theorem coeff_ok_normalize_inter (off : Z) (a r0 : list Z) :
  coeff_ok b b off 0 1 true a r0 (normalize_inter 64 b off a r0) <> 0.
Proof.
  destruct (off_split b off Hb1) as [Hl Eo]. rewrite normalize_inter_c_64.
  apply (coeff_ok_window b off (off / b) (off mod b) 0 1 true a r0 _ Hb1 Hl Eo); [left; reflexivity|intros _; split; reflexivity|].
  intros Ha _.
  destruct (normalize_inter_c_nth 64 b Hb 64 off a r0 (all_hr_hrlw a Ha)
              ltac:(left; change (zn 64) with 64; lia)) as [L N].
  split; [exact L|]. intros i Hi. rewrite (N i Hi). ring.
Qed.

End CoeffOk.

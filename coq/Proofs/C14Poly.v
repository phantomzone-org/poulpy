(* C14: exact arithmetic in Z[X]/(X^n+1) on coefficient lists (no machine wrap): zrot is multiplication by X^p. *)
From PV Require Import Base.MachineInt Model.Znx Model.Limbs Model.Ring Model.C14Lut Model.C14Blind.
From PV Require Import Proofs.C09Lists Proofs.C09Ring Proofs.ListFacts.
Open Scope Z_scope.

(* negacyclic extension with exact signs *)
Definition zext (a : poly) (k : Z) : Z :=
  let n := Z.of_nat (length a) in
  if Z.even (k / n) then nthZ a (Z.to_nat (k mod n)) else - nthZ a (Z.to_nat (k mod n)).

Lemma zext_at (a : poly) (k q r : Z) :
  k = q * Z.of_nat (length a) + r -> 0 <= r < Z.of_nat (length a) ->
  zext a k = if Z.even q then nthZ a (Z.to_nat r) else - nthZ a (Z.to_nat r).
Proof.
  intros -> Hr. unfold zext. cbv zeta. set (n := Z.of_nat (length a)) in *.
  assert (Hq : (q * n + r) / n = q) by (rewrite Z.div_add_l by lia; rewrite Z.div_small by lia; lia).
  assert (Hm : (q * n + r) mod n = r) by (rewrite Z.add_comm, Z.mod_add by lia; apply Z.mod_small; lia).
  rewrite Hq, Hm. reflexivity.
Qed.
Lemma zext_at_nat (a : poly) (k q : Z) (i : nat) :
  k = q * Z.of_nat (length a) + Z.of_nat i -> (i < length a)%nat ->
  zext a k = if Z.even q then nthZ a i else - nthZ a i.
Proof. intros Hk Hi. rewrite (zext_at a k q (Z.of_nat i)) by (auto; lia). rewrite Nat2Z.id. reflexivity. Qed.
Lemma zext_small (a : poly) (i : nat) : (i < length a)%nat -> zext a (Z.of_nat i) = nthZ a i.
Proof. intros Hi. rewrite (zext_at_nat a _ 0 i) by (auto; lia). reflexivity. Qed.

Lemma zext_shift (a : poly) (k q : Z) : (0 < length a)%nat ->
  zext a (k + q * Z.of_nat (length a)) = if Z.even q then zext a k else - zext a k.
Proof.
  intros Hn. set (n := Z.of_nat (length a)).
  destruct (exp_decomp n k ltac:(lia)) as [q0 [i [Hk Hi]]].
  rewrite (zext_at_nat a k q0 i) by (auto; lia).
  rewrite (zext_at_nat a (k + q * n) (q0 + q) i) by (fold n; lia).
  rewrite Z.even_add. destruct (Z.even q0), (Z.even q); cbn [Bool.eqb]; lia.
Qed.
Lemma zext_period (a : poly) (k s : Z) : (0 < length a)%nat ->
  zext a (k + s * (2 * Z.of_nat (length a))) = zext a k.
Proof.
  intros Hn. replace (s * (2 * Z.of_nat (length a))) with ((2 * s) * Z.of_nat (length a)) by ring.
  rewrite zext_shift by auto. replace (2 * s) with (0 + 2 * s) by ring. rewrite even_add_mul2. reflexivity.
Qed.
Lemma zext_congr (a : poly) (x y : Z) :
  (0 < length a)%nat -> x mod (2 * Z.of_nat (length a)) = y mod (2 * Z.of_nat (length a)) -> zext a x = zext a y.
Proof.
  intros Ha H. set (m := 2 * Z.of_nat (length a)) in *.
  pose proof (Z.div_mod x m ltac:(lia)). pose proof (Z.div_mod y m ltac:(lia)).
  replace x with (y + (x / m - y / m) * m) by lia. unfold m. apply zext_period. auto.
Qed.
Lemma zext_inj (a b : poly) : length a = length b -> (forall k, zext a k = zext b k) -> a = b.
Proof.
  intros Hl H. apply nthZ_ext; auto. intros i Hi.
  rewrite <- (zext_small a i), <- (zext_small b i) by lia. apply H.
Qed.

Lemma pneg_length a : length (pneg a) = length a.
Proof. apply map_length. Qed.
Lemma zrot_length p a : length (zrot p a) = length a.
Proof.
  unfold zrot. cbv zeta. set (k := Z.to_nat _).
  destruct (_ <? _); rewrite app_length, ?pneg_length;
    pose proof (firstn_skipn k a) as H; apply (f_equal (@length Z)) in H; rewrite app_length in H; lia.
Qed.

Lemma zrot_nth p (a : poly) i : (i < length a)%nat -> nthZ (zrot p a) i = zext a (Z.of_nat i - p).
Proof.
  intros Hi. unfold zrot. cbv zeta.
  set (n := Z.of_nat (length a)). assert (Hn : 0 < n) by lia.
  pose proof (Z.div_mod p (2 * n) ltac:(lia)) as Hdm.
  pose proof (Z.mod_pos_bound p (2 * n) ltac:(lia)) as Hb2.
  set (m2 := p mod (2 * n)) in *. set (t := p / (2 * n)) in *. clearbody m2 t.
  destruct (Z.ltb_spec m2 n) as [Hlt|Hge].
  - rewrite (Z.mod_small m2 n) by lia.
    set (s := Z.to_nat (n - m2)).
    assert (Hl1 : length (pneg (skipn s a)) = Z.to_nat m2) by (rewrite pneg_length, skipn_length; lia).
    destruct (Z.ltb_spec (Z.of_nat i) m2) as [Hi2|Hi2].
    + rewrite nthZ_app_l by lia. unfold pneg. rewrite nthZ_map by (rewrite skipn_length; lia).
      rewrite nthZ_skipn.
      rewrite (zext_at_nat a _ (- 2 * t - 1) (s + i)) by (fold n; lia).
      replace (- 2 * t - 1) with (1 + 2 * (- t - 1)) by ring. rewrite even_add_mul2. reflexivity.
    + rewrite nthZ_app_r by lia. rewrite Hl1. rewrite nthZ_firstn by lia.
      rewrite (zext_at_nat a _ (- 2 * t) (i - Z.to_nat m2)) by (fold n; lia).
      replace (- 2 * t) with (0 + 2 * (- t)) by ring. rewrite even_add_mul2. reflexivity.
  - assert (Hm1 : m2 mod n = m2 - n) by (symmetry; apply (Z.mod_unique_pos m2 n 1 (m2 - n)); lia).
    rewrite Hm1. set (s := Z.to_nat (n - (m2 - n))).
    assert (Hl1 : length (skipn s a) = Z.to_nat (m2 - n)) by (rewrite skipn_length; lia).
    destruct (Z.ltb_spec (Z.of_nat i) (m2 - n)) as [Hi2|Hi2].
    + rewrite nthZ_app_l by lia. rewrite nthZ_skipn.
      rewrite (zext_at_nat a _ (- 2 * t - 2) (s + i)) by (fold n; lia).
      replace (- 2 * t - 2) with (0 + 2 * (- t - 1)) by ring. rewrite even_add_mul2. reflexivity.
    + rewrite nthZ_app_r by lia. rewrite Hl1. unfold pneg.
      rewrite nthZ_map by (rewrite firstn_length; lia). rewrite nthZ_firstn by lia.
      rewrite (zext_at_nat a _ (- 2 * t - 1) (i - Z.to_nat (m2 - n))) by (fold n; lia).
      replace (- 2 * t - 1) with (1 + 2 * (- t - 1)) by ring. rewrite even_add_mul2. reflexivity.
Qed.

Lemma zext_nil k : zext [] k = 0.
Proof. unfold zext, nthZ. cbv zeta. destruct (Z.even _); destruct (Z.to_nat _); reflexivity. Qed.
Lemma zrot_nil p : zrot p [] = [].
Proof. unfold zrot. cbv zeta. rewrite firstn_nil, skipn_nil. destruct (_ <? _); reflexivity. Qed.

Lemma zext_zrot p a k : zext (zrot p a) k = zext a (k - p).
Proof.
  destruct (Nat.eq_dec (length a) 0) as [H0|H0].
  { destruct a; [|discriminate]. rewrite zrot_nil, !zext_nil. reflexivity. }
  set (n := Z.of_nat (length a)).
  destruct (exp_decomp n k ltac:(lia)) as [q [i [Hk Hi]]].
  rewrite (zext_at_nat (zrot p a) k q i) by (rewrite zrot_length; fold n; auto; lia).
  rewrite zrot_nth by lia.
  replace (k - p) with ((Z.of_nat i - p) + q * n) by lia.
  unfold n. rewrite zext_shift by lia. reflexivity.
Qed.

Lemma zrot_compose p q a : zrot p (zrot q a) = zrot (p + q) a.
Proof.
  apply zext_inj; [rewrite !zrot_length; reflexivity|].
  intros k. rewrite !zext_zrot. f_equal. lia.
Qed.
Lemma zrot_0 a : zrot 0 a = a.
Proof.
  apply zext_inj; [apply zrot_length|]. intros k. rewrite zext_zrot. f_equal. lia.
Qed.
Lemma zrot_congr p q a : p mod (2 * Z.of_nat (length a)) = q mod (2 * Z.of_nat (length a)) -> zrot p a = zrot q a.
Proof. intros H. unfold zrot. cbv zeta. rewrite H. reflexivity. Qed.

Lemma padd_length_eq a b : length a = length b -> length (padd a b) = length a.
Proof. intros H. unfold padd. rewrite map2_length. lia. Qed.
Lemma psub_length_eq a b : length a = length b -> length (psub a b) = length a.
Proof. intros H. unfold psub. rewrite map2_length. lia. Qed.
Lemma pscale_length c a : length (pscale c a) = length a.
Proof. apply map_length. Qed.

Lemma zext_map2 (g : Z -> Z -> Z) a b k : g 0 0 = 0 -> (forall x y, g (- x) (- y) = - g x y) ->
  length a = length b -> zext (map2 g a b) k = g (zext a k) (zext b k).
Proof.
  intros Hg0 Hg Hl. destruct (Nat.eq_dec (length a) 0) as [H0|H0].
  { destruct a; [|discriminate]. destruct b; [|discriminate]. change (map2 g [] []) with (@nil Z). rewrite !zext_nil, Hg0. reflexivity. }
  set (n := Z.of_nat (length a)).
  destruct (exp_decomp n k ltac:(lia)) as [q [i [Hk Hi]]].
  rewrite (zext_at_nat (map2 g a b) k q i) by (rewrite map2_length; fold n; auto; lia).
  rewrite (zext_at_nat a k q i), (zext_at_nat b k q i) by (rewrite <- ?Hl; fold n; auto; lia).
  rewrite nthZ_map2 by lia. destruct (Z.even q); [reflexivity | symmetry; apply Hg].
Qed.
Lemma zext_padd a b k : length a = length b -> zext (padd a b) k = zext a k + zext b k.
Proof. apply (zext_map2 Z.add); [reflexivity | intros; lia]. Qed.
Lemma zext_psub a b k : length a = length b -> zext (psub a b) k = zext a k - zext b k.
Proof. apply (zext_map2 Z.sub); [reflexivity | intros; lia]. Qed.

Lemma zrot_padd p a b : length a = length b -> zrot p (padd a b) = padd (zrot p a) (zrot p b).
Proof.
  intros Hl. apply zext_inj.
  - rewrite zrot_length, !padd_length_eq, zrot_length by (rewrite ?zrot_length; auto). reflexivity.
  - intros k. rewrite zext_zrot, !zext_padd, !zext_zrot by (rewrite ?zrot_length; auto). reflexivity.
Qed.
Lemma zrot_psub p a b : length a = length b -> zrot p (psub a b) = psub (zrot p a) (zrot p b).
Proof.
  intros Hl. apply zext_inj.
  - rewrite zrot_length, !psub_length_eq, zrot_length by (rewrite ?zrot_length; auto). reflexivity.
  - intros k. rewrite zext_zrot, !zext_psub, !zext_zrot by (rewrite ?zrot_length; auto). reflexivity.
Qed.

(* pointwise equalities by nthZ *)
Lemma padd_nth a b i : (i < length a)%nat -> length a = length b -> nthZ (padd a b) i = nthZ a i + nthZ b i.
Proof. intros. unfold padd. apply nthZ_map2; lia. Qed.
Lemma psub_nth a b i : (i < length a)%nat -> length a = length b -> nthZ (psub a b) i = nthZ a i - nthZ b i.
Proof. intros. unfold psub. apply nthZ_map2; lia. Qed.
Lemma pscale_nth c a i : (i < length a)%nat -> nthZ (pscale c a) i = c * nthZ a i.
Proof. intros. unfold pscale. apply nthZ_map; auto. Qed.
Lemma pscale_1 a : pscale 1 a = a.
Proof. unfold pscale. rewrite <- (map_id a) at 2. apply map_ext. intros; lia. Qed.

Definition bounded (B : Z) (a : poly) : Prop := Forall (fun x => Z.abs x <= B) a.

Lemma bounded_nth B a : (forall i, (i < length a)%nat -> Z.abs (nthZ a i) <= B) -> bounded B a.
Proof. intros H. apply Forall_of_nthZ. exact H. Qed.
Lemma bounded_at B a i : bounded B a -> (i < length a)%nat -> Z.abs (nthZ a i) <= B.
Proof. intros H Hi. apply (Forall_nthZ _ a i H Hi). Qed.

Lemma zext_bound B a k : (0 < length a)%nat -> bounded B a -> Z.abs (zext a k) <= B.
Proof.
  intros Hn Hb. set (n := Z.of_nat (length a)).
  destruct (exp_decomp n k ltac:(lia)) as [q [i [Hk Hi]]].
  rewrite (zext_at_nat a k q i) by (auto; lia).
  pose proof (bounded_at B a i Hb ltac:(lia)). destruct (Z.even q); lia.
Qed.
Lemma zrot_bounded B p a : bounded B a -> bounded B (zrot p a).
Proof.
  intros Hb. apply bounded_nth. intros i Hi. rewrite zrot_length in Hi.
  rewrite zrot_nth by auto. apply zext_bound; auto. lia.
Qed.
Lemma padd_bounded B1 B2 a b : length a = length b -> bounded B1 a -> bounded B2 b -> bounded (B1 + B2) (padd a b).
Proof.
  intros Hl Ha Hb. apply bounded_nth. intros i Hi. rewrite padd_length_eq in Hi by auto.
  rewrite padd_nth by auto.
  pose proof (bounded_at B1 a i Ha Hi). pose proof (bounded_at B2 b i Hb ltac:(lia)). lia.
Qed.
Lemma psub_bounded B1 B2 a b : length a = length b -> bounded B1 a -> bounded B2 b -> bounded (B1 + B2) (psub a b).
Proof.
  intros Hl Ha Hb. apply bounded_nth. intros i Hi. rewrite psub_length_eq in Hi by auto.
  rewrite psub_nth by auto.
  pose proof (bounded_at B1 a i Ha Hi). pose proof (bounded_at B2 b i Hb ltac:(lia)). lia.
Qed.
Lemma xp_minus_one_bounded B p a : bounded B a -> bounded (2 * B) (xp_minus_one p a).
Proof.
  intros Hb. unfold xp_minus_one. replace (2 * B) with (B + B) by ring.
  apply psub_bounded; [apply zrot_length | apply zrot_bounded; auto | auto].
Qed.
Lemma xp_minus_one_length p a : length (xp_minus_one p a) = length a.
Proof. unfold xp_minus_one. rewrite psub_length_eq; apply zrot_length. Qed.
Lemma bounded_zeros B n : 0 <= B -> bounded B (zeros n).
Proof. intros HB. unfold bounded, zeros. apply Forall_forall. intros x Hx. apply repeat_spec in Hx. subst. cbn [Z.abs]. lia. Qed.

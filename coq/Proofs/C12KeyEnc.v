(* C12 - encryption of gadget ciphertexts (GGLWE, GGSW) and of the evaluation keys built on them: the declared size suffices on
   ring degrees that are multiples of 8. *)
From PV Require Import Base.MachineInt Model.C12Scratch Gen.C12TmpBytes_gen Model.C12Trees
  Proofs.C12Arena Proofs.C12Hal Proofs.C12Core Proofs.C12KeySwitch Proofs.C12More Proofs.C12Conv.
Open Scope Z_scope.

Lemma pairs_facts (r : Z) : 0 <= r -> 1 <= GLWESecretTensor_pairs r /\ GLWESecretTensor_pairs r <= GLWESecretTensor_pairs (GLWESecretTensor_pairs r).
Proof.
  intros Hr. unfold GLWESecretTensor_pairs. change (2 ^ 1) with 2.
  set (p := Z.max ((r + 1) * r / 2) 1). assert (Hp : 1 <= p) by (unfold p; lia). split; [exact Hp|].
  assert (p <= (p + 1) * p / 2); [|lia].
  apply Z.div_le_lower_bound; [lia|]. nia.
Qed.

Section KeyEnc.
  Variables fam n : Z.
  Hypothesis Hf : is_fam fam.
  Hypothesis Hn0 : 0 <= n.
  Hypothesis Hn8 : n mod 8 = 0.

  Lemma plaintext_bytes_eq (res : infos) : wf_infos res -> i_n res = n ->
    GLWEPlaintext_bytes_of_from_infos res = VecZnx_bytes_of n 1 (i_size res).
  Proof using Hf Hn0 Hn8.
    intros (Hb & Hs & _) Hn. unfold GLWEPlaintext_bytes_of_from_infos, GLWEPlaintext_bytes_of, i_max_k. rewrite Hn. f_equal.
    apply div_ceil_mul; lia.
  Qed.

  Lemma gglwe_encrypt_spec (res : infos) : wf_infos res -> i_n res = n ->
    budget (tree_gglwe_encrypt_sk fam n res) (gglwe_encrypt_sk_tmp_bytes fam n res).
  Proof using Hf Hn0 Hn8.
    intros Hr Hn. assert (Hs : 0 <= i_size res) by (destruct Hr as (_&?&_); lia).
    pose proof (enc_sk_spec fam n Hf Hn0 Hn8 res Hs) as Be. pose proof (budget_nonneg _ _ Be).
    pose proof (budget_normalize fam n Hf Hn0 Hn8) as Bn. pose proof (nn_norm fam n Hf Hn0 Hn8).
    pose proof (al_vec_znx fam n Hf Hn0 Hn8 1 (i_size res) ltac:(lia) Hs) as Hvz.
    unfold tree_gglwe_encrypt_sk, gglwe_encrypt_sk_tmp_bytes. cbv zeta. rewrite (plaintext_bytes_eq res Hr Hn).
    cbn [budget persist]. leaves.
    all: eapply budget_mono; [eassumption | lia].
  Qed.

  Lemma suffices_gglwe_encrypt_sk (res : infos) : wf_infos res -> i_n res = n ->
    run_takes (tree_gglwe_encrypt_sk fam n res) (0, gglwe_encrypt_sk_tmp_bytes fam n res) <> None.
  Proof using Hf Hn0 Hn8. intros Hr Hn. apply budget_suffices, gglwe_encrypt_spec; assumption. Qed.

  Lemma ggsw_encrypt_spec (res : infos) : wf_infos res -> i_n res = n ->
    budget (tree_ggsw_encrypt_sk fam n res) (ggsw_encrypt_sk_tmp_bytes fam n res).
  Proof using Hf Hn0 Hn8.
    intros Hr Hn. assert (Hs : 0 <= i_size res) by (destruct Hr as (_&?&_); lia).
    pose proof (enc_sk_internal_spec fam n Hf Hn0 Hn8 (i_size res) (i_rank res + 1) false Hs) as B0.
    pose proof (enc_sk_internal_spec fam n Hf Hn0 Hn8 (i_size res) (i_rank res + 1) true Hs) as B1.
    cbv iota in B0, B1.
    pose proof (budget_normalize fam n Hf Hn0 Hn8) as Bn. pose proof (nn_norm fam n Hf Hn0 Hn8). pose proof (nn_bnorm fam n Hf Hn0 Hn8).
    pose proof (al_vec_znx fam n Hf Hn0 Hn8 1 (i_size res) ltac:(lia) Hs) as Hvz.
    pose proof (al_dft fam n Hf Hn0 Hn8 1 (i_size res) ltac:(lia) Hs) as Hdft.
    unfold tree_ggsw_encrypt_sk, ggsw_encrypt_sk_tmp_bytes, glwe_encrypt_sk_tmp_bytes; cbv zeta;
      rewrite (plaintext_bytes_eq res Hr Hn).
    cbn [budget persist]. leaves.
    all: eapply budget_mono; [eassumption | lia].
  Qed.

  Lemma suffices_ggsw_encrypt_sk (res : infos) : wf_infos res -> i_n res = n ->
    run_takes (tree_ggsw_encrypt_sk fam n res) (0, ggsw_encrypt_sk_tmp_bytes fam n res) <> None.
  Proof using Hf Hn0 Hn8. intros. apply budget_suffices, ggsw_encrypt_spec; assumption. Qed.

  (* the evaluation keys: temporaries for the secrets, then gglwe_encrypt_sk *)
  Lemma switching_key_spec (res : infos) : wf_infos res -> i_n res = n ->
    budget (tree_glwe_switching_key_encrypt_sk fam n res) (glwe_switching_key_encrypt_sk_tmp_bytes fam n res).
  Proof using Hf Hn0 Hn8.
    intros Hr Hn. pose proof (gglwe_encrypt_spec res Hr Hn) as Bg. pose proof (budget_nonneg _ _ Bg).
    pose proof (al_scalar_znx fam n Hf Hn0 Hn8 (i_rank_in res) ltac:(destruct Hr as (_&_&_&?&_); lia)).
    pose proof (al_scalar_znx fam n Hf Hn0 Hn8 1 ltac:(lia)).
    pose proof (al_svp fam n Hf Hn0 Hn8 (i_rank res) ltac:(destruct Hr as (_&_&?&_); lia)).
    unfold tree_glwe_switching_key_encrypt_sk, glwe_switching_key_encrypt_sk_tmp_bytes,
      glwe_secret_prepared_bytes_of_from_infos, glwe_secret_prepared_bytes_of; cbv zeta.
    cbn [budget persist]. leaves. eapply budget_mono; [exact Bg | lia].
  Qed.

  Lemma suffices_glwe_switching_key_encrypt_sk (res : infos) : wf_infos res -> i_n res = n ->
    run_takes (tree_glwe_switching_key_encrypt_sk fam n res) (0, glwe_switching_key_encrypt_sk_tmp_bytes fam n res) <> None.
  Proof using Hf Hn0 Hn8. intros Hr Hn. apply budget_suffices, switching_key_spec; assumption. Qed.

  Lemma automorphism_key_spec (res : infos) : wf_infos res -> i_n res = n ->
    budget (tree_glwe_automorphism_key_encrypt_sk fam n res) (glwe_automorphism_key_encrypt_sk_tmp_bytes fam n res).
  Proof using Hf Hn0 Hn8.
    intros Hr Hn. pose proof (gglwe_encrypt_spec res Hr Hn) as Bg. pose proof (budget_nonneg _ _ Bg).
    pose proof (al_scalar_znx fam n Hf Hn0 Hn8 (i_rank res) ltac:(destruct Hr as (_&_&?&_); lia)).
    pose proof (al_svp fam n Hf Hn0 Hn8 (i_rank res) ltac:(destruct Hr as (_&_&?&_); lia)).
    unfold tree_glwe_automorphism_key_encrypt_sk, glwe_automorphism_key_encrypt_sk_tmp_bytes,
      glwe_secret_prepared_bytes_of_from_infos, glwe_secret_prepared_bytes_of, GLWESecret_bytes_of_from_infos, GLWESecret_bytes_of;
      cbv zeta; rewrite Hn.
    cbn [budget persist]. leaves. eapply budget_mono; [exact Bg | lia].
  Qed.

  Lemma suffices_glwe_automorphism_key_encrypt_sk (res : infos) : wf_infos res -> i_n res = n ->
    run_takes (tree_glwe_automorphism_key_encrypt_sk fam n res) (0, glwe_automorphism_key_encrypt_sk_tmp_bytes fam n res) <> None.
  Proof using Hf Hn0 Hn8. intros. apply budget_suffices, automorphism_key_spec; assumption. Qed.

  Lemma lwe_switching_key_spec (res : infos) : wf_infos res -> i_n res = n ->
    budget (tree_lwe_switching_key_encrypt_sk fam n res) (lwe_switching_key_encrypt_sk_tmp_bytes fam n res).
  Proof using Hf Hn0 Hn8.
    intros Hr Hn. pose proof (switching_key_spec res Hr Hn) as Bs. pose proof (budget_nonneg _ _ Bs).
    pose proof (budget_automorphism_assign fam n Hf Hn0 Hn8) as Ba. pose proof (budget_nonneg _ _ Ba).
    pose proof (al_scalar_znx fam n Hf Hn0 Hn8 1 ltac:(lia)).
    unfold tree_lwe_switching_key_encrypt_sk, lwe_switching_key_encrypt_sk_tmp_bytes, GLWESecret_bytes_of; cbv zeta.
    cbn [budget persist]. leaves.
    all: eapply budget_mono; [eassumption | lia].
  Qed.

  Lemma suffices_lwe_switching_key_encrypt_sk (res : infos) : wf_infos res -> i_n res = n ->
    run_takes (tree_lwe_switching_key_encrypt_sk fam n res) (0, lwe_switching_key_encrypt_sk_tmp_bytes fam n res) <> None.
  Proof using Hf Hn0 Hn8. intros. apply budget_suffices, lwe_switching_key_spec; assumption. Qed.

  Lemma scalar_znx_mono (c c' : Z) : c' <= c -> ScalarZnx_bytes_of n c' <= ScalarZnx_bytes_of n c.
  Proof using Hf Hn0 Hn8. intros. unfold ScalarZnx_bytes_of. assert (n * c' <= n * c) by (apply Z.mul_le_mono_nonneg_l; lia). lia. Qed.

  (* the formula reserves for rank_in secrets, the code takes one (the LWE secret viewed as a rank-1 GLWE secret) *)
  Lemma suffices_glwe_to_lwe_key_encrypt_sk (res : infos) : wf_infos res -> i_n res = n -> 1 <= i_rank_in res ->
    run_takes (tree_glwe_to_lwe_key_encrypt_sk fam n res) (0, glwe_to_lwe_key_encrypt_sk_tmp_bytes fam n res) <> None.
  Proof using Hf Hn0 Hn8.
    intros Hr Hn Hri. pose proof (gglwe_encrypt_spec res Hr Hn) as Bg. pose proof (budget_nonneg _ _ Bg).
    pose proof (budget_automorphism_assign fam n Hf Hn0 Hn8) as Ba. pose proof (budget_nonneg _ _ Ba).
    pose proof (al_scalar_znx fam n Hf Hn0 Hn8 1 ltac:(lia)). pose proof (al_svp fam n Hf Hn0 Hn8 1 ltac:(lia)).
    assert (hal_bytes_of_svp_ppol fam n 1 <= hal_bytes_of_svp_ppol fam n (i_rank_in res)).
    { autounfold with c12gen. unfold size_of_scalar_prep. assert (n * 1 <= n * i_rank_in res) by (apply Z.mul_le_mono_nonneg_l; lia).
      destruct Hf as [-> | ->]; cbn [Z.eqb]; lia. }
    pose proof (scalar_znx_mono (i_rank_in res) 1 Hri).
    apply budget_suffices; unfold tree_glwe_to_lwe_key_encrypt_sk, glwe_to_lwe_key_encrypt_sk_tmp_bytes,
      glwe_secret_prepared_bytes_of, GLWESecret_bytes_of; cbv zeta.
    cbn [budget persist]. leaves.
    all: eapply budget_mono; [eassumption | lia].
  Qed.

  Lemma suffices_lwe_to_glwe_key_encrypt_sk (res : infos) : wf_infos res -> i_n res = n -> 1 <= i_rank_in res ->
    run_takes (tree_lwe_to_glwe_key_encrypt_sk fam n res) (0, lwe_to_glwe_key_encrypt_sk_tmp_bytes fam n res) <> None.
  Proof using Hf Hn0 Hn8.
    intros Hr Hn Hri. pose proof (gglwe_encrypt_spec res Hr Hn) as Bg. pose proof (budget_nonneg _ _ Bg).
    pose proof (budget_automorphism_assign fam n Hf Hn0 Hn8) as Ba. pose proof (budget_nonneg _ _ Ba).
    pose proof (al_scalar_znx fam n Hf Hn0 Hn8 1 ltac:(lia)).
    pose proof (scalar_znx_mono (i_rank_in res) 1 Hri).
    apply budget_suffices; unfold tree_lwe_to_glwe_key_encrypt_sk, lwe_to_glwe_key_encrypt_sk_tmp_bytes, GLWESecret_bytes_of; cbv zeta.
    cbn [budget persist]. leaves.
    all: eapply budget_mono; [eassumption | lia].
  Qed.

  (* the tensor of the secret and the two keys built on it *)
  Lemma tensor_prepare_spec (rank : Z) : 0 <= rank ->
    budget (tree_glwe_secret_tensor_prepare fam n rank) (glwe_secret_tensor_prepare_tmp_bytes fam n rank).
  Proof using Hf Hn0 Hn8.
    intros Hr. pose proof (budget_big_normalize fam n Hf Hn0 Hn8) as Bb. pose proof (nn_bnorm fam n Hf Hn0 Hn8).
    pose proof (al_svp fam n Hf Hn0 Hn8 rank Hr). pose proof (al_dft fam n Hf Hn0 Hn8 rank 1 Hr ltac:(lia)).
    pose proof (al_big fam n Hf Hn0 Hn8 1 1 ltac:(lia) ltac:(lia)). pose proof (al_dft fam n Hf Hn0 Hn8 1 1 ltac:(lia) ltac:(lia)).
    unfold tree_glwe_secret_tensor_prepare, glwe_secret_tensor_prepare_tmp_bytes, glwe_secret_prepared_bytes_of. cbv zeta.
    cbn [budget persist]. leaves. eapply budget_mono; [exact Bb | lia].
  Qed.

  Lemma suffices_glwe_tensor_key_encrypt_sk (res : infos) : wf_infos res -> i_n res = n ->
    run_takes (tree_glwe_tensor_key_encrypt_sk fam n res) (0, glwe_tensor_key_encrypt_sk_tmp_bytes fam n res) <> None.
  Proof using Hf Hn0 Hn8.
    intros Hr Hn. assert (Hrr : 0 <= i_rank res) by (destruct Hr as (_&_&?&_); lia).
    destruct (pairs_facts (i_rank res) Hrr) as [Hp1 Hp2].
    assert (Wt : wf_infos (tensor_key_layout res) /\ i_n (tensor_key_layout res) = n).
    { destruct Hr as (Hb & Hs & Hrk & Hri & Hdn & Hds). split; [|exact Hn].
      unfold wf_infos, tensor_key_layout, mk_gglwe_layout; cbn [i_base2k i_size i_rank i_rank_in i_dnum i_dsize].
      pose proof (div_ceil_nonneg (i_max_k res) (i_base2k res) ltac:(unfold i_max_k; nia) Hb). lia. }
    destruct Wt as [Wt Nt].
    pose proof (gglwe_encrypt_spec (tensor_key_layout res) Wt Nt) as Bg. pose proof (budget_nonneg _ _ Bg).
    pose proof (tensor_prepare_spec (i_rank res) Hrr) as Bp. pose proof (budget_nonneg _ _ Bp).
    pose proof (al_svp fam n Hf Hn0 Hn8 (i_rank res) Hrr).
    pose proof (al_scalar_znx fam n Hf Hn0 Hn8 (GLWESecretTensor_pairs (i_rank res)) ltac:(lia)).
    pose proof (scalar_znx_mono _ _ Hp2).
    apply budget_suffices; unfold tree_glwe_tensor_key_encrypt_sk, glwe_tensor_key_encrypt_sk_tmp_bytes, glwe_secret_prepared_bytes_of,
      GLWESecretTensor_bytes_of_from_infos, GLWESecretTensor_bytes_of; cbv zeta; fold (tensor_key_layout res); rewrite Hn.
    cbn [budget persist]. leaves.
    all: eapply budget_mono; [eassumption | lia].
  Qed.

  Lemma gglwe_to_ggsw_key_spec (res : infos) : wf_infos res -> i_n res = n ->
    budget (tree_gglwe_to_ggsw_key_encrypt_sk fam n res) (gglwe_to_ggsw_key_encrypt_sk_tmp_bytes fam n res).
  Proof using Hf Hn0 Hn8.
    intros Hr Hn. assert (Hrr : 0 <= i_rank res) by (destruct Hr as (_&_&?&_); lia).
    destruct (pairs_facts (i_rank res) Hrr) as [Hp1 Hp2].
    pose proof (gglwe_encrypt_spec res Hr Hn) as Bg. pose proof (budget_nonneg _ _ Bg).
    pose proof (tensor_prepare_spec (i_rank res) Hrr) as Bp. pose proof (budget_nonneg _ _ Bp).
    pose proof (al_svp fam n Hf Hn0 Hn8 (i_rank res) Hrr).
    pose proof (al_scalar_znx fam n Hf Hn0 Hn8 (GLWESecretTensor_pairs (i_rank res)) ltac:(lia)).
    pose proof (al_scalar_znx fam n Hf Hn0 Hn8 (i_rank res) Hrr).
    pose proof (scalar_znx_mono _ _ Hp2).
    unfold tree_gglwe_to_ggsw_key_encrypt_sk, gglwe_to_ggsw_key_encrypt_sk_tmp_bytes, glwe_secret_prepared_bytes_of,
      GLWESecretTensor_bytes_of_from_infos, GLWESecretTensor_bytes_of, GLWESecret_bytes_of; cbv zeta; rewrite Hn.
    cbn [budget persist]. leaves.
    all: eapply budget_mono; [eassumption | lia].
  Qed.

  Lemma suffices_gglwe_to_ggsw_key_encrypt_sk (res : infos) : wf_infos res -> i_n res = n ->
    run_takes (tree_gglwe_to_ggsw_key_encrypt_sk fam n res) (0, gglwe_to_ggsw_key_encrypt_sk_tmp_bytes fam n res) <> None.
  Proof using Hf Hn0 Hn8. intros. apply budget_suffices, gglwe_to_ggsw_key_spec; assumption. Qed.
End KeyEnc.

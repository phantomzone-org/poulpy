(* C07 butterfly networks, refinement: the exact (unwrapped) value of the lazy network is congruent mod q, entry by
   entry, to the ideal network over Z, whatever the inputs; the ideal networks compute the negacyclic evaluation
   (forward) and its inverse formula (inverse). *)
From PV Require Import Base.MachineInt Model.Limbs Model.DftAbs Model.C07Ntt120 Model.C07NttNet Proofs.C07Ring
  Proofs.C07NetBase Proofs.C07NetStruct Proofs.C07NetAbs Proofs.C07NetLazy.
From Coq Require Import Morphisms Setoid.
Open Scope Z_scope.

Definition fwd_lanes (W : Z -> Z) (rm : redmeta) (metas : list stepmeta) (tws : list (list Z)) : list lanefn :=
  map (fun p => fwd_lane W rm (fst p) (snd p)) (combine metas tws).
Definition inv_lanes (W : Z -> Z) (rm : redmeta) (metas : list stepmeta) (tws : list (list Z)) : list lanefn :=
  map (fun p => inv_lane W rm (fst p) (snd p)) (combine metas tws).

Lemma fwd_levels_gnet W rm : forall c metas tws cnt x, length metas = c -> length tws = c ->
  fwd_levels W rm c cnt metas tws x = gnet (fwd_lanes W rm metas tws) cnt x.
Proof.
  induction c as [|c IH]; intros [|sm ms] [|tw ts] cnt x Hm Ht; cbn [length] in *; try discriminate; [reflexivity|].
  cbn [fwd_levels fwd_lanes combine map gnet length fst snd].
  unfold fwd_lanes in IH. rewrite map_length, combine_length.
  replace (Nat.min (length ms) (length ts)) with c by lia.
  apply IH; lia.
Qed.
Lemma inv_levels_enet W rm : forall lv c metas tws x, length metas = lv -> length tws = lv ->
  inv_levels W rm lv c metas tws x = enet (inv_lanes W rm metas tws) c 1 x.
Proof.
  induction lv as [|lv IH]; intros c [|sm ms] [|tw ts] x Hm Ht; cbn [length] in *; try discriminate; [reflexivity|].
  cbn [inv_levels inv_lanes combine map enet length fst snd].
  unfold inv_lanes in IH. rewrite map_length, combine_length.
  replace (Nat.min (length ms) (length ts)) with lv by lia. rewrite Nat.mul_1_l.
  apply IH; lia.
Qed.

Section Q.
Variable q : Z.
Local Notation "a == b" := (cong q a b) (at level 70, no associativity).

Lemma fwd_lane_cong rm sm tw w h : rm_wf q rm -> sm_wf q sm ->
  (forall i', (S i' < h)%nat -> word_val q (sm_hb sm) (nth i' tw 0) (zp w (S i'))) ->
  lane_cong q h (fwd_lane idz rm sm tw) (laneF w).
Proof.
  intros Hrm [Hhb [Hm [_ [Hq2 _]]]] Htw i a b a' b' Hi Ha Hb. unfold fwd_lane, laneF. cbn [fst snd].
  pose proof (pre_cong q a rm sm Hrm) as Pa. pose proof (pre_cong q b rm sm Hrm) as Pb.
  split.
  - unidz. rewrite Pa, Pb, Ha, Hb. reflexivity.
  - destruct i as [|i'].
    + unidz. rewrite Pa, Pb, Ha, Hb, Hq2. cbn [zp]. ring_simplify. reflexivity.
    + rewrite (spm_cong q _ _ _ _ _ Hhb Hm (Htw i' Hi)). unidz. rewrite Pa, Pb, Ha, Hb, Hq2. ring_simplify. reflexivity.
Qed.
Lemma inv_lane_cong rm sm tw w h : rm_wf q rm -> sm_wf q sm ->
  (forall i', (S i' < h)%nat -> word_val q (sm_hb sm) (nth i' tw 0) (zp w (S i'))) ->
  lane_cong q h (inv_lane idz rm sm tw) (laneI w).
Proof.
  intros Hrm [Hhb [Hm [_ [Hq2 _]]]] Htw i a b a' b' Hi Ha Hb. unfold inv_lane, laneI. cbn [fst snd].
  pose proof (pre_cong q a rm sm Hrm) as Pa. pose proof (pre_cong q b rm sm Hrm) as Pb.
  destruct i as [|i'].
  - unidz. rewrite Pa, Pb, Ha, Hb, Hq2. cbn [zp]. split; ring_simplify; reflexivity.
  - pose proof (spm_cong q (pre idz rm sm b) _ _ _ _ Hhb Hm (Htw i' Hi)) as Ps.
    unidz. rewrite Ps, Pa, Pb, Ha, Hb, Hq2. split; ring_simplify; reflexivity.
Qed.

(* lists of lanes from level-indexed facts *)
Lemma lanes_cong_nth (d d' : lanefn) gs : forall gs', length gs = length gs' ->
  (forall l, (l < length gs)%nat -> lane_cong q (pow2n (length gs - 1 - l)) (nth l gs d) (nth l gs' d')) ->
  lanes_cong q gs gs'.
Proof.
  induction gs as [|g gs IH]; intros [|g' gs'] Hl H; cbn [length] in *; try discriminate; [exact I|].
  cbn [lanes_cong]. split.
  - specialize (H 0%nat ltac:(lia)). cbn [nth] in H. replace (S (length gs) - 1 - 0)%nat with (length gs) in H by lia. exact H.
  - apply IH; [lia|]. intros l Hlt. specialize (H (S l) ltac:(lia)). cbn [nth] in H.
    replace (S (length gs) - 1 - S l)%nat with (length gs - 1 - l)%nat in H by lia. exact H.
Qed.

Lemma dif_lanes_nth d m : forall w l, (l < m)%nat -> nth l (dif_lanes m w) d = laneF (zp w (pow2n l)).
Proof.
  induction m as [|m IH]; intros w l Hl; [lia|].
  cbn [dif_lanes]. destruct l as [|l]; cbn [nth].
  - change (pow2n 0) with 1%nat. rewrite zp_1_r. reflexivity.
  - rewrite IH by lia. rewrite zp_sq, <- pow2n_S. reflexivity.
Qed.
Lemma dit_lanes_nth d m : forall w l, (l < m)%nat -> nth l (dit_lanes m w) d = laneI (zp w (pow2n l)).
Proof.
  induction m as [|m IH]; intros w l Hl; [lia|].
  cbn [dit_lanes]. destruct l as [|l]; cbn [nth].
  - change (pow2n 0) with 1%nat. rewrite zp_1_r. reflexivity.
  - rewrite IH by lia. rewrite zp_sq, <- pow2n_S. reflexivity.
Qed.

Definition nttA (psi : Z) (m : nat) (x : list Z) : list Z :=
  rnet (dif_lanes m (psi * psi)) (map (fun j => nth j x 0 * zp psi j) (seq 0 (pow2n m))).
Definition inttA (phi ninv : Z) (m : nat) (y : list Z) : list Z :=
  let z := irnet (dit_lanes m (phi * phi)) y in map (fun j => nth j z 0 * (ninv * zp phi j)) (seq 0 (pow2n m)).

Lemma half_root psi m : zp psi (pow2n m) == -1 -> forall m', m = S m' -> zp (psi * psi) (pow2n m') == -1.
Proof. intros H m' ->. rewrite zp_sq, <- pow2n_S. exact H. Qed.

Theorem nttA_spec psi m x p : zp psi (pow2n m) == -1 -> (p < pow2n m)%nat ->
  nth p (nttA psi m x) 0 == peval x (zp psi (2 * brev m p + 1)) (pow2n m).
Proof.
  intros Hpsi Hp. unfold nttA.
  rewrite (dif_spec q m (psi * psi) _ ltac:(rewrite map_length, seq_length; reflexivity) (half_root psi m Hpsi) p Hp).
  unfold peval. apply zsum_cong. intros j Hj. rewrite nth_map_seq by exact Hj.
  rewrite zp_sq, <- zp_mul. rewrite <- Z.mul_assoc, <- zp_add.
  replace (j + 2 * (brev m p * j))%nat with ((2 * brev m p + 1) * j)%nat by lia. reflexivity.
Qed.
Lemma nttA_length psi m x : length (nttA psi m x) = pow2n m.
Proof.
  unfold nttA. pose proof (rnet_length (dif_lanes m (psi * psi))) as R. rewrite dif_lanes_length in R.
  apply R. rewrite map_length, seq_length. reflexivity.
Qed.

Theorem inttA_spec phi ninv m y j : length y = pow2n m -> zp phi (pow2n m) == -1 -> (j < pow2n m)%nat ->
  nth j (inttA phi ninv m y) 0 == ninv * zsum (fun p => nth p y 0 * zp phi ((2 * brev m p + 1) * j)) (pow2n m).
Proof.
  intros Hy Hphi Hj. unfold inttA. cbv zeta. rewrite nth_map_seq by exact Hj.
  rewrite (dit_spec q m (phi * phi) y Hy (half_root phi m Hphi) j Hj).
  rewrite Z.mul_comm, <- Z.mul_assoc, <- zsum_mul_l. apply (cong_mul q); [reflexivity|]. apply zsum_cong. intros p Hp.
  rewrite zp_sq. replace ((2 * brev m p + 1) * j)%nat with (j + 2 * (brev m p * j))%nat by lia. rewrite zp_add. ring_simplify. reflexivity.
Qed.
Lemma inttA_length phi ninv m y : length (inttA phi ninv m y) = pow2n m.
Proof. unfold inttA. cbv zeta. rewrite map_length, seq_length. reflexivity. Qed.

(* the inverse formula only depends on the residues of its input *)
Lemma inttA_cong phi ninv m y y' j : length y = pow2n m -> lcong q y y' -> zp phi (pow2n m) == -1 -> (j < pow2n m)%nat ->
  nth j (inttA phi ninv m y) 0 == nth j (inttA phi ninv m y') 0.
Proof.
  intros Hy [Hl Hc] Hphi Hj. rewrite (inttA_spec phi ninv m y j Hy Hphi Hj), (inttA_spec phi ninv m y' j ltac:(lia) Hphi Hj).
  apply (cong_mul q); [reflexivity|]. apply zsum_cong. intros p _. rewrite (Hc p). reflexivity.
Qed.

(* intt(ntt(x)) = x and the convolution theorem, for the ideal transforms *)
Theorem inttA_nttA psi phi ninv m x j : psi * phi == 1 -> zp psi (pow2n m) == -1 -> ninv * Z.of_nat (pow2n m) == 1 ->
  (j < pow2n m)%nat -> forall y, lcong q y (nttA psi m x) -> nth j (inttA phi ninv m y) 0 == nth j x 0.
Proof.
  intros Hinv Hpsi Hn Hj y [Hl Hy].
  assert (Hphi : zp phi (pow2n m) == -1).
  { pose proof (inv_pow q psi phi (pow2n m) Hinv) as H. rewrite Hpsi in H.
    replace (zp phi (pow2n m)) with (-1 * (-1 * zp phi (pow2n m))) by ring. rewrite H. reflexivity. }
  rewrite nttA_length in Hl.
  rewrite (inttA_spec phi ninv m y j Hl Hphi Hj).
  rewrite <- (inversion q m psi phi ninv x Hinv Hpsi Hn j Hj).
  apply (cong_mul q); [reflexivity|]. apply zsum_cong. intros p Hp.
  rewrite (Hy p), (nttA_spec psi m x p Hpsi Hp). reflexivity.
Qed.

Theorem conv_A psi phi ninv m a b c j : psi * phi == 1 -> zp psi (pow2n m) == -1 -> ninv * Z.of_nat (pow2n m) == 1 ->
  length a = pow2n m -> length b = pow2n m -> length c = pow2n m ->
  (forall p, (p < pow2n m)%nat -> nth p c 0 == nth p (nttA psi m a) 0 * nth p (nttA psi m b) 0) ->
  (j < pow2n m)%nat -> nth j (inttA phi ninv m c) 0 == nth j (pmul a b) 0.
Proof.
  intros Hinv Hpsi Hn Ha Hb Hc Hprod Hj.
  assert (Hphi : zp phi (pow2n m) == -1).
  { pose proof (inv_pow q psi phi (pow2n m) Hinv) as H. rewrite Hpsi in H.
    replace (zp phi (pow2n m)) with (-1 * (-1 * zp phi (pow2n m))) by ring. rewrite H. reflexivity. }
  rewrite (inttA_spec phi ninv m c j Hc Hphi Hj).
  rewrite <- (inversion q m psi phi ninv (pmul a b) Hinv Hpsi Hn j Hj).
  apply (cong_mul q); [reflexivity|]. apply zsum_cong. intros p Hp.
  rewrite (Hprod p Hp), (nttA_spec psi m a p Hpsi Hp), (nttA_spec psi m b p Hpsi Hp).
  assert (Hz : zp (zp psi (2 * brev m p + 1)) (length a) == -1).
  { rewrite Ha, <- zp_mul, Nat.mul_comm, zp_mul, Hpsi, zp_m1_odd. reflexivity. }
  pose proof (peval_pmul q a b _ ltac:(lia) Hz) as E. rewrite Ha in E. rewrite E. reflexivity.
Qed.

Lemma ewise_lcong rm sm tw z z' (v : nat -> Z) n : rm_wf q rm -> sm_wf q sm -> length tw = n -> length z = n ->
  lcong q z z' -> (forall j, (j < n)%nat -> word_val q (sm_hb sm) (nth j tw 0) (v j)) ->
  lcong q (ewise idz rm sm tw z) (map (fun j => nth j z' 0 * v j) (seq 0 n)).
Proof.
  intros Hrm [Hhb [Hm _]] Htw Hz [Hl Hc] Hv. split; [rewrite ewise_length, map_length, seq_length by lia; exact Hz|].
  intros j. destruct (Nat.ltb_spec j n) as [Hj|Hj].
  - rewrite nth_ewise by lia. rewrite nth_map_seq by exact Hj.
    rewrite (spm_cong q _ _ _ _ _ Hhb Hm (Hv j Hj)). rewrite (pre_cong q _ rm sm Hrm), (Hc j). reflexivity.
  - rewrite !nth_overflow; [reflexivity| |]; [rewrite map_length, seq_length|rewrite ewise_length]; lia.
Qed.

Lemma nth_lanes (f : stepmeta -> list Z -> lanefn) d metas tws l : length metas = length tws ->
  nth l (map (fun p => f (fst p) (snd p)) (combine metas tws)) (f d []) = f (nth l metas d) (nth l tws []).
Proof.
  intros Hl. change (f d []) with ((fun p : stepmeta * list Z => f (fst p) (snd p)) (d, [])).
  rewrite map_nth. rewrite combine_nth by exact Hl. reflexivity.
Qed.


(* what the proofs need from a table: the element-wise words carry the values v0 i, word i' of level l carries
   vl l (S i'), for the cnt l lanes of the level *)
Definition tab_vals (T : table) (m : nat) (v0 : nat -> Z) (cnt : nat -> nat) (vl : nat -> nat -> Z) : Prop :=
  rm_wf q (tb_red T) /\ sm_wf q (tb_m0 T) /\ length (tb_tw0 T) = pow2n m /\
  (forall i, (i < pow2n m)%nat -> word_val q (sm_hb (tb_m0 T)) (nth i (tb_tw0 T) 0) (v0 i)) /\
  length (tb_metas T) = m /\ length (tb_tws T) = m /\
  (forall l, (l < m)%nat -> sm_wf q (nth l (tb_metas T) dsm) /\
     forall i', (S i' < cnt l)%nat ->
       word_val q (sm_hb (nth l (tb_metas T) dsm)) (nth i' (nth l (tb_tws T) []) 0) (vl l (S i'))).
(* forward: psi is the 2n-th root *)
Definition fwd_vals (T : table) (m : nat) (psi : Z) : Prop :=
  tab_vals T m (zp psi) (fun l => pow2n (m - 1 - l)) (fun l => zp (zp (psi * psi) (pow2n l))).

Theorem ntt_refine T m psi x : fwd_vals T (S m) psi -> length x = pow2n (S m) ->
  lcong q (ntt_with idz T (S m) x) (nttA psi (S m) x).
Proof.
  intros [Hrm [Hsm [Hl0 [Hv0 [Hlm [Hlt Hlv]]]]]] Hx. unfold ntt_with, nttA.
  rewrite fwd_levels_gnet by assumption.
  rewrite <- (gnet_rnet_1 (dif_lanes (S m) (psi * psi))) by (rewrite dif_lanes_length, map_length, seq_length; reflexivity).
  assert (Hlen : length (fwd_lanes idz (tb_red T) (tb_metas T) (tb_tws T)) = S m).
  { unfold fwd_lanes. rewrite map_length, combine_length. lia. }
  apply gnet_lcong.
  - apply (lanes_cong_nth (fwd_lane idz (tb_red T) dsm []) (laneF 0)); [rewrite Hlen, dif_lanes_length; reflexivity|].
    rewrite Hlen. intros l Hl. unfold fwd_lanes. rewrite nth_lanes by lia. rewrite dif_lanes_nth by exact Hl.
    destruct (Hlv l Hl) as [Hwf Hw]. apply fwd_lane_cong; assumption.
  - rewrite Hlen, ewise_length by lia. lia.
  - apply ewise_lcong; try assumption. apply lcong_refl.
Qed.

(* inverse: phi = 1/psi, ninv = 1/n; levels in execution order (nn = 2 first) *)
Definition inv_vals (T : table) (m : nat) (phi ninv : Z) : Prop :=
  tab_vals T m (fun j => ninv * zp phi j) pow2n (fun l => zp (zp (phi * phi) (pow2n (m - 1 - l)))).

Theorem intt_refine T m phi ninv y : inv_vals T (S m) phi ninv -> length y = pow2n (S m) ->
  lcong q (intt_with idz T (S m) y) (inttA phi ninv (S m) y).
Proof.
  intros [Hrm [Hsm [Hl0 [Hv0 [Hlm [Hlt Hlv]]]]]] Hy. unfold intt_with, inttA. cbv zeta.
  rewrite inv_levels_enet by assumption.
  set (L := inv_lanes idz (tb_red T) (tb_metas T) (tb_tws T)).
  assert (Hlen : length L = S m) by (unfold L, inv_lanes; rewrite map_length, combine_length; lia).
  rewrite <- (rev_involutive L), enet_ignet.
  assert (HLy : length y = (1 * pow2n (length (rev L)))%nat) by (rewrite rev_length, Hlen; lia).
  assert (Hz : lcong q (ignet (rev L) 1 y) (irnet (dit_lanes (S m) (phi * phi)) y)).
  { rewrite <- (enet_irnet_1 (dit_lanes (S m) (phi * phi)) y) by (rewrite dit_lanes_length; exact Hy).
    rewrite enet_ignet. apply ignet_lcong; [|exact HLy|apply lcong_refl].
    apply (lanes_cong_nth (inv_lane idz (tb_red T) dsm []) (laneI 0)); [rewrite rev_length, Hlen, dit_lanes_length; reflexivity|].
    rewrite rev_length, Hlen. intros t Ht. rewrite rev_nth by lia. rewrite Hlen.
    unfold L, inv_lanes. rewrite nth_lanes by lia. rewrite dit_lanes_nth by exact Ht.
    destruct (Hlv (S m - S t)%nat ltac:(lia)) as [Hwf Hw].
    apply inv_lane_cong; [assumption|assumption|].
    intros i' Hi'. replace (S m - 1 - (S m - S t))%nat with t in Hw by lia. apply Hw.
    replace (S m - S t)%nat with (S m - 1 - t)%nat by lia. exact Hi'. }
  apply ewise_lcong; try assumption.
  destruct Hz as [Hzl _]. rewrite Hzl.
  pose proof (irnet_length (dit_lanes (S m) (phi * phi)) y) as R. rewrite dit_lanes_length in R. apply R. exact Hy.
Qed.
End Q.

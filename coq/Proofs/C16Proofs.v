(* C16 — proofs about the CKKS metadata / error algebra of Model/C16Meta.v against Model/C16Spec.v *)
From Coq Require Import ZifyBool.
From PV Require Import Base.MachineInt Model.C16Meta Model.C16Spec.
Open Scope Z_scope.

Lemma cdiv_le_iff (B k s : Z) : 1 <= B -> (cdiv k B <= s <-> k <= s * B).
Proof. intros HB. unfold cdiv. split; intros H; nia. Qed.

Lemma cdiv_ge1 (B k : Z) : 1 <= B -> 1 <= k -> 1 <= cdiv k B.
Proof. intros. unfold cdiv. nia. Qed.

Lemma cdiv_bounds (B k s : Z) : 1 <= B -> 0 <= k -> k <= s * B ->
  0 <= cdiv k B /\ k <= cdiv k B * B /\ cdiv k B * B <= s * B.
Proof.
  intros HB Hk Hs.
  assert (H1 : cdiv k B <= s) by (apply cdiv_le_iff; lia).
  assert (H2 : k <= cdiv k B * B) by (apply cdiv_le_iff; lia).
  assert (H3 : 0 <= cdiv k B) by (unfold cdiv; nia).
  repeat split; try lia. nia.
Qed.

(* destructs the comparisons in sight by their specifications *)
Ltac cmp :=
  repeat (cbv beta iota zeta delta [andb orb negb];
          match goal with
          | |- context [Z.ltb ?x ?y] => destruct (Z.ltb_spec x y)
          | |- context [Z.leb ?x ?y] => destruct (Z.leb_spec x y)
          | |- context [Z.eqb ?x ?y] => destruct (Z.eqb_spec x y)
          end);
  cbv beta iota zeta delta [andb orb negb].

(* case analysis on every test of a computation that cbv has laid open *)
Ltac split_ifs :=
  repeat (match goal with
          | |- context [if ?c then _ else _] => let E := fresh "E" in destruct c eqn:E
          end; cbv beta iota zeta).

(* a product-like computation p against its closed form S, a function of what is done with the resulting metadata:
   a failure leaves the metadata alone, a success sets metadata that a destination of max_k = mk can hold *)
Definition prod_sim (adm : Prop) (p : M unit) (S : (meta -> sres) -> sres) (mk : Z) : Prop :=
  forall m sh k',
    match p m sh with
    | R _ m' _ => S k' = k' m' /\ 0 <= ld m' /\ 0 <= lb m' /\ eff m' <= mk
    | F e m1 => S k' = SErr e /\ m1 = m
    | P => ~ adm
    end.

Lemma mul_ct_sim (adm : Prop) (B mk : Z) (x y : meta) (c : bool) :
  0 <= ld x -> 0 <= ld y ->
  prod_sim adm (apply_params_asserting (mul_ct_params B mk x y) c) (fun k' => s_mul_ct mk x y (fun m => s_compact c (k' m))) mk.
Proof.
  intros Hx Hy m sh k'.
  unfold apply_params_asserting, mul_ct_params, s_mul_ct, s_compact, csub, ssub, bind, ret, fail, shift, set_lb, set_ld, eff.
  cmp; try lia; try (split; reflexivity). destruct c; cbn [ld lb]; [|split; reflexivity]. repeat split; lia.
Qed.

Lemma mul_pt_sim (adm : Prop) (mk : Z) (x : meta) (pl kk : Z) (c : bool) :
  0 <= ld x ->
  prod_sim adm (apply_params_asserting (mul_pt_params mk x pl kk) c) (fun k' => s_mul_pt mk x pl (fun m => s_compact c (k' m))) mk.
Proof.
  intros Hx m sh k'.
  unfold apply_params_asserting, mul_pt_params, s_mul_pt, s_compact, csub, ssub, bind, ret, fail, shift, set_lb, set_ld, eff.
  cmp; try lia; try (split; reflexivity). destruct c; cbn [ld lb]; [|split; reflexivity]. repeat split; lia.
Qed.

Lemma mul_cst_sim (adm : Prop) (mk : Z) (x : meta) (pl kk : Z) :
  0 <= ld x -> prod_sim adm (apply_params (mul_pt_params mk x pl kk)) (s_mul_pt mk x pl) mk.
Proof.
  intros Hx m sh k'.
  unfold apply_params, mul_pt_params, s_mul_pt, csub, ssub, bind, ret, fail, shift, set_lb, set_ld, eff.
  cmp; try lia; try (split; reflexivity). cbn [ld lb]. repeat split; lia.
Qed.

Lemma unary_sim (adm : Prop) (B : Z) (d a : ct) :
  0 <= ld (cm a) -> prod_sim adm (unary_into B d a) (s_unary B d a) (maxk B d).
Proof.
  intros Ha m sh k'. unfold unary_into, s_unary, offset_unary, offu, csub, ssub, bind, ret, fail, shift, set_meta, set_lb, eff.
  cmp; try lia; [split; reflexivity|]. cbn [ld lb]. repeat split; lia.
Qed.

Lemma lin_into_sim (adm : Prop) (chk : bool) (B : Z) (d a b : ct) :
  0 <= ld (cm a) -> 0 <= ld (cm b) ->
  prod_sim adm (lin_into chk B d a b)
    (fun k' => if Z.min (lb (cm a)) (lb (cm b)) <? offb B d a b then SErr ECapacity
               else k' (Meta (Z.min (ld (cm a)) (ld (cm b))) (Z.min (lb (cm a)) (lb (cm b)) - offb B d a b))) (maxk B d).
Proof.
  intros Ha Hb m sh k'.
  unfold lin_into, offset_binary, offb, csub, usub, ssub, bind, ret, fail, shift, set_ld, set_lb, eff.
  cmp; try lia; try (split; reflexivity); cbn [ld lb]; repeat split; lia.
Qed.

(* add_assign / sub_assign never fails: both sides are aligned to the smaller budget and precision *)
Lemma lin_assign_run (chk : bool) (a : ct) (m : meta) (sh : list Z) :
  exists sh', lin_assign chk a m sh = R tt (Meta (Z.min (ld m) (ld (cm a))) (Z.min (lb m) (lb (cm a)))) sh'.
Proof.
  unfold lin_assign, usub, bind, get, ret, shift, set_lb, set_ld. cmp; try lia; eexists; reflexivity.
Qed.

Lemma f64_sim (adm : Prop) (l : Z) (p : M unit) (S : (meta -> sres) -> sres) (mk : Z) :
  prod_sim adm p S mk -> prod_sim adm (to_znx_check l ;;; p) (fun k' => s_f64 l (S k')) mk.
Proof.
  intros H m sh k'. unfold to_znx_check, s_f64, f64_prec, bind, ret, fail. cmp; try lia; [split; reflexivity | exact (H m sh k')].
Qed.

Lemma base2k_sim (adm : Prop) (B b2k : Z) (p : M unit) (S : (meta -> sres) -> sres) (mk : Z) :
  prod_sim adm p S mk ->
  prod_sim adm (if negb (B =? b2k) then fail EBase2k else p) (fun k' => if negb (B =? b2k) then SErr EBase2k else S k') mk.
Proof. intros H m sh k'. destruct (negb (B =? b2k)); [split; reflexivity | apply H]. Qed.

Lemma bind_assoc {A C D : Type} (c : M A) (f : A -> M C) (g : C -> M D) (m : meta) (sh : list Z) :
  bind (bind c f) g m sh = bind c (fun x => bind (f x) g) m sh.
Proof. unfold bind. destruct (c m sh); reflexivity. Qed.

Lemma bind_get {C : Type} (f : meta -> M C) (m : meta) (sh : list Z) : bind get f m sh = f m m sh.
Proof. reflexivity. Qed.

Lemma assert_sim (adm : Prop) (c : bool) (p : M unit) (S : (meta -> sres) -> sres) (mk : Z) :
  (c = false -> ~ adm) -> prod_sim adm p S mk -> prod_sim adm (passert c ;;; p) S mk.
Proof. intros Hc H m sh k'. destruct c; [exact (H m sh k') | exact (Hc eq_refl)]. Qed.

Lemma prod_sim_ext (adm : Prop) (p q : M unit) (S : (meta -> sres) -> sres) (mk : Z) :
  (forall m sh, p m sh = q m sh) -> prod_sim adm q S mk -> prod_sim adm p S mk.
Proof. intros E H m sh k'. rewrite E. exact (H m sh k'). Qed.

(* vector plaintexts allocated at base2k B pass the base2k test *)
Lemma mulptz_into_alloc (B : Z) (d a : ct) (prec : meta) :
  mulptz_into B d a (ptz_alloc B prec) =
  apply_params_asserting (mul_pt_params (maxk B d) (cm a) (ld prec) (min_k B prec)) (compact B (cm a) (csize a)).
Proof. unfold mulptz_into, ptz_alloc; cbn [pb2k pm pmaxk]. rewrite Z.eqb_refl. reflexivity. Qed.

Lemma mulptz_assign_alloc (B : Z) (d : ct) (prec : meta) :
  mulptz_assign B d (ptz_alloc B prec) =
  (m <- get ;; apply_params_asserting (mul_pt_params (maxk B d) m (ld prec) (min_k B prec)) (compact B m (csize d))).
Proof. unfold mulptz_assign, ptz_alloc; cbn [pb2k pm pmaxk]. rewrite Z.eqb_refl. reflexivity. Qed.

(* a constant with at least one part is converted first: precision test, then the one-limb assertion *)
Lemma mulcstrnx_prec_false (B : Z) (prec : meta) (f : meta -> M unit) (m : meta) (sh : list Z) :
  (p <- mulcstrnx_prec B prec false ;; f p) m sh =
  (to_znx_check (ld prec) ;;; passert (false || (1 <=? min_k B prec)) ;;; f (cst_meta_of_prec B prec)) m sh.
Proof. unfold mulcstrnx_prec, cst_to_znx. rewrite !bind_assoc. reflexivity. Qed.

Lemma min_k_adm (B : Z) (prec : meta) (none : bool) :
  1 <= B -> none || (1 <=? min_k B prec) = false -> ~ (none = true \/ 1 <= eff prec).
Proof.
  intros HB E [H|H]; [subst; discriminate|]. pose proof (cdiv_ge1 B (eff prec) HB H). unfold min_k in E.
  destruct none; [discriminate | cbn in E; nia].
Qed.

Section Step.
Variables (chk : bool) (B : Z) (d : ct).
Hypothesis HB : 1 <= B.
Hypothesis Hd : good B d.

Definition dfits (m : meta) : Prop := good B (Ct m (csize d)).

Lemma dfits_intro (m : meta) : 0 <= ld m -> 0 <= lb m -> ld m + lb m <= csize d * B -> dfits m.
Proof. intros. destruct Hd as (_ & Hs). unfold dfits, good, inv, eff, maxk; cbn [cm csize]. tauto. Qed.
Lemma dfits_elim (m : meta) : dfits m -> 0 <= ld m /\ 0 <= lb m /\ ld m + lb m <= csize d * B.
Proof. intros (H & _). exact H. Qed.
Lemma dfits_dm : dfits (cm d).
Proof. unfold dfits. destruct d. exact Hd. Qed.

(* what one call does (r) against the closed form (s): same metadata and limb count sz on Ok, same error on Err, and the
   metadata left behind dfits the destination either way; a panic only outside the admissible calls *)
Definition V (adm : Prop) (sz : Z) (s : sres) (r : mres unit) : Prop :=
  match r with
  | R _ m _ => s = SOk m sz /\ good B (Ct m sz)
  | F e m => s = SErr e /\ dfits m
  | P => ~ adm
  end.
Notation W adm := (V adm (csize d)).

Lemma W_ok (adm : Prop) (m : meta) (sh : list Z) : dfits m -> W adm (SOk m (csize d)) (R tt m sh).
Proof. intros H. split; [reflexivity | exact H]. Qed.

Lemma W_f64 (adm : Prop) (l : Z) (k : M unit) (s : sres) (m : meta) (sh : list Z) :
  dfits m -> W adm s (k m sh) -> W adm (s_f64 l s) ((to_znx_check l ;;; k) m sh).
Proof.
  intros Hm Hk. unfold s_f64, to_znx_check, bind, f64_prec.
  destruct (Z.leb_spec l 53), (Z.ltb_spec 53 l); try lia; cbn; auto.
Qed.

Lemma W_assert (adm : Prop) (sz : Z) (c : bool) (k : M unit) (s : sres) (m : meta) (sh : list Z) :
  (c = false -> ~ adm) -> (c = true -> V adm sz s (k m sh)) -> V adm sz s ((passert c ;;; k) m sh).
Proof. intros Hf Ht. destruct c; [exact (Ht eq_refl) | exact (Hf eq_refl)]. Qed.

(* a checked addition that cannot overflow on well-formed operands *)
Lemma W_guard (adm : Prop) (c : bool) (e : ekind) (k : M unit) (s : sres) (m : meta) (sh : list Z) :
  c = true -> W adm s (k m sh) -> W adm s (((if c then ret tt else fail e) ;;; k) m sh).
Proof. intros -> H. exact H. Qed.

Lemma s_unary_pass (a : ct) (k' : meta -> sres) :
  offu B d a <= lb (cm a) -> s_unary B d a k' = k' (Meta (ld (cm a)) (lb (cm a) - offu B d a)).
Proof. intros H. unfold s_unary. destruct (Z.ltb_spec (lb (cm a)) (offu B d a)); [lia | reflexivity]. Qed.

Lemma W_unary_pass (adm : Prop) (a : ct) (k : M unit) (s : sres) (m : meta) (sh : list Z) :
  offu B d a <= lb (cm a) ->
  (forall sh', W adm s (k (Meta (ld (cm a)) (lb (cm a) - offu B d a)) sh')) ->
  W adm s ((unary_into B d a ;;; k) m sh).
Proof.
  intros H Hk. unfold unary_into, offset_unary, ssub, csub, bind.
  change (Z.max 0 (eff (cm a) - maxk B d)) with (offu B d a).
  destruct (Z.leb_spec (offu B d a) (lb (cm a))); [apply Hk | lia].
Qed.

(* the _into forms test the budget before anything else: the same test as the one of unary_into *)
Lemma W_unary_pre (adm : Prop) (a : ct) (f : Z -> M unit) (k' : meta -> sres) (m : meta) (sh : list Z) :
  dfits m ->
  (offu B d a <= lb (cm a) -> W adm (s_unary B d a k') (f (lb (cm a) - offu B d a) m sh)) ->
  W adm (s_unary B d a k') ((l <- csub ECapacity (lb (cm a)) (offset_unary B d a) ;; f l) m sh).
Proof.
  intros Hm Hf. unfold csub, bind, offset_unary, ssub.
  change (Z.max 0 (eff (cm a) - maxk B d)) with (offu B d a).
  destruct (Z.leb_spec (offu B d a) (lb (cm a))) as [H|H]; [exact (Hf H)|].
  unfold s_unary. destruct (Z.ltb_spec (lb (cm a)) (offu B d a)); [split; [reflexivity | exact Hm] | lia].
Qed.

Lemma W_unary (adm : Prop) (a : ct) (k : M unit) (k' : meta -> sres) (m : meta) (sh : list Z) :
  good B a -> dfits m ->
  (forall m' sh', dfits m' -> W adm (k' m') (k m' sh')) ->
  W adm (s_unary B d a k') ((unary_into B d a ;;; k) m sh).
Proof.
  intros ((Ha1 & Ha2 & Ha3) & _) Hm Hk. unfold s_unary, unary_into, offset_unary, ssub, csub, bind.
  change (Z.max 0 (eff (cm a) - maxk B d)) with (offu B d a).
  destruct (Z.ltb_spec (lb (cm a)) (offu B d a)), (Z.leb_spec (offu B d a) (lb (cm a))); try lia; cbn; auto.
  apply Hk. unfold offu, eff, maxk in *. apply dfits_intro; cbn [ld lb]; lia.
Qed.

Lemma W_align (adm : Prop) (p : ptz) (m : meta) (sh : list Z) :
  dfits m -> W adm (s_align B m p (csize d)) (ptznx_assign chk B p m sh).
Proof.
  intros Hm. unfold s_align, ptznx_assign, ensure_plaintext_alignment, usub, bind, get.
  destruct (negb (B =? pb2k p)); cbn; auto.
  destruct (Z.ltb_spec (lb m + ld (pm p)) (pmaxk p)); cbn; auto.
  destruct (Z.leb_spec (pmaxk p) (lb m + ld (pm p))); [cbn; auto | lia].
Qed.

(* the digits of a constant at torus precision k: the same alignment test, and one limb per digit *)
Lemma W_cst (adm : Prop) (k l : Z) (none : bool) (m : meta) (sh : list Z) :
  dfits m ->
  W adm (if none then SOk m (csize d) else if lb m + l <? Z.max k l then SErr EAlign
         else if csize d <? cdiv k B then SErr EAlign else SOk m (csize d))
        (cstznx_assign chk (csize d) (cst_at_k B k l none) m sh).
Proof.
  intros Hm. unfold cstznx_assign, cst_at_k, ensure_plaintext_alignment, usub, ssub, eff, bind, get, ret, fail.
  cbn [knone km klen ld lb]. destruct none; [exact (W_ok adm m sh Hm)|].
  cmp; try lia; split; first [reflexivity | exact Hm].
Qed.

Lemma W_cst_rnx (adm : Prop) (l : Z) (m : meta) (sh : list Z) :
  dfits m -> 0 <= l ->
  W adm (if csize d <? cdiv (lb m + l) B then SErr EAlign else SOk m (csize d))
        (cstznx_assign chk (csize d) (cst_at_k B (lb m + l) l false) m sh).
Proof.
  intros Hm Hl. pose proof (W_cst adm (lb m + l) l false m sh Hm) as H. cbv iota in H.
  destruct (dfits_elim m Hm) as (_ & Hb & _).
  destruct (Z.ltb_spec (lb m + l) (Z.max (lb m + l) l)); [lia | exact H].
Qed.

Lemma W_prod (adm : Prop) (p : M unit) (S : (meta -> sres) -> sres) (m : meta) (sh : list Z) :
  prod_sim adm p S (maxk B d) -> dfits m -> W adm (S (fun m' => SOk m' (csize d))) (p m sh).
Proof.
  intros Hp Hm. specialize (Hp m sh (fun m' => SOk m' (csize d))).
  destruct (p m sh) as [u m' sh' | e m1 | ]; [ | | exact Hp].
  - destruct Hp as (E & H1 & H2 & H3). split; [exact E|]. apply dfits_intro; unfold eff, maxk in *; lia.
  - destruct Hp as (E & ->). split; assumption.
Qed.

(* add_assign / sub_assign onto the destination: both sides aligned to the smaller budget and precision *)
Lemma W_acc (adm : Prop) (a : ct) (sh : list Z) :
  0 <= ld (cm a) -> 0 <= lb (cm a) -> W adm (s_acc d (cm a)) (lin_assign chk a (cm d) sh).
Proof.
  intros H1 H2. destruct (dfits_elim _ dfits_dm) as (D1 & D2 & D3).
  destruct (lin_assign_run chk a (cm d) sh) as (sh' & ->).
  split; [reflexivity | apply dfits_intro; cbn [ld lb]; lia].
Qed.

(* mul_add / mul_sub: the product goes into a scratch destination, a failure leaves the real one alone *)
Lemma W_mulacc (adm : Prop) (p : M unit) (S : (meta -> sres) -> sres) (mk : Z) (sh : list Z) :
  prod_sim adm p S mk -> W adm (S (s_acc d)) (mulacc chk p (cm d) sh).
Proof.
  intros Hp. unfold mulacc, on_tmp, bind. specialize (Hp (Meta 0 0) sh (s_acc d)).
  destruct (p (Meta 0 0) sh) as [u mt sh' | e m1 | ]; [ | | exact Hp].
  - destruct Hp as (E & H1 & H2 & _). rewrite E. exact (W_acc adm (Ct mt 0) sh' H1 H2).
  - destruct Hp as (E & _). split; [exact E | exact dfits_dm].
Qed.

Variables (a b : ct).
Hypotheses (Ha : good B a) (Hb : good B b).

(* unfolds the primitives of the monad, to evaluate a short computation by hand *)
Ltac prims := cbv beta iota zeta delta [csub usub uadd ssub passert bind ret fail get shift set_meta set_lb set_ld].
(* Ok or Err outcome reached: same result, and the metadata dfits *)
Ltac closeW :=
  split; [first [reflexivity | cbn [ld lb]; do 2 f_equal; lia] | first [exact dfits_dm | apply dfits_intro; cbn [ld lb]; lia]].

Lemma orb_adm (none : bool) (k : Z) : none || (1 <=? k) = false -> ~ (none = true \/ 1 <= k).
Proof. destruct none; cbn; intros E [H|H]; [discriminate | discriminate | discriminate | lia]. Qed.

Theorem step_sim (o : op) :
  wf_op B o -> V (admissible B o d a) (new_size B o d a) (spec_step B o d a b) (meta_m chk B o d a b (cm d) []).
Proof.
  intros Hwf.
  pose proof Ha as ((A1 & A2 & A3) & A4 & A5). pose proof Hb as ((B1 & B2 & B3) & B4 & B5).
  destruct (dfits_elim _ dfits_dm) as (D1 & D2 & D3). pose proof Hd as (_ & D4 & D5).
  unfold eff, maxk in A3, B3.
  destruct o; cbn [meta_m spec_step new_size admissible wf_op] in *.
  - (* OAlloc *) split; [reflexivity|]. unfold good, inv, eff, maxk; cbn. lia.
  - (* OEncrypt *) unfold encrypt. destruct Hwf as ((P1 & P2) & K). unfold small in K.
    pose proof (cdiv_le_iff B enc_k (csize d) HB) as Hk.
    apply W_assert; [intros E (H1 & _); pose proof (cdiv_ge1 B enc_k HB H1); lia | intros _].
    apply W_assert; [intros E (_ & H2); lia | intros E].
    unfold csub. destruct (Z.leb_spec (ld pt) enc_k), (Z.ltb_spec enc_k (ld pt)); try lia; [|closeW].
    (* from here on the destination carries the plaintext's precision and the budget enc_k - log_delta *)
    assert (Hf : dfits (Meta (ld pt) (enc_k - ld pt))) by (apply dfits_intro; cbn [ld lb]; lia).
    pose proof (W_align (1 <= enc_k /\ cdiv enc_k B <= csize d) (ptz_alloc B pt) _ [] Hf) as H'.
    unfold s_align, ptz_alloc in H'; cbn [pb2k pm pmaxk ld lb] in H'. rewrite Z.eqb_refl in H'; cbn [negb] in H'.
    replace (enc_k - ld pt + ld pt) with enc_k in H' by lia. exact H'.
  - (* OLinInto *) exact (W_prod _ _ _ _ _ (lin_into_sim _ chk B d a b A1 B1) dfits_dm).
  - (* OLinAssign *) exact (W_acc _ a [] A1 A2).
  - (* OPtZnxInto *) apply W_unary; [exact Ha | exact dfits_dm | intros; apply W_align; assumption].
  - (* OPtZnxAssign *) apply W_align, dfits_dm.
  - (* OPtRnxInto *) apply W_f64; [exact dfits_dm|]. apply W_unary; [exact Ha | exact dfits_dm | intros; apply W_align; assumption].
  - (* OPtRnxAssign *) apply W_f64; [exact dfits_dm|]. apply W_align, dfits_dm.
  - (* OCstZnxInto *) apply W_f64; [exact dfits_dm|]. apply W_assert; [apply orb_adm | intros _].
    apply W_unary; [exact Ha | exact dfits_dm | intros; apply W_cst; assumption].
  - (* OCstZnxAssign *) apply W_f64; [exact dfits_dm|]. apply W_assert; [apply orb_adm | intros _]. apply W_cst, dfits_dm.
  - (* OCstRnxInto *) unfold cstrnx_into. destruct none; [exact (W_prod _ _ _ _ _ (unary_sim _ B d a A1) dfits_dm)|].
    destruct Hwf as ((P1 & P2) & _).
    apply W_unary_pre; [exact dfits_dm | intros Hge]. rewrite (s_unary_pass a _ Hge).
    apply W_guard; [apply Z.ltb_lt; unfold offu, two64, two62 in *; lia|].
    apply W_f64; [exact dfits_dm|].
    apply W_assert; [intros E [H|H]; [discriminate | lia] | intros _].
    apply W_unary_pass; [exact Hge | intros sh'].
    apply W_cst_rnx; [apply dfits_intro; cbn [ld lb]; unfold offu, eff, maxk in *; lia | exact P1].
  - (* OCstRnxAssign *) unfold cstrnx_assign. destruct none; [exact (W_ok _ _ _ dfits_dm)|].
    destruct Hwf as ((P1 & P2) & _). rewrite bind_get.
    apply W_guard; [apply Z.ltb_lt; unfold two64, two62 in *; lia|].
    apply W_f64; [exact dfits_dm|].
    apply W_assert; [intros E [H|H]; [discriminate | lia] | intros _].
    apply W_cst_rnx; [exact dfits_dm | exact P1].
  - (* ONegInto *) unfold neg_into.
    destruct (Z.eqb_spec (offset_unary B d a) 0) as [E|E]; [|exact (W_prod _ _ _ _ _ (unary_sim _ B d a A1) dfits_dm)].
    change (offset_unary B d a) with (offu B d a) in E. rewrite (s_unary_pass a _ ltac:(lia)), E, Z.sub_0_r.
    unfold offu, eff, maxk in E. destruct (cm a) as [al ab]; cbn [ld lb] in *. closeW.
  - (* ONegAssign *) exact (W_ok _ _ _ dfits_dm).
  - (* OMulInto *) exact (W_prod _ _ _ _ _ (mul_ct_sim _ B _ (cm a) (cm b) _ A1 B1) dfits_dm).
  - (* OMulAssign *) exact (W_prod _ _ _ _ _ (mul_ct_sim _ B _ (cm d) (cm a) _ D1 A1) dfits_dm).
  - (* OSquareInto *) exact (W_prod _ _ _ _ _ (mul_ct_sim _ B _ (cm a) (cm a) _ A1 A1) dfits_dm).
  - (* OSquareAssign *) exact (W_prod _ _ _ _ _ (mul_ct_sim _ B _ (cm d) (cm d) _ D1 D1) dfits_dm).
  - (* OMulPtZnxInto *) exact (W_prod _ _ _ _ _ (base2k_sim _ B _ _ _ _ (mul_pt_sim _ _ (cm a) _ _ _ A1)) dfits_dm).
  - (* OMulPtZnxAssign *) unfold mulptz_assign. destruct (negb (B =? pb2k p)); [closeW|].
    exact (W_prod _ _ _ _ _ (mul_pt_sim _ _ (cm d) _ _ _ D1) dfits_dm).
  - (* OMulPtRnxInto *) rewrite mulptz_into_alloc. apply W_f64; [exact dfits_dm|].
    exact (W_prod _ _ _ _ _ (mul_pt_sim _ _ (cm a) _ _ _ A1) dfits_dm).
  - (* OMulPtRnxAssign *) rewrite mulptz_assign_alloc. apply W_f64; [exact dfits_dm|].
    exact (W_prod _ _ _ _ _ (mul_pt_sim _ _ (cm d) _ _ _ D1) dfits_dm).
  - (* OMulCstZnxInto *) unfold cst_to_znx. rewrite bind_assoc. apply W_f64; [exact dfits_dm|].
    apply W_assert; [apply min_k_adm, HB | intros _]. exact (W_prod _ _ _ _ _ (mul_cst_sim _ _ (cm a) _ _ A1) dfits_dm).
  - (* OMulCstZnxAssign *) unfold cst_to_znx. rewrite bind_assoc. apply W_f64; [exact dfits_dm|].
    apply W_assert; [apply min_k_adm, HB | intros _]. exact (W_prod _ _ _ _ _ (mul_cst_sim _ _ (cm d) _ _ D1) dfits_dm).
  - (* OMulCstRnxInto *) destruct none.
    + exact (W_prod _ _ _ _ _ (mul_cst_sim _ _ (cm a) _ _ A1) dfits_dm).
    + rewrite mulcstrnx_prec_false. apply W_f64; [exact dfits_dm|]. apply W_assert; [apply min_k_adm, HB | intros _].
      exact (W_prod _ _ _ _ _ (mul_cst_sim _ _ (cm a) _ _ A1) dfits_dm).
  - (* OMulCstRnxAssign *) destruct none.
    + exact (W_prod _ _ _ _ _ (mul_cst_sim _ _ (cm d) _ _ D1) dfits_dm).
    + rewrite mulcstrnx_prec_false. apply W_f64; [exact dfits_dm|]. apply W_assert; [apply min_k_adm, HB | intros _].
      exact (W_prod _ _ _ _ _ (mul_cst_sim _ _ (cm d) _ _ D1) dfits_dm).
  - (* OMulAccCt *) exact (W_mulacc _ _ _ _ _ (mul_ct_sim _ B (maxk B d) (cm a) (cm b) _ A1 B1)).
  - (* OMulAccPtZnx *) exact (W_mulacc _ _ _ _ _ (base2k_sim _ B _ _ _ _ (mul_pt_sim _ (maxk B d) (cm a) _ _ _ A1))).
  - (* OMulAccPtRnx *) rewrite mulptz_into_alloc.
    exact (W_mulacc _ _ _ _ _ (f64_sim _ _ _ _ _ (mul_pt_sim _ (maxk B d) (cm a) _ _ _ A1))).
  - (* OMulAccCstZnx *) unfold cst_to_znx. rewrite bind_assoc. apply W_f64; [exact dfits_dm|].
    apply W_assert; [apply min_k_adm, HB | intros _].
    destruct none; [exact (W_ok _ _ _ dfits_dm) | exact (W_mulacc _ _ _ _ _ (mul_cst_sim _ (maxk B d) (cm a) _ _ A1))].
  - (* OMulAccCstRnx *) destruct none; [exact (W_ok _ _ _ dfits_dm)|].
    refine (W_mulacc _ _ (fun k' => s_f64 (ld prec) (s_mul_pt (maxk B d) (cm a) (ld prec) k')) (maxk B d) _
              (prod_sim_ext _ _ _ _ _ (mulcstrnx_prec_false B prec _) _)).
    apply (f64_sim _ _ _ (s_mul_pt (maxk B d) (cm a) (ld prec))), assert_sim; [apply min_k_adm, HB | exact (mul_cst_sim _ _ (cm a) _ _ A1)].
  - (* OMulPow2Into *) unfold mulpow2_into, s_unary, offset_unary, offu, eff, maxk, small in *. prims. cmp; try lia; closeW.
  - (* OMulPow2Assign *) exact (W_ok _ _ _ dfits_dm).
  - (* ODivPow2Into *) unfold divpow2_into, offset_unary, offu, eff, maxk, small in *. prims. unfold two64, two62 in *. cmp; try lia; closeW.
  - (* ODivPow2Assign *) unfold divpow2_assign, small in *. prims. cmp; try lia; closeW.
  - (* ORotateInto *) unfold rotate_into. destruct key; [exact (W_prod _ _ _ _ _ (unary_sim _ B d a A1) dfits_dm) | closeW].
  - (* ORotateAssign *) unfold rotate_assign. destruct key; [exact (W_ok _ _ _ dfits_dm) | closeW].
  - (* OConjInto *) exact (W_prod _ _ _ _ _ (unary_sim _ B d a A1) dfits_dm).
  - (* OConjAssign *) exact (W_ok _ _ _ dfits_dm).
  - (* ORescaleInto *) unfold rescale_into, eff, maxk, small in *. prims. cmp; try lia; closeW.
  - (* ORescaleAssign *) unfold rescale_assign, small in *. prims. cmp; try lia; closeW.
  - (* OCompact *) split; [reflexivity|]. pose proof (cdiv_bounds B (eff (cm d)) (csize d) HB) as H.
    unfold good, inv, eff, maxk in *; cbn [cm csize]. lia.
  - (* ORealloc *) prims. pose proof (cdiv_le_iff B (eff (cm d)) size HB) as H. unfold eff in *.
    cmp; [closeW|]. split; [reflexivity|]. unfold good, inv, eff, maxk; cbn [cm csize]. lia.
  - (* OCompactCopy *) pose proof (cdiv_bounds B (eff (cm a)) (csize a) HB) as H.
    pose proof (cdiv_le_iff B (eff (cm a)) (csize a) HB) as H'. unfold eff in *.
    apply W_assert; [intros E; lia | intros _]. split; [reflexivity|]. unfold good, inv, eff, maxk; cbn [cm csize]. lia.
  - (* OSetMeta *) unfold eff, maxk, small in *. prims. cmp; try lia; closeW.
  - (* ODecrypt *) unfold extract_pt, ptz_alloc, eff, smallm in *; cbn [pb2k pm pmaxk]. rewrite Z.eqb_refl. prims. cmp; try lia; closeW.
Qed.

End Step.

Lemma error_iff (chk : bool) (B : Z) (o : op) (d a b : ct) :
  1 <= B -> wf_op B o -> good B d -> good B a -> good B b ->
  admissible B o d a ->
  outcome_matches (meta_step chk B o d a b) (spec_step B o d a b).
Proof.
  intros HB Hwf Hd Ha Hb Hadm.
  pose proof (step_sim chk B d HB Hd a b Ha Hb o Hwf) as H. unfold meta_step, outcome_matches.
  destruct (meta_m chk B o d a b (cm d) []) as [u m sh | e m | ]; cbn [V] in H.
  - destruct H as [-> _]. split; reflexivity.
  - destruct H as [-> _]. reflexivity.
  - exact (H Hadm).
Qed.

Lemma meta_never_exceeds (chk : bool) (B : Z) (o : op) (d a b : ct) (m : meta) (sz : Z) (sh : list Z) :
  1 <= B -> wf_op B o -> good B d -> good B a -> good B b ->
  meta_step chk B o d a b = Done m sz sh ->
  good B (Ct m sz).
Proof.
  intros HB Hwf Hd Ha Hb Hdone.
  pose proof (step_sim chk B d HB Hd a b Ha Hb o Hwf) as H. unfold meta_step in Hdone.
  destruct (meta_m chk B o d a b (cm d) []) as [u m' sh' | e m' | ]; try discriminate Hdone.
  injection Hdone as <- <- <-. exact (proj2 H).
Qed.

(* a failed call leaves metadata that the destination can hold *)
Lemma fail_keeps_good (chk : bool) (B : Z) (o : op) (d a b : ct) (e : ekind) (m : meta) :
  1 <= B -> wf_op B o -> good B d -> good B a -> good B b ->
  meta_step chk B o d a b = Fail e m ->
  good B (Ct m (csize d)).
Proof.
  intros HB Hwf Hd Ha Hb Hf.
  pose proof (step_sim chk B d HB Hd a b Ha Hb o Hwf) as H. unfold meta_step in Hf.
  destruct (meta_m chk B o d a b (cm d) []) as [u m' sh' | e' m' | ]; try discriminate Hf.
  injection Hf as <- <-. exact (proj2 H).
Qed.

Lemma good_default (B : Z) : 1 <= B -> good B (Ct (Meta 0 0) 0).
Proof. intros. unfold good, inv, eff, maxk, two62; cbn. lia. Qed.

Lemma rget_good (B : Z) (rs : regs) (i : nat) : 1 <= B -> Forall (good B) rs -> good B (rget rs i).
Proof.
  intros HB H. unfold rget. revert i. induction H as [ | x l Hx Hl IH ]; intros i.
  - destruct i; apply good_default; assumption.
  - destruct i; cbn; [ exact Hx | apply IH ].
Qed.

Lemma rset_good (B : Z) (rs : regs) (i : nat) (c : ct) :
  Forall (good B) rs -> good B c -> Forall (good B) (rset rs i c).
Proof.
  intros H Hc. revert i. induction H as [ | x l Hx Hl IH ]; intros i; cbn.
  - constructor.
  - destruct i; constructor; auto.
Qed.

Lemma exec_step_good (chk : bool) (B : Z) (rs : regs) (s : step) :
  1 <= B -> Forall (good B) rs -> wf_op B (sop s) ->
  Forall (good B) (snd (exec_step chk B rs s)).
Proof.
  intros HB Hrs Hwf. unfold exec_step. cbn [fst snd].
  pose proof (rget_good B rs (sd s) HB Hrs) as Gd.
  pose proof (rget_good B rs (sa s) HB Hrs) as Ga.
  pose proof (rget_good B rs (sb s) HB Hrs) as Gb.
  destruct (meta_step chk B (sop s) (rget rs (sd s)) (rget rs (sa s)) (rget rs (sb s))) as [m sz sh | e m | ] eqn:E;
    cbn [apply_outcome].
  - apply rset_good; [ exact Hrs | ]. exact (meta_never_exceeds chk B (sop s) _ _ _ m sz sh HB Hwf Gd Ga Gb E).
  - apply rset_good; [ exact Hrs | ]. exact (fail_keeps_good chk B (sop s) _ _ _ e m HB Hwf Gd Ga Gb E).
  - exact Hrs.
Qed.

(* an 8-limb ciphertext, for the examples *)
Definition c8 (l b : Z) : ct := Ct (Meta l b) 8.


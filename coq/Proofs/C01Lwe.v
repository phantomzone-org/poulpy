(* C01, LWE: lwe_encrypt_sk followed by lwe_decrypt. *)
From PV Require Import Base.MachineInt Model.Znx Model.Limbs Model.Flat Model.C08Oracle Model.EncModel
  Proofs.EncValue Proofs.EncLists Proofs.C01Sk Proofs.ListFacts.
Open Scope Z_scope.

(* the in-place normaliser keeps the value exactly (nothing is truncated) and returns balanced digits: C08 *)
Definition normalize_assign_value_ok_dom (D : Z -> Prop) : Prop :=
  forall b r, D b -> Forall (fun x => Z.abs x <= 2 ^ 62) r ->
    let out := normalize_assign 64 b r in
    length out = length r /\ Forall (in_range b) out /\
    forall P, zn (length r) * b <= P -> tor_abs P (val_scaled P b out - val_scaled P b r) = 0.
Definition normalize_assign_value_ok (R : Z) : Prop := normalize_assign_value_ok_dom (fun x => 1 <= x <= R).

Lemma fold_add_acc (l : list Z) (acc : Z) : fold_left Z.add l acc = acc + fold_left Z.add l 0.
Proof. revert acc. induction l as [|x l IH]; intros acc; cbn [fold_left]; [lia|]. rewrite IH, (IH (0 + x)). lia. Qed.

Section Lwe.
Variables b pb : Z.
Variable Dm : Z -> Prop.
Variables size psize : nat.
Variable nk : Z.
Hypothesis normalize_value_ok_small : normalize_value_ok_dom Dm (fun rb ab => normalize 64 rb ab 0) (2 ^ 62).
Hypothesis normalize_assign_ok : normalize_assign_value_ok_dom Dm.
Hypothesis Hb : Dm b.
Hypothesis Hpb : Dm pb.
Hypothesis Hb_pos : 1 <= b.
Variables D E M : Z.

Theorem lwe_roundtrip (pt s : list Z) (a : list (list Z)) (e : Z) (body d : list Z) :
  (forall j, Z.abs (lwe_dot (nth j a []) s) <= D) -> Z.abs e <= E -> bnd M pt ->
  D + E + M <= 2 ^ 62 -> D + 2 ^ (b - 1) <= 2 ^ 62 ->
  lwe_enc_body b size nk pt s a e = Some body ->
  lwe_dec b pb size psize s a body = Some d ->
  let ell := target_limb nk b in
  (ell < size)%nat /\ length body = size /\ Forall (in_range b) body /\ length d = psize /\
  forall P, zn size * b <= P -> zn psize * pb <= P -> 1 <= P ->
    (exists q, lval P b size body + sumz (fun j => lwe_dot (nth j a []) s * wt P b j) size
               = lval P b size pt + e * wt P b ell + q * 2 ^ P) /\
    tor_abs P (val_scaled P pb d - val_scaled P b (firstn size pt) - e * wt P b ell) <= 2 ^ (P - zn psize * pb).
Proof using normalize_value_ok_small normalize_assign_ok Hb Hpb Hb_pos.
  intros Hd He Hm Hh1 Hh2 Henc Hdec. cbv zeta.
  pose proof (pow2_pos (b - 1) ltac:(lia)) as Hp.
  assert (HD : 0 <= D) by (specialize (Hd O); lia). assert (HM : 0 <= M) by (specialize (Hm O); lia).
  unfold lwe_enc_body in Henc.
  destruct (Nat.leb size (target_limb nk b)) eqn:Hl; [discriminate|]. apply Nat.leb_gt in Hl.
  set (ell := target_limb nk b) in *.
  injection Henc as Hbody.
  set (tmp := lmk size _) in Hbody.
  assert (Ntmp : forall j, (j < size)%nat -> nthZ tmp j = nthZ pt j - lwe_dot (nth j a []) s).
  { intros j Hj. unfold tmp. rewrite nth_lmk by lia.
    replace (if Nat.ltb j (Nat.min size (length pt)) then nthZ pt j else 0) with (nthZ pt j).
    - apply wrap_small; [lia|]. specialize (Hd j). specialize (Hm j). lia.
    - destruct (Nat.ltb_spec j (Nat.min size (length pt))); [reflexivity|]. apply nthZ_overflow. lia. }
  assert (Btmp : bnd (M + D) tmp).
  { intros j. destruct (Nat.lt_ge_cases j size).
    - rewrite Ntmp by lia. specialize (Hd j). specialize (Hm j). lia.
    - rewrite nthZ_overflow by (unfold tmp; rewrite lmk_length; lia). lia. }
  destruct (l_add_at_value 64 ltac:(lia) size ell e tmp E _ (lmk_length _ _) Hl He Btmp ltac:(lia)) as (L1 & B1 & V1).
  set (c1 := l_add_at 64 ell e tmp) in *.
  assert (B1' : bnd (2 ^ 62) c1) by (eapply bnd_weaken; [|exact B1]; lia).
  destruct (normalize_assign_ok b c1 Hb (Forall_of_bnd _ _ B1')) as (Lb & Rb & Vb).
  cbv zeta in Lb, Rb, Vb. rewrite Hbody, L1 in *.
  assert (Bb : bnd (2 ^ (b - 1)) body) by (apply bnd_in_range; [lia|exact Rb]).
  (* decryption *)
  unfold lwe_dec in Hdec.
  set (acc := lmk size _) in Hdec.
  assert (Nacc : forall j, (j < size)%nat -> nthZ acc j = nthZ body j + lwe_dot (nth j a []) s).
  { intros j Hj. unfold acc. rewrite nth_lmk by lia. apply wrap_small; [lia|]. specialize (Hd j). specialize (Bb j). lia. }
  assert (Bacc : bnd (2 ^ 62) acc).
  { intros j. destruct (Nat.lt_ge_cases j size).
    - rewrite Nacc by lia. specialize (Hd j). specialize (Bb j). lia.
    - rewrite nthZ_overflow by (unfold acc; rewrite lmk_length; lia). lia. }
  destruct (normalize_unit _ _ _ normalize_value_ok_small pb b size psize acc d Hpb Hb (lmk_length _ _) Bacc Hdec) as (Ld & Vd).
  split; [exact Hl|]. split; [exact Lb|]. split; [exact Rb|]. split; [exact Ld|].
  intros P HP HPp HP1.
  set (dots := sumz (fun j => lwe_dot (nth j a []) s * wt P b j) size).
  assert (Vtmp : lval P b size tmp = lval P b size pt - dots).
  { unfold lval, dots. rewrite <- sumz_sub. apply sumz_ext. intros j Hj. rewrite Ntmp by lia. lia. }
  assert (Va : lval P b size acc = lval P b size body + dots).
  { unfold lval, dots. rewrite <- sumz_add. apply sumz_ext. intros j Hj. rewrite Nacc by lia. lia. }
  destruct (tor_abs_zero_cong P _ HP1 (Vb P HP)) as [qb Hqb].
  rewrite !val_scaled_lval, Lb, L1, V1, Vtmp in Hqb.
  assert (Hphase : lval P b size body + dots = lval P b size pt + e * wt P b ell + qb * 2 ^ P) by lia.
  split; [exists qb; exact Hphase|].
  rewrite lval_firstn. refine (roundtrip_of_phase P _ _ _ _ qb _ HP1 _ (Vd P HP HPp)). lia.
Qed.

End Lwe.

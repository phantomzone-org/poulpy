(* C08, cross-radix normalisation: the bit geometry of normalize_cross (which digits of the stream meet which
   res limbs), and the case where nothing of a reaches res. *)
From PV Require Import Base.MachineInt Model.Znx Model.Limbs Model.C08Oracle
  Proofs.ZnxDigit Proofs.C08Steps Proofs.C08Chain Proofs.C08Loops Proofs.C08Value Proofs.C08Normalize
  Proofs.C08WShift Proofs.C08ShiftValue Proofs.C08WCrossInner Proofs.C08CrossInner Proofs.C08CrossGeom Proofs.C08CrossOuter.
Open Scope Z_scope.

(* The stream (a shifted by lo limbs, lo of either sign) overlaps res: it reaches g bits below the bottom of res, or
   res reaches z bits below the bottom of the stream; the digits a_end .. a_start - 1 are repacked. *)
Lemma cross_geom (rb ab lo : Z) (asz rsz : nat) : 1 <= rb -> 1 <= ab ->
  let a_tot := zn asz * ab in let r_tot := zn rsz * rb in
  let res_start_bit := clampZ (a_tot - lo * ab) 0 r_tot in
  let a_start_bit := clampZ (r_tot + lo * ab) 0 a_tot in
  let a_end_bit := clampZ (lo * ab) 0 a_tot in
  let res_end_bit := clampZ (- lo * ab) 0 r_tot in
  let res_start := Z.to_nat (div_ceil res_start_bit rb) in
  let a_start := Z.to_nat (div_ceil a_start_bit ab) in
  let a_end := Z.to_nat (a_end_bit / ab) in
  let res_end := Z.to_nat (res_end_bit / rb) in
  let take := (a_tot - a_start_bit) mod ab in
  let m := (r_tot - res_start_bit) mod rb in
  (1 <= asz)%nat -> (1 <= rsz)%nat -> lo < zn asz -> - lo * ab < r_tot ->
  exists z g, 0 <= z /\ 0 <= g /\ (z = 0 \/ g = 0) /\
    (zn asz - lo) * ab = r_tot + g - z /\
    (a_start <= asz)%nat /\ a_end = Z.to_nat lo /\ (a_end < a_start)%nat /\
    g = zn (asz - a_start) * ab + take /\ 0 <= take < ab /\ 0 <= m < rb /\
    (1 <= res_start <= rsz)%nat /\ (zn rsz - zn res_start) * rb + m = z /\
    (take <> 0 -> z = 0 /\ res_start = rsz) /\ (0 < z -> (asz - a_start = 0)%nat) /\
    res_end = Z.to_nat (- lo * ab / rb).
Proof.
  intros Hrb Hab a_tot r_tot res_start_bit a_start_bit a_end_bit res_end_bit res_start a_start a_end res_end take m
    HA1 HR1 HloA Hov.
  assert (Dat : a_tot = zn asz * ab) by reflexivity.
  assert (Drt : r_tot = zn rsz * rb) by reflexivity.
  assert (Drsb : res_start_bit = clampZ (a_tot - lo * ab) 0 r_tot) by reflexivity.
  assert (Dasb : a_start_bit = clampZ (r_tot + lo * ab) 0 a_tot) by reflexivity.
  assert (Daeb : a_end_bit = clampZ (lo * ab) 0 a_tot) by reflexivity.
  assert (Dreb : res_end_bit = clampZ (- lo * ab) 0 r_tot) by reflexivity.
  assert (Drs : res_start = Z.to_nat (div_ceil res_start_bit rb)) by reflexivity.
  assert (Das : a_start = Z.to_nat (div_ceil a_start_bit ab)) by reflexivity.
  assert (Dae : a_end = Z.to_nat (a_end_bit / ab)) by reflexivity.
  assert (Dre : res_end = Z.to_nat (res_end_bit / rb)) by reflexivity.
  assert (Dtk : take = (a_tot - a_start_bit) mod ab) by reflexivity.
  assert (Dm : m = (r_tot - res_start_bit) mod rb) by reflexivity.
  clearbody a_tot r_tot res_start_bit a_start_bit a_end_bit res_end_bit res_start a_start a_end res_end take m.
  set (A := zn asz) in *. set (R := zn rsz) in *.
  assert (HA : 1 <= A) by (unfold A, zn; lia). assert (HR : 1 <= R) by (unfold R, zn; lia).
  assert (EA : A = zn asz) by reflexivity. assert (ER : R = zn rsz) by reflexivity.
  clearbody A R.
  replace (- lo * ab) with (- (lo * ab)) in * by ring.
  assert (HTa : ab <= (A - lo) * ab).
  { replace ab with (1 * ab) at 1 by ring. apply Z.mul_le_mono_nonneg_r; lia. }
  assert (Hrt : rb <= r_tot).
  { rewrite Drt. replace rb with (1 * rb) at 1 by ring. apply Z.mul_le_mono_nonneg_r; lia. }
  rewrite Z.mul_sub_distr_r in HTa.
  assert (HAab : 0 <= a_tot) by (rewrite Dat; apply Z.mul_nonneg_nonneg; clear - HA Hab; lia).
  (* the two ends that depend on the sign of lo *)
  assert (Eends : a_end = Z.to_nat lo /\ res_end = Z.to_nat (- (lo * ab) / rb)).
  { rewrite Dae, Daeb, Dre, Dreb. unfold clampZ. destruct (Z_lt_le_dec lo 0) as [Hn|Hp].
    - assert (HL : lo * ab <= - ab).
      { replace (- ab) with (-1 * ab) by ring. apply Z.mul_le_mono_nonneg_r; lia. }
      replace (Z.max 0 (Z.min (lo * ab) a_tot)) with 0 by (clear - HL Hab HAab; lia).
      replace (Z.max 0 (Z.min (- (lo * ab)) r_tot)) with (- (lo * ab)) by (clear - HL Hab Hov; lia).
      rewrite Z.div_0_l by (clear - Hab; lia). split; [clear - Hn; lia|reflexivity].
    - assert (HL : 0 <= lo * ab) by (apply Z.mul_nonneg_nonneg; lia).
      replace (Z.max 0 (Z.min (lo * ab) a_tot)) with (lo * ab) by (clear - HL HTa Hab Dat; lia).
      replace (Z.max 0 (Z.min (- (lo * ab)) r_tot)) with 0 by (clear - HL Hrt Hrb; lia).
      rewrite Z.div_mul, Z.div_0_l by (clear - Hab Hrb; lia). split; [reflexivity|].
      assert (- (lo * ab) / rb <= 0) by (apply Z.div_le_upper_bound; clear - HL Hrb; lia).
      clear - H. lia. }
  destruct Eends as [Eend Erend]. clear Dae Daeb Dre Dreb.
  assert (HloA' : (Z.to_nat lo < asz)%nat) by (clear - HloA HA1 EA; unfold zn in *; lia).
  set (L := lo * ab) in *.
  assert (ETa : a_tot - L = (A - lo) * ab) by (unfold L; rewrite Dat; ring).
  clearbody L. set (Ta := a_tot - L) in *.
  assert (HTa0 : 0 < Ta) by (unfold Ta; clear - HTa Hab Dat; lia).
  destruct (Z_le_gt_dec r_tot Ta) as [Htr|Hex].
  - (* truncation: the stream reaches the bottom of res or below *)
    set (p0 := Ta - r_tot). assert (Hp0 : 0 <= p0) by (unfold p0; lia).
    assert (Ers : res_start_bit = R * rb).
    { rewrite Drsb. unfold clampZ. clear - Htr Hrt Hrb Drt. lia. }
    assert (Eas : a_start_bit = r_tot + L).
    { rewrite Dasb. unfold clampZ. unfold Ta in Htr. clear - Htr Hov. lia. }
    assert (Etake : take = p0 mod ab) by (rewrite Dtk, Eas; f_equal; unfold p0, Ta; ring).
    clear Drsb Dasb Dtk.
    pose proof (Z.div_mod p0 ab ltac:(lia)) as Hdm. pose proof (Z.mod_pos_bound p0 ab ltac:(lia)) as Hmb.
    assert (Hq : 0 <= p0 / ab) by (apply Z.div_pos; lia).
    set (q := p0 / ab) in *. rewrite <- Etake in Hdm, Hmb. clearbody q. clear Etake.
    assert (Hqab : 0 <= q * ab) by (apply Z.mul_nonneg_nonneg; lia).
    assert (EAs : div_ceil a_start_bit ab = A - q).
    { rewrite Eas. replace (r_tot + L) with ((A - q) * ab - take) by (unfold p0, Ta in *; clear - Hdm Dat; lia).
      apply div_ceil_mul_sub; lia. }
    assert (HqA : q < A - lo /\ q < A).
    { split.
      - destruct (Z_lt_le_dec q (A - lo)) as [|Hge]; [assumption|]. exfalso.
        assert ((A - lo) * ab <= q * ab) by (apply Z.mul_le_mono_nonneg_r; lia).
        unfold p0 in *. clear - H Hdm Hmb ETa Hrt Hrb. lia.
      - destruct (Z_lt_le_dec q A) as [|Hge]; [assumption|]. exfalso.
        assert (A * ab <= q * ab) by (apply Z.mul_le_mono_nonneg_r; lia).
        unfold p0, Ta in *. clear - H Hdm Hmb Dat Hov. lia. }
    assert (ERs : div_ceil res_start_bit rb = R).
    { rewrite Ers. replace (R * rb) with (R * rb - 0) by ring. apply div_ceil_mul_sub; lia. }
    assert (Em : m = 0).
    { rewrite Dm, Ers, Drt, Z.sub_diag. apply Z.mod_0_l. lia. }
    assert (Eastart : zn a_start = A - q) by (rewrite Das, EAs; unfold zn; rewrite Z2Nat.id by lia; reflexivity).
    assert (Erstart : zn res_start = R) by (rewrite Drs, ERs; unfold zn; rewrite Z2Nat.id by lia; reflexivity).
    clear Das Drs Dm EAs ERs Eas Ers.
    exists 0, p0. split; [lia|]. split; [exact Hp0|]. split; [left; reflexivity|].
    split; [unfold p0; lia|].
    split; [unfold zn in *; lia|]. split; [exact Eend|]. split; [rewrite Eend; unfold zn in *; lia|].
    split.
    { replace (zn (asz - a_start)) with q by (unfold zn in *; lia). lia. }
    split; [exact Hmb|]. split; [rewrite Em; lia|].
    split; [unfold zn in *; lia|]. split; [rewrite Erstart, Em; ring|].
    split; [intros _; split; [reflexivity|unfold zn in *; lia]|]. split; [intros Hf; lia|exact Erend].
  - (* exact: the stream ends above the bottom of res, res has zz zero bits at the bottom *)
    set (zz := r_tot - Ta). assert (Hzz : 0 < zz) by (unfold zz; lia).
    assert (Ers : res_start_bit = Ta).
    { rewrite Drsb. unfold clampZ. clear - Hex HTa0. lia. }
    assert (Eas : a_start_bit = A * ab).
    { rewrite Dasb. unfold clampZ. unfold Ta in Hex. clear - Hex HAab Dat. lia. }
    assert (Etake : take = 0).
    { rewrite Dtk, Eas, Dat, Z.sub_diag. apply Z.mod_0_l. lia. }
    assert (EAs : div_ceil a_start_bit ab = A).
    { rewrite Eas. replace (A * ab) with (A * ab - 0) by ring. apply div_ceil_mul_sub; lia. }
    assert (Em : m = zz mod rb) by (rewrite Dm, Ers; reflexivity).
    clear Drsb Dasb Dtk Dm.
    pose proof (Z.div_mod zz rb ltac:(lia)) as Hdm. pose proof (Z.mod_pos_bound zz rb ltac:(lia)) as Hmb.
    assert (Hq : 0 <= zz / rb) by (apply Z.div_pos; lia).
    set (q := zz / rb) in *. rewrite <- Em in Hdm, Hmb. clearbody q. clear Em.
    assert (Hqrb : 0 <= q * rb) by (apply Z.mul_nonneg_nonneg; lia).
    assert (ERs : div_ceil res_start_bit rb = R - q).
    { rewrite Ers. replace Ta with ((R - q) * rb - m) by (unfold zz in *; clear - Hdm Drt; lia).
      apply div_ceil_mul_sub; lia. }
    assert (HqR : q < R).
    { destruct (Z_lt_le_dec q R) as [|Hge]; [assumption|]. exfalso.
      assert (R * rb <= q * rb) by (apply Z.mul_le_mono_nonneg_r; lia).
      unfold zz in *. clear - H Hdm Hmb HTa0 Drt. lia. }
    assert (Eastart : zn a_start = A) by (rewrite Das, EAs; unfold zn; rewrite Z2Nat.id by lia; reflexivity).
    assert (Erstart : zn res_start = R - q) by (rewrite Drs, ERs; unfold zn; rewrite Z2Nat.id by lia; reflexivity).
    clear Das Drs EAs ERs Eas Ers.
    exists zz, 0. split; [lia|]. split; [lia|]. split; [right; reflexivity|].
    split; [unfold zz; lia|].
    split; [unfold zn in *; lia|]. split; [exact Eend|]. split; [rewrite Eend; unfold zn in *; lia|].
    split.
    { replace (zn (asz - a_start)) with 0 by (unfold zn in *; lia). lia. }
    split; [lia|]. split; [exact Hmb|].
    split; [unfold zn in *; lia|]. split; [rewrite Erstart; lia|].
    split; [intros Hne; lia|]. split; [intros _; unfold zn in *; lia|exact Erend].
Qed.

(* res_start <> 0 (the routine does not return zeros at once) only if the stream reaches into a non-empty res *)
Lemma res_start_nonzero (rb ab lo : Z) (asz rsz : nat) : 1 <= rb -> 1 <= ab ->
  Z.to_nat (div_ceil (clampZ (zn asz * ab - lo * ab) 0 (zn rsz * rb)) rb) <> 0%nat ->
  lo < zn asz /\ (1 <= rsz)%nat.
Proof.
  intros Hrb Hab H.
  assert (E0 : forall x y, x <= 0 \/ y <= 0 -> Z.to_nat (div_ceil (clampZ x 0 y) rb) = 0%nat).
  { intros x y Hxy. unfold clampZ, div_ceil. replace (Z.max 0 (Z.min x y)) with 0 by lia.
    rewrite Z.div_small by lia. reflexivity. }
  split.
  - destruct (Z_lt_le_dec lo (zn asz)) as [|Hge]; [assumption|]. exfalso. apply H, E0. left.
    rewrite <- Z.mul_sub_distr_r. apply Z.mul_nonpos_nonneg; lia.
  - destruct rsz; [|lia]. exfalso. apply H, E0. right. change (zn 0) with 0. lia.
Qed.

Lemma val_zeros (rb P : Z) (n : nat) : val_scaled P rb (zeros n) = 0.
Proof.
  rewrite val_scaled_sumn. apply sumn_zero. intros t Ht. rewrite nth_zeros. apply Z.mul_0_l.
Qed.

(* nothing of a reaches res: the output is zero *)
Lemma zeros_value (rb ab P lo lsh : Z) (a : list Z) (rsz : nat) : 1 <= rb -> 1 <= ab -> 0 <= lsh < ab -> 0 <= lo ->
  zn (length a) - lo <= 0 \/ rsz = 0%nat ->
  zn rsz * rb + zn (length a) * ab + (lo * ab + lsh) <= P ->
  let D := tor_abs P (val_scaled P rb (zeros rsz) - val_scaled (P + (lo * ab + lsh)) ab a) in
  D <= 2 ^ (P - zn rsz * rb) /\ (zn (length a) * ab - (lo * ab + lsh) <= zn rsz * rb -> D = 0).
Proof.
  intros Hrb Hab Hl Hlo Hcase HP. cbv zeta. rewrite val_zeros.
  set (A := zn (length a)) in *. set (R := zn rsz) in *.
  assert (HA : 0 <= A) by (unfold A, zn; lia). assert (HR : 0 <= R) by (unfold R, zn; lia).
  assert (HRrb : 0 <= R * rb) by (apply Z.mul_nonneg_nonneg; lia).
  assert (HAab : 0 <= A * ab) by (apply Z.mul_nonneg_nonneg; lia).
  assert (Hloab : 0 <= lo * ab) by (apply Z.mul_nonneg_nonneg; lia).
  assert (HP0 : 0 <= P) by lia.
  destruct (Z_le_gt_dec (A - lo) 0) as [HT|HT].
  - (* a * 2^off is an integer *)
    assert (Hneg : 0 <= (lo - A) * ab) by (apply Z.mul_nonneg_nonneg; lia).
    rewrite (val_scaled_vin ab P lo lsh a ltac:(lia) ltac:(lia)) by (fold A; lia). fold A.
    replace (P - (A - lo) * ab) with (P + (lo - A) * ab) by ring.
    rewrite pow2_add by lia.
    replace (0 - 2 ^ P * 2 ^ ((lo - A) * ab) * ival ab (vin a lsh) (length a))
      with (0 + 2 ^ P * (- (2 ^ ((lo - A) * ab) * ival ab (vin a lsh) (length a)))) by ring.
    rewrite tor_abs_add_mul, tor_abs_0 by auto.
    split; [|reflexivity]. pose proof (pow2_pos (P - R * rb) ltac:(lia)). lia.
  - destruct Hcase as [Hc|Hc]; [lia|].
    assert (ER0 : R = 0) by (unfold R; rewrite Hc; reflexivity).
    rewrite ER0, Z.mul_0_l, Z.sub_0_r. split; [apply tor_abs_le_unit; auto|].
    intros Hx. exfalso.
    assert (1 * ab <= (A - lo) * ab) by (apply Z.mul_le_mono_nonneg_r; lia). lia.
Qed.


Section Main.
Variables rb ab : Z.
Hypothesis Hrb : 1 <= rb <= 62.
Hypothesis Hab : 1 <= ab <= 62.

Lemma zero_value (P lo lsh : Z) (a : list Z) (rsz : nat) : 0 <= lsh < ab -> 0 <= lo ->
  zn (length a) - lo <= 0 \/ rsz = 0%nat ->
  zn rsz * rb + zn (length a) * ab + (lo * ab + lsh) <= P ->
  let D := tor_abs P (val_scaled P rb (zeros rsz) - val_scaled (P + (lo * ab + lsh)) ab a) in
  D <= 2 ^ (P - zn rsz * rb) /\ (zn (length a) * ab - (lo * ab + lsh) <= zn rsz * rb -> D = 0).
Proof using Hrb Hab. apply zeros_value; lia. Qed.

End Main.

(* C08, cross-radix normalisation with a negative offset, any word width wd >= 34, gap cap 32 kc bits:
   the value theorem, and with the theorem for offsets >= 0 the full statement for every offset. *)
From PV Require Import Base.MachineInt Model.Znx Model.Limbs Model.LimbsBig Model.C08Oracle
  Proofs.ZnxDigit Proofs.C08Steps Proofs.C08Chain Proofs.C08Loops Proofs.C08Value Proofs.C08Normalize
  Proofs.C08WShift Proofs.C08ShiftValue Proofs.C08CrossInner Proofs.C08CrossGeom Proofs.C08CrossOuter Proofs.C08CrossMain
  Proofs.C08WChain Proofs.C08WLoops Proofs.C08WNormalize Proofs.C08WCrossInner Proofs.C08WCrossOuter
  Proofs.C08WCrossLoop Proofs.C08WCrossTheorem
  Proofs.C08CrossNegKernels Proofs.C08CrossNegInner Proofs.C08CrossNegGeom Proofs.C08CrossNegLoop.
Open Scope Z_scope.

Section NegNone.
Variable wd : Z.
Variable kc : nat.
Variables rb ab : Z.
Hypothesis Hwd : 34 <= wd.
Hypothesis Hkc : (1 <= kc <= 8)%nat.
Hypothesis Hcap : wd - 2 <= 32 * (Z.of_nat kc - 1).
Hypothesis Hrb : 1 <= rb <= wd - 2.
Hypothesis Hab : 1 <= ab <= wd - 2.

Lemma none_final (a : list Z) (lsh lo : Z) (rsz re : nat) (ac0 Dlow : Z) : 0 <= lsh < ab -> lo < 0 ->
  (1 <= rsz)%nat -> (re <= rsz)%nat ->
  zn rsz * rb <= - lo * ab \/ length a = 0%nat -> (zn rsz * rb <= - lo * ab -> re = rsz) ->
  Z.abs ac0 <= 2 ^ (wd - 2) ->
  C08CrossOuter.Lval ab a lsh (length a) = Dlow + 2 ^ (zn (length a) * ab) * ac0 ->
  Z.abs Dlow <= 2 ^ (zn (length a) * ab) - 1 -> (length a = 0%nat -> ac0 = 0 /\ Dlow = 0) ->
  let c' := gapbits_phase wd 8 (Z.min (Z.max (- lo * ab - zn rsz * rb) 0) (32 * Z.of_nat kc)) ac0 in
  let out := fst (top_phase wd false rb 0 re (zeros rsz, c')) in
  length out = rsz /\
  exists z g, 0 <= z /\ 0 <= g /\ (z = 0 \/ g = 0) /\
    (zn (length a) - lo) * ab = zn rsz * rb + g - z /\
    C08CrossOuter.Final rb ab a lsh rsz z g out.
Proof.
  intros Hl Hlo HR Hre Hcase Hfull Hac0 HC HD H0 c' out.
  assert (Hab1 : 1 <= ab) by lia. assert (Hrb1 : 1 <= rb) by lia.
  set (G := Z.max (- lo * ab - zn rsz * rb) 0) in *.
  assert (HG : 0 <= G) by (unfold G; lia).
  destruct (gapbits_spec wd Hwd kc G ac0 Hkc Hcap HG Hac0) as (S & ES & HS & Hc' & Hc0). cbv zeta in ES, HS, Hc', Hc0.
  fold c' in ES, Hc', Hc0.
  assert (Hc'1 : Z.abs c' <= 2 ^ (wd - 2) + 1) by lia.
  destruct (top_zero wd rb ltac:(lia) Hrb re (zeros rsz) c' ltac:(intros; apply nth_zeros) Hc'1) as [T1 T2].
  cbv zeta in T1, T2. fold out in T1, T2. rewrite zeros_length in T1.
  pose proof (Vres_top rb rsz re (zeros rsz) out c' Hrb1 Hre (zeros_length rsz) T1
                ltac:(intros; apply nth_zeros) T2) as HV.
  rewrite Vres_zeros, Z.add_0_l in HV.
  split; [exact T1|].
  set (A := zn (length a)) in *.
  assert (HA : 0 <= A) by (unfold A, zn; lia).
  assert (HAab : 0 <= A * ab) by (apply Z.mul_nonneg_nonneg; lia).
  assert (HRrb : 0 <= zn rsz * rb) by (apply Z.mul_nonneg_nonneg; unfold zn; lia).
  set (K := car rb zseq c' re) in *.
  destruct (Z_le_gt_dec (zn rsz * rb) (- lo * ab)) as [Hge|Hlt].
  - (* the whole of a lies below the precision of res *)
    pose proof (Hfull Hge) as Ere. subst re. rewrite Z.sub_diag, Z.mul_0_l in HV. change (2 ^ 0) with 1 in HV. rewrite Z.mul_1_l in HV.
    assert (EG : G = - lo * ab - zn rsz * rb) by (unfold G; lia).
    exists 0, (A * ab + G). split; [lia|]. split; [lia|]. split; [left; reflexivity|].
    split; [rewrite EG; ring|].
    unfold C08CrossOuter.Final. split; [exact T1|].
    exists (Dlow + 2 ^ (A * ab) * S), K. split.
    + unfold C08CrossOuter.dropok. split.
      * pose proof (pt_bound2 (A * ab) G Dlow S HAab HG HD HS) as Hb.
        rewrite pow2_add by assumption. lia.
      * intros Hgl.
        assert (EA0 : length a = 0%nat).
        { destruct (length a) as [|n] eqn:E; [reflexivity|]. exfalso.
          assert (1 * ab <= A * ab) by (apply Z.mul_le_mono_nonneg_r; unfold A, zn; lia). lia. }
        destruct (H0 EA0) as [E1 E2]. specialize (Hc0 E1). rewrite E2.
        assert (S = 0) by (rewrite E1, Hc0 in ES; lia). subst S. ring.
    + change (2 ^ 0) with 1. rewrite !Z.mul_1_l, HC, HV.
      rewrite (pow2_add (A * ab) G), (pow2_add (A * ab + G) (zn rsz * rb)) by lia.
      rewrite (pow2_add (A * ab) G) by assumption. rewrite ES at 1. ring.
  - (* a is empty *)
    assert (EA0 : length a = 0%nat) by (destruct Hcase as [Hc|Hc]; [clear - Hc Hlt; lia|exact Hc]).
    destruct (H0 EA0) as [E1 E2]. specialize (Hc0 E1).
    assert (EA : A = 0) by (unfold A; rewrite EA0; reflexivity).
    exists (zn rsz * rb - - lo * ab), 0. split; [lia|]. split; [lia|]. split; [right; reflexivity|].
    split; [rewrite EA; ring|].
    unfold C08CrossOuter.Final. split; [exact T1|].
    exists 0, K. split.
    + unfold C08CrossOuter.dropok. split; [cbn; lia|reflexivity].
    + rewrite EA0. change (C08CrossOuter.Lval ab a lsh 0) with 0.
      rewrite HV, Hc0. change (2 ^ 0) with 1.
      assert (Hre0 : 0 <= zn re * rb) by (apply Z.mul_nonneg_nonneg; unfold zn; lia).
      assert (Hre1 : 0 <= (zn rsz - zn re) * rb) by (apply Z.mul_nonneg_nonneg; unfold zn; lia).
      replace (0 + zn rsz * rb) with ((zn rsz - zn re) * rb + zn re * rb) by ring.
      rewrite pow2_add by assumption. ring.
Qed.

End NegNone.

Section NegThm.
Variable wd : Z.
Variable kc : nat.
Variables rb ab : Z.
Hypothesis Hwd : 34 <= wd.
Hypothesis Hkc : (1 <= kc <= 8)%nat.
Hypothesis Hcap : wd - 2 <= 32 * (Z.of_nat kc - 1).
Hypothesis Hrb : 1 <= rb <= wd - 2.
Hypothesis Hab : 1 <= ab <= wd - 2.

(* statement with the scaling exponent large enough for the whole stream *)
Lemma normalize_cross_c_neg_big (off : Z) (a r0 : list Z) : off < 0 -> hrlw wd a ->
  exists out, normalize_cross_c wd (32 * Z.of_nat kc) rb ab off a r0 = Some out /\ length out = length r0 /\
    forall P, zn (length r0) * rb + (zn (length a) - off / ab) * ab <= P ->
      let D := tor_abs P (val_scaled P rb out - val_scaled (P + off) ab a) in
      D <= 2 ^ (P - zn (length r0) * rb) /\ (zn (length a) * ab - off <= zn (length r0) * rb -> D = 0).
Proof.
  intros Hoff Ha.
  assert (Hab1 : 1 <= ab) by lia. assert (Hrb1 : 1 <= rb) by lia.
  unfold normalize_cross_c.
  destruct (split_offset ab off) as [lsh lo] eqn:Esp.
  rewrite (split_offset_spec ab off Hab1) in Esp.
  assert (Hl : 0 <= lsh < ab) by (injection Esp as <- _; apply Z.mod_pos_bound; lia).
  assert (Elo : lo = off / ab) by (injection Esp as _ <-; reflexivity).
  assert (Eoff : lo * ab + lsh = off).
  { injection Esp as <- <-. pose proof (Z.div_mod off ab ltac:(lia)). lia. }
  assert (Hlo : lo < 0).
  { destruct (Z_lt_le_dec lo 0) as [|Hge]; [assumption|]. exfalso.
    assert (0 <= lo * ab) by (apply Z.mul_nonneg_nonneg; lia). clear - H Eoff Hl Hoff. lia. }
  clear Esp. rewrite <- Elo. clear Elo.
  set (rsz := length r0). set (asz := length a).
  set (res_end := Z.to_nat (clampZ (- lo * ab) 0 (zn rsz * rb) / rb)).
  set (res_start := Z.to_nat (div_ceil (clampZ (zn asz * ab - lo * ab) 0 (zn rsz * rb)) rb)).
  set (a_end := Z.to_nat (clampZ (lo * ab) 0 (zn asz * ab) / ab)).
  set (a_start := Z.to_nat (div_ceil (clampZ (zn rsz * rb + lo * ab) 0 (zn asz * ab)) ab)).
  set (take := (zn asz * ab - clampZ (zn rsz * rb + lo * ab) 0 (zn asz * ab)) mod ab).
  set (m := (zn rsz * rb - clampZ (zn asz * ab - lo * ab) 0 (zn rsz * rb)) mod rb).
  assert (HE : 0 < - lo * ab) by (apply Z.mul_pos_pos; lia).
  (* the conclusion from the final invariant *)
  assert (Hconcl : forall out z g, 0 <= z -> 0 <= g -> z = 0 \/ g = 0 ->
    (zn (length a) - lo) * ab = zn rsz * rb + g - z -> C08CrossOuter.Final rb ab a lsh rsz z g out ->
    length out = length r0 /\
    forall P, zn (length r0) * rb + (zn (length a) - lo) * ab <= P ->
      let D := tor_abs P (val_scaled P rb out - val_scaled (P + off) ab a) in
      D <= 2 ^ (P - zn (length r0) * rb) /\ (zn (length a) * ab - off <= zn (length r0) * rb -> D = 0)).
  { intros out z g Hz Hg Hzg Hgeo HF. split; [apply HF|].
    intros P HP. rewrite <- Eoff.
    apply (final_valueW wd rb ab Hrb Hab a lsh Hl rsz z g Hz Hg Hzg lo P out ltac:(clear - Hlo; unfold zn; lia) Hgeo HF).
    exact HP. }
  assert (Ers0 : rsz = 0%nat -> res_start = 0%nat).
  { intros ER0. unfold res_start. rewrite ER0. change (zn 0) with 0. rewrite Z.mul_0_l.
    unfold clampZ. replace (Z.max 0 (Z.min (zn asz * ab - lo * ab) 0)) with 0 by (clear; lia).
    unfold div_ceil. rewrite Z.div_small by (clear - Hrb1; lia). reflexivity. }
  assert (HTab : 0 <= (zn asz - lo) * ab) by (apply Z.mul_nonneg_nonneg; unfold zn; clear - Hlo Hab1; lia).
  assert (HAab : 0 <= zn asz * ab) by (apply Z.mul_nonneg_nonneg; unfold zn; clear - Hab1; lia).
  destruct (Nat.eq_dec rsz 0) as [ER0|ER0].
  { (* res is empty *)
    rewrite (Ers0 ER0). cbn [Nat.eqb]. exists (zeros rsz). split; [reflexivity|]. split; [apply zeros_length|].
    intros P HP. rewrite ER0 in HP |- *. change (zn 0) with 0 in HP |- *. rewrite Z.mul_0_l, Z.sub_0_r.
    assert (HP0 : 0 <= P) by (clear - HP HTab; lia).
    split; [apply tor_abs_le_unit; exact HP0|].
    intros Hx. exfalso. clear - Hx HAab Hoff. lia. }
  clear Ers0.
  assert (HR1 : (1 <= rsz)%nat) by (clear - ER0; lia).
  assert (Hsplit : (zn rsz * rb <= - lo * ab \/ asz = 0%nat) \/ (- lo * ab < zn rsz * rb /\ asz <> 0%nat)).
  { destruct (Z_le_gt_dec (zn rsz * rb) (- lo * ab)) as [|Hgt]; [left; left; assumption|].
    destruct (Nat.eq_dec asz 0); [left; right; assumption|right; split; [clear - Hgt; lia|assumption]]. }
  destruct Hsplit as [Hnone|[Hov EA0]].
  - (* nothing of a is repacked: its carry is rounded through the gap and spread by the top phase *)
    destruct (cross_geom_neg_none rb ab lo asz rsz Hrb1 Hab1 Hlo HR1 Hnone) as (G1 & G2 & G3 & G4 & G5).
    fold a_start in G1. fold a_end in G2. fold res_start in G3. fold res_end in G4, G5.
    destruct (Nat.eqb_spec res_start 0) as [E|_]; [contradiction|].
    rewrite G1, G2. cbn [Nat.sub seq fold_left Nat.eqb andb c_res c_acarry].
    destruct (Z.ltb_spec lo 0) as [_|]; [|lia].
    rewrite Nat.sub_0_r.
    destruct (low_carry wd ab Hab a Ha lsh Hl asz (le_n _)) as (ac0 & Dlow & Ecp & Hac0 & HC & HD & H0).
    fold asz in Ecp. rewrite Ecp. clear Ecp.
    destruct (none_final wd kc rb ab Hwd Hkc Hcap Hrb Hab a lsh lo rsz res_end ac0 Dlow Hl Hlo HR1 G5 Hnone G4
                Hac0 HC HD H0) as (L & z & g & Hz & Hg & Hzg & Hgeo & HF).
    cbv zeta in L, HF. fold asz in L, HF.
    destruct (Nat.eqb_spec res_end 0) as [E|_].
    + rewrite E in HF. cbn [top_phase seq fold_left fst] in HF.
      eexists. split; [reflexivity|]. apply (Hconcl _ z g Hz Hg Hzg Hgeo HF).
    + eexists. split; [reflexivity|]. apply (Hconcl _ z g Hz Hg Hzg Hgeo HF).
  - (* the stream overlaps res *)
    pose proof (cross_geom rb ab lo asz rsz Hrb1 Hab1) as G. cbv zeta in G.
    fold res_start a_start take m a_end res_end in G.
    destruct (G ltac:(clear - EA0; lia) HR1 ltac:(clear - Hlo; unfold zn; lia) Hov)
      as (z & g & Hz & Hg & Hzg & Hgeo & Hast' & Eaend' & Hmid & Eg & Htake & Hm & Hrs & Ez & Htk & Hzp & Erend).
    clear G. clearbody res_start a_start take m a_end res_end.
    assert (Eaend : a_end = 0%nat) by (clear - Eaend' Hlo; lia).
    assert (Hast : (1 <= a_start <= asz)%nat) by (clear - Hast' Hmid; lia).
    clear Hast' Eaend' Hmid.
    destruct (Nat.eqb_spec res_start 0) as [E|_]; [lia|].
    cbn [c_res c_anorm c_acarry c_rcarry c_atake c_racc c_rlimb].
    set (a_out := (asz - a_start)%nat) in *.
    destruct (low_carry wd ab Hab a Ha lsh Hl a_out ltac:(unfold a_out, asz; lia)) as (ac0 & Dlow & Ecp & Hac0 & HC & HD & H0).
    fold asz in Ecp. rewrite Ecp. clear Ecp.
    set (fuel := (Z.to_nat ab + Z.to_nat rb + 4)%nat).
    assert (Hfuel : ab <= Z.of_nat fuel) by (unfold fuel; clear - Hab1; lia). clearbody fuel.
    set (s0 := {| c_res := zeros rsz; c_anorm := 0; c_acarry := ac0; c_rcarry := 0; c_atake := 0;
                  c_racc := rb; c_rlimb := (res_start - 1)%nat |}).
    assert (Hgeo' : (zn (length a) - lo) * ab = zn rsz * rb + g - z) by (fold asz; exact Hgeo).
    assert (Hwd5 : 5 <= wd) by lia.
    subst a_end. rewrite Nat.sub_0_r.
    match goal with |- context [fold_left ?f (seq 0 ?n) ?init] =>
      pose proof (fold_left_seq_ind f (fun j (acc : cstate * bool * bool) =>
        snd acc = false /\
        (snd (fst acc) = true -> Last wd rb ab a lsh rsz z g lo (fst (fst acc))) /\
        (snd (fst acc) = false -> (j < a_start)%nat /\
           ((j = 0%nat /\ fst (fst acc) = s0) \/
            ((1 <= j)%nat /\ OuterW wd rb ab a lsh rsz z g (a_out + j) (fst (fst acc)))))) n init) as HI
    end.
    destruct HI as (I1 & I2 & I3).
    + cbn [fst snd]. split; [reflexivity|]. split; [discriminate|]. intros _. split; [lia|]. left. split; reflexivity.
    + intros j [[s brk] bad] Hj (Ibad & Ibrk & Inb). cbn [fst snd] in Ibad, Ibrk, Inb. subst bad.
      destruct brk; cbn [orb].
      * cbn [fst snd]. split; [reflexivity|]. split; [intros _; apply Ibrk; reflexivity|discriminate].
      * destruct (Inb eq_refl) as [_ Inb']. clear Ibrk Inb.
        replace (a_start - j - 1)%nat with (length a - 1 - (a_out + j))%nat by (clear - Hj Hast; unfold a_out, asz in *; lia).
        set (t := (a_out + j)%nat).
        assert (Ht : (t < length a)%nat) by (clear - Hj Hast; unfold t, a_out, asz in *; lia).
        (* common ending: from the entry invariant of the actual inner-loop state *)
        assert (Hfin : forall st,
          EntryW wd rb ab a lsh rsz z g t st ->
          let r := cross_inner wd fuel rb ab (length a - 1 - t) st in
          let acc' := let (s3, c) := r in
                      match c with InnerDone => (s3, false, false) | OuterBreak => (s3, true, false)
                                 | Fuel => (s3, false, true) end in
          snd acc' = false /\
          (snd (fst acc') = true -> Last wd rb ab a lsh rsz z g lo (fst (fst acc'))) /\
          (snd (fst acc') = false -> (S j < a_start)%nat /\
             ((S j = 0%nat /\ fst (fst acc') = s0) \/
              ((1 <= S j)%nat /\ OuterW wd rb ab a lsh rsz z g (a_out + S j) (fst (fst acc')))))).
        { intros st HEn. cbv zeta.
          destruct (Nat.eq_dec (S t) (length a)) as [Elast|Enl].
          - (* the last digit *)
            replace (length a - 1 - t)%nat with 0%nat by (clear - Elast; lia).
            destruct (last_step wd rb ab Hrb Hab a lsh rsz z g lo Hg Hlo Hgeo' t st fuel HEn Elast Hfuel) as [C1 C2].
            cbv zeta in C1, C2.
            destruct (cross_inner wd fuel rb ab 0 st) as [s3 o]. cbn [fst snd] in *. subst o.
            cbn [fst snd]. split; [reflexivity|]. split; [intros _; exact C2|discriminate].
          - destruct (entry_step_neg wd rb ab Hrb Hab a lsh rsz z g lo Hz Hg Hlo Hgeo' t st fuel HEn
                        ltac:(clear - Ht Enl; lia) Hfuel) as [C1 C2].
            cbv zeta in C1, C2.
            destruct (cross_inner wd fuel rb ab (length a - 1 - t) st) as [s3 o]. cbn [fst snd] in *. subst o.
            cbn [fst snd]. split; [reflexivity|]. split; [discriminate|]. intros _.
            split; [clear - Enl Hast Hj; unfold t, a_out, asz in *; lia|].
            right. split; [lia|]. replace (a_out + S j)%nat with (S t) by (unfold t; lia). exact C2. }
        destruct Inb' as [[Ej Es]|[Hj1 HO]].
        -- (* first iteration *)
           subst j s.
           assert (Et : t = a_out) by (unfold t; lia). clearbody t. subst t.
           cbn [Nat.eqb]. unfold s0. cbn [c_res c_anorm c_acarry c_rcarry c_atake c_racc c_rlimb].
           destruct (Z.eqb_spec take 0) as [Et0|Et0]; cbn [negb].
           ++ assert (Eg0 : g = zn a_out * ab) by (rewrite Eg, Et0; ring).
              destruct (Z.eqb_spec m 0) as [Em0|Em0]; cbn [negb].
              ** pose proof (first_outerW wd rb ab Hab a lsh Hl rsz z g Hz Hg a_out res_start 0 rb ac0 Dlow 0 0
                   Hrs ltac:(lia) ltac:(lia) ltac:(rewrite <- Ez, Em0; ring) Eg0 HC HD Hac0
                   ltac:(intros E; apply H0; exact E)) as HO0.
                 pose proof (next_entryW wd rb ab Hrb Hab a Ha lsh Hl rsz z g Hz Hg a_out _ HO0 Ht) as HEn.
                 cbv zeta in HEn. cbn [c_res c_anorm c_acarry c_rcarry c_atake c_racc c_rlimb] in HEn.
                 destruct (middle_step wd true ab lsh 0 (nthZ a (length a - 1 - a_out)) ac0) as [an ac].
                 cbn [fst snd] in HEn. apply (Hfin _ HEn).
              ** pose proof (first_outerW wd rb ab Hab a lsh Hl rsz z g Hz Hg a_out res_start m (rb - m) ac0 Dlow 0 0
                   Hrs Hm eq_refl Ez Eg0 HC HD Hac0 ltac:(intros E; apply H0; exact E)) as HO0.
                 pose proof (next_entryW wd rb ab Hrb Hab a Ha lsh Hl rsz z g Hz Hg a_out _ HO0 Ht) as HEn.
                 cbv zeta in HEn. cbn [c_res c_anorm c_acarry c_rcarry c_atake c_racc c_rlimb] in HEn.
                 destruct (middle_step wd true ab lsh 0 (nthZ a (length a - 1 - a_out)) ac0) as [an ac].
                 cbn [fst snd] in HEn. apply (Hfin _ HEn).
           ++ destruct (Htk Et0) as [Ez0 Ers]. subst res_start.
              pose proof (first_takeW wd rb ab Hrb Hab a Ha lsh Hl rsz z g a_out take ac0 Dlow
                   ltac:(lia) Ez0 Eg ltac:(lia) Ht HC HD Hac0 H0) as HEn.
              cbv zeta in HEn.
              destruct (middle_step wd true ab lsh 0 (nthZ a (length a - 1 - a_out)) ac0) as [an ac].
              cbn [fst snd] in HEn. apply (Hfin _ HEn).
        -- (* later iterations *)
           destruct (Nat.eqb_spec j 0) as [|_]; [lia|].
           pose proof (next_entryW wd rb ab Hrb Hab a Ha lsh Hl rsz z g Hz Hg t s HO Ht) as HEn.
           cbv zeta in HEn.
           destruct (middle_step wd true ab lsh 0 (nthZ a (length a - 1 - t)) (c_acarry s)) as [an ac].
           cbn [fst snd] in HEn. apply (Hfin _ HEn).
    + destruct (fold_left _ (seq 0 a_start) (s0, false, false)) as [[s brk] bad].
      cbn [fst snd] in I1, I2, I3. subst bad.
      assert (HL : Last wd rb ab a lsh rsz z g lo s).
      { destruct brk; [apply I2; reflexivity|]. destruct (I3 eq_refl) as [Hlt _]. lia. }
      clear I2 I3.
      destruct (Nat.eqb_spec a_start 0) as [E|_]; [lia|]. cbn [andb].
      assert (Ere : res_end = c_rlimb s).
      { destruct HL as (_ & _ & Hpos & _). rewrite Erend.
        assert (Eq : - lo * ab / rb = zn (c_rlimb s)).
        { symmetry. apply (Z.div_unique (- lo * ab) rb (zn (c_rlimb s)) (- lo * ab - zn (c_rlimb s) * rb)); clear - Hpos Hrb1; lia. }
        rewrite Eq. unfold zn. clear. lia. }
      pose proof (last_final wd rb ab Hwd5 Hrb a lsh rsz z g lo Hg s _ HL eq_refl) as HF.
      rewrite <- Ere in HF.
      destruct (Nat.eqb_spec res_end 0) as [E|_].
      * rewrite E in HF. cbn [top_phase seq fold_left fst] in HF.
        eexists. split; [reflexivity|]. apply (Hconcl _ z g Hz Hg Hzg Hgeo' HF).
      * eexists. split; [reflexivity|]. apply (Hconcl _ z g Hz Hg Hzg Hgeo' HF).
Qed.

End NegThm.

Section AllOffsets.
Variable wd : Z.
Variable kc : nat.
Variables rb ab : Z.
Hypothesis Hwd : 34 <= wd.
Hypothesis Hkc : (1 <= kc <= 8)%nat.
Hypothesis Hcap : wd - 2 <= 32 * (Z.of_nat kc - 1).
Hypothesis Hrb : 1 <= rb <= wd - 2.
Hypothesis Hab : 1 <= ab <= wd - 2.

Theorem normalize_cross_c_value_neg (off : Z) (a r0 : list Z) : off < 0 ->
  Forall (fun x => Z.abs x <= 2 ^ (wd - 2)) a ->
  exists out, normalize_cross_c wd (32 * Z.of_nat kc) rb ab off a r0 = Some out /\ length out = length r0 /\
    forall P, zn (length r0) * rb + zn (length a) * ab + Z.abs off <= P ->
      let D := tor_abs P (val_scaled P rb out - val_scaled (P + off) ab a) in
      D <= 2 ^ (P - zn (length r0) * rb) /\ (zn (length a) * ab - off <= zn (length r0) * rb -> D = 0).
Proof.
  intros Hoff HF. apply hrlw_of_Forall in HF.
  destruct (normalize_cross_c_neg_big wd kc rb ab Hwd Hkc Hcap Hrb Hab off a r0 Hoff HF) as (out & E & L & HV).
  exists out. split; [exact E|]. split; [exact L|].
  intros P HP.
  assert (HRrb : 0 <= zn (length r0) * rb) by (apply Z.mul_nonneg_nonneg; unfold zn; lia).
  assert (HAab : 0 <= zn (length a) * ab) by (apply Z.mul_nonneg_nonneg; unfold zn; lia).
  pose proof (Z.div_mod off ab ltac:(lia)) as Hdm. pose proof (Z.mod_pos_bound off ab ltac:(lia)) as Hmb.
  assert (Hbig : zn (length r0) * rb + (zn (length a) - off / ab) * ab <= P + ab).
  { rewrite Z.mul_sub_distr_r. clear - HP Hdm Hmb Hoff. lia. }
  apply (value_scale_down P ab rb ab off (length r0) a out); [lia|lia|lia|lia|exact L|lia|lia|].
  apply (HV (P + ab)). exact Hbig.
Qed.

Theorem normalize_cross_c_value (off : Z) (a r0 : list Z) :
  Forall (fun x => Z.abs x <= 2 ^ (wd - 2)) a ->
  exists out, normalize_cross_c wd (32 * Z.of_nat kc) rb ab off a r0 = Some out /\ length out = length r0 /\
    forall P, zn (length r0) * rb + zn (length a) * ab + Z.abs off <= P ->
      let D := tor_abs P (val_scaled P rb out - val_scaled (P + off) ab a) in
      D <= 2 ^ (P - zn (length r0) * rb) /\ (zn (length a) * ab - off <= zn (length r0) * rb -> D = 0).
Proof.
  intros HF. destruct (Z_lt_le_dec off 0) as [Hneg|Hpos].
  - apply normalize_cross_c_value_neg; assumption.
  - destruct (normalize_cross_c_value_pos wd (32 * Z.of_nat kc) rb ab Hrb Hab off a r0 Hpos HF) as (out & E & L & HV).
    exists out. split; [exact E|]. split; [exact L|]. intros P HP. apply HV. rewrite Z.abs_eq in HP by exact Hpos. exact HP.
Qed.

End AllOffsets.

(* vec_znx_normalize_cross_base2k (i64 words, gap rounding capped at 128 bits): every offset *)
Theorem normalize_cross_value_all (rb ab : Z) : 1 <= rb <= 62 -> 1 <= ab <= 62 ->
  forall (off : Z) (a r0 : list Z), hr62 a ->
  exists out, normalize_cross 64 rb ab off a r0 = Some out /\ length out = length r0 /\
    forall P, zn (length r0) * rb + zn (length a) * ab + Z.abs off <= P ->
      let D := tor_abs P (val_scaled P rb out - val_scaled (P + off) ab a) in
      D <= 2 ^ (P - zn (length r0) * rb) /\ (zn (length a) * ab - off <= zn (length r0) * rb -> D = 0).
Proof.
  intros Hrb Hab off a r0 Ha. rewrite normalize_cross_is_c128.
  apply (normalize_cross_c_value 64 4 rb ab ltac:(lia) ltac:(lia) ltac:(cbn; lia) ltac:(lia) ltac:(lia) off a r0).
  exact Ha.
Qed.

(* Characterisation of the digit / carry kernels (C08 foundation). *)
From PV Require Import Base.MachineInt Model.Znx.
Open Scope Z_scope.

Lemma digit_spec (w b x : Z) : 1 <= b <= w -> get_digit w b x = wrap b x.
Proof.
  intros Hb. unfold get_digit, shl, asr.
  replace w with (b + (w - b)) at 1 by lia.
  rewrite wrap_mul_pow2 by lia.
  apply Z.div_mul. pose proof (pow2_pos (w - b) ltac:(lia)); lia.
Qed.

(* the digit is the balanced residue *)
Lemma digit_range (w b x : Z) : 1 <= b <= w -> in_range b (get_digit w b x).
Proof. intros; rewrite digit_spec by auto; apply wrap_range; lia. Qed.

Lemma digit_congr (w b x : Z) : 1 <= b <= w -> exists q, x = get_digit w b x + q * 2 ^ b.
Proof.
  intros Hb; rewrite digit_spec by auto.
  destruct (wrap_exists b x ltac:(lia)) as [q Hq]. exists q; lia.
Qed.

(* carry: exact whenever x - digit does not overflow the word *)
Lemma carry_spec (w b x : Z) : 1 <= b <= w -> in_range w (x - get_digit w b x) ->
  get_carry w b x (get_digit w b x) * 2 ^ b + get_digit w b x = x.
Proof.
  intros Hb Hr. unfold get_carry, wsub, asr. rewrite wrap_id by (auto; lia).
  destruct (digit_congr w b x Hb) as [q Hq].
  set (d := get_digit w b x) in *.
  replace (x - d) with (q * 2 ^ b) by lia.
  rewrite Z.div_mul by (pose proof (pow2_pos b ltac:(lia)); lia). lia.
Qed.

(* the carry wraps at the top of the range: i64::MAX with b = 2 *)
Lemma carry_wraps_refuted :
  exists x, in_range 64 x /\
    get_carry 64 2 x (get_digit 64 2 x) * 2 ^ 2 + get_digit 64 2 x <> x.
Proof. exists (2 ^ 63 - 1). split; [unfold in_range; lia | vm_compute; discriminate]. Qed.

(* magnitude of a carry *)
Lemma carry_bound (w b x : Z) : 1 <= b <= w -> in_range w (x - get_digit w b x) ->
  Z.abs (get_carry w b x (get_digit w b x)) * 2 ^ b <= Z.abs x + 2 ^ (b - 1).
Proof.
  intros Hb Hr. pose proof (carry_spec w b x Hb Hr) as Hs.
  pose proof (digit_range w b x Hb) as [Hd1 Hd2].
  pose proof (pow2_pos b ltac:(lia)). pose proof (pow2_pos (b-1) ltac:(lia)). nia.
Qed.

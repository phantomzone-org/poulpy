(* C08, cross-radix normalisation with a negative offset: bit geometry when nothing of a is repacked, the value of
   the top phase over zero limbs, and the change of the scaling exponent P. *)
From PV Require Import Base.MachineInt Model.Znx Model.Limbs Model.C08Oracle
  Proofs.ZnxDigit Proofs.C08Steps Proofs.C08Chain Proofs.C08Loops Proofs.C08Value Proofs.C08Normalize Proofs.C08CrossInner Proofs.C08CrossGeom Proofs.C08CrossOuter Proofs.C08CrossMain
  Proofs.C08WChain Proofs.C08WLoops Proofs.C08WCrossInner.
Open Scope Z_scope.

(* no overlap (or an empty a): nothing of a is repacked *)
Lemma cross_geom_neg_none (rb ab lo : Z) (asz rsz : nat) : 1 <= rb -> 1 <= ab -> lo < 0 -> (1 <= rsz)%nat ->
  zn rsz * rb <= - lo * ab \/ asz = 0%nat ->
  Z.to_nat (div_ceil (clampZ (zn rsz * rb + lo * ab) 0 (zn asz * ab)) ab) = 0%nat /\
  Z.to_nat (clampZ (lo * ab) 0 (zn asz * ab) / ab) = 0%nat /\
  Z.to_nat (div_ceil (clampZ (zn asz * ab - lo * ab) 0 (zn rsz * rb)) rb) <> 0%nat /\
  (zn rsz * rb <= - lo * ab -> Z.to_nat (clampZ (- lo * ab) 0 (zn rsz * rb) / rb) = rsz) /\
  (Z.to_nat (clampZ (- lo * ab) 0 (zn rsz * rb) / rb) <= rsz)%nat.
Proof.
  intros Hrb Hab Hlo HR Hcase.
  set (EE := - lo * ab) in *.
  assert (HEE : 1 <= EE).
  { unfold EE. assert (1 * 1 <= (- lo) * ab) by (apply Z.mul_le_mono_nonneg; lia). lia. }
  assert (Eloab : lo * ab = - EE) by (unfold EE; ring).
  clearbody EE. rewrite Eloab.
  assert (HRrb : 1 <= zn rsz * rb).
  { assert (1 * 1 <= zn rsz * rb) by (apply Z.mul_le_mono_nonneg; unfold zn; lia). lia. }
  assert (HAab : 0 <= zn asz * ab) by (apply Z.mul_nonneg_nonneg; unfold zn; lia).
  set (rt := zn rsz * rb) in *. set (at_ := zn asz * ab) in *.
  assert (Hfloor : (Z.to_nat (clampZ EE 0 rt / rb) <= rsz)%nat).
  { assert (clampZ EE 0 rt / rb <= zn rsz).
    { apply Z.div_le_upper_bound; [lia|]. unfold clampZ, rt. lia. }
    unfold zn in *. lia. }
  split; [|split; [|split; [|split; [|exact Hfloor]]]].
  - assert (E0 : clampZ (rt + - EE) 0 at_ = 0).
    { unfold clampZ. destruct Hcase as [Hc|Hc]; [lia|]. unfold at_. rewrite Hc. change (zn 0) with 0. lia. }
    rewrite E0. unfold div_ceil. rewrite Z.div_small by lia. reflexivity.
  - unfold clampZ. replace (Z.max 0 (Z.min (- EE) at_)) with 0 by lia. reflexivity.
  - set (x := clampZ (at_ - - EE) 0 rt).
    assert (Hx : 1 <= x) by (unfold x, clampZ; lia). clearbody x.
    assert (1 <= div_ceil x rb) by (unfold div_ceil; apply Z.div_le_lower_bound; lia).
    lia.
  - intros Hge. unfold clampZ. replace (Z.max 0 (Z.min EE rt)) with rt by lia.
    unfold rt. rewrite Z.div_mul by lia. unfold zn. lia.
Qed.

Lemma Vres_top (rb : Z) (rsz re : nat) (r out : list Z) (c : Z) : 1 <= rb -> (re <= rsz)%nat ->
  length r = rsz -> length out = rsz -> (forall i, (i < re)%nat -> nthZ r i = 0) ->
  (forall i, nthZ out i = if (Nat.ltb i re && Nat.ltb i (length r))%bool then dig rb zseq c (re - 1 - i) else nthZ r i) ->
  Vres rb rsz out = Vres rb rsz r + 2 ^ ((zn rsz - zn re) * rb) * (c - 2 ^ (zn re * rb) * car rb zseq c re).
Proof.
  intros Hrb Hre Lr Lo Hz Hn. unfold Vres.
  assert (Esplit : forall f, sumn rsz f = sumn re f + sumn (rsz - re) (fun t => f (re + t)%nat)).
  { intros f. replace rsz with (re + (rsz - re))%nat at 1 by lia. apply sumn_add. }
  rewrite !Esplit.
  set (E := (zn rsz - zn re) * rb).
  assert (HE : 0 <= E) by (unfold E; apply Z.mul_nonneg_nonneg; unfold zn; lia).
  assert (E2 : sumn (rsz - re) (fun t => nthZ out (re + t) * 2 ^ ((zn rsz - 1 - zn (re + t)) * rb))
             = sumn (rsz - re) (fun t => nthZ r (re + t) * 2 ^ ((zn rsz - 1 - zn (re + t)) * rb))).
  { apply sumn_ext. intros t Ht. rewrite Hn. destruct (Nat.ltb_spec (re + t) re); [lia|]. reflexivity. }
  rewrite E2.
  assert (E1 : sumn re (fun i => nthZ r i * 2 ^ ((zn rsz - 1 - zn i) * rb)) = 0).
  { apply sumn_zero. intros t Ht. rewrite Hz by exact Ht. apply Z.mul_0_l. }
  rewrite E1.
  assert (E3 : sumn re (fun i => nthZ out i * 2 ^ ((zn rsz - 1 - zn i) * rb))
             = 2 ^ E * sumn re (fun t => dig rb zseq c t * 2 ^ (zn t * rb))).
  { rewrite <- (window_rev rb Hrb (dig rb zseq c) re E HE). apply sumn_ext. intros i Hi. rewrite Hn, Lr.
    destruct (Nat.ltb_spec i re); [|lia]. destruct (Nat.ltb_spec i rsz); [|lia]. cbn [andb].
    f_equal. f_equal. unfold E. ring. }
  rewrite E3.
  pose proof (chain_sum rb Hrb zseq c re) as HC.
  assert (E4 : sumn re (fun t => zseq t * 2 ^ (zn t * rb)) = 0).
  { apply sumn_zero. intros t Ht. unfold zseq. apply Z.mul_0_l. }
  rewrite E4 in HC.
  replace (sumn re (fun t => dig rb zseq c t * 2 ^ (zn t * rb))) with (c - 2 ^ (zn re * rb) * car rb zseq c re) by lia.
  ring.
Qed.

Lemma val_scaled_scale (P k b : Z) (l : list Z) : 0 <= k -> zn (length l) * b <= P -> 0 <= b ->
  val_scaled (P + k) b l = 2 ^ k * val_scaled P b l.
Proof.
  intros Hk HP Hb. rewrite !val_scaled_sumn, <- sumn_scale. apply sumn_ext. intros i Hi. unfold wt.
  replace (P + k - (zn i + 1) * b) with (k + (P - (zn i + 1) * b)) by ring.
  assert (0 <= P - (zn i + 1) * b).
  { assert ((zn i + 1) * b <= zn (length l) * b) by (apply Z.mul_le_mono_nonneg_r; unfold zn; lia). lia. }
  rewrite pow2_add by lia. ring.
Qed.

Lemma tor_abs_scale (P k x : Z) : 1 <= P -> 0 <= k -> tor_abs (P + k) (2 ^ k * x) = 2 ^ k * tor_abs P x.
Proof.
  intros HP Hk. unfold tor_abs. rewrite (Z.mul_comm (2 ^ k) x), wrap_mul_pow2 by lia.
  pose proof (pow2_pos k Hk). rewrite Z.abs_mul, (Z.abs_eq (2 ^ k)) by lia. ring.
Qed.

(* the statement at P + k gives the statement at P *)
Lemma value_scale_down (P k rb ab off : Z) (rsz : nat) (a out : list Z) : 1 <= P -> 0 <= k -> 0 <= rb -> 0 <= ab ->
  length out = rsz -> zn rsz * rb <= P -> zn (length a) * ab <= P + off ->
  (let D := tor_abs (P + k) (val_scaled (P + k) rb out - val_scaled (P + k + off) ab a) in
   D <= 2 ^ (P + k - zn rsz * rb) /\ (zn (length a) * ab - off <= zn rsz * rb -> D = 0)) ->
  let D := tor_abs P (val_scaled P rb out - val_scaled (P + off) ab a) in
  D <= 2 ^ (P - zn rsz * rb) /\ (zn (length a) * ab - off <= zn rsz * rb -> D = 0).
Proof.
  intros HP Hk Hrb Hab Lo HPr HPa H. cbv zeta in *.
  rewrite (val_scaled_scale P k rb out Hk ltac:(rewrite Lo; exact HPr) Hrb) in H.
  replace (P + k + off) with (P + off + k) in H by ring.
  rewrite (val_scaled_scale (P + off) k ab a Hk HPa Hab) in H.
  rewrite <- Z.mul_sub_distr_l, tor_abs_scale in H by lia.
  replace (P + k - zn rsz * rb) with (k + (P - zn rsz * rb)) in H by ring.
  rewrite pow2_add in H by lia.
  pose proof (pow2_pos k Hk) as Hpk. destruct H as [H1 H2].
  set (D := tor_abs P (val_scaled P rb out - val_scaled (P + off) ab a)) in *.
  split.
  - apply (Z.mul_le_mono_pos_l _ _ (2 ^ k)); [exact Hpk|exact H1].
  - intros Hx. specialize (H2 Hx). nia.
Qed.

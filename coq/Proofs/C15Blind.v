(* C15 — blind selection, blind retrieval and conditional swap address exactly the index encrypted by the selector,
   (k >> bit_rsh) mod 2^bit_mask, and blind rotation multiplies by X^(+-(that index << bit_lsh)). *)
From Coq Require Import ZArith List Bool Lia.
From PV Require Import Gen.C15_gen Model.C15Uint Proofs.C15Layout Proofs.C15Surgery.
Import ListNotations.
Open Scope Z_scope.

Lemma kbit_bits_of n kw i : 0 <= i < Z.of_nat n -> kbit (bits_of n kw) i = Some (Z.testbit kw i).
Proof.
  intros Hi. unfold kbit, bits_of. destruct (Z.leb_spec 0 i); [|lia].
  rewrite nth_error_map. rewrite (nth_error_nth' _ 0) by (rewrite zseq_length; lia).
  rewrite nth_zseq by lia. cbn [option_map]. do 2 f_equal. lia.
Qed.

(* the index sub-field, one bit at a time *)
Lemma field_split x c : 0 < c -> x mod 2 ^ c = x mod 2 ^ (c - 1) + Z.b2z (Z.testbit x (c - 1)) * 2 ^ (c - 1).
Proof.
  intros Hc. replace c with ((c - 1) + 1) at 1 by lia. rewrite Z.pow_add_r by lia. change (2 ^ 1) with 2.
  pose proof (pow2_pos' (c - 1) ltac:(lia)) as Hp.
  rewrite Z.rem_mul_r by lia. rewrite Z.testbit_spec' by lia. ring.
Qed.

Lemma field_bit kw rsh c : 0 <= rsh -> 0 < c -> Z.testbit (kw / 2 ^ rsh) (c - 1) = Z.testbit kw (rsh + c - 1).
Proof. intros. rewrite Z.div_pow2_bits by lia. f_equal; lia. Qed.

Lemma index_split kw rsh c : 0 <= rsh -> 0 < c ->
  (kw / 2 ^ rsh) mod 2 ^ c = (kw / 2 ^ rsh) mod 2 ^ (c - 1) + Z.b2z (Z.testbit kw (rsh + c - 1)) * 2 ^ (c - 1).
Proof. intros Hr Hc. rewrite (field_split _ c), field_bit by lia. reflexivity. Qed.

Lemma zseq_S s k : zseq s (S k) = zseq s k ++ [s + Z.of_nat k].
Proof.
  revert s; induction k as [|k IH]; intros s.
  - cbn. f_equal. lia.
  - change (zseq s (S (S k))) with (s :: zseq (s + 1) (S k)). rewrite IH. cbn [zseq app]. do 3 f_equal. lia.
Qed.

Lemma cswap_spec bit a b : cswap bit (a, b) = if bit then (b, a) else (a, b).
Proof. unfold cswap. destruct bit; cbn [fst snd Z.b2z]; f_equal; lia. Qed.

Definition comb (bit : bool) (lo hi : option Z) : option Z :=
  match lo, hi with
  | Some l, Some h => Some (if bit then l else h)
  | Some l, None => Some (if bit then l else 0)
  | None, Some h => Some (if bit then 0 else h)
  | None, None => None
  end.

Lemma den_comb bit lo hi : den (comb bit lo hi) = if bit then den lo else den hi.
Proof. destruct lo, hi, bit; reflexivity. Qed.

Lemma sel_step_eq t bit m j x : t <> 0 ->
  sel_step t bit m j x = if x =? j then comb bit (m (j + t)) (m j) else if x =? j + t then None else m x.
Proof.
  intros Ht. unfold sel_step, comb, fm_set.
  destruct (m (j + t)), (m j); destruct (Z.eqb_spec x j); destruct (Z.eqb_spec x (j + t)); try reflexivity; lia.
Qed.

(* after the first k pairs of a level: the pairs below k are combined, their upper halves are gone, the rest is untouched *)
Lemma sel_fold t bit m k : 0 < t -> Z.of_nat k <= t -> forall x,
  let F := fold_left (sel_step t bit) (zseq 0 k) m in
  (0 <= x < Z.of_nat k -> F x = comb bit (m (x + t)) (m x)) /\
  (t <= x < t + Z.of_nat k -> F x = None) /\
  (x < 0 \/ Z.of_nat k <= x < t \/ t + Z.of_nat k <= x -> F x = m x).
Proof.
  intros Ht. induction k as [|k IH]; intros Hk x; cbv zeta.
  - cbn [zseq fold_left]. repeat split; intros; reflexivity || lia.
  - rewrite zseq_S, fold_left_app. cbn [fold_left]. rewrite Z.add_0_l, sel_step_eq by lia.
    destruct (IH ltac:(lia) x) as (Ilo & Ihi & Irest).
    destruct (IH ltac:(lia) (Z.of_nat k)) as (_ & _ & Ek). destruct (IH ltac:(lia) (Z.of_nat k + t)) as (_ & _ & Ekt).
    destruct (Z.eqb_spec x (Z.of_nat k)) as [->|]; [|destruct (Z.eqb_spec x (Z.of_nat k + t)) as [->|]].
    + rewrite Ek, Ekt by lia. repeat split; intros; reflexivity || lia.
    + repeat split; intros; reflexivity || lia.
    + repeat split; intros; [apply Ilo | apply Ihi | apply Irest]; lia.
Qed.

(* one level: the lower half now holds, at x, the entry x or x + t according to the selector bit *)
Lemma sel_level_den t bit m x : 0 < t -> 0 <= x < t ->
  den (fold_left (sel_step t bit) (zseq 0 (Z.to_nat t)) m x) = den (m (x + (if bit then t else 0))).
Proof.
  intros Ht Hx. destruct (sel_fold t bit m (Z.to_nat t) Ht ltac:(lia) x) as (-> & _ & _); [|lia].
  rewrite den_comb. destruct bit; [reflexivity | now rewrite Z.add_0_r].
Qed.

Lemma sel_levels_index nb kw rsh mask : 0 <= rsh -> rsh + mask <= Z.of_nat nb ->
  forall cnt i m, i + Z.of_nat cnt = mask -> 0 <= i ->
    exists m', sel_levels (bits_of nb kw) rsh mask i cnt m = Some m' /\
               den (m' 0) = den (m ((kw / 2 ^ rsh) mod 2 ^ Z.of_nat cnt)).
Proof.
  intros Hrsh Hle. induction cnt as [|c IH]; intros i m Hi Hi0.
  - exists m; split; [reflexivity|]. cbn. now rewrite Z.mod_1_r.
  - cbn [sel_levels]. rewrite kbit_bits_of by lia.
    set (t := Z.shiftl 1 (mask - i - 1)). set (bit := Z.testbit kw (rsh + mask - i - 1)).
    assert (Et : t = 2 ^ Z.of_nat c) by (unfold t; rewrite Z.shiftl_mul_pow2 by lia; rewrite Z.mul_1_l; f_equal; lia).
    assert (Htp : 0 < t) by (rewrite Et; apply pow2_pos'; lia).
    destruct (IH (i + 1) (fold_left (sel_step t bit) (zseq 0 (Z.to_nat t)) m) ltac:(lia) ltac:(lia)) as (m' & Em & Hd).
    exists m'; split; [exact Em|]. rewrite Hd.
    set (lowidx := (kw / 2 ^ rsh) mod 2 ^ Z.of_nat c).
    assert (Hlow : 0 <= lowidx < t) by (unfold lowidx; rewrite Et; apply Z.mod_pos_bound; rewrite <- Et; lia).
    rewrite sel_level_den by lia. do 2 f_equal.
    rewrite (index_split kw rsh (Z.of_nat (S c))) by lia.
    replace (Z.of_nat (S c) - 1) with (Z.of_nat c) by lia. replace (rsh + Z.of_nat (S c) - 1) with (rsh + mask - i - 1) by lia.
    fold lowidx bit. rewrite <- Et. destruct bit; cbn [Z.b2z]; lia.
Qed.

(* the selected entry is the one at (k >> bit_rsh) mod 2^bit_mask, for a selector of any width nb (T::BITS); an
   absent key reads as an encryption of zero *)
Lemma selection_index nb kw rsh mask (m : fmap) : 0 <= rsh -> 0 <= mask -> rsh + mask <= Z.of_nat nb ->
  glwe_blind_selection (Z.of_nat nb) (bits_of nb kw) rsh mask m = Some (den (m ((kw / 2 ^ rsh) mod 2 ^ mask))).
Proof.
  intros Hr Hm Hle. unfold glwe_blind_selection. destruct (Z.leb_spec (rsh + mask) (Z.of_nat nb)); [|lia].
  destruct (sel_levels_index nb kw rsh mask Hr Hle (Z.to_nat mask) 0 m ltac:(lia) ltac:(lia)) as (m' & -> & Hd).
  rewrite Hd, Z2Nat.id by lia. reflexivity.
Qed.

(* blind retrieval: a butterfly of conditional swaps on a vector *)
Lemma lset_length l i v : length (lset l i v) = length l.
Proof. revert i; induction l as [|x l IH]; intros [|i]; cbn; auto. Qed.

Lemma nth_lset l : forall i k v,
  nth k (lset l i v) 0 = if (Nat.eqb k i && Nat.ltb i (length l))%bool then v else nth k l 0.
Proof.
  induction l as [|y l IH]; intros [|i] [|k] v; cbn [lset nth length Nat.eqb andb]; try reflexivity;
    [now rewrite andb_false_r | apply IH].
Qed.

Lemma lget_lset l i v x : 0 <= x -> lget (lset l i v) x = if (x =? Z.of_nat i) && (Z.of_nat i <? Z.of_nat (length l)) then v else lget l x.
Proof.
  intros Hx. unfold lget. rewrite nth_lset.
  destruct (Nat.eqb_spec (Z.to_nat x) i); destruct (Z.eqb_spec x (Z.of_nat i)); destruct (Nat.ltb_spec i (length l));
    destruct (Z.ltb_spec (Z.of_nat i) (Z.of_nat (length l))); cbn [andb]; try reflexivity; lia.
Qed.

Lemma swap_at_length bit t l j : length (swap_at bit t l j) = length l.
Proof.
  unfold swap_at. destruct (j + t <? Z.of_nat (length l)); [|reflexivity].
  rewrite cswap_spec. destruct bit; now rewrite !lset_length.
Qed.

Lemma swap_at_get bit t l j x : 0 <= j -> 0 < t -> 0 <= x ->
  lget (swap_at bit t l j) x =
    if bit && (j + t <? Z.of_nat (length l)) then
      (if x =? j then lget l (j + t) else if x =? j + t then lget l j else lget l x)
    else lget l x.
Proof.
  intros Hj Ht Hx. unfold swap_at. destruct (Z.ltb_spec (j + t) (Z.of_nat (length l))) as [Hlt|]; [|now rewrite andb_false_r].
  rewrite cswap_spec, andb_true_r.
  (* the same steps for both values of the bit: with bit = false the two writes put back what was there *)
  destruct bit; rewrite !lget_lset by lia; rewrite lset_length, !Z2Nat.id by lia;
    destruct (Z.eqb_spec x (j + t)); destruct (Z.eqb_spec x j); destruct (Z.ltb_spec (j + t) (Z.of_nat (length l)));
    destruct (Z.ltb_spec j (Z.of_nat (length l))); cbn [andb]; try reflexivity; try (f_equal; lia); lia.
Qed.

(* after the first k pairs of a level: the pairs below k are decided, the rest of the vector is untouched *)
Lemma retr_fold bit t l k : 0 < t -> Z.of_nat k <= t ->
  let l' := fold_left (swap_at bit t) (zseq 0 k) l in
  length l' = length l /\
  (forall x, 0 <= x < Z.of_nat k -> lget l' x = if bit && (x + t <? Z.of_nat (length l)) then lget l (x + t) else lget l x) /\
  (forall x, Z.of_nat k <= x < t \/ t + Z.of_nat k <= x -> lget l' x = lget l x).
Proof.
  intros Ht. induction k as [|k IH]; intros Hk; cbv zeta.
  - cbn [zseq fold_left]. repeat split; auto. intros; lia.
  - rewrite zseq_S, fold_left_app. cbn [fold_left]. rewrite Z.add_0_l.
    destruct (IH ltac:(lia)) as (Hlen & Hlow & Hrest). set (lk := fold_left (swap_at bit t) (zseq 0 k) l) in *.
    split; [rewrite swap_at_length; exact Hlen|]. split.
    + intros x Hx. rewrite swap_at_get by lia. rewrite Hlen.
      destruct (Z.eqb_spec x (Z.of_nat k)) as [->|Hne].
      * rewrite (Hrest (Z.of_nat k + t)) by lia. rewrite (Hrest (Z.of_nat k)) by lia.
        destruct (bit && (Z.of_nat k + t <? Z.of_nat (length l))); reflexivity.
      * destruct (Z.eqb_spec x (Z.of_nat k + t)); [lia|]. rewrite Hlow by lia.
        destruct (bit && (Z.of_nat k + t <? Z.of_nat (length l))); reflexivity.
    + intros x Hx. rewrite swap_at_get by lia.
      destruct (Z.eqb_spec x (Z.of_nat k)); [lia|]. destruct (Z.eqb_spec x (Z.of_nat k + t)); [lia|].
      rewrite Hrest by lia. destruct (bit && (Z.of_nat k + t <? Z.of_nat (length lk))); reflexivity.
Qed.

Lemma retr_levels_index nb kw rsh mask : 0 <= rsh -> rsh + mask <= Z.of_nat nb ->
  forall cnt i l, i + Z.of_nat cnt = mask -> 0 <= i ->
    (kw / 2 ^ rsh) mod 2 ^ Z.of_nat cnt < Z.of_nat (length l) ->
    exists l', fold_left (retr_level (bits_of nb kw) rsh mask) (zseq i cnt) (Some l) = Some l' /\
               length l' = length l /\ lget l' 0 = lget l ((kw / 2 ^ rsh) mod 2 ^ Z.of_nat cnt).
Proof.
  intros Hrsh Hle. induction cnt as [|c IH]; intros i l Hi Hi0 Hidx.
  - exists l; repeat split; auto. cbn. now rewrite Z.mod_1_r.
  - cbn [zseq fold_left retr_level]. rewrite kbit_bits_of by lia.
    set (t := Z.shiftl 1 (mask - i - 1)). set (bit := Z.testbit kw (rsh + mask - i - 1)).
    assert (Et : t = 2 ^ Z.of_nat c) by (unfold t; rewrite Z.shiftl_mul_pow2 by lia; rewrite Z.mul_1_l; f_equal; lia).
    assert (Htp : 0 < t) by (rewrite Et; apply pow2_pos'; lia).
    destruct (retr_fold bit t l (Z.to_nat t) Htp ltac:(lia)) as (Hlen & Hlow & _).
    set (l1 := fold_left (swap_at bit t) (zseq 0 (Z.to_nat t)) l) in *.
    set (lowidx := (kw / 2 ^ rsh) mod 2 ^ Z.of_nat c).
    assert (Hlowr : 0 <= lowidx < t) by (unfold lowidx; rewrite Et; apply Z.mod_pos_bound; rewrite <- Et; lia).
    assert (Esplit : (kw / 2 ^ rsh) mod 2 ^ Z.of_nat (S c) = lowidx + Z.b2z bit * t).
    { rewrite (index_split kw rsh (Z.of_nat (S c))) by lia.
      replace (Z.of_nat (S c) - 1) with (Z.of_nat c) by lia. replace (rsh + Z.of_nat (S c) - 1) with (rsh + mask - i - 1) by lia.
      fold lowidx bit. now rewrite <- Et. }
    rewrite Esplit in *.
    destruct (IH (i + 1) l1 ltac:(lia) ltac:(lia)) as (l' & El & Hl'len & Hl'0).
    { fold lowidx. rewrite Hlen. destruct bit; cbn [Z.b2z] in Hidx; lia. }
    exists l'; split; [exact El|]. split; [lia|]. rewrite Hl'0. fold lowidx.
    rewrite Hlow by (rewrite Z2Nat.id; lia).
    destruct bit; cbn [Z.b2z andb] in *.
    + destruct (Z.ltb_spec (lowidx + t) (Z.of_nat (length l))); [f_equal; lia | lia].
    + f_equal; lia.
Qed.

(* after glwe_blind_retrieval_statefull, slot 0 holds the element at (k >> bit_rsh) mod 2^bit_mask, provided that
   index is inside the vector; the length never changes *)
Lemma retrieval_index nb kw rsh mask l : 0 <= rsh -> 0 <= mask -> rsh + mask <= Z.of_nat nb ->
  (kw / 2 ^ rsh) mod 2 ^ mask < Z.of_nat (length l) ->
  exists l', blind_retrieval (bits_of nb kw) rsh mask l = Some l' /\ length l' = length l /\
             lget l' 0 = lget l ((kw / 2 ^ rsh) mod 2 ^ mask).
Proof.
  intros Hr Hm Hle Hidx. unfold blind_retrieval.
  destruct (retr_levels_index nb kw rsh mask Hr Hle (Z.to_nat mask) 0 l ltac:(lia) ltac:(lia)) as (l' & E & Hlen & H0).
  - rewrite Z2Nat.id by lia. exact Hidx.
  - exists l'. rewrite Z2Nat.id in H0 by lia. auto.
Qed.

(* one level of the loop: the lowest bit of the remaining index decides a rotation by 2^(i + lsh), the higher bits are
   left to the later levels *)
Lemma blind_rot_loop_spec nb n kw sign rsh lsh : 0 < n -> 0 <= rsh -> 0 <= lsh -> forall cnt i a, 0 <= i -> i + rsh + Z.of_nat cnt <= Z.of_nat nb ->
  exists r, blind_rot_loop n (bits_of nb kw) sign rsh lsh i cnt a = Some r /\
            forall j, 0 <= j < n ->
              r j = p_rot n ((if sign then 1 else -1) * (((kw / 2 ^ (rsh + i)) mod 2 ^ Z.of_nat cnt) * 2 ^ (i + lsh))) a j.
Proof.
  intros Hn Hr Hl. induction cnt as [|c IH]; intros i a Hi Hle.
  - exists a; split; [reflexivity|]. intros j Hj. change (2 ^ Z.of_nat 0) with 1.
    rewrite Z.mod_1_r, Z.mul_0_l, Z.mul_0_r, p_rot_0 by exact Hj. reflexivity.
  - cbn [blind_rot_loop]. rewrite kbit_bits_of by lia.
    rewrite Z.shiftl_mul_pow2, Z.mul_1_l by lia. set (bit := Z.testbit kw (i + rsh)).
    destruct (IH (i + 1) (if bit then p_rot n (if sign then 2 ^ (i + lsh) else - 2 ^ (i + lsh)) a else a) ltac:(lia) ltac:(lia))
      as (r & Er & Hr').
    exists r; split; [exact Er|]. intros j Hj. rewrite Hr' by auto.
    set (x := kw / 2 ^ (rsh + i)).
    assert (Ex : kw / 2 ^ (rsh + (i + 1)) = x / 2).
    { unfold x. replace (rsh + (i + 1)) with ((rsh + i) + 1) by lia. rewrite Z.pow_add_r by lia.
      change (2 ^ 1) with 2. rewrite Z.div_div by (try apply Z.pow_pos_nonneg; lia). reflexivity. }
    assert (Eb : Z.b2z bit = x mod 2).
    { unfold x, bit. rewrite Z.testbit_spec' by lia. do 3 f_equal. lia. }
    assert (E : (x mod 2 ^ Z.of_nat (S c)) * 2 ^ (i + lsh) =
                Z.b2z bit * 2 ^ (i + lsh) + ((x / 2) mod 2 ^ Z.of_nat c) * 2 ^ (i + 1 + lsh)).
    { pose proof (pow2_pos' (Z.of_nat c) ltac:(lia)) as Hp.
      rewrite Nat2Z.inj_succ, Z.pow_succ_r, (Z.rem_mul_r x 2 (2 ^ Z.of_nat c)), Eb by lia.
      replace (i + 1 + lsh) with (i + lsh + 1) by lia. rewrite (Z.pow_add_r 2 (i + lsh) 1) by lia. change (2 ^ 1) with 2. ring. }
    rewrite Ex, E. destruct bit; cbn [Z.b2z].
    + rewrite p_rot_rot by auto. f_equal; try (destruct sign; ring).
    + f_equal; try (destruct sign; ring).
Qed.

(* glwe_blind_rotation(a, k, sign, bit_rsh, bit_mask, bit_lsh) = a * X^(+-((k >> bit_rsh) mod 2^bit_mask) << bit_lsh) *)
Lemma blind_rotation_amount nb n kw sign rsh mask lsh a :
  0 < n -> 0 <= rsh -> 0 <= mask -> 0 <= lsh -> rsh + mask <= Z.of_nat nb ->
  exists r, glwe_blind_rotation n (bits_of nb kw) sign rsh mask lsh a = Some r /\
            forall j, 0 <= j < n ->
              r j = p_rot n ((if sign then 1 else -1) * (((kw / 2 ^ rsh) mod 2 ^ mask) * 2 ^ lsh)) a j.
Proof.
  intros Hn Hr Hm Hl Hle. unfold glwe_blind_rotation.
  destruct (blind_rot_loop_spec nb n kw sign rsh lsh Hn Hr Hl (Z.to_nat mask) 0 a ltac:(lia) ltac:(lia)) as (r & Er & Hr').
  exists r; split; [exact Er|]. intros j Hj. rewrite Hr' by auto.
  rewrite Z2Nat.id, Z.add_0_r, Z.add_0_l by lia. reflexivity.
Qed.

(* C07 butterfly networks, the precomputed tables: modq_pow is modular exponentiation (also for negative exponents, on
   the powers of OMEGA_k, whose order divides Q_k - 1), the twiddle lists are the successive powers of the level's root,
   pack_omega yields well-formed words carrying t and t 2^half_bs, and the walks of C07NetFacts cover every size. *)
From PV Require Import Base.MachineInt Model.Limbs Model.DftAbs Model.C07Ntt120 Model.C07NttNet Proofs.C07Ring
  Proofs.C07NetBase Proofs.C07NetStruct Proofs.C07NetAbs Proofs.C07NetLazy Proofs.C07NetRefine Proofs.C07NetFacts.
From Coq Require Import Morphisms Setoid Zpow_facts.
Open Scope Z_scope.

Lemma mul32_lt64 a b : 0 <= a < 2 ^ 32 -> 0 <= b <= 2 ^ 32 -> 0 <= a * b < 2 ^ 64.
Proof.
  intros Ha Hb. split; [apply Z.mul_nonneg_nonneg; lia|].
  apply Z.le_lt_trans with ((2 ^ 32 - 1) * 2 ^ 32); [apply Z.mul_le_mono_nonneg; lia|reflexivity].
Qed.

Lemma land_shift_small a t : 0 <= t < 2 ^ 32 -> Z.land (a * 2 ^ 32) t = 0.
Proof.
  intros Ht. destruct (Z.eq_dec t 0) as [->|Hne]; [apply Z.land_0_r|].
  apply Z.bits_inj'. intros i Hi. rewrite Z.land_spec, Z.bits_0.
  destruct (Z.lt_ge_cases i 32) as [Hlt|Hge].
  - rewrite Z.mul_pow2_bits_low by lia. reflexivity.
  - assert (Hl : Z.log2 t < i).
    { apply Z.log2_lt_pow2; [lia|]. apply Z.lt_le_trans with (2 ^ 32); [lia|apply Z.pow_le_mono_r; lia]. }
    rewrite (Z.bits_above_log2 t i ltac:(lia) Hl). apply andb_false_r.
Qed.
Lemma lor_disjoint_add a t : 0 <= t < 2 ^ 32 -> Z.lor (a * 2 ^ 32) t = a * 2 ^ 32 + t.
Proof.
  intros Ht. pose proof (land_shift_small a t Ht) as H.
  rewrite (Z.add_nocarry_lxor _ _ H). symmetry. apply Z.lxor_lor. exact H.
Qed.

Lemma pack_word q t hb : 1 < q < 2 ^ 32 -> 0 <= t < q -> 0 <= hb <= 32 ->
  pack_omega t hb q mod 2 ^ 32 = t /\ pack_omega t hb q / 2 ^ 32 = (t * 2 ^ hb) mod q /\ 0 <= pack_omega t hb q.
Proof.
  intros Hq Ht Hhb. unfold pack_omega.
  assert (H2 : 0 < 2 ^ hb <= 2 ^ 32) by (split; [apply pow2_pos; lia|apply Z.pow_le_mono_r; lia]).
  assert (Hth : 0 <= t * 2 ^ hb < 2 ^ 64) by (apply mul32_lt64; lia).
  rewrite (w64_small _ Hth). set (t1 := (t * 2 ^ hb) mod q).
  assert (Ht1 : 0 <= t1 < q) by (apply Z.mod_pos_bound; lia).
  assert (Ht1s : 0 <= t1 * 2 ^ 32 < 2 ^ 64) by (apply mul32_lt64; lia).
  rewrite (w64_small _ Ht1s). rewrite lor_disjoint_add by lia.
  split; [|split].
  - rewrite Z.add_comm, Z_mod_plus_full. apply Z.mod_small. lia.
  - rewrite Z.add_comm, Z_div_plus_full by lia. rewrite Z.div_small by lia. reflexivity.
  - lia.
Qed.

Lemma pack_word_ok q t hb : 1 < q < 2 ^ 32 -> 0 <= t < q -> 0 <= hb <= 32 -> word_ok q (pack_omega t hb q).
Proof.
  intros Hq Ht Hhb. destruct (pack_word q t hb Hq Ht Hhb) as [H1 [H2 H3]]. unfold word_ok. rewrite H1, H2.
  pose proof (Z.mod_pos_bound (t * 2 ^ hb) q ltac:(lia)). lia.
Qed.
Lemma pack_word_val q t hb v : 1 < q < 2 ^ 32 -> 0 <= t < q -> 0 <= hb <= 32 -> cong q t v ->
  word_val q hb (pack_omega t hb q) v.
Proof.
  intros Hq Ht Hhb Hv. destruct (pack_word q t hb Hq Ht Hhb) as [H1 [H2 _]]. unfold word_val. rewrite H1, H2.
  split; [exact Hv|apply cong_mod].
Qed.

Lemma pows_length q step : forall cnt cur, length (pows cnt cur step q) = cnt.
Proof. induction cnt as [|c IH]; intros cur; cbn [pows length]; [reflexivity|rewrite IH; reflexivity]. Qed.
Lemma pows_range q step : 1 < q -> forall cnt cur, 0 <= cur < q -> Forall (fun t => 0 <= t < q) (pows cnt cur step q).
Proof.
  intros Hq. induction cnt as [|c IH]; intros cur Hc; cbn [pows]; constructor; [exact Hc|].
  apply IH. apply Z.mod_pos_bound. lia.
Qed.
Lemma nth_pows q step : 1 < q < 2 ^ 32 -> 0 <= step < q -> forall cnt cur i, 0 <= cur < q -> (i < cnt)%nat ->
  cong q (nth i (pows cnt cur step q) 0) (cur * zp step i).
Proof.
  intros Hq Hs. induction cnt as [|c IH]; intros cur i Hc Hi; [lia|].
  cbn [pows]. destruct i as [|i]; cbn [nth zp]; [rewrite Z.mul_1_r; reflexivity|].
  assert (Hm : 0 <= cur * step < 2 ^ 64) by (apply mul32_lt64; lia).
  rewrite (w64_small _ Hm). rewrite IH by (try lia; apply Z.mod_pos_bound; lia).
  rewrite cong_mod. ring_simplify. reflexivity.
Qed.

#[export] Instance cong_pow q : Proper (cong q ==> eq ==> cong q) Z.pow.
Proof.
  intros a b H n n' <-. destruct (Z.neg_nonneg_cases n) as [Hn|Hn]; [rewrite !Z.pow_neg_r by exact Hn; reflexivity|].
  rewrite <- (Z2Nat.id n Hn), <- !zp_pow, H. reflexivity.
Qed.

Lemma pow_loop_spec q : 1 < q < 2 ^ 32 -> forall fuel np val res, 0 <= np < 2 ^ Z.of_nat fuel -> 0 <= val < q -> 0 <= res < q ->
  pow_loop fuel np val res q = (res * val ^ np) mod q.
Proof.
  intros Hq. induction fuel as [|f IH]; intros np val res Hnp Hv Hr.
  - cbn [pow_loop]. assert (np = 0) as -> by (cbn in Hnp; lia). rewrite Z.pow_0_r, Z.mul_1_r. symmetry. apply Z.mod_small. exact Hr.
  - cbn [pow_loop]. destruct (Z.eqb_spec np 0) as [->|Hne].
    + rewrite Z.pow_0_r, Z.mul_1_r. symmetry. apply Z.mod_small. exact Hr.
    + rewrite hi_div by lia. change (2 ^ 1) with 2.
      assert (Hvv : 0 <= val * val < 2 ^ 64) by (apply mul32_lt64; lia).
      assert (Hrv : 0 <= res * val < 2 ^ 64) by (apply mul32_lt64; lia).
      rewrite (w64_small _ Hvv), (w64_small _ Hrv).
      assert (Hhalf : 0 <= np / 2 < 2 ^ Z.of_nat f).
      { rewrite Nat2Z.inj_succ, Z.pow_succ_r in Hnp by lia. split; [apply Z.div_pos; lia|apply Z.div_lt_upper_bound; lia]. }
      rewrite IH; [|exact Hhalf|apply Z.mod_pos_bound; lia|destruct (Z.odd np); [apply Z.mod_pos_bound; lia|exact Hr]].
      apply (proj1 (cong_unfold q _ _)). rewrite (cong_mod q (val * val)), <- Z.pow_2_r, <- Z.pow_mul_r by lia.
      pose proof (Zmod_odd np) as Ho. pose proof (Z.div_mod np 2 ltac:(lia)) as Hd. rewrite Hd at 3.
      destruct (Z.odd np); rewrite Ho.
      * rewrite cong_mod, Z.pow_add_r, Z.pow_1_r by lia. ring_simplify. reflexivity.
      * rewrite Z.add_0_r. reflexivity.
Qed.

Lemma cong_qm1 q : cong q (q - 1) (-1).
Proof. replace (q - 1) with (-1 + 1 * q) by ring. apply cong_mult_q. Qed.
Lemma cong_of_mod q a b : a mod q = b -> cong q a b.
Proof. intros <-. symmetry. apply cong_mod. Qed.
Lemma inv_unique q a b u : cong q (a * u) 1 -> cong q (b * u) 1 -> cong q a b.
Proof.
  intros Ha Hb. rewrite <- (Z.mul_1_r a), <- Hb. replace (a * (b * u)) with (b * (a * u)) by ring.
  rewrite Ha, Z.mul_1_r. reflexivity.
Qed.

(* x^e = 1: the exponent only counts modulo e *)
Lemma pow_period q x e a b : cong q (x ^ e) 1 -> 0 < e -> 0 <= a -> 0 <= b -> a mod e = b mod e -> cong q (x ^ a) (x ^ b).
Proof.
  intros Hx He Ha Hb Hab.
  assert (H : forall c, 0 <= c -> cong q (x ^ c) (x ^ (c mod e))).
  { intros c Hc. rewrite (Z.div_mod c e) at 1 by lia.
    pose proof (Z.mod_pos_bound c e He). pose proof (Z.div_pos c e Hc He).
    rewrite Z.pow_add_r, Z.pow_mul_r by lia. rewrite Hx, Z.pow_1_l by lia. ring_simplify. reflexivity. }
  rewrite (H a Ha), (H b Hb), Hab. reflexivity.
Qed.

Lemma exp_red_mod n q : 1 < q -> exp_red n q = n mod (q - 1).
Proof.
  intros Hq. unfold exp_red. set (e := q - 1). assert (He : 0 < e) by lia.
  pose proof (Z.quot_rem' n e) as E1. pose proof (Z.rem_bound_abs n e ltac:(lia)) as B1.
  set (a := Z.rem n e + e) in *.
  pose proof (Z.quot_rem' a e) as E2. pose proof (Z.rem_bound_pos a e ltac:(lia) He) as B2.
  apply (Z.mod_unique n e (n ÷ e + a ÷ e - 1)); lia.
Qed.

Lemma pow_loop_range q : 1 < q -> forall fuel np val res, 0 <= res < q -> 0 <= pow_loop fuel np val res q < q.
Proof.
  intros Hq. induction fuel as [|f IH]; intros np val res Hr; cbn [pow_loop]; [exact Hr|].
  destruct (np =? 0); [exact Hr|]. apply IH. destruct (Z.odd np); [apply Z.mod_pos_bound; lia|exact Hr].
Qed.
Lemma modq_pow_range q x n : 1 < q < 2 ^ 32 -> 0 <= modq_pow x n q < q.
Proof.
  intros Hq. unfold modq_pow. pose proof (pow_loop_range q ltac:(lia) 64 (exp_red n q) x 1 ltac:(lia)) as H.
  unfold wrapu. rewrite Z.mod_small; lia.
Qed.
Lemma modq_pow_spec q x n : 1 < q < 2 ^ 32 -> 0 <= x < q -> modq_pow x n q = x ^ (n mod (q - 1)) mod q.
Proof.
  intros Hq Hx. pose proof (modq_pow_range q x n Hq) as Hr. unfold modq_pow in *. unfold wrapu in *.
  rewrite Z.mod_small.
  - rewrite exp_red_mod by lia. pose proof (Z.mod_pos_bound n (q - 1) ltac:(lia)) as Hn.
    rewrite (pow_loop_spec q Hq 64 _ x 1); [rewrite Z.mul_1_l; reflexivity| |exact Hx|lia].
    split; [lia|]. apply Z.lt_trans with (2 ^ 32); [lia|reflexivity].
  - pose proof (pow_loop_range q ltac:(lia) 64 (exp_red n q) x 1 ltac:(lia)). lia.
Qed.

(* for a unit x of order dividing q - 1, modq_pow x n q is x^n, also for negative n *)
Lemma modq_pow_mul q x n a : 1 < q < 2 ^ 32 -> 0 <= x < q -> cong q (x ^ (q - 1)) 1 -> 0 <= a -> 0 <= n + a ->
  cong q (modq_pow x n q * x ^ a) (x ^ (n + a)).
Proof.
  intros Hq Hx H1 Ha Hna. rewrite (modq_pow_spec q x n Hq Hx), cong_mod.
  pose proof (Z.mod_pos_bound n (q - 1) ltac:(lia)) as Hn.
  rewrite <- Z.pow_add_r by lia.
  apply (pow_period q x (q - 1)); try lia; [exact H1|]. apply Zplus_mod_idemp_l.
Qed.
Lemma modq_pow_pos q x n : 1 < q < 2 ^ 32 -> 0 <= x < q -> cong q (x ^ (q - 1)) 1 -> 0 <= n -> cong q (modq_pow x n q) (x ^ n).
Proof.
  intros Hq Hx H1 Hn. pose proof (modq_pow_mul q x n 0 Hq Hx H1 ltac:(lia) ltac:(lia)) as H.
  rewrite Z.pow_0_r, Z.mul_1_r, Z.add_0_r in H. exact H.
Qed.
Lemma modq_pow_neg q x n : 1 < q < 2 ^ 32 -> 0 <= x < q -> cong q (x ^ (q - 1)) 1 -> 0 <= n -> cong q (modq_pow x (- n) q * x ^ n) 1.
Proof.
  intros Hq Hx H1 Hn. pose proof (modq_pow_mul q x (- n) n Hq Hx H1 Hn ltac:(lia)) as H.
  rewrite Z.add_opp_diag_l, Z.pow_0_r in H. exact H.
Qed.

Section Root.
Variables q w : Z.
Hypothesis HR : root_ok q w = true.

Lemma root_split : 1 < q < 2 ^ 32 /\ (q - 1) mod 2 ^ 17 = 0 /\ 0 <= w < q /\ cong q (w ^ 2 ^ 16) (-1) /\ cong q (2 ^ (q - 1)) 1.
Proof.
  pose proof HR as H. unfold root_ok in H. rewrite !andb_true_iff, !Z.ltb_lt, Z.leb_le, !Z.eqb_eq in H.
  destruct H as [[[[[[H1 H2] H3] H4] H5] H6] H7].
  assert (Hq : 1 < q < 2 ^ 32) by lia. assert (Hw : 0 <= w < q) by lia.
  assert (H64 : 2 ^ 32 < 2 ^ Z.of_nat 64) by reflexivity.
  assert (B6 : 0 <= 2 ^ 16 < 2 ^ Z.of_nat 64) by (split; [discriminate|reflexivity]).
  assert (B7 : 0 <= q - 1 < 2 ^ Z.of_nat 64) by lia.
  rewrite (pow_loop_spec q Hq 64 _ 2 1 B7 ltac:(lia) ltac:(lia)) in H7.
  rewrite (pow_loop_spec q Hq 64 _ w 1 B6 Hw ltac:(lia)) in H6. rewrite Z.mul_1_l in H6, H7.
  split; [exact Hq|]. split; [exact H3|]. split; [exact Hw|]. split.
  - rewrite (cong_of_mod _ _ _ H6). apply cong_qm1.
  - apply cong_of_mod. exact H7.
Qed.
Lemma q_range : 1 < q < 2 ^ 32.
Proof. apply root_split. Qed.
Lemma w_unit : cong q (w ^ (q - 1)) 1.
Proof.
  destruct root_split as [Hq [Hd [_ [Hw _]]]].
  rewrite (Z.div_mod (q - 1) (2 ^ 17)), Hd, Z.add_0_r by lia.
  rewrite Z.pow_mul_r by (try apply Z.div_pos; lia).
  change (2 ^ 17) with (2 ^ 16 * 2). rewrite (Z.pow_mul_r w) by lia.
  rewrite Hw. change ((-1) ^ 2) with 1. rewrite Z.pow_1_l by (apply Z.div_pos; lia). reflexivity.
Qed.
End Root.

Section Roots.
Variables (P : primeset) (k m : nat).
Hypothesis Hm : (m <= 16)%nat.
Notation q := (qk P k).
Notation w := (omegak P k).
Hypothesis HR : root_ok q w = true.
Notation psi := (omega_n P k m).
Notation phi := (phi_of P k m).
Notation ninv := (ninv_of P k m).

Lemma psi_val : cong q psi (w ^ 2 ^ (16 - Z.of_nat m)).
Proof.
  destruct (root_split q w HR) as [Hq [_ [Hw _]]]. unfold omega_n.
  rewrite <- (Z.pow_sub_r 2 16 (Z.of_nat m)) by lia.
  apply modq_pow_pos; [exact Hq|exact Hw|exact (w_unit q w HR)|apply Z.pow_nonneg; lia].
Qed.
Lemma psi_range : 0 <= psi < q.
Proof. apply modq_pow_range. exact (q_range q w HR). Qed.
Lemma psi_unit : cong q (psi ^ (q - 1)) 1.
Proof.
  destruct (root_split q w HR) as [Hq _].
  rewrite psi_val, <- Z.pow_mul_r, Z.mul_comm, Z.pow_mul_r by (try apply Z.pow_nonneg; lia).
  rewrite (w_unit q w HR). rewrite Z.pow_1_l by (apply Z.pow_nonneg; lia). reflexivity.
Qed.
Lemma psi_root : cong q (zp psi (pow2n m)) (-1).
Proof.
  destruct (root_split q w HR) as [_ [_ [_ [Hw _]]]].
  rewrite zp_pow, pow2n_Z, psi_val, <- Z.pow_mul_r, <- Z.pow_add_r by (try apply Z.pow_nonneg; lia).
  replace (16 - Z.of_nat m + Z.of_nat m) with 16 by lia. exact Hw.
Qed.
Lemma psi_phi : cong q (psi * phi) 1.
Proof.
  pose proof (modq_pow_neg q psi 1 (q_range q w HR) psi_range psi_unit ltac:(lia)) as H.
  rewrite Z.pow_1_r, Z.mul_comm in H. exact H.
Qed.
Lemma ninv_n : cong q (ninv * Z.of_nat (pow2n m)) 1.
Proof.
  destruct (root_split q w HR) as [Hq [Hd [_ [_ H2]]]]. rewrite pow2n_Z.
  assert (Hq17 : 2 ^ 17 <= q - 1).
  { rewrite (Z.div_mod (q - 1) (2 ^ 17)), Hd by lia. pose proof (Z.div_pos (q - 1) (2 ^ 17)). nia. }
  assert (Hr : 0 <= 2 ^ Z.of_nat m < q).
  { split; [apply Z.pow_nonneg; lia|]. apply Z.le_lt_trans with (2 ^ 16); [apply Z.pow_le_mono_r; lia|lia]. }
  pose proof (modq_pow_neg q (2 ^ Z.of_nat m) 1 Hq Hr) as H. rewrite Z.pow_1_r in H. apply H; [|lia].
  rewrite <- Z.pow_mul_r, Z.mul_comm, Z.pow_mul_r by lia. rewrite H2. rewrite Z.pow_1_l by lia. reflexivity.
Qed.
Lemma step_val l : cong q (step_of P k m l) (zp psi (pow2n (m - l))).
Proof.
  rewrite zp_pow, pow2n_Z. apply modq_pow_pos; [exact (q_range q w HR)|exact psi_range|exact psi_unit|apply Z.pow_nonneg; lia].
Qed.
Lemma istep_val l : cong q (istep_of P k m l) (zp phi (pow2n (m - l))).
Proof.
  apply (inv_unique q _ _ (zp psi (pow2n (m - l)))).
  - rewrite zp_pow, pow2n_Z. apply modq_pow_neg; [exact (q_range q w HR)|exact psi_range|exact psi_unit|apply Z.pow_nonneg; lia].
  - rewrite Z.mul_comm. apply inv_pow. apply psi_phi.
Qed.
Lemma psi_from_omega : psi = (w ^ 2 ^ (16 - Z.of_nat m)) mod q.
Proof.
  destruct (root_split q w HR) as [Hq [Hd [Hw _]]]. unfold omega_n.
  rewrite <- (Z.pow_sub_r 2 16 (Z.of_nat m)) by lia. rewrite (modq_pow_spec q w _ Hq Hw).
  rewrite (Z.mod_small (2 ^ _)); [reflexivity|].
  split; [apply Z.pow_nonneg; lia|].
  apply Z.le_lt_trans with (2 ^ 16); [apply Z.pow_le_mono_r; lia|].
  rewrite (Z.div_mod (q - 1) (2 ^ 17)), Hd by lia. pose proof (Z.div_pos (q - 1) (2 ^ 17)). nia.
Qed.
End Roots.

Lemma pow2n_div m a : (a <= m)%nat -> (pow2n m / pow2n a)%nat = pow2n (m - a).
Proof.
  intros H. replace m with ((m - a) + a)%nat at 1 by lia. unfold pow2n. rewrite Nat.pow_add_r.
  apply Nat.div_mul. apply Nat.pow_nonzero. lia.
Qed.
Lemma fwd_metas_length bsr logq q : forall c bs, length (fwd_metas bsr logq q c bs) = c.
Proof.
  induction c as [|c IH]; intros bs; [reflexivity|]. cbn [fwd_metas].
  destruct c; cbn [length]; rewrite IH; reflexivity.
Qed.
Lemma inv_metas_length bsr logq q : forall c bs, length (inv_metas bsr logq q c bs) = c.
Proof. induction c as [|c IH]; intros bs; [reflexivity|]. cbn [inv_metas length]. rewrite IH. reflexivity. Qed.
Lemma fwd_ms_length P k m : length (fwd_ms P k m) = m.
Proof. unfold fwd_ms. apply fwd_metas_length. Qed.
Lemma inv_ms_length P k m : length (inv_ms P k (S m)) = S m.
Proof. unfold inv_ms. cbn [length]. rewrite inv_metas_length. lia. Qed.

Lemma nth_map_combine {A B} (f : A -> B -> list Z) (la : list A) (lb : list B) l da db :
  length la = length lb -> (l < length la)%nat ->
  nth l (map (fun p => f (fst p) (snd p)) (combine la lb)) [] = f (nth l la da) (nth l lb db).
Proof.
  intros Hl Hlt. rewrite (nth_indep _ [] (f da db)) by (rewrite map_length, combine_length; lia).
  change (f da db) with ((fun p : A * B => f (fst p) (snd p)) (da, db)). rewrite map_nth, combine_nth by exact Hl. reflexivity.
Qed.
Lemma nth_rev_seq m l : (l < m)%nat -> nth l (rev (seq 1 m)) 0%nat = (m - l)%nat.
Proof. intros H. rewrite rev_nth by (rewrite seq_length; exact H). rewrite seq_length, seq_nth by lia. lia. Qed.

Lemma Forall_pack q hb l : 1 < q < 2 ^ 32 -> 0 <= hb <= 32 -> Forall (fun t => 0 <= t < q) l ->
  Forall (word_ok q) (map (fun t => pack_omega t hb q) l).
Proof. intros Hq Hhb H. rewrite Forall_map. eapply Forall_impl; [|exact H]. intros t Ht. apply pack_word_ok; assumption. Qed.

(* the i-th word of a packed list of successive powers: value cur * step^i *)
Lemma packed_pows_val q hb cnt cur step i : 1 < q < 2 ^ 32 -> 0 <= hb <= 32 -> 0 <= step < q -> 0 <= cur < q -> (i < cnt)%nat ->
  word_val q hb (nth i (map (fun t => pack_omega t hb q) (pows cnt cur step q)) 0) (cur * zp step i).
Proof.
  intros Hq Hhb Hs Hc Hi.
  rewrite (nth_map' (fun t => pack_omega t hb q) _ i 0 0) by (rewrite pows_length; exact Hi).
  apply pack_word_val; try assumption.
  - pose proof (pows_range q step ltac:(lia) cnt cur Hc) as H. rewrite Forall_forall in H. apply H. apply nth_In. rewrite pows_length. exact Hi.
  - apply nth_pows; assumption.
Qed.

(* projections of the two table builders (stated once, so that no proof ever has to unfold the builders) *)
Lemma fwd_table_proj P k m :
  tb_red (fwd_table P k m) = red_of P (qk P k) /\ tb_m0 (fwd_table P k m) = fwd_meta0 (ps_LOG_Q P) /\
  tb_metas (fwd_table P k m) = fwd_ms P k m /\
  tb_tw0 (fwd_table P k m) = map (fun t => pack_omega t (sm_hb (fwd_meta0 (ps_LOG_Q P))) (qk P k)) (pows (pow2n m) 1 (omega_n P k m) (qk P k)) /\
  tb_tws (fwd_table P k m) = map (fun lc => level_tw (omega_n P k m) (qk P k) (sm_hb (fst lc)) m (snd lc)) (combine (fwd_ms P k m) (rev (seq 1 m))).
Proof. unfold fwd_table. cbv beta zeta iota delta [tb_red tb_m0 tb_metas tb_tw0 tb_tws]. repeat split. Qed.
Lemma inv_table_proj P k m :
  tb_red (inv_table P k m) = red_of P (qk P k) /\ tb_m0 (inv_table P k m) = inv_ml P k m /\
  tb_metas (inv_table P k m) = inv_ms P k m /\
  tb_tw0 (inv_table P k m) = map (fun t => pack_omega t (sm_hb (inv_ml P k m)) (qk P k))
     (pows (pow2n m) (modq_pow (Z.of_nat (pow2n m)) (-1) (qk P k)) (modq_pow (omega_n P k m) (-1) (qk P k)) (qk P k)) /\
  tb_tws (inv_table P k m) = map (fun lc => inv_level_tw (omega_n P k m) (qk P k) (sm_hb (fst lc)) m (snd lc)) (combine (inv_ms P k m) (seq 1 m)).
Proof. unfold inv_table. cbv beta zeta iota delta [tb_red tb_m0 tb_metas tb_tw0 tb_tws]. repeat split. Qed.
Lemma fwd_check_table P k m U : fwd_check (qk P k) (fwd_table P k m) m U =
  fwd_check_c (qk P k) (red_of P (qk P k)) (fwd_meta0 (ps_LOG_Q P)) (fwd_ms P k m) m U.
Proof. unfold fwd_check. destruct (fwd_table_proj P k m) as [-> [-> [-> _]]]. reflexivity. Qed.
Lemma inv_check_table P k m U : inv_check (qk P k) (inv_table P k m) m U =
  inv_check_c (qk P k) (red_of P (qk P k)) (inv_ml P k m) (inv_ms P k m) m U.
Proof. unfold inv_check. destruct (inv_table_proj P k m) as [-> [-> [-> _]]]. reflexivity. Qed.

Lemma zp_S z e : zp z (S e) = z * zp z e.
Proof. reflexivity. Qed.
Lemma word_val_cong q hb po v v' : word_val q hb po v -> cong q v v' -> word_val q hb po v'.
Proof. intros [H1 H2] Hv. split; [rewrite H1; exact Hv|exact H2]. Qed.


Lemma last_cons {A} (l : list A) : forall a d, last (a :: l) d = last l a.
Proof. induction l as [|b l IH]; intros a d; [reflexivity|]. change (last (a :: b :: l) d) with (last (b :: l) d). rewrite !IH. reflexivity. Qed.
Lemma last_map {A B} (f : A -> B) (l : list A) : forall d, f (last l d) = last (map f l) (f d).
Proof. induction l as [|a l IH]; intros d; [reflexivity|]. cbn [map]. rewrite !last_cons. apply IH. Qed.

Lemma fwd_metas_SS bsr logq q c bs : fwd_metas bsr logq q (S (S c)) bs =
  hd dsm (fwd_metas bsr logq q 2 bs) :: fwd_metas bsr logq q (S c) (sm_bs (hd dsm (fwd_metas bsr logq q 2 bs))).
Proof. reflexivity. Qed.
Lemma inv_metas_S bsr logq q c bs : inv_metas bsr logq q (S c) bs =
  hd dsm (inv_metas bsr logq q 1 bs) :: inv_metas bsr logq q c (sm_bs (hd dsm (inv_metas bsr logq q 1 bs))).
Proof. reflexivity. Qed.
(* the budgets `bs` do not depend on the prime *)
Lemma fwd_metas_bs bsr logq q q' : forall c bs, map sm_bs (fwd_metas bsr logq q c bs) = map sm_bs (fwd_metas bsr logq q' c bs).
Proof.
  induction c as [|c IH]; intros bs; [reflexivity|]. destruct c as [|c]; [reflexivity|].
  rewrite (fwd_metas_SS _ _ q), (fwd_metas_SS _ _ q'). cbn [map]. f_equal. apply IH.
Qed.
Lemma inv_metas_bs bsr logq q q' : forall c bs, map sm_bs (inv_metas bsr logq q c bs) = map sm_bs (inv_metas bsr logq q' c bs).
Proof.
  induction c as [|c IH]; intros bs; [reflexivity|].
  rewrite (inv_metas_S _ _ q), (inv_metas_S _ _ q'). cbn [map]. f_equal. apply IH.
Qed.

Lemma inv_first_bs bsr logq q q' : sm_bs (inv_meta_first bsr logq q) = sm_bs (inv_meta_first bsr logq q').
Proof. reflexivity. Qed.
Lemma inv_last_bs bsr logq q q' bs : sm_bs (inv_meta_last bsr logq q bs) = sm_bs (inv_meta_last bsr logq q' bs).
Proof. reflexivity. Qed.

Lemma fwd_sizes_sound q rm bsr logq : forall n bs U, fwd_sizes q rm bsr logq n bs U = true ->
  forall m, (m <= n)%nat -> exists Uf, fwd_chain q rm (S m) (fwd_metas bsr logq q (S m) bs) U = Some Uf.
Proof.
  induction n as [|n IH]; intros bs U H m Hm; cbn [fwd_sizes] in H;
    destruct (fwd_chain q rm 1 (fwd_metas bsr logq q 1 bs) U) as [Uf|] eqn:E1; try discriminate.
  - assert (m = 0%nat) as -> by lia. exists Uf. exact E1.
  - destruct m as [|m]; [exists Uf; exact E1|]. cbv zeta in H.
    rewrite fwd_metas_SS. cbn [fwd_chain].
    change (fwd_lvl q rm (hd dsm (fwd_metas bsr logq q 2 bs)) (S (S m)) U) with (fwd_lvl q rm (hd dsm (fwd_metas bsr logq q 2 bs)) 2 U).
    destruct (fwd_lvl q rm (hd dsm (fwd_metas bsr logq q 2 bs)) 2 U) as [U'|]; [|discriminate].
    apply (IH _ _ H m). lia.
Qed.
Lemma fwd_ok_sound q rm bsr logq m : fwd_ok q rm bsr logq = true -> (m < 16)%nat ->
  exists Uf, fwd_check_c q rm (fwd_meta0 logq) (fwd_metas bsr logq q (S m) (sm_bs (fwd_meta0 logq))) (S m) (2 ^ 64 - 1) = Some Uf.
Proof.
  unfold fwd_ok, fwd_check_c. intros H Hm. destruct (rmwf_b q rm); [|discriminate].
  destruct (ew_lvl q rm (fwd_meta0 logq) (2 ^ 64 - 1)) as [U1|]; [|discriminate].
  apply (fwd_sizes_sound _ _ _ _ _ _ _ H m). lia.
Qed.

Lemma inv_sizes_sound q rm bsr logq : forall n c sm U0 U, inv_sizes q rm bsr logq n (sm_bs sm) U0 U = true ->
  forall j, (j <= n)%nat -> exists Uf,
    match inv_chain q rm j (S (S c)) (inv_metas bsr logq q j (sm_bs sm)) U0 U with
    | Some (_, U1) => ew_lvl q rm (inv_meta_last bsr logq q (sm_bs (last (inv_metas bsr logq q j (sm_bs sm)) sm))) U1
    | None => None
    end = Some Uf.
Proof.
  induction n as [|n IH]; intros c sm U0 U H j Hj; cbn [inv_sizes] in H;
    destruct (ew_lvl q rm (inv_meta_last bsr logq q (sm_bs sm)) U) as [Uf|] eqn:E1; try discriminate.
  - assert (j = 0%nat) as -> by lia. exists Uf. exact E1.
  - destruct j as [|j]; [exists Uf; exact E1|]. cbv zeta in H.
    rewrite inv_metas_S. cbn [inv_chain]. rewrite last_cons.
    change (inv_lvl q rm (hd dsm (inv_metas bsr logq q 1 (sm_bs sm))) (S (S c)) U0 U)
      with (inv_lvl q rm (hd dsm (inv_metas bsr logq q 1 (sm_bs sm))) 2 U0 U).
    destruct (inv_lvl q rm (hd dsm (inv_metas bsr logq q 1 (sm_bs sm))) 2 U0 U) as [[U0' U']|]; [|discriminate].
    apply (IH (S c) _ _ _ H j). lia.
Qed.
Lemma inv_ok_sound q rm bsr logq m d : inv_ok q rm bsr logq = true -> (m < 16)%nat ->
  let ms := inv_meta_first bsr logq q :: inv_metas bsr logq q m (sm_bs (inv_meta_first bsr logq q)) in
  exists Uf, inv_check_c q rm (inv_meta_last bsr logq q (sm_bs (last ms d))) ms (S m) (2 ^ 64 - 1) = Some Uf.
Proof.
  unfold inv_ok, inv_check_c. intros H Hm. cbv zeta in *. destruct (rmwf_b q rm); [|discriminate].
  cbn [inv_chain]. rewrite last_cons.
  destruct (inv_lvl q rm (inv_meta_first bsr logq q) 1 (2 ^ 64 - 1) (2 ^ 64 - 1)) as [[U0 U]|]; [|discriminate].
  apply (inv_sizes_sound _ _ _ _ _ 0%nat _ _ _ H m). lia.
Qed.

(* a table whose twiddle lists are packed successive powers (element-wise pass: c s^i; level l: the powers of st l, which
   is r l modulo q) has well-formed words carrying those values *)
Lemma packed_table q T m c s v0 (st r : nat -> Z) (cnt : nat -> nat) :
  1 < q < 2 ^ 32 -> rm_wf q (tb_red T) -> sm_wf q (tb_m0 T) -> Forall (sm_wf q) (tb_metas T) -> length (tb_metas T) = m ->
  0 <= c < q -> 0 <= s < q ->
  tb_tw0 T = map (fun t => pack_omega t (sm_hb (tb_m0 T)) q) (pows (pow2n m) c s q) -> (forall i, cong q (c * zp s i) (v0 i)) ->
  length (tb_tws T) = m ->
  (forall l, (l < m)%nat -> 0 <= st l < q /\ cong q (st l) (r l) /\
     nth l (tb_tws T) [] = map (fun t => pack_omega t (sm_hb (nth l (tb_metas T) dsm)) q) (pows (cnt l - 1) (st l) (st l) q)) ->
  table_words_ok q T (pow2n m) /\ tab_vals q T m v0 cnt (fun l => zp (r l)).
Proof.
  intros Hq Hrm Hsm0 Hwf Hlm Hc Hs E0 Hv0 Hlt Hlv. pose proof Hsm0 as [Hh0 [_ [_ [_ [Hh0' _]]]]].
  assert (Hsm : forall l, (l < m)%nat -> sm_wf q (nth l (tb_metas T) dsm)) by (intros l Hl; apply Forall_nth_elim; [exact Hwf|lia]).
  split.
  - unfold table_words_ok. rewrite E0. split; [|split; [|split]].
    + rewrite map_length, pows_length. reflexivity.
    + apply Forall_pack; [exact Hq|split; assumption|]. apply pows_range; [lia|exact Hc].
    + lia.
    + apply Forall_forall. intros tw Hin. destruct (In_nth _ _ [] Hin) as [l [Hl <-]]. rewrite Hlt in Hl.
      destruct (Hlv l Hl) as [Hst [_ ->]]. destruct (Hsm l Hl) as [Hh [_ [_ [_ [Hh32 _]]]]].
      apply Forall_pack; [exact Hq|lia|]. apply pows_range; [lia|exact Hst].
  - unfold tab_vals. rewrite E0. split; [exact Hrm|]. split; [exact Hsm0|]. split; [rewrite map_length, pows_length; reflexivity|].
    split; [|split; [exact Hlm|split; [exact Hlt|]]].
    + intros i Hi. eapply word_val_cong; [|apply Hv0]. apply packed_pows_val; try assumption. lia.
    + intros l Hl. split; [apply Hsm; exact Hl|]. intros i' Hi'.
      destruct (Hlv l Hl) as [Hst [Hr ->]]. destruct (Hsm l Hl) as [Hh [_ [_ [_ [Hh32 _]]]]].
      eapply word_val_cong; [apply (packed_pows_val q _ (cnt l - 1) (st l) (st l) i' Hq)|]; try assumption; try lia.
      rewrite <- (zp_S (st l) i'), Hr. reflexivity.
Qed.

Section Fwd.
Variables (P : primeset) (k m : nat).
Hypothesis Hm : (S m <= 16)%nat.
Hypothesis HR : root_ok (qk P k) (omegak P k) = true.
Hypothesis HO : fwd_ok (qk P k) (red_of P (qk P k)) (bs_red P) (ps_LOG_Q P) = true.
Notation q := (qk P k).
Notation psi := (omega_n P k (S m)).

Lemma fwd_ok_split : exists Uf, fwd_check q (fwd_table P k (S m)) (S m) (2 ^ 64 - 1) = Some Uf /\ Uf < 2 ^ fwd_out_bits P (S m).
Proof.
  destruct (fwd_ok_sound _ _ _ _ m HO ltac:(lia)) as [Uf E]. exists Uf. rewrite fwd_check_table. unfold fwd_ms.
  split; [exact E|]. destruct (fwd_check_c_wf _ _ _ _ _ _ _ E) as [_ [_ [_ [Hl Hlast]]]].
  unfold fwd_out_bits, fwd_ms. rewrite last_map, (fwd_metas_bs _ _ _ q), <- last_map. apply Hlast.
  intros E0. rewrite E0 in Hl. discriminate.
Qed.

Lemma fwd_wf : rm_wf q (red_of P q) /\ sm_wf q (fwd_meta0 (ps_LOG_Q P)) /\ Forall (sm_wf q) (fwd_ms P k (S m)).
Proof.
  destruct fwd_ok_split as [Uf [Hc _]]. rewrite fwd_check_table in Hc.
  destruct (fwd_check_c_wf _ _ _ _ _ _ _ Hc) as [H1 [H2 [H3 _]]]. split; [exact H1|split; [exact H2|exact H3]].
Qed.

Lemma fwd_level_tw l : (l < S m)%nat ->
  nth l (tb_tws (fwd_table P k (S m))) [] =
  map (fun t => pack_omega t (sm_hb (nth l (fwd_ms P k (S m)) dsm)) q)
      (pows (pow2n (m - l) - 1) (step_of P k (S m) (m - l)) (step_of P k (S m) (m - l)) q).
Proof.
  intros Hl. destruct (fwd_table_proj P k (S m)) as [_ [_ [_ [_ ->]]]].
  rewrite (nth_map_combine (fun sm c => level_tw (omega_n P k (S m)) (qk P k) (sm_hb sm) (S m) c) _ _ l dsm 0%nat)
    by (rewrite ?rev_length, ?seq_length, fwd_ms_length; lia).
  rewrite nth_rev_seq by exact Hl. unfold level_tw. cbv zeta.
  replace (S m - l - 1)%nat with (m - l)%nat by lia.
  rewrite pow2n_div by lia. rewrite pow2n_Z.
  reflexivity.
Qed.

Lemma fwd_table_facts : table_words_ok q (fwd_table P k (S m)) (pow2n (S m)) /\ fwd_vals q (fwd_table P k (S m)) (S m) psi.
Proof.
  pose proof (q_range _ _ HR) as Hq. destruct fwd_wf as [Hrm [Hsm0 Hwf]].
  destruct (fwd_table_proj P k (S m)) as [Er [E0m [Em [E0 Et]]]].
  assert (Hlt : length (tb_tws (fwd_table P k (S m))) = S m)
    by (rewrite Et, map_length, combine_length, rev_length, seq_length, fwd_ms_length; lia).
  apply (packed_table q _ (S m) 1 psi _ (fun l => step_of P k (S m) (m - l)) (fun l => zp (psi * psi) (pow2n l)));
    rewrite ?Er, ?E0m, ?Em; try assumption; try lia.
  - apply fwd_ms_length.
  - apply (psi_range P k (S m) HR).
  - intros i. rewrite Z.mul_1_l. reflexivity.
  - intros l Hl. split; [apply modq_pow_range; exact Hq|]. split.
    + rewrite (step_val P k (S m) Hm HR (m - l)). replace (S m - (m - l))%nat with (S l) by lia.
      rewrite pow2n_S, <- zp_sq. reflexivity.
    + rewrite (fwd_level_tw l Hl). replace (S m - 1 - l)%nat with (m - l)%nat by lia. reflexivity.
Qed.
End Fwd.

Lemma inv_ms_S P k m : inv_ms P k (S m) = inv_meta_first (bs_red P) (ps_LOG_Q P) (qk P k) ::
  inv_metas (bs_red P) (ps_LOG_Q P) (qk P k) m (sm_bs (inv_meta_first (bs_red P) (ps_LOG_Q P) (qk P k))).
Proof. unfold inv_ms. cbv zeta. replace (S m - 1)%nat with m by lia. reflexivity. Qed.

Section Inv.
Variables (P : primeset) (k m : nat).
Hypothesis Hm : (S m <= 16)%nat.
Hypothesis HR : root_ok (qk P k) (omegak P k) = true.
Hypothesis HO : inv_ok (qk P k) (red_of P (qk P k)) (bs_red P) (ps_LOG_Q P) = true.
Notation q := (qk P k).
Notation psi := (omega_n P k (S m)).
Notation phi := (phi_of P k (S m)).
Notation ninv := (ninv_of P k (S m)).

Lemma inv_ok_split : exists Uf, inv_check q (inv_table P k (S m)) (S m) (2 ^ 64 - 1) = Some Uf /\ Uf < 2 ^ inv_out_bits P (S m).
Proof.
  destruct (inv_ok_sound _ _ _ _ m (fwd_meta0 0) HO ltac:(lia)) as [Uf E]. cbv zeta in E. rewrite <- inv_ms_S in E.
  exists Uf. rewrite inv_check_table. split; [exact E|].
  destruct (inv_check_c_wf _ _ _ _ _ _ _ E) as [_ [_ [_ [_ Hlt]]]].
  unfold inv_out_bits, inv_ml.
  rewrite (inv_last_bs _ _ (qk P 0) q).
  rewrite (last_map sm_bs (inv_ms P 0 (S m))), !inv_ms_S. cbn [map].
  rewrite (inv_first_bs _ _ (qk P 0) q), (inv_metas_bs _ _ _ q).
  rewrite (last_map sm_bs (inv_ms P k (S m))), inv_ms_S in Hlt. exact Hlt.
Qed.

Lemma inv_wf : rm_wf q (red_of P q) /\ sm_wf q (inv_ml P k (S m)) /\ Forall (sm_wf q) (inv_ms P k (S m)).
Proof.
  destruct inv_ok_split as [Uf [Hc _]]. rewrite inv_check_table in Hc.
  destruct (inv_check_c_wf _ _ _ _ _ _ _ Hc) as [H1 [H2 [H3 _]]]. split; [exact H1|split; [exact H2|exact H3]].
Qed.

Lemma inv_level_tw_nth l : (l < S m)%nat ->
  nth l (tb_tws (inv_table P k (S m))) [] =
  map (fun t => pack_omega t (sm_hb (nth l (inv_ms P k (S m)) dsm)) q)
      (pows (pow2n l - 1) (istep_of P k (S m) l) (istep_of P k (S m) l) q).
Proof.
  intros Hl. destruct (inv_table_proj P k (S m)) as [_ [_ [_ [_ ->]]]].
  rewrite (nth_map_combine (fun sm c => inv_level_tw (omega_n P k (S m)) (qk P k) (sm_hb sm) (S m) c) _ _ l dsm 0%nat)
    by (rewrite ?seq_length, inv_ms_length; lia).
  rewrite seq_nth by exact Hl. unfold inv_level_tw. cbv zeta.
  replace (1 + l - 1)%nat with l by lia.
  rewrite pow2n_div by lia. rewrite pow2n_Z. reflexivity.
Qed.

Lemma inv_table_facts : table_words_ok q (inv_table P k (S m)) (pow2n (S m)) /\ inv_vals q (inv_table P k (S m)) (S m) phi ninv.
Proof.
  pose proof (q_range _ _ HR) as Hq. destruct inv_wf as [Hrm [Hsm0 Hwf]].
  destruct (inv_table_proj P k (S m)) as [Er [E0m [Em [E0 Et]]]].
  assert (Hlt : length (tb_tws (inv_table P k (S m))) = S m)
    by (rewrite Et, map_length, combine_length, seq_length, inv_ms_length; lia).
  rewrite pow2n_Z in E0. unfold inv_vals.
  apply (packed_table q _ (S m) ninv phi (fun j => ninv * zp phi j) (fun l => istep_of P k (S m) l)
           (fun l => zp (phi * phi) (pow2n (S m - 1 - l))) pow2n);
    rewrite ?Er, ?E0m, ?Em; try assumption; try lia; try (apply modq_pow_range; exact Hq).
  - apply inv_ms_length.
  - intros i. reflexivity.
  - intros l Hl. split; [apply modq_pow_range; exact Hq|]. split; [|apply (inv_level_tw_nth l Hl)].
    rewrite (istep_val P k (S m) Hm HR l).
    replace (pow2n (S m - l)) with (2 * pow2n (S m - 1 - l))%nat by (rewrite <- pow2n_S; f_equal; lia).
    rewrite zp_sq. reflexivity.
Qed.
End Inv.

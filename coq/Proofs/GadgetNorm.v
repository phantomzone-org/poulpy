(* Composition with the final normalisation (shared by C03 / C04).
   1. val_scaled / poly_val link, lift_coeff with a total per-coefficient function.
   2. normalize_value_ok : what one column normalisation does to the value (out = big + r + 2^P I, |r| <= one unit of the last limb);
      big_normalize_value_fft64 : PROVED for the FFT64 family, same radix, from C08's normalize_inter_value (Proofs/C08Normalize.v).
      For NTT120 (LimbsBig.normalize_big) and cross-radix it stays a hypothesis of the composition theorems.
   3. normalize_cols_phase : normalising every column changes the phase by R + 2^P I with |R| <= (1 + rank n S) units of the last limb;
      normalize_cols_after : the form in which Gadget.glwe_keyswitch / Gadget.glwe_external_product (same-radix case) use it. *)
From PV Require Import Base.MachineInt Model.Znx Model.Limbs Model.Flat Model.Ring Model.Poly Model.DftAbs Model.Gadget Model.GadgetSpec Model.C08Oracle Proofs.C07Dft Proofs.C07Ring Proofs.C08Normalize Proofs.GadgetDecomp Proofs.GadgetPhase Proofs.GadgetBound Proofs.C03Phase Proofs.C04Phase.
Open Scope Z_scope.

(* value of a coefficient's limb list (C08's val_scaled) = coefficient of the polynomial value (Gadget.poly_val) *)
Section ValScaled.
Lemma val_fold_snd P b l a k :
  snd (fold_left (fun (s : Z * Z) x => (fst s + x * 2 ^ (P - (snd s + 1) * b), snd s + 1)) l (a, k)) = k + Z.of_nat (length l).
Proof.
  revert a k; induction l as [|x l IH]; intros a k; cbn [fold_left length]; [cbn [snd]; lia|].
  cbn [fst snd]. rewrite IH. lia.
Qed.

Lemma val_scaled_app P b l x : val_scaled P b (l ++ [x]) = val_scaled P b l + x * 2 ^ (P - (Z.of_nat (length l) + 1) * b).
Proof.
  unfold val_scaled. rewrite fold_left_app. cbn [fold_left fst].
  pose proof (val_fold_snd P b l 0 0) as E. rewrite Z.add_0_l in E. rewrite E. reflexivity.
Qed.

Lemma val_scaled_zsum P b l : val_scaled P b l = zsum (fun j => nthZ l j * 2 ^ (P - (Z.of_nat j + 1) * b)) (length l).
Proof.
  induction l as [|x l IH] using rev_ind; [reflexivity|].
  rewrite val_scaled_app, IH, app_length. cbn [length]. rewrite Nat.add_1_r, zsum_S. f_equal.
  - apply zsum_ext; intros j Hj. f_equal. unfold nthZ. symmetry. apply app_nth1; exact Hj.
  - f_equal. unfold nthZ. rewrite app_nth2 by lia. rewrite Nat.sub_diag. reflexivity.
Qed.

Lemma poly_val_coeff P b n (limbs : plimbs) k : (forall j, (j < length limbs)%nat -> length (lim limbs j) = n) ->
  nth k (poly_val P b n limbs) 0 = val_scaled P b (map (fun l => nthZ l k) limbs).
Proof.
  intros H. rewrite poly_val_pval. unfold pval.
  rewrite psumf_coeff by (intros; rewrite pscale_length; auto).
  rewrite val_scaled_zsum, map_length. apply zsum_ext; intros j Hj.
  rewrite nth_pscale. unfold nthZ at 1. rewrite (nth_map' _ _ _ _ []) by exact Hj. unfold lim, nthZ. ring.
Qed.
End ValScaled.

(* lift_coeff with a total per-coefficient function *)
Section Lift.
Lemma sequence_map_some {X Y} (g : X -> Y) (l : list X) : sequence (map (fun x => Some (g x)) l) = Some (map g l).
Proof. induction l as [|x l IH]; cbn [map sequence]; [reflexivity|]. rewrite IH. reflexivity. Qed.

Lemma lift_coeff_total (G : list Z -> list Z -> list Z) n rsize (a r : list (list Z)) :
  lift_coeff (fun al rl => Some (G al rl)) n rsize a r
  = Some (untranspose rsize (map (fun p => G (fst p) (snd p)) (combine (transpose n a) (transpose n r)))).
Proof.
  unfold lift_coeff.
  rewrite (sequence_map_some (fun p => G (fst p) (snd p))). reflexivity.
Qed.

Lemma transpose_nth n (a : list (list Z)) k : (k < n)%nat -> nth k (transpose n a) [] = map (fun l => nthZ l k) a.
Proof.
  intros H. unfold transpose. rewrite (nth_map' _ _ _ _ 0%nat) by (rewrite seq_length; exact H).
  rewrite seq_nth by exact H. reflexivity.
Qed.
Lemma transpose_length n (a : list (list Z)) : length (transpose n a) = n.
Proof. unfold transpose. rewrite map_length, seq_length. reflexivity. Qed.

(* the lifted result has rsize limbs of length n; its coefficient k is G applied to coefficient k of the inputs *)
Lemma untranspose_shape (G : list Z -> list Z -> list Z) n rsize (a r : list (list Z)) :
  let out := untranspose rsize (map (fun p => G (fst p) (snd p)) (combine (transpose n a) (transpose n r))) in
  length out = rsize /\ forall j, (j < rsize)%nat -> length (lim out j) = n.
Proof.
  unfold untranspose. split; [rewrite map_length, seq_length; reflexivity|].
  intros j Hj. unfold lim. rewrite (nth_map' _ _ _ _ 0%nat) by (rewrite seq_length; exact Hj).
  rewrite !map_length, combine_length, !transpose_length. apply Nat.min_id.
Qed.

Lemma untranspose_coeff (G : list Z -> list Z -> list Z) n rsize (a r : list (list Z)) k :
  (k < n)%nat -> length (G (map (fun l => nthZ l k) a) (map (fun l => nthZ l k) r)) = rsize ->
  map (fun l => nthZ l k) (untranspose rsize (map (fun p => G (fst p) (snd p)) (combine (transpose n a) (transpose n r))))
  = G (map (fun l => nthZ l k) a) (map (fun l => nthZ l k) r).
Proof.
  intros Hk HG.
  set (cs := map (fun p => G (fst p) (snd p)) (combine (transpose n a) (transpose n r))).
  assert (Hcs : nth k cs [] = G (map (fun l => nthZ l k) a) (map (fun l => nthZ l k) r)).
  { unfold cs. rewrite (nth_map' _ _ _ _ ([], [])) by (rewrite combine_length, !transpose_length; lia).
    rewrite combine_nth by (rewrite !transpose_length; reflexivity). cbn [fst snd].
    rewrite !transpose_nth by exact Hk. reflexivity. }
  unfold untranspose. rewrite map_map. apply (nth_ext _ _ 0 0).
  - rewrite map_length, seq_length, HG. reflexivity.
  - rewrite map_length, seq_length. intros j Hj.
    rewrite (nth_map' _ _ _ _ 0%nat) by (rewrite seq_length; exact Hj). rewrite seq_nth by exact Hj. cbn [Nat.add].
    unfold nthZ at 1. rewrite (nth_map' _ _ _ _ []); [rewrite Hcs; reflexivity|].
    unfold cs. rewrite map_length, combine_length, !transpose_length. lia.
Qed.
End Lift.


(* what one column normalisation does to the value: out = big + r + 2^P I with |r| <= one unit of the last output limb.
   This is the shape the composition theorems need; it is PROVED below for the FFT64 family in the same-radix case from
   C08's normalize_inter_value, and is a hypothesis for the other cases (NTT120: LimbsBig.normalize_big, cross radix). *)
Definition normalize_value_ok (wb P : Z) (n : nat) (rb ab : Z) (rsize : nat) (big : plimbs) : Prop :=
  exists out r I,
    big_normalize wb n rb ab rsize big = Some out /\
    length out = rsize /\ (forall j, (j < rsize)%nat -> length (lim out j) = n) /\
    length r = n /\ length I = n /\
    poly_val P rb n out = padd (padd (poly_val P ab n big) r) (pscale (2 ^ P) I) /\
    pnorm r <= 2 ^ (P - Z.of_nat rsize * rb).

Section Fft64.
Lemma wrap_split P x : 0 <= P -> x = wrap P x + 2 ^ P * ((x + 2 ^ (P - 1)) / 2 ^ P).
Proof.
  intros HP. unfold wrap. pose proof (pow2_pos P HP) as Hp.
  pose proof (Z.div_mod (x + 2 ^ (P - 1)) (2 ^ P) ltac:(lia)). lia.
Qed.

Lemma wrap64_digits b l : 1 <= b <= 62 -> Forall (in_range b) l -> map (wrap 64) l = l.
Proof.
  intros Hb H. rewrite <- (map_id l) at 2. apply map_ext_in. intros x Hx.
  rewrite Forall_forall in H. specialize (H x Hx). apply wrap_id; [lia|].
  unfold in_range in *.
  assert (2 ^ (b - 1) <= 2 ^ (64 - 1)) by (apply Z.pow_le_mono_r; lia). lia.
Qed.

Theorem big_normalize_value_fft64 (b : Z) (n rsize : nat) (a : plimbs) (P : Z) :
  1 <= b <= 62 ->
  (forall j, (j < length a)%nat -> length (lim a j) = n) ->
  (forall j k, Z.abs (nth k (lim a j) 0) <= 2 ^ 62) ->
  (Z.of_nat rsize + Z.of_nat (length a)) * b <= P ->
  normalize_value_ok 64 P n b b rsize a.
Proof.
  intros Hb Hwf Hmag HP.
  assert (HP0 : 0 <= P) by nia.
  set (G := fun al rl : list Z => map (wrap 64) (normalize_inter 64 b 0 al rl)).
  assert (EG : big_normalize 64 n b b rsize a
               = Some (untranspose rsize (map (fun p => G (fst p) (snd p)) (combine (transpose n a) (transpose n (repeat (pzero n) rsize)))))).
  { unfold big_normalize. rewrite <- lift_coeff_total. f_equal.
    unfold normalize_bigw, normalize, G. cbn [Z.eqb Pos.eqb]. rewrite Z.eqb_refl. reflexivity. }
  set (out := untranspose rsize (map (fun p => G (fst p) (snd p)) (combine (transpose n a) (transpose n (repeat (pzero n) rsize))))) in *.
  (* per coefficient *)
  set (ac := fun k => map (fun l => nthZ l k) a).
  set (rc := fun k => map (fun l => nthZ l k) (repeat (pzero n) rsize)).
  assert (Hac : forall k, Forall (fun x => Z.abs x <= 2 ^ 62) (ac k)).
  { intros k. apply Forall_forall. intros x Hx. unfold ac in Hx. apply in_map_iff in Hx. destruct Hx as [l [<- Hl]].
    destruct (In_nth a l [] Hl) as [j [Hj <-]]. apply (Hmag j k). }
  assert (Lrc : forall k, length (rc k) = rsize) by (intros; unfold rc; rewrite map_length, repeat_length; reflexivity).
  assert (Lac : forall k, length (ac k) = length a) by (intros; unfold ac; apply map_length).
  (* C08 on coefficient k *)
  assert (HC : forall k, let o := normalize_inter 64 b 0 (ac k) (rc k) in
             G (ac k) (rc k) = o /\ length o = rsize /\
             Z.abs (wrap P (val_scaled P b o - val_scaled P b (ac k))) <= 2 ^ (P - Z.of_nat rsize * b) /\
             (Z.of_nat (length a) * b <= Z.of_nat rsize * b -> wrap P (val_scaled P b o - val_scaled P b (ac k)) = 0)).
  { intros k o.
    destruct (normalize_inter_value b Hb 0 (ac k) (rc k) (Hac k)) as (L & B & _ & V). fold o in L, B, V.
    split; [unfold G; fold o; apply (wrap64_digits b); assumption|].
    split; [rewrite L; apply Lrc|].
    specialize (V P). rewrite Lrc, Lac in V. unfold zn in V. change (Z.abs 0) with 0 in V. rewrite !Z.add_0_r, Z.sub_0_r in V.
    specialize (V ltac:(lia)). cbv zeta in V. unfold tor_abs in V. destruct V as [V1 V2].
    split; [exact V1|]. intros H. specialize (V2 H). lia. }
  set (d := fun k => val_scaled P b (normalize_inter 64 b 0 (ac k) (rc k)) - val_scaled P b (ac k)).
  set (r := map (fun k => wrap P (d k)) (seq 0 n)).
  set (I := map (fun k => (d k + 2 ^ (P - 1)) / 2 ^ P) (seq 0 n)).
  assert (Hout : forall k, (k < n)%nat -> map (fun l => nthZ l k) out = normalize_inter 64 b 0 (ac k) (rc k)).
  { intros k Hk. destruct (HC k) as (E1 & E2 & _). rewrite <- E1.
    apply (untranspose_coeff G n rsize a (repeat (pzero n) rsize) k Hk). fold (ac k) (rc k). rewrite E1. exact E2. }
  destruct (untranspose_shape G n rsize a (repeat (pzero n) rsize)) as [Lout Wout]. fold out in Lout, Wout.
  exists out, r, I. split; [exact EG|]. split; [exact Lout|]. split; [exact Wout|].
  assert (Lr : length r = n) by (unfold r; rewrite map_length, seq_length; reflexivity).
  assert (LI : length I = n) by (unfold I; rewrite map_length, seq_length; reflexivity).
  split; [exact Lr|]. split; [exact LI|].
  assert (Lpa : length (poly_val P b n a) = n).
  { rewrite poly_val_pval. apply pval_length. exact Hwf. }
  assert (Lpo : length (poly_val P b n out) = n).
  { rewrite poly_val_pval. apply pval_length. rewrite Lout. exact Wout. }
  split.
  - apply list_eq_nth; [repeat (rewrite ?padd_length, ?pscale_length); lia|].
    rewrite Lpo. intros k Hk.
    repeat first [ rewrite nth_padd by (repeat (rewrite ?padd_length, ?pscale_length); lia) | rewrite nth_pscale ].
    rewrite poly_val_coeff by (rewrite Lout; exact Wout). rewrite poly_val_coeff by exact Hwf.
    rewrite (Hout k Hk). fold (ac k).
    unfold r, I. rewrite !nth_map_seq by exact Hk.
    pose proof (wrap_split P (d k) HP0) as W. unfold d in *. lia.
  - apply pnorm_le_nth; [apply Z.pow_nonneg; lia|]. rewrite Lr. intros k Hk.
    unfold r. rewrite nth_map_seq by exact Hk. destruct (HC k) as (_ & _ & E3 & _). exact E3.
Qed.
End Fft64.


Section NormTools.
(* normalising a list of columns one after the other, summed against any family Sf: every column contributes its r (x) Sf_i
   and its integer part; B bounds the contributions *)
Lemma normalize_cols_sum wb P n rb kb res_size (l : list plimbs) : forall (Sf : nat -> list Z) (B : nat -> Z),
  (forall i, length (Sf i) = n) ->
  (forall i r, (i < length l)%nat -> length r = n -> pnorm r <= 2 ^ (P - Z.of_nat res_size * rb) -> pnorm (pmul r (Sf i)) <= B i) ->
  (forall c, In c l -> length (poly_val P kb n c) = n /\ normalize_value_ok wb P n rb kb res_size c) ->
  exists res R I,
    sequence (map (big_normalize wb n rb kb res_size) l) = Some res /\ length res = length l /\
    (forall i, (i < length l)%nat -> length (nth i res []) = res_size /\ forall j, (j < res_size)%nat -> length (lim (nth i res []) j) = n) /\
    length R = n /\ length I = n /\
    psumf n (fun i => pmul (poly_val P rb n (nth i res [])) (Sf i)) (length l)
    = padd (padd (psumf n (fun i => pmul (poly_val P kb n (nth i l [])) (Sf i)) (length l)) R) (pscale (2 ^ P) I) /\
    pnorm R <= zsum B (length l).
Proof.
  induction l as [|c l IH]; intros Sf B LS HB Hl.
  - exists [], (pzero n), (pzero n). rewrite pnorm_pzero, !pzero_length. cbn [length].
    repeat split; try reflexivity; try (intros; lia). rewrite !psumf_0. pcoeff n. ring.
  - destruct (Hl c (or_introl eq_refl)) as (Lc & out & r & J & E & Lo & Wo & Lr & LJ & V & Bd).
    destruct (IH (fun i => Sf (S i)) (fun i => B (S i))) as (res & R & I & Es & Ll & Sh & LR & LI & Eq & Bn).
    { intros; apply LS. } { intros i r' Hi; apply HB; cbn [length]; lia. } { intros c' Hc'; apply Hl; right; exact Hc'. }
    exists (out :: res), (padd (pmul r (Sf 0%nat)) R), (padd (pmul J (Sf 0%nat)) I).
    split; [cbn [map sequence]; rewrite E, Es; reflexivity|]. split; [cbn [length]; rewrite Ll; reflexivity|].
    split; [intros [|i] Hi; cbn [nth]; [split; assumption|apply Sh; cbn [length] in Hi; lia]|].
    split; [plen|]. split; [plen|]. cbn [length]. split.
    + assert (LP : forall (cs : list plimbs) w, (forall c', In c' cs -> length (poly_val P w n c') = n) ->
                   forall i, (i < length cs)%nat -> length (pmul (poly_val P w n (nth i cs [])) (Sf i)) = n)
        by (intros cs w H i Hi; rewrite pmul_length; apply H, nth_In, Hi).
      rewrite !psumf_shift.
      * cbn [nth]. rewrite Eq, V.
        rewrite !pmul_padd_distr_r by (repeat (rewrite ?padd_length, ?pscale_length, ?Lc, ?Lr, ?LJ, ?LS); lia).
        rewrite pscale_pmul_l, pscale_padd, padd_swap4. f_equal. apply padd_swap4.
      * intros i Hi. apply (LP (c :: l) kb); [|exact Hi]. intros c' Hc'. apply Hl, Hc'.
      * intros i Hi. apply (LP (out :: res) rb); [|cbn [length]; rewrite Ll; exact Hi]. intros c' [<-|Hc'].
        { rewrite V. plen. }
        { destruct (In_nth _ _ [] Hc') as (i' & Hi' & <-). destruct (Sh i' ltac:(unfold plimbs in *; lia)) as [L W].
          rewrite poly_val_pval. apply pval_length. intros j Hj. apply W. unfold plimbs in *. lia. }
    + rewrite zsum_shift. eapply Z.le_trans; [apply pnorm_padd|].
      pose proof (HB 0%nat r ltac:(cbn [length]; lia) Lr Bd). lia.
Qed.

(* Gadget.phase_val as a sum over the column values *)
Lemma phase_val_cols P b n (sk : list (list Z)) (ct : cols_t) size :
  (1 <= n)%nat -> wf_cols n (S (length sk)) size ct -> (forall s, In s sk -> length s = n) ->
  phase_val P b n sk ct = psumf n (fun co => pmul (poly_val P b n (col ct co)) (sk_ext n sk co)) (S (length sk)).
Proof.
  intros Hn Hw Hsk.
  rewrite (phase_val_phase_f P b n sk ct size Hn Hw) by (intros; apply Hsk, nth_In; assumption).
  unfold phase_f. apply psumf_ext; intros co Hco. f_equal.
  rewrite poly_val_pval. destruct Hw as [_ Hc]. destruct (Hc co Hco) as [-> _]. reflexivity.
Qed.
(* (X + 2^P Iq) + R + 2^P I' = X + R + 2^P (Iq + I') *)
Lemma regroup_int n P (X R Iq I' : list Z) : length X = n -> length R = n -> length Iq = n -> length I' = n ->
  padd (padd (padd X (pscale (2 ^ P) Iq)) R) (pscale (2 ^ P) I') = padd (padd X R) (pscale (2 ^ P) (padd Iq I')).
Proof. intros H1 H2 H3 H4. pcoeff n. ring. Qed.
End NormTools.

(* normalising every column of a big ciphertext: phase(out) = phase(big) + R + 2^P I, |R| <= (1 + rank n S) units of the last limb *)
Section NormCols.
Variables (wb P : Z) (n : nat) (rb kb : Z) (res_size msize : nat).
Variable sk : list (list Z).
Variable Sb : Z.
Variable big : cols_t.
Let rank := length sk.
Hypothesis Hn : (1 <= n)%nat.
Hypothesis Hbig : wf_cols n (S rank) msize big.
Hypothesis Hsk : forall s, In s sk -> length s = n.
Hypothesis HS : forall s, In s sk -> pnorm s <= Sb.
Hypothesis HS0 : 0 <= Sb.
Hypothesis Hnorm : forall co, (co < S rank)%nat -> normalize_value_ok wb P n rb kb res_size (col big co).

Theorem normalize_cols_phase :
  exists res R I,
    sequence (map (big_normalize wb n rb kb res_size) big) = Some res /\
    wf_cols n (S rank) res_size res /\
    length R = n /\ length I = n /\
    phase_val P rb n sk res = padd (padd (phase_val P kb n sk big) R) (pscale (2 ^ P) I) /\
    pnorm R <= (1 + Z.of_nat rank * Z.of_nat n * Sb) * 2 ^ (P - Z.of_nat res_size * rb).
Proof.
  pose proof (sk_ext_length n sk Hn Hsk) as LS. destruct Hbig as [Hlb Hcb].
  set (u := 2 ^ (P - Z.of_nat res_size * rb)).
  destruct (normalize_cols_sum wb P n rb kb res_size big (sk_ext n sk) (fun i => if Nat.eqb i 0 then u else Z.of_nat n * u * Sb) LS)
    as (res & R & I & Es & Ll & Sh & LR & LI & Eq & Bn).
  { (* column 0 meets the secret 1, column i+1 the secret s_i *)
    intros [|i] r Hi Lr Br; cbn [Nat.eqb].
    - cbn [sk_ext]. change (pone_n n) with (pone n). rewrite (pmul_pone_r n r Hn Lr). exact Br.
    - eapply Z.le_trans; [apply pnorm_pmul; rewrite Lr; apply LS|]. rewrite Lr.
      assert (Hs : pnorm (sk_ext n sk (S i)) <= Sb) by (cbn [sk_ext]; apply HS, nth_In; unfold plimbs in *; lia).
      pose proof (pnorm_nonneg r). pose proof (pnorm_nonneg (sk_ext n sk (S i))).
      rewrite <- !Z.mul_assoc. apply Z.mul_le_mono_nonneg_l; [lia|]. apply Z.mul_le_mono_nonneg; lia. }
  { intros c Hc. destruct (In_nth big c [] Hc) as [co [Hco <-]].
    assert (Hco' : (co < S rank)%nat) by (unfold plimbs in *; lia).
    split; [|apply (Hnorm co Hco')]. rewrite poly_val_pval. apply pval_length. destruct (Hcb co Hco') as [L W].
    intros j Hj. apply W. unfold col, plimbs in *. lia. }
  assert (Wres : wf_cols n (S rank) res_size res).
  { split; [unfold plimbs in *; lia|]. intros co Hco. apply Sh. unfold plimbs in *; lia. }
  exists res, R, I. split; [exact Es|]. split; [exact Wres|]. split; [exact LR|]. split; [exact LI|].
  rewrite Hlb in Eq, Bn. split.
  - rewrite (phase_val_cols P rb n sk res res_size Hn Wres Hsk), (phase_val_cols P kb n sk big msize Hn (conj Hlb Hcb) Hsk).
    exact Eq.
  - eapply Z.le_trans; [exact Bn|]. rewrite zsum_shift. cbn [Nat.eqb]. rewrite zsum_const. apply Z.eq_le_incl. ring.
Qed.
(* the same after a product whose phase is X + 2^P Iq (Gadget.glwe_keyswitch, Gadget.glwe_external_product, the relinearisation):
   the rounding R joins X, the integer parts add up *)
Corollary normalize_cols_after (X Iq : list Z) :
  phase_val P kb n sk big = padd X (pscale (2 ^ P) Iq) -> length X = n -> length Iq = n ->
  exists res R Itot,
    sequence (map (big_normalize wb n rb kb res_size) big) = Some res /\
    wf_cols n (S rank) res_size res /\
    length R = n /\ length Itot = n /\
    phase_val P rb n sk res = padd (padd X R) (pscale (2 ^ P) Itot) /\
    pnorm R <= (1 + Z.of_nat rank * Z.of_nat n * Sb) * 2 ^ (P - Z.of_nat res_size * rb).
Proof.
  intros Hph LX LIq. destruct normalize_cols_phase as (res & R & I' & F1 & F2 & F3 & F4 & F5 & F6).
  exists res, R, (padd Iq I'). split; [exact F1|]. split; [exact F2|]. split; [exact F3|]. split; [plen|]. split; [|exact F6].
  rewrite F5, Hph. apply (regroup_int n); assumption.
Qed.
End NormCols.

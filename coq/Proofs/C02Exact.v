(* C02: the word-level (wrapping) column operations of Ring.v coincide with the exact operations of Z[X]/(X^n+1)
   whenever no 64-bit wrap occurs; the size rule of each column operation is then zero extension (limb j of the
   result = F of the zero-extended limbs j of the operands). *)
From PV Require Import Proofs.C09Ring Proofs.C02Poly.
From PV Require Import Base.MachineInt Model.Znx Model.Limbs Model.Flat Model.Ring Model.DftAbs Model.C02Ops.
Open Scope Z_scope.

Definition wf_col (n size : nat) (c : limbs) : Prop := length c = size /\ Forall (fun l => length l = n) c.
Definition wf_glwe (n : nat) (g : glwe) : Prop :=
  g_n g = n /\ (1 <= g_ncols g)%nat /\ Forall (wf_col n (g_size g)) (g_cols g).

Lemma cl_length n size c j : wf_col n size c -> length (cl n c j) = n.
Proof.
  intros [Hl Hf]. unfold cl. destruct (Nat.ltb_spec j (length c)) as [H|H]; [|apply pzero_length].
  rewrite Forall_forall in Hf. apply Hf. apply nth_In. exact H.
Qed.
Lemma cl_nil n j : cl n [] j = pzero n.
Proof. unfold cl. cbn. destruct j; reflexivity. Qed.
Lemma cl_in n c j : (j < length c)%nat -> cl n c j = nth j c [].
Proof. intros H. unfold cl. destruct (Nat.ltb_spec j (length c)); [reflexivity|lia]. Qed.
Lemma cl_out n c j : (length c <= j)%nat -> cl n c j = pzero n.
Proof. intros H. unfold cl. destruct (Nat.ltb_spec j (length c)); [lia|reflexivity]. Qed.

Lemma gcol_wf n g i : wf_glwe n g -> (i < g_ncols g)%nat -> wf_col n (g_size g) (gcol g i).
Proof.
  intros (_ & _ & Hf) Hi. rewrite Forall_forall in Hf. apply Hf. apply nth_In. exact Hi.
Qed.
Lemma gcol_out g i : (g_ncols g <= i)%nat -> gcol g i = [].
Proof. intros H. unfold gcol. apply nth_overflow. exact H. Qed.
Lemma gcol_length n g i : wf_glwe n g -> (i < g_ncols g)%nat -> length (gcol g i) = g_size g.
Proof. intros Hw Hi. apply (gcol_wf n g i Hw Hi). Qed.

(* gl is cl of the column, also for missing columns *)
Lemma gl_cl n g i j : wf_glwe n g -> gl n g i j = cl n (gcol g i) j.
Proof.
  intros Hw. unfold gl. destruct (Nat.ltb_spec i (g_ncols g)) as [Hi|Hi]; cbn [andb].
  - unfold cl. rewrite (gcol_length n g i Hw Hi). reflexivity.
  - rewrite gcol_out by exact Hi. rewrite cl_nil. reflexivity.
Qed.
Lemma gl_length n g i j : wf_glwe n g -> length (gl n g i j) = n.
Proof.
  intros Hw. rewrite gl_cl by exact Hw. destruct (Nat.lt_ge_cases i (g_ncols g)) as [Hi|Hi].
  - apply (cl_length n (g_size g)). apply gcol_wf; assumption.
  - rewrite gcol_out by exact Hi. rewrite cl_nil. apply pzero_length.
Qed.
Lemma gl_col_out n g i j : (g_ncols g <= i)%nat -> gl n g i j = pzero n.
Proof. intros H. unfold gl. destruct (Nat.ltb_spec i (g_ncols g)); [lia|reflexivity]. Qed.
Lemma gl_limb_out n g i j : (g_size g <= j)%nat -> gl n g i j = pzero n.
Proof. intros H. unfold gl. destruct (Nat.ltb_spec j (g_size g)); [lia|]. rewrite andb_false_r. reflexivity. Qed.

Lemma vadd_length w a b : length (vadd w a b) = Nat.min (length a) (length b).
Proof. apply map2_length. Qed.
Lemma vsub_length w a b : length (vsub w a b) = Nat.min (length a) (length b).
Proof. apply map2_length. Qed.

Lemma vsub_zero_l w n y : length y = n -> vsub w (zeros n) y = vneg w y.
Proof.
  intros Hl. apply nthZ_ext; [rewrite vsub_length, vneg_length, zeros_length; lia|].
  intros i Hi. rewrite vsub_length, zeros_length in Hi.
  unfold vsub, vneg. rewrite nthZ_map2 by (rewrite ?zeros_length; lia). rewrite nthZ_map by lia.
  rewrite nthZ_zeros. unfold wsub, wneg. f_equal.
Qed.

(* sufficient condition: coefficients of magnitude below 2^62 never wrap in one add / sub / neg *)
Definition small (x : list Z) : Prop := Forall (fun c => - 2 ^ 62 < c < 2 ^ 62) x.
Lemma small_nth x i : small x -> - 2 ^ 62 < nthZ x i < 2 ^ 62.
Proof.
  intros H. destruct (Nat.lt_ge_cases i (length x)) as [Hi|Hi].
  - unfold small in H. rewrite Forall_forall in H. apply H. apply nth_In. exact Hi.
  - rewrite nthZ_overflow by exact Hi. lia.
Qed.
Lemma wrap64_id c : - 2 ^ 63 <= c < 2 ^ 63 -> wrap W64 c = c.
Proof. intros H. apply wrap_id; [unfold W64; lia|]. unfold in_range, W64. cbn [Z.sub]. exact H. Qed.

Lemma small_vadd x y : length y = length x -> small x -> small y -> vadd W64 x y = padd x y.
Proof.
  intros Hl Hx Hy. apply nthZ_ext; [rewrite vadd_length, padd_length; reflexivity|].
  intros i Hi. rewrite vadd_length in Hi. unfold vadd, padd. rewrite !nthZ_map2 by lia.
  unfold wadd. apply wrap64_id. pose proof (small_nth x i Hx). pose proof (small_nth y i Hy). lia.
Qed.
Lemma small_vsub x y : length y = length x -> small x -> small y -> vsub W64 x y = psub x y.
Proof.
  intros Hl Hx Hy. apply nthZ_ext; [rewrite vsub_length, psub_length; reflexivity|].
  intros i Hi. rewrite vsub_length in Hi. unfold vsub, psub. rewrite !nthZ_map2 by lia.
  unfold wsub. apply wrap64_id. pose proof (small_nth x i Hx). pose proof (small_nth y i Hy). lia.
Qed.
Lemma small_vneg x : small x -> vneg W64 x = pneg x.
Proof.
  intros Hx. apply nthZ_ext; [rewrite vneg_length, pneg_length; reflexivity|].
  intros i Hi. rewrite vneg_length in Hi. unfold vneg, pneg. rewrite !nthZ_map by lia.
  unfold wneg. apply wrap64_id. pose proof (small_nth x i Hx). lia.
Qed.

Definition neg_exact (w : Z) (a : list Z) : Prop := forall i, wneg w (nthZ a i) = - nthZ a i.

(* Poly.ext wraps its negation, xext does not: they agree where the negation is exact *)
Theorem rotate_is_xmono w p a : neg_exact w a -> znx_rotate w p a = xmono p a.
Proof.
  intros H. rewrite rotate_is_monomial_mul. unfold Poly.monomial_mul, xmono. apply map_ext. intros i.
  unfold Poly.ext, xext. cbv zeta. destruct (Z.even _); [reflexivity | apply H].
Qed.

Lemma small_rotate p a : small a -> znx_rotate W64 p a = xmono p a.
Proof.
  intros H. apply rotate_is_xmono. intros i. unfold wneg. apply wrap64_id. pose proof (small_nth a i H). lia.
Qed.
Lemma small_of_nth x : (forall i, - 2 ^ 62 < nthZ x i < 2 ^ 62) -> small x.
Proof.
  intros H. unfold small. rewrite Forall_forall. intros c Hc.
  destruct (In_nth x c 0 Hc) as (i & Hi & <-). apply H.
Qed.
Lemma small_pzero n : small (pzero n).
Proof. apply small_of_nth. intros i. rewrite nthZ_pzero. lia. Qed.
Lemma small_xmono p a : small a -> small (xmono p a).
Proof.
  intros H. apply small_of_nth. intros i.
  destruct (Nat.lt_ge_cases i (length a)) as [Hi|Hi].
  - rewrite xmono_nth by exact Hi. unfold xext. cbv zeta.
    pose proof (small_nth a (Z.to_nat ((Z.of_nat i - p) mod Z.of_nat (length a))) H).
    destruct (Z.even _); lia.
  - rewrite nthZ_overflow by (rewrite xmono_length; exact Hi). lia.
Qed.
Lemma small_mul_xp p a : small a -> vsub W64 (znx_rotate W64 p a) a = xmono_m1 p a.
Proof.
  intros H. rewrite small_rotate by exact H. unfold xmono_m1.
  apply small_vsub; [rewrite xmono_length; reflexivity | apply small_xmono; exact H | exact H].
Qed.

Section Columns.
Variable n : nat.

Lemma zlimb_pzero : zlimb n = pzero n.
Proof. reflexivity. Qed.

Lemma col_add a b r0 : (forall j, length (cl n a j) = n) -> (forall j, length (cl n b j) = n) ->
  (forall j, vadd W64 (cl n a j) (cl n b j) = padd (cl n a j) (cl n b j)) ->
  vec_add W64 n a b r0 = build (length r0) (fun j => padd (cl n a j) (cl n b j)).
Proof.
  intros Ha Hb Hw. unfold vec_add. apply build_ext. intros j Hj.
  pose proof (Ha j) as La. pose proof (Hb j) as Lb.
  destruct (Nat.ltb_spec j (Nat.min (length a) (length b))) as [H1|H1].
  - rewrite <- Hw. unfold lnth. rewrite !cl_in by lia. reflexivity.
  - destruct (Nat.ltb_spec j (Nat.max (length a) (length b))) as [H2|H2].
    + destruct (Nat.leb_spec (length a) (length b)) as [H3|H3]; unfold lnth.
      * rewrite (cl_out n a) by lia. rewrite padd_pzero_l by exact Lb. rewrite cl_in by lia. reflexivity.
      * rewrite (cl_out n b) by lia. rewrite padd_pzero_r by exact La. rewrite cl_in by lia. reflexivity.
    + rewrite !cl_out by lia. rewrite zlimb_pzero. rewrite padd_pzero_r by apply pzero_length. reflexivity.
Qed.

Lemma col_sub a b r0 : (forall j, length (cl n a j) = n) -> (forall j, length (cl n b j) = n) ->
  (forall j, vsub W64 (cl n a j) (cl n b j) = psub (cl n a j) (cl n b j)) ->
  vec_sub W64 n a b r0 = build (length r0) (fun j => psub (cl n a j) (cl n b j)).
Proof.
  intros Ha Hb Hw. unfold vec_sub. apply build_ext. intros j Hj.
  pose proof (Ha j) as La. pose proof (Hb j) as Lb.
  destruct (Nat.ltb_spec j (Nat.min (length a) (length b))) as [H1|H1].
  - rewrite <- Hw. unfold lnth. rewrite !cl_in by lia. reflexivity.
  - destruct (Nat.ltb_spec j (Nat.max (length a) (length b))) as [H2|H2].
    + destruct (Nat.leb_spec (length a) (length b)) as [H3|H3]; unfold lnth.
      * rewrite <- Hw. rewrite (cl_out n a) by lia.
        unfold pzero. rewrite vsub_zero_l by exact Lb. rewrite cl_in by lia. reflexivity.
      * rewrite (cl_out n b) by lia. rewrite psub_pzero_r by exact La. rewrite cl_in by lia. reflexivity.
    + rewrite !cl_out by lia. rewrite zlimb_pzero. rewrite psub_pzero_r by apply pzero_length. reflexivity.
Qed.

(* vec_add_assign / vec_sub_assign: fw with the limbs `a` has, the prior limb beyond them *)
Lemma col_assign (fw F : list Z -> list Z -> list Z) a r0 :
  (forall x, length x = n -> F x (pzero n) = x) -> (forall j, length (cl n r0 j) = n) ->
  (forall j, fw (cl n r0 j) (cl n a j) = F (cl n r0 j) (cl n a j)) ->
  build (length r0) (fun j => if Nat.ltb j (length a) then fw (lnth r0 j) (lnth a j) else lnth r0 j)
  = build (length r0) (fun j => F (cl n r0 j) (cl n a j)).
Proof.
  intros Hz Hr Hw. apply build_ext. intros j Hj. unfold lnth.
  destruct (Nat.ltb_spec j (length a)) as [H1|H1].
  - rewrite <- Hw. rewrite !cl_in by lia. reflexivity.
  - rewrite (cl_out n a) by lia. rewrite Hz by apply Hr. rewrite cl_in by lia. reflexivity.
Qed.

Lemma col_sub_negate_assign a r0 : (forall j, length (cl n r0 j) = n) ->
  (forall j, vsub W64 (cl n a j) (cl n r0 j) = psub (cl n a j) (cl n r0 j)) ->
  vec_sub_negate_assign W64 a r0 = build (length r0) (fun j => psub (cl n a j) (cl n r0 j)).
Proof.
  intros Hr Hw. unfold vec_sub_negate_assign. apply build_ext. intros j Hj.
  pose proof (Hr j) as Lr.
  destruct (Nat.ltb_spec j (length a)) as [H1|H1]; unfold lnth.
  - rewrite <- Hw. rewrite !cl_in by lia. reflexivity.
  - rewrite <- Hw. rewrite (cl_out n a) by lia.
    unfold pzero. rewrite vsub_zero_l by exact Lr. rewrite cl_in by lia. reflexivity.
Qed.

(* unary with zero fill *)
Lemma col_unary (f F : list Z -> list Z) a r0 :
  F (pzero n) = pzero n -> (forall j, f (cl n a j) = F (cl n a j)) ->
  vec_unary n f a r0 = build (length r0) (fun j => F (cl n a j)).
Proof.
  intros H0 Hw. unfold vec_unary. apply build_ext. intros j Hj.
  destruct (Nat.ltb_spec j (length a)) as [H1|H1]; unfold lnth.
  - rewrite <- Hw. rewrite cl_in by lia. reflexivity.
  - rewrite cl_out by lia. rewrite H0. reflexivity.
Qed.

Lemma map_as_build (f : list Z -> list Z) (r0 : limbs) : map f r0 = build (length r0) (fun j => f (nth j r0 [])).
Proof.
  apply (nth_ext _ _ [] []); [rewrite map_length, build_length; reflexivity|].
  intros j Hj. rewrite map_length in Hj. rewrite build_nth by exact Hj.
  rewrite (nth_indep _ [] (f [])) by (rewrite map_length; exact Hj). apply map_nth.
Qed.

Lemma col_unary_assign (f F : list Z -> list Z) r0 :
  (forall j, f (cl n r0 j) = F (cl n r0 j)) ->
  vec_unary_assign f r0 = build (length r0) (fun j => F (cl n r0 j)).
Proof.
  intros Hw. unfold vec_unary_assign. rewrite map_as_build. apply build_ext. intros j Hj.
  rewrite <- Hw. rewrite cl_in by lia. reflexivity.
Qed.

(* a - b and a - res when column `a` is missing: the code negates, the canonical form subtracts from zero *)
Lemma col_neg_as_sub b r0 :
  (forall j, vsub W64 (cl n [] j) (cl n b j) = psub (cl n [] j) (cl n b j)) -> (forall j, length (cl n b j) = n) ->
  vec_negate n b r0 = build (length r0) (fun j => psub (cl n [] j) (cl n b j)).
Proof.
  intros Hw Hl. apply (col_unary (vneg W64) (psub (pzero n))); [apply psub_pzero_r; apply pzero_length|].
  intros j. rewrite <- (vsub_zero_l W64 n) by apply Hl. apply Hw.
Qed.
Lemma col_neg_assign_as_sub r0 :
  (forall j, vsub W64 (cl n [] j) (cl n r0 j) = psub (cl n [] j) (cl n r0 j)) -> (forall j, length (cl n r0 j) = n) ->
  vec_unary_assign (vneg W64) r0 = build (length r0) (fun j => psub (cl n [] j) (cl n r0 j)).
Proof.
  intros Hw Hl. apply (col_unary_assign (vneg W64) (psub (pzero n))).
  intros j. rewrite <- (vsub_zero_l W64 n) by apply Hl. apply Hw.
Qed.

Lemma col_zero r0 : vec_zero n r0 = build (length r0) (fun _ => pzero n).
Proof. unfold vec_zero. rewrite map_as_build. reflexivity. Qed.

Lemma xmono_m1_pzero k : xmono_m1 k (pzero n) = pzero n.
Proof.
  unfold xmono_m1. rewrite xmono_pzero. apply psub_pzero_r. apply pzero_length.
Qed.

Lemma col_mul_xp (k : Z) a r0 :
  (forall j, vsub W64 (znx_rotate W64 k (cl n a j)) (cl n a j) = xmono_m1 k (cl n a j)) ->
  vec_mul_xp_minus_one W64 n k a r0 = build (length r0) (fun j => xmono_m1 k (cl n a j)).
Proof.
  intros Hw. unfold vec_mul_xp_minus_one, vec_sub_assign, vec_rotate, vec_unary.
  rewrite build_length. apply build_ext. intros j Hj. unfold lnth.
  rewrite build_nth by exact Hj.
  destruct (Nat.ltb_spec j (length a)) as [H1|H1].
  - rewrite <- Hw. rewrite cl_in by lia. reflexivity.
  - rewrite cl_out by lia. rewrite xmono_m1_pzero. reflexivity.
Qed.

Lemma col_mul_xp_assign (k : Z) r0 :
  (forall j, vsub W64 (znx_rotate W64 k (cl n r0 j)) (cl n r0 j) = xmono_m1 k (cl n r0 j)) ->
  vec_mul_xp_minus_one_assign W64 k r0 = build (length r0) (fun j => xmono_m1 k (cl n r0 j)).
Proof.
  intros Hw. unfold vec_mul_xp_minus_one_assign. rewrite map_as_build. apply build_ext. intros j Hj.
  rewrite <- Hw. rewrite cl_in by lia. reflexivity.
Qed.

End Columns.

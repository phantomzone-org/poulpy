(* C08: every normalisation step kernel, under an explicit headroom hypothesis, performs one
   exact balanced division step  v = x + 2^b * c'  with x the balanced residue of v (no wrap occurs). *)
From PV Require Import Base.MachineInt Model.Znx Proofs.ZnxDigit.
Open Scope Z_scope.

(* quotient of the balanced division by 2^b (= round-half-up of v / 2^b) *)
Definition bdiv (b v : Z) : Z := (v + 2 ^ (b - 1)) / 2 ^ b.

Lemma wrap_bdiv (b v : Z) : 1 <= b -> wrap b v + 2 ^ b * bdiv b v = v.
Proof.
  intros Hb. unfold wrap, bdiv.
  pose proof (pow2_pos b ltac:(lia)) as Hp.
  pose proof (Z.div_mod (v + 2 ^ (b - 1)) (2 ^ b) ltac:(lia)). lia.
Qed.

Lemma decomp_unique (b v x k : Z) : 1 <= b -> in_range b x -> v = x + 2 ^ b * k ->
  wrap b v = x /\ bdiv b v = k.
Proof.
  intros Hb [Hx1 Hx2] Hv.
  pose proof (wrap_bdiv b v Hb) as Hd.
  pose proof (wrap_range b v Hb) as [Hw1 Hw2].
  pose proof (pow2_pos (b - 1) ltac:(lia)) as Hp.
  pose proof (pow2_split b Hb) as Hs.
  assert (Hk : bdiv b v = k) by nia.
  split; [|exact Hk]. rewrite Hk in Hd. lia.
Qed.

Lemma wrap_unique (b x k : Z) : 1 <= b -> in_range b x -> wrap b (x + 2 ^ b * k) = x.
Proof. intros Hb Hx. apply (decomp_unique b _ x k Hb Hx eq_refl). Qed.

Lemma bdiv_unique (b x k : Z) : 1 <= b -> in_range b x -> bdiv b (x + 2 ^ b * k) = k.
Proof. intros Hb Hx. apply (decomp_unique b _ x k Hb Hx eq_refl). Qed.

Lemma wrap_add_mul (b v k : Z) : 1 <= b -> wrap b (v + 2 ^ b * k) = wrap b v.
Proof.
  intros Hb. pose proof (wrap_bdiv b v Hb) as Hd.
  rewrite <- Hd at 1. replace (wrap b v + 2 ^ b * bdiv b v + 2 ^ b * k)
    with (wrap b v + 2 ^ b * (bdiv b v + k)) by ring.
  apply wrap_unique; auto. apply wrap_range; auto.
Qed.

Lemma bdiv_add_mul (b v k : Z) : 1 <= b -> bdiv b (v + 2 ^ b * k) = bdiv b v + k.
Proof.
  intros Hb. pose proof (wrap_bdiv b v Hb) as Hd.
  rewrite <- Hd at 1. replace (wrap b v + 2 ^ b * bdiv b v + 2 ^ b * k)
    with (wrap b v + 2 ^ b * (bdiv b v + k)) by ring.
  apply bdiv_unique; auto. apply wrap_range; auto.
Qed.

Lemma wrap_zero (b : Z) : 1 <= b -> wrap b 0 = 0.
Proof.
  intros Hb. apply wrap_id; auto. unfold in_range.
  pose proof (pow2_pos (b - 1) ltac:(lia)). lia.
Qed.

Lemma bdiv_zero (b : Z) : 1 <= b -> bdiv b 0 = 0.
Proof.
  intros Hb. pose proof (wrap_bdiv b 0 Hb) as Hd. rewrite wrap_zero in Hd by auto.
  pose proof (pow2_pos b ltac:(lia)). nia.
Qed.

(* magnitude of the rounded quotient *)
Lemma bdiv_abs (b v : Z) : 1 <= b -> Z.abs (bdiv b v) * 2 ^ b <= Z.abs v + 2 ^ (b - 1).
Proof.
  intros Hb. pose proof (wrap_bdiv b v Hb) as Hd.
  pose proof (wrap_range b v Hb) as [Hw1 Hw2].
  pose proof (pow2_pos b ltac:(lia)). nia.
Qed.

(* the chaining bound: limbs and carry within H  ==>  next carry within H (any H >= 0) *)
Lemma bdiv_chain (b H v c : Z) : 1 <= b -> 0 <= H ->
  Z.abs v <= H * 2 ^ (b - 1) -> Z.abs c <= H -> Z.abs (bdiv b (v + c)) <= H.
Proof.
  intros Hb HH Hv Hc.
  pose proof (bdiv_abs b (v + c) Hb) as Hk.
  pose proof (pow2_pos (b - 1) ltac:(lia)) as Hp.
  pose proof (pow2_split b Hb) as Hs.
  set (K := Z.abs (bdiv b (v + c))) in *.
  assert (K * 2 ^ b <= H * 2 ^ (b - 1) + H + 2 ^ (b - 1)) by lia.
  destruct (Z_le_gt_dec K H) as [|Hgt]; auto.
  assert ((H + 1) * 2 ^ b <= K * 2 ^ b) by (apply Z.mul_le_mono_nonneg_r; lia).
  nia.
Qed.

Lemma shifted_bound (b H a lsh : Z) : 0 <= lsh < b -> 0 <= H -> Z.abs a <= H ->
  Z.abs (a * 2 ^ lsh) <= H * 2 ^ (b - 1).
Proof.
  intros Hl HH Ha. rewrite Z.abs_mul.
  pose proof (pow2_pos lsh ltac:(lia)).
  rewrite (Z.abs_eq (2 ^ lsh)) by lia.
  assert (2 ^ lsh <= 2 ^ (b - 1)) by (apply Z.pow_le_mono_r; lia).
  nia.
Qed.

Lemma pow_facts (w b : Z) : 1 <= b <= w - 2 ->
  0 < 2 ^ (b - 1) /\ 2 ^ b = 2 * 2 ^ (b - 1) /\ 2 ^ b <= 2 ^ (w - 2) /\ 2 ^ (w - 1) = 2 * 2 ^ (w - 2).
Proof.
  intros Hb. repeat split.
  - apply pow2_pos; lia.
  - apply pow2_split; lia.
  - apply Z.pow_le_mono_r; lia.
  - replace (w - 2) with (w - 1 - 1) by lia. apply pow2_split; lia.
Qed.

(* the digit/carry pair of a word with headroom is the ideal step *)
Lemma digit_carry_ideal (w b x : Z) : 1 <= b <= w - 2 ->
  - 2 ^ (w - 2) - 2 ^ (b - 1) <= x < 2 ^ (w - 2) + 2 ^ (b - 1) ->
  get_digit w b x = wrap b x /\ get_carry w b x (get_digit w b x) = bdiv b x.
Proof.
  intros Hb Hx.
  destruct (pow_facts w b Hb) as (Hp & Hs & Hle & Hw).
  assert (Hd : get_digit w b x = wrap b x) by (apply digit_spec; lia).
  split; auto.
  pose proof (wrap_range b x ltac:(lia)) as [Hr1 Hr2].
  pose proof (wrap_bdiv b x ltac:(lia)) as Hdec.
  assert (Hr : in_range w (x - get_digit w b x)).
  { rewrite Hd. unfold in_range. rewrite Hw. lia. }
  pose proof (carry_spec w b x ltac:(lia) Hr) as Hc. rewrite Hd in *.
  pose proof (pow2_pos b ltac:(lia)). nia.
Qed.

Lemma shl_exact (w x k : Z) : 1 <= w -> in_range w (x * 2 ^ k) -> shl w x k = x * 2 ^ k.
Proof. intros; unfold shl; apply wrap_id; auto. Qed.

(* a balanced digit of radix b - lsh shifted left by lsh is a balanced digit of radix b *)
Lemma shifted_digit_range (b lsh d : Z) : 0 <= lsh < b -> in_range (b - lsh) d -> in_range b (d * 2 ^ lsh).
Proof.
  intros Hl [H1 H2]. unfold in_range.
  pose proof (pow2_pos lsh ltac:(lia)) as HL.
  assert (E : 2 ^ (b - 1) = 2 ^ (b - lsh - 1) * 2 ^ lsh)
    by (rewrite <- Z.pow_add_r by lia; f_equal; lia).
  rewrite E. nia.
Qed.

Lemma in_range_weaken (b w x : Z) : 1 <= b <= w -> in_range b x -> in_range w x.
Proof.
  intros Hb [H1 H2]. unfold in_range.
  assert (2 ^ (b - 1) <= 2 ^ (w - 1)) by (apply Z.pow_le_mono_r; lia). lia.
Qed.

(* how the kernels are built from each other: equations that need no hypothesis *)

Lemma first_step_carry_only_snd (w b lsh a : Z) :
  first_step_carry_only w b lsh a = snd (first_step_assign w b lsh a).
Proof. unfold first_step_carry_only, first_step_assign. destruct (lsh =? 0); cbn [snd]; reflexivity. Qed.

Lemma first_step_of_assign (w : Z) (ov : bool) (b lsh x a : Z) :
  first_step w ov b lsh x a =
    ((if ov then fst (first_step_assign w b lsh a) else wadd w x (fst (first_step_assign w b lsh a))),
     snd (first_step_assign w b lsh a)).
Proof. unfold first_step, first_step_assign. destruct (lsh =? 0); cbn [fst snd]; reflexivity. Qed.

Lemma final_core_fst_middle (w b lsh a c : Z) : final_core w b lsh a c = fst (middle_core w b lsh a c).
Proof. unfold final_core, middle_core. destruct (lsh =? 0); cbn [fst]; reflexivity. Qed.

Section Steps.
Variables w b lsh : Z.
Hypothesis Hb : 1 <= b <= w - 2.
Hypothesis Hl : 0 <= lsh < b.

Let H := 2 ^ (w - 2).

Lemma H_pos : 0 < H.
Proof. apply pow2_pos; lia. Qed.

(* low part of a limb: digit of radix b - lsh, shifted; carry of radix b - lsh *)
Lemma low_part (a : Z) : Z.abs a <= H ->
  let d := get_digit w (b - lsh) a in
  let sh := if lsh =? 0 then d else shl w d lsh in
  let cr := get_carry w (b - lsh) a d in
  sh = wrap b (a * 2 ^ lsh) /\ cr = bdiv b (a * 2 ^ lsh) /\ in_range b sh.
Proof.
  intros Ha d sh cr.
  assert (Hbl : 1 <= b - lsh <= w - 2) by lia.
  destruct (pow_facts w (b - lsh) Hbl) as (Hp & Hs & Hle & Hw).
  destruct (digit_carry_ideal w (b - lsh) a Hbl ltac:(fold H; lia)) as [Hd Hc].
  fold d in Hd, Hc.
  pose proof (wrap_range (b - lsh) a ltac:(lia)) as Hdr. rewrite <- Hd in Hdr.
  pose proof (shifted_digit_range b lsh d Hl Hdr) as Hsr.
  pose proof (wrap_bdiv (b - lsh) a ltac:(lia)) as Hdec. rewrite <- Hd in Hdec.
  assert (Esh : sh = d * 2 ^ lsh).
  { unfold sh. destruct (Z.eqb_spec lsh 0) as [->|Hne]; [rewrite Z.pow_0_r; lia|].
    apply shl_exact; [lia|]. apply (in_range_weaken b w); [lia|auto]. }
  assert (Ecr : cr = bdiv (b - lsh) a) by exact Hc.
  assert (E2 : 2 ^ b = 2 ^ (b - lsh) * 2 ^ lsh)
    by (rewrite <- Z.pow_add_r by lia; f_equal; lia).
  assert (Hv : a * 2 ^ lsh = d * 2 ^ lsh + 2 ^ b * bdiv (b - lsh) a) by (rewrite E2; nia).
  destruct (decomp_unique b (a * 2 ^ lsh) (d * 2 ^ lsh) (bdiv (b - lsh) a) ltac:(lia) Hsr Hv) as [U1 U2].
  rewrite Esh, Ecr, U1, U2. split; [reflexivity|split; [reflexivity|exact Hsr]].
Qed.

Lemma first_step_assign_ideal (a : Z) : Z.abs a <= H ->
  first_step_assign w b lsh a = (wrap b (a * 2 ^ lsh), bdiv b (a * 2 ^ lsh)).
Proof.
  intros Ha. destruct (low_part a Ha) as (E1 & E2 & _).
  unfold first_step_assign. cbv zeta in *. revert E1 E2.
  destruct (Z.eqb_spec lsh 0) as [E0|Hne]; intros E1 E2.
  - replace (b - lsh) with b in * by lia. rewrite E2, E1. reflexivity.
  - rewrite E2, E1. reflexivity.
Qed.

Lemma first_step_carry_only_ideal (a : Z) : Z.abs a <= H ->
  first_step_carry_only w b lsh a = bdiv b (a * 2 ^ lsh).
Proof. intros Ha. rewrite first_step_carry_only_snd, first_step_assign_ideal by exact Ha. reflexivity. Qed.

(* exact addition into a limb with headroom *)
Lemma wadd_digit_exact (x d : Z) : Z.abs x <= H -> in_range b d -> wadd w x d = x + d.
Proof.
  intros Hx [Hd1 Hd2]. destruct (pow_facts w b Hb) as (Hp & Hs & Hle & Hw).
  unfold wadd. apply wrap_id; [lia|]. unfold in_range. fold H in Hle. rewrite Hw. fold H. lia.
Qed.

Lemma wsub_digit_exact (x d : Z) : Z.abs x <= H -> in_range b d -> wsub w x d = x - d.
Proof.
  intros Hx [Hd1 Hd2]. destruct (pow_facts w b Hb) as (Hp & Hs & Hle & Hw).
  unfold wsub. apply wrap_id; [lia|]. unfold in_range. fold H in Hle. rewrite Hw. fold H. lia.
Qed.

Lemma first_step_ideal (ov : bool) (x a : Z) : Z.abs a <= H -> (ov = false -> Z.abs x <= H) ->
  first_step w ov b lsh x a =
    ((if ov then 0 else x) + wrap b (a * 2 ^ lsh), bdiv b (a * 2 ^ lsh)).
Proof.
  intros Ha Hx. rewrite first_step_of_assign, first_step_assign_ideal by exact Ha. cbn [fst snd]. f_equal.
  destruct ov; [lia|]. apply wadd_digit_exact; auto. apply wrap_range; lia.
Qed.

Lemma middle_core_ideal (a c : Z) : Z.abs a <= H -> Z.abs c <= H ->
  middle_core w b lsh a c = (wrap b (a * 2 ^ lsh + c), bdiv b (a * 2 ^ lsh + c)).
Proof.
  intros Ha Hc. destruct (low_part a Ha) as (E1 & E2 & E3).
  destruct (pow_facts w b Hb) as (Hp & Hs & Hle & Hw). fold H in Hle, Hw.
  unfold middle_core.
  assert (Ebl : (if lsh =? 0 then b else b - lsh) = b - lsh)
    by (destruct (Z.eqb_spec lsh 0); lia).
  rewrite Ebl in *. cbv zeta in *.
  set (d := get_digit w (b - lsh) a) in *.
  set (sh := if lsh =? 0 then d else shl w d lsh) in *.
  set (cr := get_carry w (b - lsh) a d) in *.
  destruct E3 as [S1 S2].
  assert (Edpc : wadd w sh c = sh + c).
  { unfold wadd. apply wrap_id; [lia|]. unfold in_range. rewrite Hw. lia. }
  rewrite Edpc.
  destruct (digit_carry_ideal w b (sh + c) Hb ltac:(fold H; lia)) as [Hd2 Hc2].
  rewrite Hc2, Hd2.
  pose proof (wrap_bdiv b (a * 2 ^ lsh) ltac:(lia)) as Hdec. rewrite <- E1, <- E2 in Hdec.
  assert (Ev : a * 2 ^ lsh + c = (sh + c) + 2 ^ b * cr) by lia.
  rewrite Ev, wrap_add_mul, bdiv_add_mul by lia.
  f_equal.
  assert (Hk : Z.abs (bdiv b (a * 2 ^ lsh + c)) <= H).
  { pose proof H_pos. apply bdiv_chain; try lia. apply shifted_bound; auto; lia. }
  rewrite Ev, bdiv_add_mul in Hk by lia.
  unfold wadd. rewrite Z.add_comm. apply wrap_id; [lia|]. unfold in_range. rewrite Hw. lia.
Qed.

Lemma final_core_ideal (a c : Z) : Z.abs a <= H -> Z.abs c <= H ->
  final_core w b lsh a c = wrap b (a * 2 ^ lsh + c).
Proof. intros Ha Hc. rewrite final_core_fst_middle, middle_core_ideal by auto. reflexivity. Qed.

Lemma middle_step_ideal (ov : bool) (x a c : Z) : Z.abs a <= H -> Z.abs c <= H -> (ov = false -> Z.abs x <= H) ->
  middle_step w ov b lsh x a c =
    ((if ov then 0 else x) + wrap b (a * 2 ^ lsh + c), bdiv b (a * 2 ^ lsh + c)).
Proof.
  intros Ha Hc Hx. unfold middle_step. rewrite middle_core_ideal by auto. f_equal.
  destruct ov; [lia|]. apply wadd_digit_exact; auto. apply wrap_range; lia.
Qed.

Lemma middle_step_sub_ideal (x a c : Z) : Z.abs a <= H -> Z.abs c <= H -> Z.abs x <= H ->
  middle_step_sub w b lsh x a c = (x - wrap b (a * 2 ^ lsh + c), bdiv b (a * 2 ^ lsh + c)).
Proof.
  intros Ha Hc Hx. unfold middle_step_sub. rewrite middle_core_ideal by auto. f_equal.
  apply wsub_digit_exact; auto. apply wrap_range; lia.
Qed.

Lemma final_step_ideal (ov : bool) (x a c : Z) : Z.abs a <= H -> Z.abs c <= H -> (ov = false -> Z.abs x <= H) ->
  final_step w ov b lsh x a c = (if ov then 0 else x) + wrap b (a * 2 ^ lsh + c).
Proof.
  intros Ha Hc Hx. unfold final_step. rewrite final_core_ideal by auto.
  destruct ov; [lia|]. apply wadd_digit_exact; auto. apply wrap_range; lia.
Qed.

Lemma final_step_sub_ideal (x a c : Z) : Z.abs a <= H -> Z.abs c <= H -> Z.abs x <= H ->
  final_step_sub w b lsh x a c = x - wrap b (a * 2 ^ lsh + c).
Proof.
  intros Ha Hc Hx. unfold final_step_sub. rewrite final_core_ideal by auto.
  apply wsub_digit_exact; auto. apply wrap_range; lia.
Qed.

End Steps.

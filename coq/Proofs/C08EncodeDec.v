(* C08 encoding: the decoders are the exact Horner value of the limbs wrapped to the word, and the round trip
   encode -> decode returns the balanced representative of the value modulo 2^k. *)
From PV Require Import Base.MachineInt Model.Znx Model.Limbs Model.C08Encode Proofs.ZnxDigit Proofs.C08Steps
  Proofs.C09Lists Proofs.C08EncodeSpec Proofs.C08EncodeCoef.
Open Scope Z_scope.

(* x / 2^r rounded to nearest, ties away from zero (r = 0: no division) *)
Definition rdiv (x r : Z) : Z :=
  if r =? 0 then x else
  let q := Z.quot x (2 ^ r) in let m := Z.rem x (2 ^ r) in
  if 2 * Z.abs m >=? 2 ^ r then q + Z.sgn x else q.

(* exact (unbounded) value returned by the decoders at precision k *)
Definition dec_exact (b k : Z) (l : list Z) : Z :=
  let size := enc_size b k in let krem := enc_krem b k in
  e_lval b (firstn (size - 1) l) * 2 ^ (b - krem) + rdiv (nthZ l (size - 1)) krem.

Lemma wrap_mul_wrap (w Y c x : Z) : 1 <= w -> wrap w (wrap w Y * c + x) = wrap w (Y * c + x).
Proof.
  intros Hw. destruct (wrap_exists w Y Hw) as [q Hq]. rewrite Hq.
  replace ((Y - q * 2 ^ w) * c + x) with (Y * c + x + 2 ^ w * (- q * c)) by ring.
  apply wrap_add_mul; auto.
Qed.

Lemma firstn_snoc (l : list Z) (m : nat) : (m < length l)%nat -> firstn (S m) l = firstn m l ++ [nthZ l m].
Proof.
  revert m; induction l as [|x t IH]; intros m Hm; [cbn in Hm; lia|].
  destruct m as [|m]; [reflexivity|]. cbn [length] in Hm.
  change (firstn (S (S m)) (x :: t)) with (x :: firstn (S m) t).
  rewrite IH by lia. reflexivity.
Qed.

Lemma nthZ_in_range (w : Z) (l : list Z) : 1 <= w -> Forall (in_range w) l -> forall i, in_range w (nthZ l i).
Proof.
  intros Hw Hl i. destruct (Nat.lt_ge_cases i (length l)) as [Hi|Hi].
  - apply Forall_nthZ; assumption.
  - rewrite nthZ_overflow by exact Hi. pose proof (pow2_pos (w - 1) ltac:(lia)). unfold in_range. lia.
Qed.

(* the plain Horner loop of the decoders *)
Lemma horner_fold (w b : Z) (l : list Z) (m : nat) : 1 <= w -> (m < length l)%nat -> in_range w (nthZ l 0) ->
  fold_left (fun y i => wadd w (shl w y b) (nthZ l i)) (seq 1 m) (nthZ l 0) = wrap w (e_lval b (firstn (S m) l)).
Proof.
  intros Hw Hm H0. induction m as [|m IH].
  - cbn [seq fold_left]. destruct l as [|x t]; [cbn in Hm; lia|].
    cbn [firstn]. unfold e_lval. cbn [fold_left nthZ nth]. rewrite Z.mul_0_l, Z.add_0_l.
    symmetry. apply wrap_id; auto.
  - rewrite seq_S, fold_left_app. cbn [fold_left]. rewrite IH by lia.
    replace (1 + m)%nat with (S m) by lia.
    rewrite (firstn_snoc l (S m)) by lia. rewrite lval_app1.
    unfold wadd, shl. rewrite wrap_wrap_add_l by auto. apply wrap_mul_wrap; auto.
Qed.

Lemma rem_facts (x r : Z) : 0 <= r ->
  x = 2 ^ r * Z.quot x (2 ^ r) + Z.rem x (2 ^ r) /\ Z.abs (Z.rem x (2 ^ r)) < 2 ^ r /\ 0 <= Z.rem x (2 ^ r) * x.
Proof.
  intros Hr. pose proof (pow2_pos r Hr) as Hp.
  split; [apply Z.quot_rem'|]. split.
  - pose proof (Z.rem_bound_abs x (2 ^ r) ltac:(lia)). lia.
  - apply Z.rem_sign_mul. lia.
Qed.

Lemma div_round_pow2 (w x r : Z) : 64 <= w -> 1 <= r <= 62 -> in_range 64 x ->
  e_div_round w x (shl w 1 r) = rdiv x r /\ in_range 64 (rdiv x r).
Proof.
  intros Hw Hr [Hx1 Hx2].
  destruct (rem_facts x r ltac:(lia)) as (Eq & Hm & Hs).
  pose proof (pow2_pos r ltac:(lia)) as Hp.
  assert (H2r : 2 <= 2 ^ r). { replace 2 with (2 ^ 1) at 1 by reflexivity. apply Z.pow_le_mono_r; lia. }
  assert (Hr62 : 2 ^ r <= 2 ^ 62) by (apply Z.pow_le_mono_r; lia).
  assert (H63 : 2 ^ 63 <= 2 ^ (w - 1)) by (apply Z.pow_le_mono_r; lia).
  change (2 ^ (64 - 1)) with (2 ^ 63) in *.
  assert (E63 : 2 ^ 63 = 2 * 2 ^ 62) by reflexivity.
  assert (Es : shl w 1 r = 2 ^ r).
  { unfold shl. rewrite Z.mul_1_l. apply wrap_id; [lia|]. unfold in_range. lia. }
  set (q := Z.quot x (2 ^ r)) in *. set (m := Z.rem x (2 ^ r)) in *.
  assert (Hq : Z.abs q * 2 <= 2 ^ 63) by nia.
  assert (Hrd : in_range 64 (rdiv x r)).
  { unfold rdiv. destruct (Z.eqb_spec r 0); [lia|]. fold q m. cbv zeta.
    unfold in_range. change (2 ^ (64 - 1)) with (2 ^ 63).
    destruct (2 * Z.abs m >=? 2 ^ r); lia. }
  split; [|exact Hrd].
  unfold e_div_round, rdiv. rewrite Es. fold q m. cbv zeta.
  destruct (Z.eqb_spec r 0); [lia|].
  assert (Ea : wabs w m = Z.abs m).
  { unfold wabs. apply wrap_id; [lia|]. unfold in_range. lia. }
  assert (Eb : wabs w (2 ^ r) = 2 ^ r).
  { unfold wabs. rewrite Z.abs_eq by lia. apply wrap_id; [lia|]. unfold in_range. lia. }
  assert (Em : wmul w 2 (Z.abs m) = 2 * Z.abs m).
  { unfold wmul. apply wrap_id; [lia|]. unfold in_range. lia. }
  rewrite Ea, Eb, Em.
  destruct (2 * Z.abs m >=? 2 ^ r); [|reflexivity].
  assert (Esg : Z.sgn (2 ^ r) = 1) by (apply Z.sgn_pos; lia).
  rewrite Esg. unfold wmul, wadd. rewrite Z.mul_1_r.
  assert (Hsg : -1 <= Z.sgn x <= 1) by (destruct x; cbn; lia).
  rewrite (wrap_id w (Z.sgn x)) by (try lia; unfold in_range; lia).
  apply wrap_id; [lia|]. unfold in_range. lia.
Qed.

Lemma rdiv_exact (d r : Z) : 0 <= r -> rdiv (d * 2 ^ r) r = d.
Proof.
  intros Hr. unfold rdiv. destruct (Z.eqb_spec r 0) as [E|E].
  - subst r. rewrite Z.pow_0_r. lia.
  - pose proof (pow2_pos r Hr) as Hp. cbv zeta.
    rewrite Z.quot_mul, Z.rem_mul by lia. cbn [Z.abs]. rewrite Z.mul_0_r.
    destruct (Z.geb_spec 0 (2 ^ r)); [lia|reflexivity].
Qed.

Lemma rdiv_0 (x : Z) : rdiv x 0 = x.
Proof. reflexivity. Qed.

Section D.
Variables w b : Z.
Hypothesis Hw : 64 <= w.
Hypothesis Hb : 1 <= b <= 62.

Lemma in_range_64_w (x : Z) : in_range 64 x -> in_range w x.
Proof. apply in_range_weaken. lia. Qed.

(* decode_vec_i64 (w = 64) / decode_vec_i128 (w = 128): exact value, wrapped *)
Theorem dec_vec_spec (k : Z) (l : list Z) : 1 <= k -> (enc_size b k <= length l)%nat ->
  Forall (in_range 64) l -> dec_vec w b k l = wrap w (dec_exact b k l).
Proof.
  intros Hk Hlen Hl.
  destruct (enc_params b k ltac:(lia) Hk) as (Esz & Hr & Hs1).
  pose proof (nthZ_in_range 64 l ltac:(lia) Hl) as Hnth.
  unfold dec_vec, dec_exact, dec_step. cbv zeta.
  set (size := enc_size b k) in *. set (krem := enc_krem b k) in *.
  pose proof (Z.mod_pos_bound k b ltac:(lia)) as Hmb.
  assert (Ekrem : krem = (b - k mod b) mod b) by reflexivity.
  destruct (Z.ltb_spec k b) as [Hlt|Hge].
  - (* a single partial limb *)
    assert (Ekm : k mod b = k) by (apply Z.mod_small; lia).
    rewrite Ekm in *.
    assert (Ek : krem = b - k) by (rewrite Ekrem; apply Z.mod_small; lia).
    assert (Es : size = 1%nat) by (clear - Esz Ek Hs1 Hb; nia).
    rewrite Es. cbn [Nat.sub firstn]. unfold e_lval at 1. cbn [fold_left]. rewrite Z.mul_0_l, Z.add_0_l.
    destruct (div_round_pow2 w (nthZ l 0) (b - k) Hw ltac:(lia) (Hnth 0%nat)) as [E Hrg].
    rewrite E, Ek. symmetry. apply wrap_id; [lia|]. apply in_range_64_w. exact Hrg.
  - destruct (Z.eq_dec (k mod b) 0) as [E0|E0].
    + (* whole limbs only *)
      assert (Ek : krem = 0) by (rewrite Ekrem, E0, Z.sub_0_r; apply Z.mod_same; lia).
      rewrite Ek, Z.sub_0_r, rdiv_0. clear Esz Ekrem Hmb Ek.
      rewrite (fold_left_ext_in _ (fun y i => wadd w (shl w y b) (nthZ l i))).
      * rewrite horner_fold; [|lia|lia|apply in_range_64_w; apply Hnth].
        replace (S (size - 1)) with size by lia.
        replace size with (S (size - 1)) at 1 by lia.
        rewrite firstn_snoc by lia. rewrite lval_app1. reflexivity.
      * intros y i _. rewrite E0, Z.sub_0_r, Z.eqb_refl. cbn [negb].
        rewrite andb_false_r. reflexivity.
    + (* the last limb is partial *)
      assert (Ek : krem = b - k mod b) by (rewrite Ekrem; apply Z.mod_small; lia).
      assert (Hs2 : (2 <= size)%nat) by (clear - Esz Ek Hge Hmb E0 Hb Hs1; nia).
      (* from here k mod b is a number r with 0 < r < b: with the mod in sight every lia below is ten times dearer *)
      clear Esz Ekrem. set (r := k mod b) in *. clearbody r.
      replace (size - 1)%nat with (S (size - 2)) at 1 by lia.
      rewrite seq_S, fold_left_app. cbn [fold_left].
      rewrite (fold_left_ext_in _ (fun y i => wadd w (shl w y b) (nthZ l i))).
      * rewrite horner_fold; [|lia|lia|apply in_range_64_w; apply Hnth].
        replace (1 + (size - 2))%nat with (size - 1)%nat by lia.
        replace (S (size - 2)) with (size - 1)%nat by lia.
        rewrite Nat.eqb_refl.
        destruct (Z.eqb_spec (b - r) b) as [Ebad|_]; [clear - Ebad E0; lia|]. cbn [negb andb].
        replace ((b - (b - r)) mod b) with r by (symmetry; rewrite Z.mod_small; lia).
        destruct (div_round_pow2 w (nthZ l (size - 1)) (b - r) Hw ltac:(lia) (Hnth (size - 1)%nat)) as [E Hrg].
        rewrite E, Ek. replace (b - (b - r)) with r by lia.
        unfold wadd, shl. rewrite wrap_wrap_add_l by lia. apply wrap_mul_wrap. lia.
      * intros y i Hi. apply in_seq in Hi.
        destruct (Nat.eqb_spec i (size - 1)) as [Ebad|_]; [clear - Hi Ebad; lia|]. reflexivity.
Qed.

End D.

(* decode_coeff_i64 computes the same as decode_vec_i64 *)
Theorem dec_coeff_vec (b k : Z) (l : list Z) : 1 <= b <= 62 -> 1 <= k -> (enc_size b k <= length l)%nat ->
  Forall (in_range 64) l -> dec_coeff_i64 b k l = dec_vec 64 b k l.
Proof.
  intros Hb Hk Hlen Hl.
  destruct (enc_params b k ltac:(lia) Hk) as (Esz & Hr & Hs1).
  pose proof (nthZ_in_range 64 l ltac:(lia) Hl) as Hnth.
  unfold dec_coeff_i64, dec_vec. cbv zeta.
  set (size := enc_size b k) in *.
  pose proof (Z.mod_pos_bound k b ltac:(lia)) as Hmb.
  replace size with (S (size - 1)) at 1 by lia.
  cbn [seq fold_left].
  destruct (Z.ltb_spec k b) as [Hlt|Hge].
  - assert (Es : size = 1%nat) by nia.
    rewrite Es. cbn [Nat.sub seq fold_left]. unfold dec_step. cbn [Nat.sub Nat.eqb].
    rewrite Z.mod_small by lia.
    destruct (Z.eqb_spec (b - k) b) as [Ebad|_]; [lia|]. cbn [negb andb].
    destruct (div_round_pow2 64 (nthZ l 0) (b - k) ltac:(lia) ltac:(lia) (Hnth 0%nat)) as [E Hrg].
    rewrite E. unfold wadd, shl. rewrite Z.mul_0_l, wrap_zero by lia. rewrite Z.add_0_l.
    apply wrap_id; [lia|exact Hrg].
  - f_equal. unfold dec_step.
    assert (Hf : (Nat.eqb 0 (size - 1) && negb (b - k mod b =? b))%bool = false).
    { destruct (Nat.eqb_spec 0%nat (size - 1)%nat) as [E1|]; [|reflexivity].
      assert (Es : size = 1%nat) by lia. rewrite Es in Esz.
      assert (k = b) by (unfold enc_krem in *; nia). subst k. rewrite Z.mod_same by lia.
      rewrite Z.sub_0_r, Z.eqb_refl. reflexivity. }
    rewrite Hf. unfold wadd, shl. rewrite Z.mul_0_l, wrap_zero by lia. rewrite Z.add_0_l.
    apply wrap_id; [lia|apply Hnth].
Qed.

(* balanced representative of V modulo 2^k for `size` limbs of radix 2^b *)
Definition enc_rep (b k V : Z) : Z :=
  let k' := b - enc_krem b k in
  wrap k' V + 2 ^ k' * lvalr b (ldigs b (enc_size b k - 1) (bdiv k' V)).

Lemma dec_exact_enc_spec (b k : Z) (a_size : nat) (V : Z) : 1 <= b -> 1 <= k ->
  dec_exact b k (enc_spec b k a_size V) = enc_rep b k V.
Proof.
  intros Hb Hk. destruct (enc_params b k Hb Hk) as (Esz & Hr & Hs1).
  unfold dec_exact, enc_spec, enc_rep. cbv zeta.
  set (size := enc_size b k) in *. set (krem := enc_krem b k) in *.
  set (hi := rev (ldigs b (size - 1) (bdiv (b - krem) V))).
  assert (El : length hi = (size - 1)%nat) by (unfold hi; rewrite rev_length, ldigs_length; reflexivity).
  rewrite <- El at 1. rewrite firstn_app, firstn_all, Nat.sub_diag. cbn [firstn]. rewrite app_nil_r.
  rewrite nthZ_app_r by lia. replace (size - 1 - length hi)%nat with 0%nat by lia. cbn [app nthZ nth].
  rewrite rdiv_exact by lia. unfold hi. rewrite lval_rev. ring.
Qed.

Lemma enc_spec_length (b k : Z) (a_size : nat) (V : Z) : (1 <= enc_size b k <= a_size)%nat ->
  length (enc_spec b k a_size V) = a_size.
Proof.
  intros H. unfold enc_spec. cbv zeta. rewrite !app_length, rev_length, ldigs_length. cbn [length].
  unfold zeros. rewrite repeat_length. lia.
Qed.

Lemma enc_spec_in_range (b k : Z) (a_size : nat) (V : Z) : 1 <= b <= 62 -> 1 <= k ->
  Forall (in_range 64) (enc_spec b k a_size V).
Proof.
  intros Hb Hk. destruct (enc_params b k ltac:(lia) Hk) as (Esz & Hr & Hs1).
  unfold enc_spec. cbv zeta. apply Forall_app; split; [|apply Forall_app; split].
  - apply Forall_rev. eapply Forall_impl; [|apply (ldigs_balanced b); lia].
    intros x Hx. apply (in_range_weaken b 64); [lia|exact Hx].
  - constructor; [|constructor]. apply (in_range_weaken b 64); [lia|].
    apply shifted_digit_range; [lia|]. apply wrap_range; lia.
  - apply Forall_zeros. unfold in_range. cbn. lia.
Qed.

(* enc_lo / enc_hi through the extreme values of size - 1 balanced digits *)
Lemma enc_lo_glo (b k : Z) : enc_lo b k = glo b (enc_size b k - 1) * 2 ^ (b - enc_krem b k) - 2 ^ (b - enc_krem b k - 1).
Proof. unfold enc_lo. cbv zeta. rewrite lval_repeat. unfold glo. ring. Qed.

Lemma pow_k_split (b k : Z) : 1 <= b -> 1 <= k ->
  2 ^ k = 2 ^ (b - enc_krem b k) * 2 ^ (Z.of_nat (enc_size b k - 1) * b).
Proof.
  intros Hb Hk. destruct (enc_params b k Hb Hk) as (Esz & Hr & Hs1).
  assert (Em : Z.of_nat (enc_size b k - 1) = Z.of_nat (enc_size b k) - 1) by lia.
  rewrite Em. rewrite <- Z.pow_add_r by nia. f_equal. nia.
Qed.

Lemma enc_hi_ghi (b k : Z) : 1 <= b -> 1 <= k ->
  enc_hi b k = ghi b (enc_size b k - 1) * 2 ^ (b - enc_krem b k) + 2 ^ (b - enc_krem b k - 1) - 1.
Proof.
  intros Hb Hk. destruct (enc_params b k Hb Hk) as (Esz & Hr & Hs1).
  unfold enc_hi. rewrite enc_lo_glo. rewrite (pow_k_split b k Hb Hk).
  pose proof (ghi_glo b (enc_size b k - 1) Hb) as Hg.
  pose proof (pow2_split (b - enc_krem b k) ltac:(lia)) as Hs. nia.
Qed.

(* the representative: congruent to V modulo 2^k, inside [enc_lo, enc_hi], equal to V when V is inside *)
Lemma enc_rep_congr (b k V : Z) : 1 <= b -> 1 <= k -> (enc_rep b k V - V) mod 2 ^ k = 0.
Proof.
  intros Hb Hk. destruct (enc_params b k Hb Hk) as (Esz & Hr & Hs1).
  unfold enc_rep. cbv zeta. set (k' := b - enc_krem b k). set (m := (enc_size b k - 1)%nat).
  pose proof (ldigs_value b m (bdiv k' V) Hb) as Hv.
  pose proof (wrap_bdiv k' V ltac:(unfold k'; lia)) as Hd.
  rewrite (pow_k_split b k Hb Hk). fold k' m.
  replace (wrap k' V + 2 ^ k' * lvalr b (ldigs b m (bdiv k' V)) - V)
    with (- bdivn b m (bdiv k' V) * (2 ^ k' * 2 ^ (Z.of_nat m * b))) by nia.
  apply Z_mod_mult.
Qed.

Lemma enc_rep_range (b k V : Z) : 1 <= b -> 1 <= k -> enc_lo b k <= enc_rep b k V <= enc_hi b k.
Proof.
  intros Hb Hk. destruct (enc_params b k Hb Hk) as (Esz & Hr & Hs1).
  rewrite enc_lo_glo, enc_hi_ghi by auto. unfold enc_rep. cbv zeta.
  set (k' := b - enc_krem b k). set (m := (enc_size b k - 1)%nat).
  pose proof (lvalr_range b (ldigs b m (bdiv k' V)) Hb (ldigs_balanced b m _ Hb)) as Hrg.
  rewrite ldigs_length in Hrg.
  pose proof (wrap_range k' V ltac:(unfold k'; lia)) as [Hw1 Hw2].
  pose proof (pow2_pos k' ltac:(unfold k'; lia)). nia.
Qed.

Lemma enc_rep_fits (b k V : Z) : 1 <= b -> 1 <= k -> enc_lo b k <= V <= enc_hi b k -> enc_rep b k V = V.
Proof.
  intros Hb Hk. destruct (enc_params b k Hb Hk) as (Esz & Hr & Hs1).
  rewrite enc_lo_glo, enc_hi_ghi by auto. unfold enc_rep. cbv zeta.
  set (k' := b - enc_krem b k). set (m := (enc_size b k - 1)%nat). intros HV.
  pose proof (wrap_range k' V ltac:(unfold k'; lia)) as [Hw1 Hw2].
  pose proof (wrap_bdiv k' V ltac:(unfold k'; lia)) as Hd.
  pose proof (pow2_pos k' ltac:(unfold k'; lia)) as Hp.
  pose proof (pow2_split k' ltac:(unfold k'; lia)) as Hs.
  rewrite fits_exact; [lia|exact Hb|]. split; nia.
Qed.

(* uniqueness of the representative *)
Lemma rep_unique (k lo x y : Z) : 0 <= k -> lo <= x <= lo + 2 ^ k - 1 -> lo <= y <= lo + 2 ^ k - 1 ->
  (x - y) mod 2 ^ k = 0 -> x = y.
Proof.
  intros Hk Hx Hy Hm. pose proof (pow2_pos k Hk) as Hp.
  apply Z.mod_divide in Hm; [|lia]. destruct Hm as [q Hq]. assert (q = 0) by nia. lia.
Qed.

(* with T = 2^(k'-1), half the weight of the last limb, P = 2^(m b) and gh / gl the extreme values of m digits:
   a third of the m-digit range lies on each side of zero *)
Lemma third_fits (T P gh gl v : Z) : 1 <= T -> 1 <= P -> P - 1 <= 3 * gh -> 3 * gl <= - (P - 1) ->
  4 * Z.abs v < 2 * T * P -> gl * (2 * T) - T <= v <= gh * (2 * T) + T - 1.
Proof. intros HT HP Hh Hl Hv. split; nia. Qed.

(* |v| < 2^(k-2) fits, for every radix b >= 2 *)
Lemma small_fits (b k v : Z) : 2 <= b -> 1 <= k -> 4 * Z.abs v < 2 ^ k -> enc_lo b k <= v <= enc_hi b k.
Proof.
  intros Hb Hk Hv. destruct (enc_params b k ltac:(lia) Hk) as (Esz & Hr & Hs1).
  rewrite enc_lo_glo, enc_hi_ghi by lia. rewrite (pow_k_split b k ltac:(lia) Hk) in Hv.
  set (k' := b - enc_krem b k) in *. set (m := (enc_size b k - 1)%nat) in *.
  pose proof (pow2_pos (k' - 1) ltac:(unfold k'; lia)) as Hp1.
  pose proof (pow_nb_pos b m ltac:(lia)) as Hpm.
  rewrite (pow2_split k') in * by (unfold k'; lia).
  apply (third_fits _ (2 ^ (Z.of_nat m * b))); [lia|lia|apply geom_third; exact Hb|apply glo_third; lia|exact Hv].
Qed.

Lemma enc_hi_nonneg (b k : Z) : 1 <= b -> 1 <= k -> 0 <= enc_hi b k.
Proof.
  intros Hb Hk. destruct (enc_params b k Hb Hk) as (Esz & Hr & Hs1).
  rewrite enc_hi_ghi by auto. unfold ghi.
  pose proof (geom_nonneg b (enc_size b k - 1) ltac:(lia)) as Hg.
  pose proof (pow2_pos (b - 1) ltac:(lia)). pose proof (pow2_pos (b - enc_krem b k) ltac:(lia)).
  pose proof (pow2_pos (b - enc_krem b k - 1) ltac:(lia)). nia.
Qed.

(* one limb: the usual centred range; two or more limbs: the range reaches below -2^(k-1) *)
Lemma enc_range_size1 (b k : Z) : 1 <= b -> 1 <= k -> enc_size b k = 1%nat ->
  enc_lo b k = - 2 ^ (k - 1) /\ enc_hi b k = 2 ^ (k - 1) - 1.
Proof.
  intros Hb Hk Hs. destruct (enc_params b k Hb Hk) as (Esz & Hr & Hs1).
  assert (Ek : b - enc_krem b k = k) by nia.
  unfold enc_hi. rewrite enc_lo_glo, Hs, Ek. unfold glo. cbn [Nat.sub geom].
  pose proof (pow2_split k ltac:(lia)). lia.
Qed.

(* T = 2^(k'-1), B = 2^(b-1), P = 2^(m b); g is the geometric sum of m + 1 digits, at least its top term P *)
Lemma lo_below (T B P g : Z) : 1 <= T -> 1 <= B -> 1 <= P -> P <= g ->
  - B * g * (2 * T) - T <= - (T * (2 * B * P)) - 1.
Proof. intros. nia. Qed.

Lemma enc_lo_size2 (b k : Z) : 1 <= b -> 1 <= k -> (2 <= enc_size b k)%nat ->
  enc_lo b k <= - 2 ^ (k - 1) - 1 /\ enc_hi b k < 2 ^ (k - 1) - 1.
Proof.
  intros Hb Hk Hs. destruct (enc_params b k Hb Hk) as (Esz & Hr & Hs1).
  assert (Hlo : enc_lo b k <= - 2 ^ (k - 1) - 1).
  { rewrite enc_lo_glo. set (k' := b - enc_krem b k) in *.
    pose proof (pow_k_split b k Hb Hk) as Hk2. fold k' in Hk2.
    destruct (enc_size b k - 1)%nat as [|m'] eqn:Em; [lia|].
    rewrite pow_nb, (pow2_split k'), (pow2_split b), (pow2_split k) in Hk2 by (unfold k'; lia).
    assert (E : 2 ^ (k - 1) = 2 ^ (k' - 1) * (2 * 2 ^ (b - 1) * 2 ^ (Z.of_nat m' * b))) by lia.
    rewrite E, (pow2_split k') by (unfold k'; lia). unfold glo.
    pose proof (pow2_pos (k' - 1) ltac:(unfold k'; lia)). pose proof (pow2_pos (b - 1) ltac:(lia)).
    pose proof (pow_nb_pos b m' ltac:(lia)).
    apply lo_below; [lia|lia|lia|apply geom_ge_pow; lia]. }
  split; [exact Hlo|]. unfold enc_hi. pose proof (pow2_split k ltac:(lia)). lia.
Qed.

Lemma enc_lo_le (b k : Z) : 1 <= b -> 1 <= k -> enc_lo b k <= - 2 ^ (k - 1) /\ enc_hi b k < 2 ^ (k - 1).
Proof.
  intros Hb Hk. destruct (enc_params b k Hb Hk) as (_ & _ & Hs1).
  destruct (Nat.eq_dec (enc_size b k) 1) as [E|E].
  - destruct (enc_range_size1 b k Hb Hk E) as [-> ->]. lia.
  - destruct (enc_lo_size2 b k Hb Hk ltac:(lia)). lia.
Qed.

(* below the word width the representable range lies inside the word *)
Lemma enc_range_word (b k w x : Z) : 1 <= b -> 1 <= k <= w - 1 -> enc_lo b k <= x <= enc_hi b k -> in_range w x.
Proof.
  intros Hb Hk Hx. destruct (enc_lo_le b k Hb ltac:(lia)) as [_ Hhi].
  pose proof (enc_hi_nonneg b k Hb ltac:(lia)) as Hh0. unfold enc_hi in *.
  assert (2 ^ k <= 2 ^ (w - 1)) by (apply Z.pow_le_mono_r; lia).
  pose proof (pow2_split k ltac:(lia)). unfold in_range. lia.
Qed.

Lemma in_range_unique (w x y : Z) : 1 <= w -> in_range w x -> in_range w y -> (x - y) mod 2 ^ w = 0 -> x = y.
Proof.
  intros Hw [X1 X2] [Y1 Y2] Hm. pose proof (pow2_split w Hw).
  apply (rep_unique w (- 2 ^ (w - 1))); [lia|lia|lia|exact Hm].
Qed.

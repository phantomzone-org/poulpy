(* C07: the single numerical hypothesis behind the FFT64 exactness claim.
   poulpy-cpu-ref/src/reference/fft64/reim/conversion.rs, reim_to_znx_i64_ref:
       res[i] = (a[i] * inv_div).round() as i64
   f64::round rounds to the nearest integer, ties AWAY from zero.  The AVX kernels
   (poulpy-cpu-avx/src/fft64/reim/conversion.rs, the reim_to_znx_i64 avx2 kernels) use the magic-constant trick
   (add 3*2^51, reinterpret, subtract), i.e. the FPU's round-to-nearest-EVEN.
   A pre-rounding value is a rational y/s (s > 0); both roundings are modelled on such pairs and both
   return v as soon as |y/s - v| < 1/2.  No real numbers, no floating point: this isolates what has to be
   true of the f64 butterflies (error < 1/2 before rounding) for the FFT64 products to be exact. *)
From PV Require Import Base.MachineInt.
Open Scope Z_scope.

(* round half away from zero of y/s, s > 0  (f64::round) *)
Definition round_half (y s : Z) : Z :=
  if 0 <=? y then (2 * y + s) / (2 * s) else - ((2 * (- y) + s) / (2 * s)).

(* round half to even of y/s, s > 0 (magic-constant trick under the default rounding mode) *)
Definition round_half_even (y s : Z) : Z :=
  let f := y / s in let r := y mod s in
  if 2 * r <? s then f else if s <? 2 * r then f + 1 else if Z.even f then f else f + 1.

Theorem fft_exact_if_close v y s : 0 < s -> 2 * Z.abs (y - v * s) < s -> round_half y s = v.
Proof.
  intros Hs Hc. unfold round_half.
  destruct (Z.leb_spec 0 y) as [Hy|Hy].
  - symmetry. apply (Z.div_unique_pos _ _ _ (2 * y + s - v * (2 * s))); lia.
  - assert (H : (2 * - y + s) / (2 * s) = - v); [|lia].
    symmetry. apply (Z.div_unique_pos _ _ _ (2 * - y + s - (- v) * (2 * s))); lia.
Qed.

Theorem fft_exact_if_close_even v y s : 0 < s -> 2 * Z.abs (y - v * s) < s -> round_half_even y s = v.
Proof.
  intros Hs Hc. unfold round_half_even. cbv zeta.
  pose proof (Z.div_mod y s ltac:(lia)) as Hdm.
  pose proof (Z.mod_pos_bound y s Hs) as Hb.
  set (f := y / s) in *. set (r := y mod s) in *.
  assert (Hcase : f < v \/ f = v \/ v < f) by lia.
  assert (H1 : f < v -> s * (f - v) <= - s) by (intros; nia).
  assert (H2 : v < f -> s <= s * (f - v)) by (intros; nia).
  assert (H3 : f + 1 < v -> s * (f - v) <= - 2 * s) by (intros; nia).
  assert (Hk : y - v * s = s * (f - v) + r) by lia.
  destruct (Z.ltb_spec (2 * r) s); [lia|].
  destruct (Z.ltb_spec s (2 * r)).
  - assert (Hcase' : f + 1 < v \/ f + 1 = v \/ v < f + 1) by lia. lia.
  - exfalso. lia.
Qed.

(* consequently the two roundings (ref / AVX) agree on every value that is close to an integer *)
Corollary roundings_agree v y s : 0 < s -> 2 * Z.abs (y - v * s) < s -> round_half y s = round_half_even y s.
Proof. intros Hs Hc. rewrite (fft_exact_if_close v), (fft_exact_if_close_even v) by assumption. reflexivity. Qed.

(* the hypothesis is sharp: at distance exactly 1/2 the two roundings differ *)
Lemma roundings_differ_at_tie : round_half 1 2 = 1 /\ round_half_even 1 2 = 0.
Proof. split; reflexivity. Qed.

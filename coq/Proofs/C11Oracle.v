(* C11, soundness of the executable oracle of Model/C11Run.v: frame_eq / col_eq decide exactly the frame and
   the selected-column-agreement statements used by the theorems. *)
From PV Require Import Base.MachineInt Model.Znx Model.Limbs Model.Flat Model.C11Run Proofs.C11Frame Proofs.C11Read.
From Coq Require Import Arith PeanoNat List Bool.
Open Scope nat_scope.

(* the model's in_col and the proofs' in_col are the same function *)
Lemma in_col_same : C11Run.in_col = C11Frame.in_col.
Proof. reflexivity. Qed.

Lemma frame_eq_spec n cols size col (a : list Z) :
  forall b idx0,
  frame_eq n cols size col idx0 a b = true <->
  (length a = length b /\
   forall k, C11Frame.in_col n cols size col (idx0 + k) = false -> nth k a 0%Z = nth k b 0%Z).
Proof.
  rewrite <- in_col_same.
  induction a as [|x a IH]; intros [|y b] idx0; cbn [frame_eq length].
  - split; [intros _; split; [reflexivity|intros; reflexivity]|reflexivity].
  - split; [discriminate|intros [H _]; discriminate].
  - split; [discriminate|intros [H _]; discriminate].
  - rewrite andb_true_iff, orb_true_iff, IH, Z.eqb_eq. split.
    + intros [H0 [Hl Hk]]. split; [lia|].
      intros [|k] Hout.
      * rewrite Nat.add_0_r in Hout. cbn [nth].
        destruct H0 as [H0|H0]; [rewrite H0 in Hout; discriminate|exact H0].
      * cbn [nth]. apply Hk. replace (S idx0 + k) with (idx0 + S k) by lia. exact Hout.
    + intros [Hl Hk]. split; [|split; [lia|]].
      * destruct (C11Run.in_col n cols size col idx0) eqn:E; [left; reflexivity|right].
        apply (Hk 0). rewrite Nat.add_0_r. exact E.
      * intros k Hout. apply (Hk (S k)). replace (idx0 + S k) with (S idx0 + k) by lia. exact Hout.
Qed.

Lemma col_eq_spec n cols size col (a : list Z) :
  forall b idx0,
  col_eq n cols size col idx0 a b = true <->
  (length a = length b /\
   forall k, C11Frame.in_col n cols size col (idx0 + k) = true -> nth k a 0%Z = nth k b 0%Z).
Proof.
  rewrite <- in_col_same.
  induction a as [|x a IH]; intros [|y b] idx0; cbn [col_eq length].
  - split; [intros _; split; [reflexivity|intros; reflexivity]|reflexivity].
  - split; [discriminate|intros [H _]; discriminate].
  - split; [discriminate|intros [H _]; discriminate].
  - rewrite andb_true_iff, orb_true_iff, negb_true_iff, IH, Z.eqb_eq. split.
    + intros [H0 [Hl Hk]]. split; [lia|].
      intros [|k] Hin.
      * rewrite Nat.add_0_r in Hin. cbn [nth].
        destruct H0 as [H0|H0]; [rewrite H0 in Hin; discriminate|exact H0].
      * cbn [nth]. apply Hk. replace (S idx0 + k) with (idx0 + S k) by lia. exact Hin.
    + intros [Hl Hk]. split; [|split; [lia|]].
      * destruct (C11Run.in_col n cols size col idx0) eqn:E; [right|left; reflexivity].
        apply (Hk 0). rewrite Nat.add_0_r. exact E.
      * intros k Hin. apply (Hk (S k)). replace (idx0 + S k) with (S idx0 + k) by lia. exact Hin.
Qed.

(* the statements as used by oracle_c11 (idx0 = 0) *)
Theorem frame_eq_sound n cols size col (a b : list Z) :
  frame_eq n cols size col 0 a b = true <->
  (length a = length b /\
   forall idx, C11Frame.in_col n cols size col idx = false -> nth idx a 0%Z = nth idx b 0%Z).
Proof. apply frame_eq_spec. Qed.

Theorem col_eq_sound n cols size col (a b : list Z) :
  col_eq n cols size col 0 a b = true <->
  (length a = length b /\
   forall idx, C11Frame.in_col n cols size col idx = true -> nth idx a 0%Z = nth idx b 0%Z).
Proof. apply col_eq_spec. Qed.

(* every word of the column is word i of limb j of the column, j < size, i < n *)
Lemma in_col_decompose n cols size col idx :
  0 < n -> 0 < cols -> C11Frame.in_col n cols size col idx = true ->
  exists j i, j < size /\ i < n /\ col < cols /\ idx = n * (j * cols + col) + i.
Proof.
  intros Hn Hc H. unfold C11Frame.in_col in H. apply andb_prop in H as [H1 H2].
  apply Nat.eqb_eq in H1. apply Nat.ltb_lt in H2.
  exists (idx / n / cols), (idx mod n).
  pose proof (Nat.div_mod idx n ltac:(lia)) as E1.
  pose proof (Nat.div_mod (idx / n) cols ltac:(lia)) as E2.
  pose proof (Nat.mod_upper_bound idx n ltac:(lia)).
  pose proof (Nat.mod_upper_bound (idx / n) cols ltac:(lia)).
  split; [exact H2|]. split; [assumption|]. split; [lia|].
  rewrite H1 in E2.
  replace (idx / n / cols * cols + col) with (idx / n) by lia. exact E1.
Qed.

Theorem col_limbs_eq_iff n cols size col (a b : list Z) :
  0 < n -> col < cols -> length a = length b -> n * cols * size <= length a ->
  (col_limbs n cols size a col = col_limbs n cols size b col <->
   forall idx, C11Frame.in_col n cols size col idx = true -> nth idx a 0%Z = nth idx b 0%Z).
Proof.
  intros Hn Hc Hl Hd. split.
  - intros E idx Hin.
    destruct (in_col_decompose n cols size col idx Hn ltac:(lia) Hin) as (j & i & Hj & Hi & _ & ->).
    rewrite <- !(limb_at_nth n cols _ col j i 0%Z Hi).
    rewrite <- !(col_limbs_nth n cols size _ col j Hj). rewrite E. reflexivity.
  - intros H. unfold col_limbs. apply map_ext_in. intros j Hj. apply in_seq in Hj.
    assert (Hfit : n * (j * cols + col) + n <= length a) by (apply (limb_fits n cols size); lia).
    apply (nth_ext _ _ 0%Z 0%Z).
    + rewrite !limb_at_length; [reflexivity|rewrite <- Hl; exact Hfit|exact Hfit].
    + intros i Hi. rewrite limb_at_length in Hi by exact Hfit.
      rewrite !limb_at_nth by exact Hi. apply H.
      apply (in_col_of_range n cols size col j); lia.
Qed.

(* the oracle's third conjunct is exactly the independence statement on well-sized buffers *)
Corollary col_eq_col_limbs n cols size col (a b : list Z) :
  0 < n -> col < cols -> n * cols * size <= length a ->
  (col_eq n cols size col 0 a b = true <->
   (length a = length b /\ col_limbs n cols size a col = col_limbs n cols size b col)).
Proof.
  intros Hn Hc Hd. rewrite col_eq_sound. split; intros [Hl H]; (split; [exact Hl|]).
  - apply col_limbs_eq_iff; assumption.
  - apply (col_limbs_eq_iff n cols size col a b); assumption.
Qed.

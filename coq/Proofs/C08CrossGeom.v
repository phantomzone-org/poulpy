(* C08, cross-radix normalisation: ceilings, and the res limbs read as one integer against val_scaled. *)
From PV Require Import Base.MachineInt Model.Znx Model.Limbs Model.C08Oracle
  Proofs.ZnxDigit Proofs.C08Steps Proofs.C08Chain Proofs.C08Loops Proofs.C08Value Proofs.C08WCrossInner Proofs.C08CrossInner.
Open Scope Z_scope.

Lemma mp2_round (take x : Z) : 1 <= take <= 62 -> Z.abs x <= 2 ^ 62 ->
  exists rho, x = rho + 2 ^ take * mul_power_of_two 64 (- take) x /\ 2 * Z.abs rho <= 2 ^ take /\
              (x mod 2 ^ take = 0 -> rho = 0).
Proof. exact (mp2_roundW 64 take x ltac:(lia)). Qed.

Lemma div_ceil_mul_sub (X y m : Z) : 1 <= y -> 0 <= m < y -> div_ceil (X * y - m) y = X.
Proof.
  intros Hy Hm. unfold div_ceil. symmetry.
  apply (Z.div_unique (X * y - m + y - 1) y X (y - 1 - m)); lia.
Qed.

Lemma val_scaled_Vres (P rb : Z) (rsz : nat) (out : list Z) : 1 <= rb -> length out = rsz -> zn rsz * rb <= P ->
  val_scaled P rb out = 2 ^ (P - zn rsz * rb) * Vres rb rsz out.
Proof.
  intros Hrb Hl HP. rewrite val_scaled_sumn, Hl. unfold Vres. rewrite <- sumn_scale.
  apply sumn_ext. intros i Hi. unfold wt.
  replace (P - (zn i + 1) * rb) with ((P - zn rsz * rb) + (zn rsz - 1 - zn i) * rb) by ring.
  rewrite pow2_add by (unfold zn in *; nia). ring.
Qed.

Lemma Vres_zeros (rb : Z) (rsz : nat) : Vres rb rsz (zeros rsz) = 0.
Proof. unfold Vres. apply sumn_zero. intros t Ht. rewrite nth_zeros. apply Z.mul_0_l. Qed.

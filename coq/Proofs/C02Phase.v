(* C02: the phase map  ct -> body + sum_i s_i * mask_i  is linear over Z[X]/(X^n+1), hence commutes with every
   canonical column-wise operation `gmap2 F` whose F is additive and commutes with multiplication by the secrets.
   Here: the six F are linear (`Flin`), `phase_gmap2`, one call of an exact opcode (`exec_op_phase`) and one
   instruction of a straight-line program (`instr_phase`); the named theorems per operation are in C02Main.v, the
   induction over the instruction list stands under Props.C02.C02_phase_program. *)
From PV Require Import Proofs.C02Poly Proofs.C02Exact Proofs.C02Canon.
From PV Require Import Base.MachineInt Model.Znx Model.Limbs Model.Flat Model.Ring Model.DftAbs Model.C02Ops.
Open Scope Z_scope.

Definition secret_ok (n : nat) (s : list (list Z)) : Prop := Forall (fun t => length t = n) s.

(* F is a homomorphism of Z[X]/(X^n+1)-modules generated by the secrets *)
Record Flin (n : nat) (s : list (list Z)) (F : list Z -> list Z -> list Z) : Prop := {
  fl_zero : F (pzero n) (pzero n) = pzero n;
  fl_len : forall x y, length x = n -> length y = n -> length (F x y) = n;
  fl_add : forall x y x' y', length x = n -> length y = n -> length x' = n -> length y' = n ->
           F (padd x x') (padd y y') = padd (F x y) (F x' y');
  fl_mul : forall t x y, In t s -> length x = n -> length y = n -> F (pmul t x) (pmul t y) = pmul t (F x y) }.

Lemma psub_interchange a a' b b' n : length a = n -> length a' = n -> length b = n -> length b' = n ->
  psub (padd a a') (padd b b') = padd (psub a b) (psub a' b').
Proof.
  intros. apply nthZ_ext; [rewrite !padd_length, !psub_length, !padd_length; lia|]. intros i _.
  rewrite nthZ_psub by (rewrite !padd_length; lia).
  rewrite !nthZ_padd by (rewrite ?psub_length; lia). rewrite !nthZ_psub by lia. lia.
Qed.
Lemma pneg_padd a a' n : length a = n -> length a' = n -> pneg (padd a a') = padd (pneg a) (pneg a').
Proof.
  intros. apply nthZ_ext; [rewrite pneg_length, !padd_length, !pneg_length; lia|]. intros i _.
  rewrite nthZ_pneg. rewrite !nthZ_padd by (rewrite ?pneg_length; lia). rewrite !nthZ_pneg. lia.
Qed.

Section Lin.
Variables (n : nat) (s : list (list Z)).
Hypothesis Hs : secret_ok n s.

Lemma sec_len t : In t s -> length t = n.
Proof. intros H. unfold secret_ok in Hs. rewrite Forall_forall in Hs. apply Hs. exact H. Qed.

Lemma Flin_add : Flin n s Fadd.
Proof.
  split; unfold Fadd.
  - apply padd_pzero_r. apply pzero_length.
  - intros. rewrite padd_length. lia.
  - intros. apply padd_swap4.
  - intros t x y Ht Hx Hy. rewrite pmul_padd_r by (rewrite (sec_len t Ht); assumption). reflexivity.
Qed.
Lemma Flin_sub : Flin n s Fsub.
Proof.
  split; unfold Fsub.
  - apply psub_pzero_r. apply pzero_length.
  - intros. rewrite psub_length. lia.
  - intros. apply (psub_interchange _ _ _ _ n); assumption.
  - intros t x y Ht Hx Hy. rewrite pmul_psub_r by (rewrite (sec_len t Ht); assumption). reflexivity.
Qed.
Lemma Flin_neg : Flin n s Fneg.
Proof.
  split; unfold Fneg.
  - apply pneg_pzero.
  - intros. rewrite pneg_length. lia.
  - intros. apply (pneg_padd _ _ n); assumption.
  - intros t x y Ht Hx Hy. rewrite pmul_pneg_r by (rewrite (sec_len t Ht); assumption). reflexivity.
Qed.
Lemma Flin_id : Flin n s Fid.
Proof. split; unfold Fid; intros; auto. Qed.
Lemma Flin_rot k : Flin n s (Frot k).
Proof.
  split; unfold Frot.
  - apply xmono_pzero.
  - intros. rewrite xmono_length. lia.
  - intros. apply xmono_padd. lia.
  - intros t x y Ht Hx Hy. rewrite pmul_xmono by (rewrite (sec_len t Ht); assumption). reflexivity.
Qed.
Lemma Flin_mx1 k : Flin n s (Fmx1 k).
Proof.
  split; unfold Fmx1, xmono_m1.
  - rewrite xmono_pzero. apply psub_pzero_r. apply pzero_length.
  - intros. rewrite psub_length, xmono_length. lia.
  - intros x y x' y' Hx Hy Hx' Hy'. rewrite xmono_padd by lia.
    apply (psub_interchange _ _ _ _ n); rewrite ?xmono_length; assumption.
  - intros t x y Ht Hx Hy. pose proof (sec_len t Ht).
    rewrite pmul_psub_r by (rewrite ?xmono_length; lia). rewrite pmul_xmono by lia. reflexivity.
Qed.

Lemma exact_F_lin opc k F ix iy : exact_F opc k = Some (F, ix, iy) -> Flin n s F.
Proof.
  revert opc F ix iy. refine (exact_F_ind k _ _ _ _ _ _ _ _ _ _ _ _ _);
    [ apply Flin_add | apply Flin_add | apply Flin_sub | apply Flin_sub | apply Flin_sub | apply Flin_neg | apply Flin_neg
    | apply Flin_id | apply Flin_rot | apply Flin_rot | apply Flin_mx1 | apply Flin_mx1 ].
Qed.

Variable F : list Z -> list Z -> list Z.
Hypothesis HF : Flin n s F.

Lemma gmap2_ncols res a b : g_ncols (gmap2 F n res a b) = g_ncols res.
Proof. unfold gmap2, g_ncols, with_cols. cbn [g_cols]. apply map_seq_length. Qed.

Lemma gl_gmap2 res a b i j : (g_ncols a <= g_ncols res)%nat -> (g_ncols b <= g_ncols res)%nat ->
  (j < g_size res)%nat -> gl n (gmap2 F n res a b) i j = F (gl n a i j) (gl n b i j).
Proof.
  intros Ha Hb Hj. unfold gl at 1. rewrite gmap2_ncols. cbn [gmap2 with_cols g_size].
  destruct (Nat.ltb_spec i (g_ncols res)) as [Hi|Hi]; cbn [andb].
  - destruct (Nat.ltb_spec j (g_size res)); [|lia].
    unfold gmap2, gcol, with_cols. cbn [g_cols].
    rewrite nth_map_seq by exact Hi. apply build_nth. exact Hj.
  - rewrite (gl_col_out n a), (gl_col_out n b) by lia. symmetry. apply (fl_zero n s F HF).
Qed.

Lemma wf_gmap2 res a b : wf_glwe n res -> wf_glwe n a -> wf_glwe n b -> wf_glwe n (gmap2 F n res a b).
Proof.
  intros Hres Ha Hb. destruct Hres as (Hn & Hc & Hf). repeat split.
  - exact Hn.
  - rewrite gmap2_ncols. exact Hc.
  - unfold gmap2, with_cols. cbn [g_cols g_size]. rewrite Forall_forall. intros c Hin.
    apply in_map_iff in Hin. destruct Hin as (i & <- & _). split; [apply build_length|].
    rewrite Forall_forall. intros l Hl. unfold build in Hl. apply in_map_iff in Hl. destruct Hl as (j & <- & _).
    apply (fl_len n s F HF); apply gl_length; assumption.
Qed.

Lemma psum_pmul_length_in (A : nat -> list Z) (L : list nat) : (forall i, In i L -> In (nth i s []) s) ->
  length (psum n (map (fun i => pmul (nth i s []) (A i)) L)) = n.
Proof.
  intros HL. apply psum_list_length. intros x Hx. apply in_map_iff in Hx. destruct Hx as (u & <- & Hu).
  rewrite pmul_length. apply sec_len. apply HL. exact Hu.
Qed.

Lemma psum_pmul_length (A : nat -> list Z) : length (psum n (map (fun i => pmul (nth i s []) (A i)) (seq 0 (length s)))) = n.
Proof. apply psum_pmul_length_in. intros i Hi. apply nth_In. apply in_seq in Hi. lia. Qed.

Lemma psum_lin (A B : nat -> list Z) (L : list nat) :
  (forall i, In i L -> In (nth i s []) s) -> (forall i, length (A i) = n) -> (forall i, length (B i) = n) ->
  psum n (map (fun i => pmul (nth i s []) (F (A i) (B i))) L) =
  F (psum n (map (fun i => pmul (nth i s []) (A i)) L)) (psum n (map (fun i => pmul (nth i s []) (B i)) L)).
Proof.
  intros HL HA HB. induction L as [|i L IH]; cbn [map psum fold_right].
  - symmetry. apply (fl_zero n s F HF).
  - fold (psum n (map (fun i => pmul (nth i s []) (F (A i) (B i))) L)).
    fold (psum n (map (fun i => pmul (nth i s []) (A i)) L)). fold (psum n (map (fun i => pmul (nth i s []) (B i)) L)).
    assert (HL' : forall i, In i L -> In (nth i s []) s) by (intros; apply HL; right; assumption).
    rewrite IH by exact HL'.
    assert (Hi : In (nth i s []) s) by (apply HL; left; reflexivity).
    pose proof (sec_len _ Hi) as Li.
    rewrite <- (fl_mul n s F HF) by auto.
    rewrite <- (fl_add n s F HF); try reflexivity; try (rewrite pmul_length; exact Li); apply psum_pmul_length_in; exact HL'.
Qed.

Theorem phase_limb_gmap2 res a b j : wf_glwe n a -> wf_glwe n b ->
  (g_ncols a <= g_ncols res)%nat -> (g_ncols b <= g_ncols res)%nat -> (j < g_size res)%nat ->
  phase_limb n s (gmap2 F n res a b) j = F (phase_limb n s a j) (phase_limb n s b j).
Proof.
  intros Ha Hb Ca Cb Hj. unfold phase_limb.
  rewrite gl_gmap2 by assumption.
  rewrite (map_ext _ (fun i => pmul (nth i s []) (F (gl n a (S i) j) (gl n b (S i) j))))
    by (intros i; rewrite gl_gmap2 by assumption; reflexivity).
  rewrite (psum_lin (fun i => gl n a (S i) j) (fun i => gl n b (S i) j)).
  - rewrite <- (fl_add n s F HF); try reflexivity; try (apply gl_length; assumption); apply psum_pmul_length.
  - intros i Hi. apply nth_In. apply in_seq in Hi. lia.
  - intros i. apply gl_length. exact Ha.
  - intros i. apply gl_length. exact Hb.
Qed.

End Lin.

Section Lists.
Variables (n : nat) (s : list (list Z)).
Hypothesis Hs : secret_ok n s.

Lemma phase_length g : length (phase n s g) = g_size g.
Proof. unfold phase. apply map_seq_length. Qed.

Lemma psum_zeros (L : list nat) : (forall i, In i L -> In (nth i s []) s) ->
  psum n (map (fun i => pmul (nth i s []) (pzero n)) L) = pzero n.
Proof.
  intros HL. induction L as [|i L IH]; cbn [map psum fold_right]; [reflexivity|].
  fold (psum n (map (fun i => pmul (nth i s []) (pzero n)) L)).
  rewrite IH by (intros; apply HL; right; assumption).
  pose proof (sec_len n s Hs _ (HL i (or_introl eq_refl))) as Li.
  rewrite pmul_pzero_r by exact Li. apply padd_pzero_r. apply pzero_length.
Qed.

Lemma phase_limb_out g j : (g_size g <= j)%nat -> phase_limb n s g j = pzero n.
Proof.
  intros Hj. unfold phase_limb. rewrite gl_limb_out by exact Hj.
  rewrite (map_ext _ (fun i => pmul (nth i s []) (pzero n))) by (intros i; rewrite gl_limb_out by exact Hj; reflexivity).
  rewrite psum_zeros; [apply padd_pzero_r; apply pzero_length|].
  intros i Hi. apply nth_In. apply in_seq in Hi. lia.
Qed.

Lemma cl_phase g j : cl n (phase n s g) j = phase_limb n s g j.
Proof.
  unfold cl. rewrite phase_length. destruct (Nat.ltb_spec j (g_size g)) as [H|H].
  - unfold phase. apply nth_map_seq. exact H.
  - symmetry. apply phase_limb_out. exact H.
Qed.

Theorem phase_gmap2 F res a b : Flin n s F -> wf_glwe n a -> wf_glwe n b ->
  (g_ncols a <= g_ncols res)%nat -> (g_ncols b <= g_ncols res)%nat ->
  phase n s (gmap2 F n res a b) = pt_map2 F n (g_size res) (phase n s a) (phase n s b).
Proof.
  intros HF Ha Hb Ca Cb. unfold phase at 1, pt_map2, build. cbn [gmap2 with_cols g_size].
  apply map_seq_ext. intros j Hj. rewrite !cl_phase.
  apply (phase_limb_gmap2 n s Hs F HF); assumption.
Qed.

(* one call *)
Theorem exec_op_phase opc scr k res a b r F ix iy :
  exact_F opc k = Some (F, ix, iy) ->
  wf_glwe n res -> wf_glwe n a -> wf_glwe n b ->
  step_exact n opc k res a b ->
  exec_op opc n scr k res a b = Some r ->
  wf_glwe n r /\
  phase n s r = pt_map2 F n (g_size res) (phase n s (pick3 ix res a b)) (phase n s (pick3 iy res a b)).
Proof.
  intros HF Hres Ha Hb Hstep He.
  destruct (exec_op_canon n opc scr k res a b r F ix iy HF Hres Ha Hb Hstep He) as (-> & Cx & Cy).
  pose proof (exact_F_lin n s Hs opc k F ix iy HF) as HL.
  assert (Wx : wf_glwe n (pick3 ix res a b)) by (destruct ix as [|[|ix]]; assumption).
  assert (Wy : wf_glwe n (pick3 iy res a b)) by (destruct iy as [|[|iy]]; assumption).
  split.
  - apply (wf_gmap2 n s F HL); assumption.
  - apply phase_gmap2; assumption.
Qed.

Lemma set_nth_length {A} (l : list A) i x : length (set_nth l i x) = length l.
Proof. revert i; induction l as [|h t IH]; intros [|i]; cbn [set_nth length]; auto. Qed.
Lemma map_set_nth {A B} (f : A -> B) (l : list A) i x : map f (set_nth l i x) = set_nth (map f l) i (f x).
Proof. revert i; induction l as [|h t IH]; intros [|i]; cbn [set_nth map]; try reflexivity. rewrite IH. reflexivity. Qed.
Lemma Forall_set_nth {A} (P : A -> Prop) (l : list A) i x : Forall P l -> P x -> Forall P (set_nth l i x).
Proof.
  revert i; induction l as [|h t IH]; intros [|i] Hl Hx; cbn [set_nth]; auto; inversion Hl; subst; constructor; auto.
Qed.

Lemma nth_map_phase regs i : nth i (map (phase n s) regs) [] = phase n s (reg regs i).
Proof. unfold reg. apply (map_nth (phase n s) regs (zero_glwe 0 0 0 0)). Qed.

Lemma wf_reg regs i : Forall (wf_glwe n) regs -> (i < length regs)%nat -> wf_glwe n (reg regs i).
Proof. intros H Hi. rewrite Forall_forall in H. apply H. apply nth_In. exact Hi. Qed.

Lemma pick3_map {A B} (f : A -> B) i r a b : f (pick3 i r a b) = pick3 i (f r) (f a) (f b).
Proof. destruct i as [|[|i]]; reflexivity. Qed.

(* every step of the run is an exact operation executed without 64-bit wrap *)
Fixpoint prog_exact (scr : Z) (prog : list instr) (regs : list glwe) : Prop :=
  match prog with
  | [] => True
  | ins :: p =>
      step_exact n (i_op ins) (i_k ins) (reg regs (i_d ins)) (reg regs (i_x ins)) (reg regs (i_y ins)) /\
      forall regs', exec_instr n scr regs ins = Some regs' -> prog_exact scr p regs'
  end.

Lemma run_prog_none scr prog :
  fold_left (fun st ins => match st with Some r => exec_instr n scr r ins | None => None end) prog None = None.
Proof. induction prog as [|i p IH]; cbn [fold_left]; auto. Qed.

Theorem instr_phase scr regs ins regs' :
  Forall (wf_glwe n) regs ->
  step_exact n (i_op ins) (i_k ins) (reg regs (i_d ins)) (reg regs (i_x ins)) (reg regs (i_y ins)) ->
  exec_instr n scr regs ins = Some regs' ->
  Forall (wf_glwe n) regs' /\ map (phase n s) regs' = pt_instr n (map (phase n s) regs) ins.
Proof.
  intros Hwf Hstep He. unfold exec_instr in He.
  destruct (_ && _)%bool eqn:E; [|discriminate]. split_andb E.
  apply Nat.ltb_lt in E, E0, E1.
  destruct (exec_op _ _ _ _ _ _ _) as [g|] eqn:Eo; [|discriminate]. injection He as <-.
  assert (HF : exists F ix iy, exact_F (i_op ins) (i_k ins) = Some (F, ix, iy)).
  { unfold step_exact in Hstep. destruct (exact_F (i_op ins) (i_k ins)) as [[[F ix] iy]|]; [eauto|contradiction]. }
  destruct HF as (F & ix & iy & HF).
  destruct (exec_op_phase _ scr _ _ _ _ g F ix iy HF (wf_reg regs _ Hwf E) (wf_reg regs _ Hwf E1) (wf_reg regs _ Hwf E0) Hstep Eo)
    as (Wg & Pg).
  split.
  - apply Forall_set_nth; assumption.
  - rewrite map_set_nth. unfold pt_instr. rewrite HF. rewrite !nth_map_phase. rewrite phase_length.
    rewrite Pg. rewrite !(pick3_map (phase n s)). reflexivity.
Qed.

End Lists.

(* C08, cross-radix normalisation: the fuel of the model's inner loop is never exhausted, i.e. the
   model function is total (`normalize_cross ... <> None`) for all radices >= 1, sizes, offsets, contents. *)
From PV Require Import Base.MachineInt Model.Znx Model.Limbs Proofs.C08Chain.
Open Scope Z_scope.

Section Cross.
Variables rb ab : Z.
Hypothesis Hrb : 1 <= rb.
Hypothesis Hab : 1 <= ab.

(* one run of the inner loop: the number of bits left in the current a-limb strictly decreases *)
Lemma cross_inner_ok (a_limb : nat) : forall (fuel : nat) (s : cstate),
  0 < c_atake s <= ab -> c_atake s <= Z.of_nat fuel -> 0 < c_racc s ->
  snd (cross_inner 64 fuel rb ab a_limb s) <> Fuel /\
  (snd (cross_inner 64 fuel rb ab a_limb s) = InnerDone -> 0 < c_racc (fst (cross_inner 64 fuel rb ab a_limb s))).
Proof.
  induction fuel as [|f IH]; intros s Ha Hf Hr; [lia|].
  cbn [cross_inner].
  set (a_take := Z.min (Z.min ab (c_atake s)) (c_racc s)).
  assert (Hat : 1 <= a_take /\ a_take <= c_atake s /\ a_take <= c_racc s /\
                (a_take = c_atake s \/ a_take = c_racc s)) by (unfold a_take; lia).
  destruct (Z.eqb_spec a_take 0) as [E|_]; [lia|].
  destruct (extract_digit_addmul 64 a_take (rb - c_racc s) (nthZ (c_res s) (c_rlimb s)) (c_anorm s)) as [r' n'].
  cbn [c_res c_anorm c_acarry c_rcarry c_atake c_racc c_rlimb].
  set (atake' := c_atake s - a_take). set (racc' := c_racc s - a_take).
  assert (Hz : 0 <= atake' /\ 0 <= racc' /\ (atake' = 0 \/ racc' = 0) /\ atake' < c_atake s)
    by (unfold atake', racc'; lia).
  destruct ((racc' =? 0) || Nat.eqb a_limb 0)%bool eqn:Eb.
  - destruct (Nat.eqb a_limb 0 && (atake' =? 0))%bool eqn:Ec.
    + (* last a-limb fully consumed: break *)
      destruct (racc' =? 0).
      * destruct (middle_step_assign 64 rb 0 _ _) as [x rc]. cbn [fst snd]. split; [discriminate|discriminate].
      * destruct (extract_digit_addmul 64 racc' _ _ _) as [r2 n2].
        destruct (middle_step_assign 64 rb 0 _ _) as [x rc]. cbn [fst snd]. split; [discriminate|discriminate].
    + destruct (Nat.eqb (c_rlimb s) 0).
      * cbn [fst snd]. split; [discriminate|discriminate].
      * cbn [c_res c_anorm c_acarry c_rcarry c_atake c_racc c_rlimb].
        destruct (Z.eqb_spec atake' 0) as [E0|E0].
        -- cbn [fst snd c_racc]. split; [discriminate|]. intros _. lia.
        -- apply IH; cbn [c_atake c_racc]; lia.
  - (* the current res limb is not full and this is not the last a-limb: the a-limb must be exhausted *)
    apply Bool.orb_false_iff in Eb. destruct Eb as [Eb _]. apply Z.eqb_neq in Eb.
    destruct (Z.eqb_spec atake' 0) as [E0|E0]; [|lia].
    cbn [fst snd c_racc]. split; [discriminate|]. intros _. lia.
Qed.

(* vec_znx_normalize_cross_base2k never runs out of fuel *)
Theorem normalize_cross_total (off : Z) (a r0 : list Z) : normalize_cross 64 rb ab off a r0 <> None.
Proof.
  unfold normalize_cross.
  destruct (split_offset ab off) as [lsh lo].
  set (rsz := length r0). set (asz := length a).
  set (a_tot := zn asz * ab). set (r_tot := zn rsz * rb).
  set (res_start_bit := clampZ (a_tot - lo * ab) 0 r_tot).
  set (a_start_bit := clampZ (r_tot + lo * ab) 0 a_tot).
  set (res_start := Z.to_nat (div_ceil res_start_bit rb)).
  set (a_start := Z.to_nat (div_ceil a_start_bit ab)).
  set (a_end := Z.to_nat (clampZ (lo * ab) 0 a_tot / ab)).
  destruct (Nat.eqb res_start 0); [discriminate|].
  set (fuel := (Z.to_nat ab + Z.to_nat rb + 4)%nat).
  set (s0 := {| c_res := zeros rsz; c_anorm := 0;
                c_acarry := carry_phase 64 ab lsh a asz (asz - a_start); c_rcarry := 0;
                c_atake := 0; c_racc := rb; c_rlimb := (res_start - 1)%nat |}).
  match goal with |- context [fold_left ?f (seq 0 ?n) ?init] => set (body := f) end.
  destruct (fold_left_seq_ind body (fun j (acc : cstate * bool * bool) =>
      snd acc = false /\ (snd (fst acc) = false -> 0 < c_racc (fst (fst acc)) /\
                          (j = 0%nat -> c_racc (fst (fst acc)) = rb))) (a_start - a_end) (s0, false, false))
    as [I1 _].
  - cbn [fst snd s0 c_racc]. split; [reflexivity|]. intros _. split; [lia|reflexivity].
  - intros j [[s brk] bad] Hj [Ibad Ir]. cbn [fst snd] in Ibad, Ir. subst bad. unfold body.
    destruct brk; cbn [orb].
    + cbn [fst snd]. split; [reflexivity|discriminate].
    + destruct (Ir eq_refl) as [Hracc Hj0].
      destruct (middle_step 64 true ab lsh 0 (nthZ a (a_start - j - 1)) (c_acarry s)) as [an ac].
      cbn [c_res c_anorm c_acarry c_rcarry c_atake c_racc c_rlimb].
      match goal with |- context [cross_inner 64 fuel rb ab ?al ?st] =>
        assert (Hst : 0 < c_atake st <= ab /\ 0 < c_racc st); [|
          destruct (cross_inner_ok al fuel st (proj1 Hst) ltac:(unfold fuel; clear - Hst; lia) (proj2 Hst)) as [C1 C2];
          destruct (cross_inner 64 fuel rb ab al st) as [s3 [| |]]; cbn [fst snd] in *;
          [split; [reflexivity|intros _; split; [apply C2; reflexivity|lia]]
          |split; [reflexivity|discriminate]
          |exfalso; apply C1; reflexivity]]
      end.
      destruct (Nat.eqb_spec j 0) as [E0|E0].
      * specialize (Hj0 E0).
        destruct (negb ((a_tot - a_start_bit) mod ab =? 0)) eqn:E1.
        -- cbn [c_atake c_racc].
           pose proof (Z.mod_pos_bound (a_tot - a_start_bit) ab ltac:(lia)).
           apply Bool.negb_true_iff, Z.eqb_neq in E1. lia.
        -- destruct (negb ((r_tot - res_start_bit) mod rb =? 0)) eqn:E2; cbn [c_atake c_racc]; [|lia].
           pose proof (Z.mod_pos_bound (r_tot - res_start_bit) rb ltac:(lia)) as Hm.
           apply Bool.negb_true_iff, Z.eqb_neq in E2. clear - Hm E2 Hj0 Hab. lia.
      * cbn [c_atake c_racc]. lia.
  - destruct (fold_left _ (seq 0 (a_start - a_end)) (s0, false, false)) as [[s brk] bad].
    cbn [snd] in I1. subst bad.
    destruct (Nat.eqb (Z.to_nat (clampZ (- lo * ab) 0 r_tot / rb)) 0); discriminate.
Qed.

End Cross.

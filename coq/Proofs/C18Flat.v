(* C18 — level 0 (VecZnx / ScalarZnx / MatZnx): inversion lemmas of the two readers, totality, invariant,
   metadata on failure, round trip; the refutations for the reader before /repo 206cd69 (`read_flat`). *)
From PV Require Import Base.MachineInt Model.C18Serial Proofs.C18Bytes.
Open Scope Z_scope.

Definition good (o : outcome) : Prop := o = Ok \/ o = Err.

(* the header can be used with the buffer: limb count within capacity, every addressable byte exists *)
Definition inv_flat (r : flat) : Prop :=
  length (fh r) = nhdr (fk r) /\
  lprod (cap_factors (fk r) (fh r)) <= blen (fd r) /\
  (fk r = KVec -> hd_ (fh r) 2 <= hd_ (fh r) 3).

(* weaker: the active part only (size instead of max_size) *)
Definition inv_active (r : flat) : Prop :=
  length (fh r) = nhdr (fk r) /\ lprod (factors (fk r) (fh r)) <= blen (fd r).

(* an object whose header arithmetic does not overflow in any of the orders the code uses, payload inside the buffer *)
Definition wf_flat (x : flat) : Prop :=
  length (fh x) = nhdr (fk x) /\ Forall u64 (fh x) /\
  snd (chain (factors (fk x) (fh x))) = false /\
  snd (wchain (fk x) (fh x)) = false /\
  snd (chain (fixed_factors (fk x) (fh x))) = false /\
  payload_len x <= blen (fd x).

(* what a successful read leaves in the receiver *)
Definition loaded (h : list Z) (r x : flat) : flat :=
  {| fk := fk r; fh := h; fd := active x ++ skipn (Z.to_nat (payload_len x)) (fd r) |}.

(* the stream's header does not overflow: the guard under which the reader before the repair (`read_flat`) is total *)
Definition hdr_no_overflow (k : lkind) (s : bytes) : Prop :=
  forall h s1, rd_fields (nhdr k) s = Some (h, s1) -> snd (chain (factors k h)) = false.

Lemma hd_u64 (h : list Z) (i : nat) : Forall u64 h -> u64 (hd_ h i).
Proof.
  intros HF. unfold hd_. destruct (Nat.lt_ge_cases i (length h)) as [Hl|Hl].
  - eapply Forall_forall; [exact HF|]. apply nth_In; exact Hl.
  - rewrite nth_overflow by exact Hl. unfold u64. split; [lia|reflexivity].
Qed.

Lemma u64_8 : u64 8. Proof. unfold u64; split; [lia|reflexivity]. Qed.

(* Forall u64 of a literal list whose entries are header words of h (HF : Forall u64 h) or the constant 8 *)
Ltac u64s HF := repeat (apply Forall_cons); try apply Forall_nil; try (apply hd_u64; exact HF); try apply u64_8.

Lemma factors_u64 (k : lkind) (h : list Z) : Forall u64 h -> Forall u64 (factors k h).
Proof.
  intros HF; destruct k; cbn [factors]; u64s HF.
Qed.

Lemma fixed_factors_u64 (k : lkind) (h : list Z) : Forall u64 h -> Forall u64 (fixed_factors k h).
Proof.
  intros HF; destruct k; cbn [fixed_factors factors]; u64s HF.
Qed.

Lemma factors_ne (k : lkind) (h : list Z) : factors k h <> [].
Proof. destruct k; cbn; discriminate. Qed.
Lemma fixed_factors_ne (k : lkind) (h : list Z) : fixed_factors k h <> [].
Proof. destruct k; cbn; discriminate. Qed.

Lemma hd_pos (h : list Z) (i : nat) : Forall (fun v => 1 <= v) h -> (i < length h)%nat -> 1 <= hd_ h i.
Proof. intros HF Hi. exact (proj1 (Forall_forall _ h) HF _ (nth_In h 0 Hi)). Qed.

Lemma factors_pos (k : lkind) (h : list Z) :
  length h = nhdr k -> Forall (fun v => 1 <= v) h ->
  Forall (fun v => 1 <= v) (factors k h) /\ Forall (fun v => 1 <= v) (fixed_factors k h).
Proof.
  intros Hl HF. destruct k; cbn [nhdr] in Hl; cbn [factors fixed_factors]; split;
    repeat (apply Forall_cons); try apply Forall_nil; try (apply hd_pos; [exact HF | lia]); lia.
Qed.

Lemma lprod_fixed (k : lkind) (h : list Z) : lprod (fixed_factors k h) = lprod (factors k h).
Proof. destruct k; cbn [fixed_factors factors lprod fold_right]; ring. Qed.

Lemma blen_nonneg (d : bytes) : 0 <= blen d. Proof. unfold blen; lia. Qed.

Lemma wchain_exact (k : lkind) (h : list Z) :
  Forall u64 h -> snd (wchain k h) = false ->
  fst (wchain k h) = lprod (factors k h) /\ 0 <= lprod (factors k h) < 2 ^ 64.
Proof.
  intros HF Hs. destruct k; cbn [wchain] in *.
  - apply chain_exact; [apply factors_u64; exact HF|apply factors_ne|exact Hs].
  - apply chain_exact; [apply factors_u64; exact HF|apply factors_ne|exact Hs].
  - set (a := chain [hd_ h 2; hd_ h 3]) in *. set (b := chain [hd_ h 0; hd_ h 4; hd_ h 1; 8]) in *.
    cbn [fst snd] in *.
    destruct (snd a) eqn:Ea; [discriminate|]. destruct (snd b) eqn:Eb; [discriminate|]. cbn [orb] in Hs.
    apply Z.leb_gt in Hs.
    assert (Ha : fst a = lprod [hd_ h 2; hd_ h 3] /\ 0 <= lprod [hd_ h 2; hd_ h 3] < 2 ^ 64).
    { apply chain_exact; [u64s HF|discriminate|exact Ea]. }
    assert (Hb : fst b = lprod [hd_ h 0; hd_ h 4; hd_ h 1; 8] /\ 0 <= lprod [hd_ h 0; hd_ h 4; hd_ h 1; 8] < 2 ^ 64).
    { apply chain_exact; [u64s HF|discriminate|exact Eb]. }
    destruct Ha as [Ha1 Ha2]. destruct Hb as [Hb1 Hb2]. rewrite Ha1, Hb1 in *.
    cbn [factors lprod fold_right] in *. unfold wrapu. rewrite Z.mod_small by nia. split; [ring|nia].
Qed.

Lemma wf_payload (x : flat) :
  wf_flat x ->
  payload_len x = lprod (factors (fk x) (fh x)) /\ u64 (payload_len x) /\
  fst (chain (factors (fk x) (fh x))) = payload_len x /\
  fst (chain (fixed_factors (fk x) (fh x))) = payload_len x.
Proof.
  intros (Hl & HF & H1 & H2 & H3 & Hp).
  destruct (wchain_exact _ _ HF H2) as [Hw Hr].
  destruct (chain_exact _ (factors_u64 (fk x) _ HF) (factors_ne _ _) H1) as [Hc _].
  destruct (chain_exact _ (fixed_factors_u64 (fk x) _ HF) (fixed_factors_ne _ _) H3) as [Hd _].
  unfold payload_len. rewrite Hw, Hc, Hd, lprod_fixed. unfold u64. auto.
Qed.

Lemma active_length (x : flat) : wf_flat x -> length (active x) = Z.to_nat (payload_len x).
Proof.
  intros Hwf. destruct (wf_payload x Hwf) as (_ & Hu & _). destruct Hwf as (_ & _ & _ & _ & _ & Hp).
  unfold active. apply firstn_length_le. unfold blen in Hp. lia.
Qed.

(* the reader before the repair (`read_flat`): what can come out *)
Lemma read_flat_cases (dbg partial : bool) (r : flat) (s : bytes) (o : outcome) (r' : flat) (t : bytes) :
  read_flat dbg partial r s = (o, r', t) ->
  (o = Err /\ fk r' = fk r /\ fh r' = fh r /\ length (fd r') = length (fd r)) \/
  (o = PanicOverflow /\ r' = r /\ dbg = true /\
     exists h s1, rd_fields (nhdr (fk r)) s = Some (h, s1) /\ snd (chain (factors (fk r) h)) = true) \/
  (exists h s1 len s2 a,
     rd_fields (nhdr (fk r)) s = Some (h, s1) /\ rd 8 s1 = Some (len, s2) /\
     fst (chain (factors (fk r) h)) = len /\ len <= blen (fd r) /\
     ((o = Ok /\ snd (chain (factors (fk r) h)) = false) \/
      (o = OkWrapped /\ snd (chain (factors (fk r) h)) = true /\ dbg = false)) /\
     s2 = a ++ t /\ length a = Z.to_nat len /\
     r' = {| fk := fk r; fh := h; fd := a ++ skipn (Z.to_nat len) (fd r) |}).
Proof.
  unfold read_flat.
  destruct (rd_fields (nhdr (fk r)) s) as [[h s1]|] eqn:E1.
  2:{ intros H; inversion H; subst. left; auto. }
  destruct (rd 8 s1) as [[len s2]|] eqn:E2.
  2:{ intros H; inversion H; subst. left; auto. }
  destruct (snd (chain (factors (fk r) h)) && dbg) eqn:E3.
  { intros H; inversion H; subst. apply andb_true_iff in E3. destruct E3 as [E3 E3'].
    right; left. repeat split; auto. exists h, s1; auto. }
  destruct (fst (chain (factors (fk r) h)) =? len) eqn:E4; cbn [negb].
  2:{ intros H; inversion H; subst. left; auto. }
  apply Z.eqb_eq in E4.
  destruct (blen (fd r) <? len) eqn:E5.
  { intros H; inversion H; subst. left; auto. }
  apply Z.ltb_ge in E5.
  assert (Hn : (Z.to_nat len <= length (fd r))%nat) by (unfold blen in E5; lia).
  replace (Z.to_nat len <=? length (fd r))%nat with true by (symmetry; apply Nat.leb_le; exact Hn).
  cbn [negb].
  destruct (rx partial (Z.to_nat len) (fd r) s2) as [[ok d'] s3] eqn:E6.
  destruct ok.
  - intros H; inversion H; subst. apply rx_ok in E6. destruct E6 as (a & Hs2 & Hla & Hd).
    right; right. exists h, s1, (fst (chain (factors (fk r) h))), s2, a.
    repeat split; auto.
    + destruct (snd (chain (factors (fk r) h))) eqn:E7.
      * right. cbn [andb] in E3. auto.
      * left; auto.
    + subst d'. reflexivity.
  - intros H; inversion H; subst. left. repeat split; auto. cbn [fd].
    pose proof (rx_length partial _ (fd r) s2 Hn) as Hl. rewrite E6 in Hl. exact Hl.
Qed.

Lemma read_flat_never_oob (dbg partial : bool) (r : flat) (s : bytes) :
  fst (fst (read_flat dbg partial r s)) <> PanicOob.
Proof.
  destruct (read_flat dbg partial r s) as [[o r'] t] eqn:E. cbn [fst].
  apply read_flat_cases in E. destruct E as [(-> & _)|[(-> & _)|(h & s1 & len & s2 & a & _ & _ & _ & _ & [(-> & _)|(-> & _)] & _)]]; discriminate.
Qed.

(* read_total under the guard "the header of the stream does not overflow" *)
Lemma read_flat_total_guarded (dbg partial : bool) (r : flat) (s : bytes) :
  hdr_no_overflow (fk r) s -> good (fst (fst (read_flat dbg partial r s))).
Proof.
  intros Hg. destruct (read_flat dbg partial r s) as [[o r'] t] eqn:E. cbn [fst].
  apply read_flat_cases in E.
  destruct E as [(-> & _)|[(-> & _ & _ & h & s1 & E1 & E2)|(h & s1 & len & s2 & a & E1 & _ & _ & _ & [(-> & _)|(-> & E2 & _)] & _)]].
  - right; reflexivity.
  - rewrite (Hg _ _ E1) in E2. discriminate.
  - left; reflexivity.
  - rewrite (Hg _ _ E1) in E2. discriminate.
Qed.

(* metadata untouched on Err (true of the HAL readers already before the repair) *)
Lemma read_flat_err_leaves_metadata (dbg partial : bool) (r : flat) (s : bytes) (r' : flat) (t : bytes) :
  read_flat dbg partial r s = (Err, r', t) ->
  fk r' = fk r /\ fh r' = fh r /\ length (fd r') = length (fd r).
Proof.
  intros E. apply read_flat_cases in E.
  destruct E as [(_ & H)|[(H & _)|(h & s1 & len & s2 & a & _ & _ & _ & _ & [(H & _)|(H & _)] & _)]]; try discriminate H.
  exact H.
Qed.

Lemma read_flat_length (dbg partial : bool) (r : flat) (s : bytes) :
  length (fd (snd (fst (read_flat dbg partial r s)))) = length (fd r) /\
  fk (snd (fst (read_flat dbg partial r s))) = fk r.
Proof.
  destruct (read_flat dbg partial r s) as [[o r'] t] eqn:E. cbn [fst snd].
  apply read_flat_cases in E.
  destruct E as [(_ & Hk & _ & Hl)|[(_ & -> & _)|(h & s1 & len & s2 & a & _ & E2 & _ & Hle & _ & _ & Hla & ->)]]; auto.
  cbn [fd fk]. split; [|reflexivity]. rewrite app_length, skipn_length. apply rd_u64 in E2. unfold u64, blen in *. lia.
Qed.

(* the active part stays inside the buffer after Ok and after Err *)
Lemma read_flat_preserves_active (dbg partial : bool) (r : flat) (s : bytes) (o : outcome) (r' : flat) (t : bytes) :
  read_flat dbg partial r s = (o, r', t) -> good o -> inv_active r -> inv_active r'.
Proof.
  intros E Hg (Hl & Hp). apply read_flat_cases in E.
  destruct E as [(_ & Hk & Hh & Hd)|[(-> & _)|(h & s1 & len & s2 & a & E1 & E2 & E3 & Hle & [(_ & E4)|(-> & _)] & _ & Hla & ->)]].
  - unfold inv_active, blen. rewrite Hk, Hh, Hd. auto.
  - destruct Hg; discriminate.
  - destruct (rd_fields_some _ _ _ _ E1) as (Hlh & HF & _).
    destruct (chain_exact _ (factors_u64 (fk r) _ HF) (factors_ne _ _) E4) as [Hc _].
    unfold inv_active. cbn [fk fh fd]. split; [exact Hlh|].
    rewrite <- Hc, E3. unfold blen. rewrite app_length, skipn_length.
    apply rd_u64 in E2. unfold u64, blen in *. lia.
  - destruct Hg; discriminate.
Qed.

(* full invariant under the guard on the stream's max_size (ScalarZnx / MatZnx: no guard needed) *)
Lemma read_flat_preserves_inv_guarded (dbg partial : bool) (r : flat) (s : bytes) (o : outcome) (r' : flat) (t : bytes) :
  read_flat dbg partial r s = (o, r', t) -> good o -> inv_flat r ->
  (fk r = KVec -> o = Ok -> hd_ (fh r') 2 <= hd_ (fh r') 3 /\ lprod (cap_factors KVec (fh r')) <= blen (fd r)) ->
  inv_flat r'.
Proof.
  intros E Hg (Hl & Hp & Hs) Hguard. apply read_flat_cases in E.
  destruct E as [(_ & Hk & Hh & Hd)|[(-> & _)|(h & s1 & len & s2 & a & E1 & E2 & E3 & Hle & [(-> & E4)|(-> & _)] & _ & Hla & ->)]].
  - unfold inv_flat, blen. rewrite Hk, Hh, Hd. auto.
  - destruct Hg; discriminate.
  - destruct (rd_fields_some _ _ _ _ E1) as (Hlh & HF & _).
    destruct (chain_exact _ (factors_u64 (fk r) _ HF) (factors_ne _ _) E4) as [Hc _].
    assert (Hlen : blen (a ++ skipn (Z.to_nat len) (fd r)) = blen (fd r)).
    { unfold blen. rewrite app_length, skipn_length. apply rd_u64 in E2. unfold u64, blen in *. lia. }
    unfold inv_flat. cbn [fk fh fd] in *. rewrite Hlen. split; [exact Hlh|].
    destruct (fk r) eqn:Ek.
    + destruct (Hguard eq_refl eq_refl) as [G1 G2]. split; [exact G2|intros _; exact G1].
    + split; [|discriminate]. cbn [cap_factors]. rewrite <- Hc, E3. exact Hle.
    + split; [|discriminate]. cbn [cap_factors]. rewrite <- Hc, E3. exact Hle.
  - destruct Hg; discriminate.
Qed.

(* round trip *)
Lemma read_flat_roundtrip (dbg partial : bool) (r x : flat) (tl : bytes) :
  wf_flat x -> fk r = fk x -> payload_len x <= blen (fd r) ->
  read_flat dbg partial r (write_flat x ++ tl) = (Ok, loaded (fh x) r x, tl).
Proof.
  intros Hwf Hk Hcap. pose proof (wf_payload x Hwf) as (Hpl & Hu & Hc & _).
  pose proof (active_length x Hwf) as Hal.
  destruct Hwf as (Hl & HF & H1 & H2 & H3 & Hp).
  unfold read_flat, write_flat. rewrite Hk, <- Hl, <- !app_assoc.
  rewrite rd_fields_app by exact HF.
  rewrite rd_le by (rewrite pow256_8; exact Hu).
  rewrite H1. cbn [andb]. rewrite Hc, Z.eqb_refl. cbn [negb].
  replace (blen (fd r) <? payload_len x) with false by (symmetry; apply Z.ltb_ge; exact Hcap).
  replace (Z.to_nat (payload_len x) <=? length (fd r))%nat with true
    by (symmetry; apply Nat.leb_le; unfold blen in Hcap; unfold u64 in Hu; lia).
  cbn [negb]. rewrite <- Hal, rx_app. unfold loaded. rewrite Hal, Hk. reflexivity.
Qed.

Lemma read_flat_fixed_cases (dbg partial : bool) (r : flat) (s : bytes) (o : outcome) (r' : flat) (t : bytes) :
  read_flat_fixed dbg partial r s = (o, r', t) ->
  (o = Err /\ fk r' = fk r /\ fh r' = fh r /\ length (fd r') = length (fd r)) \/
  (exists h s1 len s2 a,
     o = Ok /\
     rd_fields (nhdr (fk r)) s = Some (h, s1) /\ rd 8 s1 = Some (len, s2) /\
     snd (chain (fixed_factors (fk r) h)) = false /\
     fst (chain (fixed_factors (fk r) h)) = len /\ len <= blen (fd r) /\
     (fk r = KVec -> hd_ h 2 <= hd_ h 3) /\
     s2 = a ++ t /\ length a = Z.to_nat len /\
     r' = {| fk := fk r; fh := clamp_hdr (fk r) h (blen (fd r)); fd := a ++ skipn (Z.to_nat len) (fd r) |}).
Proof.
  unfold read_flat_fixed.
  destruct (rd_fields (nhdr (fk r)) s) as [[h s1]|] eqn:E1.
  2:{ intros H; inversion H; subst. left; auto. }
  destruct (rd 8 s1) as [[len s2]|] eqn:E2.
  2:{ intros H; inversion H; subst. left; auto. }
  destruct (snd (chain (fixed_factors (fk r) h))) eqn:E3.
  { intros H; inversion H; subst. left; auto. }
  destruct (fst (chain (fixed_factors (fk r) h)) =? len) eqn:E4; cbn [negb].
  2:{ intros H; inversion H; subst. left; auto. }
  apply Z.eqb_eq in E4.
  destruct (lkind_eqb (fk r) KVec && (hd_ h 3 <? hd_ h 2)) eqn:E8.
  { intros H; inversion H; subst. left; auto. }
  destruct (blen (fd r) <? len) eqn:E5.
  { intros H; inversion H; subst. left; auto. }
  apply Z.ltb_ge in E5.
  assert (Hn : (Z.to_nat len <= length (fd r))%nat) by (unfold blen in E5; lia).
  replace (Z.to_nat len <=? length (fd r))%nat with true by (symmetry; apply Nat.leb_le; exact Hn).
  cbn [negb].
  destruct (rx partial (Z.to_nat len) (fd r) s2) as [[ok d'] s3] eqn:E6.
  destruct ok.
  - intros H; inversion H; subst. apply rx_ok in E6. destruct E6 as (a & Hs2 & Hla & Hd).
    right. exists h, s1, (fst (chain (fixed_factors (fk r) h))), s2, a.
    repeat split; auto.
    + intros Ek. rewrite Ek in E8. cbn [lkind_eqb andb] in E8. apply Z.ltb_ge in E8. exact E8.
    + subst d'. reflexivity.
  - intros H; inversion H; subst. left. repeat split; auto. cbn [fd].
    pose proof (rx_length partial _ (fd r) s2 Hn) as Hl. rewrite E6 in Hl. exact Hl.
Qed.

Lemma read_flat_fixed_total (dbg partial : bool) (r : flat) (s : bytes) :
  good (fst (fst (read_flat_fixed dbg partial r s))).
Proof.
  destruct (read_flat_fixed dbg partial r s) as [[o r'] t] eqn:E. cbn [fst].
  apply read_flat_fixed_cases in E. destruct E as [(-> & _)|(h & s1 & len & s2 & a & -> & _)]; [right|left]; reflexivity.
Qed.

Lemma set_nth_length (i : nat) (v : Z) (l : list Z) : (i < length l)%nat -> length (set_nth i v l) = length l.
Proof.
  intros Hi. unfold set_nth. rewrite app_length, firstn_length_le by lia. cbn [length]. rewrite skipn_length. lia.
Qed.

Lemma clamp_vec (h : list Z) (cap : Z) :
  length h = 4%nat ->
  hd_ (clamp_hdr KVec h cap) 0 = hd_ h 0 /\ hd_ (clamp_hdr KVec h cap) 1 = hd_ h 1 /\
  hd_ (clamp_hdr KVec h cap) 2 = hd_ h 2 /\
  hd_ (clamp_hdr KVec h cap) 3 =
    Z.min (hd_ h 3) (if hd_ h 0 * hd_ h 1 * 8 =? 0 then hd_ h 3 else cap / (hd_ h 0 * hd_ h 1 * 8)) /\
  length (clamp_hdr KVec h cap) = 4%nat.
Proof.
  intros Hl. destruct h as [|a [|b [|c [|d [|]]]]]; try discriminate Hl.
  unfold clamp_hdr, set_nth, hd_. cbn [nth firstn skipn app length]. repeat split; reflexivity.
Qed.

Lemma read_flat_fixed_preserves_inv (dbg partial : bool) (r : flat) (s : bytes) (o : outcome) (r' : flat) (t : bytes) :
  read_flat_fixed dbg partial r s = (o, r', t) -> inv_flat r -> inv_flat r'.
Proof.
  intros E (Hl & Hp & Hs). apply read_flat_fixed_cases in E.
  destruct E as [(_ & Hk & Hh & Hd)|(h & s1 & len & s2 & a & -> & E1 & E2 & E3 & E4 & Hle & Hsm & _ & Hla & ->)].
  - unfold inv_flat, blen. rewrite Hk, Hh, Hd. auto.
  - destruct (rd_fields_some _ _ _ _ E1) as (Hlh & HF & _).
    destruct (chain_exact _ (fixed_factors_u64 (fk r) _ HF) (fixed_factors_ne _ _) E3) as [Hc _].
    rewrite lprod_fixed in Hc.
    assert (Hlen : blen (a ++ skipn (Z.to_nat len) (fd r)) = blen (fd r)).
    { unfold blen. rewrite app_length, skipn_length. apply rd_u64 in E2. unfold u64, blen in *. lia. }
    unfold inv_flat. cbn [fk fh fd] in *. rewrite Hlen.
    destruct (fk r) eqn:Ek.
    + (* VecZnx: max_size clamped to the capacity *)
      cbn [nhdr] in Hlh. destruct (clamp_vec h (blen (fd r)) Hlh) as (C0 & C1 & C2 & C3 & CL).
      split; [exact CL|].
      pose proof (hd_u64 h 0 HF) as U0. pose proof (hd_u64 h 1 HF) as U1.
      pose proof (hd_u64 h 2 HF) as U2. pose proof (hd_u64 h 3 HF) as U3. unfold u64 in *.
      specialize (Hsm eq_refl).
      cbn [factors lprod fold_right] in Hc. cbn [cap_factors lprod fold_right].
      rewrite C0, C1, C2, C3.
      set (lb := hd_ h 0 * hd_ h 1 * 8) in *.
      assert (Hlb : 0 <= lb) by (unfold lb; nia).
      destruct (lb =? 0) eqn:Elb.
      * apply Z.eqb_eq in Elb. rewrite Z.min_id. split; [|intros _; exact Hsm].
        replace (hd_ h 0 * (hd_ h 1 * (hd_ h 3 * (8 * 1)))) with (lb * hd_ h 3) by (unfold lb; ring).
        rewrite Elb. pose proof (blen_nonneg (fd r)). lia.
      * apply Z.eqb_neq in Elb. assert (Hlb' : 0 < lb) by lia.
        assert (Hsz : lb * hd_ h 2 <= blen (fd r)).
        { replace (lb * hd_ h 2) with (hd_ h 0 * (hd_ h 1 * (hd_ h 2 * (8 * 1)))) by (unfold lb; ring). lia. }
        assert (Hq : hd_ h 2 <= blen (fd r) / lb) by (apply Z.div_le_lower_bound; lia).
        assert (Hq2 : lb * (blen (fd r) / lb) <= blen (fd r)) by (apply Z.mul_div_le; lia).
        split.
        -- replace (hd_ h 0 * (hd_ h 1 * (Z.min (hd_ h 3) (blen (fd r) / lb) * (8 * 1))))
             with (lb * Z.min (hd_ h 3) (blen (fd r) / lb)) by (unfold lb; ring).
           assert (Z.min (hd_ h 3) (blen (fd r) / lb) <= blen (fd r) / lb) by apply Z.le_min_r. nia.
        -- intros _. apply Z.min_glb; assumption.
    + cbn [clamp_hdr]. split; [exact Hlh|]. split; [|discriminate]. cbn [cap_factors]. rewrite <- Hc, E4. exact Hle.
    + cbn [clamp_hdr]. split; [exact Hlh|]. split; [|discriminate]. cbn [cap_factors]. rewrite <- Hc, E4. exact Hle.
Qed.

Lemma read_flat_fixed_roundtrip (dbg partial : bool) (r x : flat) (tl : bytes) :
  wf_flat x -> fk r = fk x -> payload_len x <= blen (fd r) ->
  (fk x = KVec -> hd_ (fh x) 2 <= hd_ (fh x) 3) ->
  read_flat_fixed dbg partial r (write_flat x ++ tl) = (Ok, loaded (clamp_hdr (fk x) (fh x) (blen (fd r))) r x, tl).
Proof.
  intros Hwf Hk Hcap Hsm. pose proof (wf_payload x Hwf) as (Hpl & Hu & _ & Hc).
  pose proof (active_length x Hwf) as Hal.
  destruct Hwf as (Hl & HF & H1 & H2 & H3 & Hp).
  unfold read_flat_fixed, write_flat. rewrite Hk, <- Hl, <- !app_assoc.
  rewrite rd_fields_app by exact HF.
  rewrite rd_le by (rewrite pow256_8; exact Hu).
  rewrite H3, Hc, Z.eqb_refl. cbn [negb].
  replace (lkind_eqb (fk x) KVec && (hd_ (fh x) 3 <? hd_ (fh x) 2)) with false.
  2:{ symmetry. destruct (fk x); cbn [lkind_eqb andb]; try reflexivity. apply Z.ltb_ge. apply Hsm; reflexivity. }
  replace (blen (fd r) <? payload_len x) with false by (symmetry; apply Z.ltb_ge; exact Hcap).
  replace (Z.to_nat (payload_len x) <=? length (fd r))%nat with true
    by (symmetry; apply Nat.leb_le; unfold blen in Hcap; unfold u64 in Hu; lia).
  cbn [negb]. rewrite <- Hal, rx_app. unfold loaded. rewrite Hal, Hk. reflexivity.
Qed.

(* the writer is a function of the header and the active bytes only: no backend, no slack bytes *)
Lemma write_flat_logical (x y : flat) : fh x = fh y -> active x = active y -> fk x = fk y -> write_flat x = write_flat y.
Proof. intros H1 H2 H3. unfold write_flat, payload_len. rewrite H1, H2, H3. reflexivity. Qed.

(* a sufficient condition for wf_flat: positive dimensions and the payload inside a buffer of less than 2^64 bytes *)
Lemma wf_flat_of_pos (x : flat) :
  length (fh x) = nhdr (fk x) -> Forall (fun v => 1 <= v) (fh x) -> Forall u64 (fh x) ->
  lprod (factors (fk x) (fh x)) <= blen (fd x) -> blen (fd x) < 2 ^ 64 -> wf_flat x.
Proof.
  intros Hl Hpos HU Hp Hb. destruct x as [k h d]; cbn [fk fh fd] in *.
  destruct (factors_pos k h Hl Hpos) as (P1 & P3).
  assert (N1 : snd (chain (factors k h)) = false) by (apply chain_noovf_pos; [exact P1 | lia]).
  assert (N3 : snd (chain (fixed_factors k h)) = false) by (apply chain_noovf_pos; [exact P3 | rewrite lprod_fixed; lia]).
  assert (N2 : snd (wchain k h) = false).
  { destruct k; [exact N1 | exact N1 |]. clear N1 N3 P3. cbn [wchain factors] in *.
    (* MatZnx: rows * cols_in and n * cols_out * size * 8 are multiplied separately, then together *)
    repeat match goal with H : Forall _ (_ :: _) |- _ => inversion H; clear H; subst end.
    cbn [lprod fold_right] in Hp.
    assert (Na : snd (chain [hd_ h 2; hd_ h 3]) = false)
      by (apply chain_noovf_pos; [repeat (apply Forall_cons); try apply Forall_nil; lia | cbn [lprod fold_right]; nia]).
    assert (Nb : snd (chain [hd_ h 0; hd_ h 4; hd_ h 1; 8]) = false)
      by (apply chain_noovf_pos; [repeat (apply Forall_cons); try apply Forall_nil; lia | cbn [lprod fold_right]; nia]).
    destruct (chain_exact [hd_ h 2; hd_ h 3]) as [Ea _]; [u64s HU | discriminate | exact Na |].
    destruct (chain_exact [hd_ h 0; hd_ h 4; hd_ h 1; 8]) as [Eb _]; [u64s HU | discriminate | exact Nb |].
    cbn [fst snd]. rewrite Na, Nb, Ea, Eb. cbn [orb lprod fold_right]. apply Z.leb_gt. nia. }
  unfold wf_flat, payload_len; cbn [fk fh fd]. rewrite (proj1 (wchain_exact k h HU N2)). auto 7.
Qed.


Definition vec_payload (x : vec_znx) : Z := vn x * vcols x * vsize x * 8.
Definition scalar_payload (x : scalar_znx) : Z := sn x * scols x * 8.
Definition mat_payload (x : mat_znx) : Z := mrows x * mcols_in x * mn x * mcols_out x * msize x * 8.

Lemma vec_payload_eq (x : vec_znx) : wf_flat (flat_of_vec x) -> payload_len (flat_of_vec x) = vec_payload x.
Proof.
  intros H. destruct (wf_payload _ H) as (-> & _). unfold vec_payload, flat_of_vec. cbn [fk fh factors lprod fold_right].
  unfold hd_; cbn [nth]. ring.
Qed.
Lemma scalar_payload_eq (x : scalar_znx) : wf_flat (flat_of_scalar x) -> payload_len (flat_of_scalar x) = scalar_payload x.
Proof.
  intros H. destruct (wf_payload _ H) as (-> & _). unfold scalar_payload, flat_of_scalar. cbn [fk fh factors lprod fold_right].
  unfold hd_; cbn [nth]. ring.
Qed.
Lemma mat_payload_eq (x : mat_znx) : wf_flat (flat_of_mat x) -> payload_len (flat_of_mat x) = mat_payload x.
Proof.
  intros H. destruct (wf_payload _ H) as (-> & _). unfold mat_payload, flat_of_mat. cbn [fk fh factors lprod fold_right].
  unfold hd_; cbn [nth]. ring.
Qed.

Lemma read_vec_znx_roundtrip (dbg partial : bool) (r x : vec_znx) (tl : bytes) :
  wf_flat (flat_of_vec x) -> vec_payload x <= blen (vdata r) ->
  read_vec_znx dbg partial r (write_vec_znx x ++ tl) =
    (Ok, {| vn := vn x; vcols := vcols x; vsize := vsize x; vmax_size := vmax_size x;
            vdata := firstn (Z.to_nat (vec_payload x)) (vdata x) ++ skipn (Z.to_nat (vec_payload x)) (vdata r) |}, tl).
Proof.
  intros Hwf Hcap. pose proof (vec_payload_eq x Hwf) as Hp.
  unfold read_vec_znx, lift_read, write_vec_znx.
  rewrite read_flat_roundtrip; [|exact Hwf|reflexivity|rewrite Hp; exact Hcap].
  unfold loaded, vec_of_flat, active. rewrite Hp. reflexivity.
Qed.

Lemma read_scalar_znx_roundtrip (dbg partial : bool) (r x : scalar_znx) (tl : bytes) :
  wf_flat (flat_of_scalar x) -> scalar_payload x <= blen (sdata r) ->
  read_scalar_znx dbg partial r (write_scalar_znx x ++ tl) =
    (Ok, {| sn := sn x; scols := scols x;
            sdata := firstn (Z.to_nat (scalar_payload x)) (sdata x) ++ skipn (Z.to_nat (scalar_payload x)) (sdata r) |}, tl).
Proof.
  intros Hwf Hcap. pose proof (scalar_payload_eq x Hwf) as Hp.
  unfold read_scalar_znx, lift_read, write_scalar_znx.
  rewrite read_flat_roundtrip; [|exact Hwf|reflexivity|rewrite Hp; exact Hcap].
  unfold loaded, scalar_of_flat, active. rewrite Hp. reflexivity.
Qed.

Lemma read_mat_znx_roundtrip (dbg partial : bool) (r x : mat_znx) (tl : bytes) :
  wf_flat (flat_of_mat x) -> mat_payload x <= blen (mdata r) ->
  read_mat_znx dbg partial r (write_mat_znx x ++ tl) =
    (Ok, {| mn := mn x; msize := msize x; mrows := mrows x; mcols_in := mcols_in x; mcols_out := mcols_out x;
            mdata := firstn (Z.to_nat (mat_payload x)) (mdata x) ++ skipn (Z.to_nat (mat_payload x)) (mdata r) |}, tl).
Proof.
  intros Hwf Hcap. pose proof (mat_payload_eq x Hwf) as Hp.
  unfold read_mat_znx, lift_read, write_mat_znx.
  rewrite read_flat_roundtrip; [|exact Hwf|reflexivity|rewrite Hp; exact Hcap].
  unfold loaded, mat_of_flat, active. rewrite Hp. reflexivity.
Qed.

Lemma read_flat_fixed_never_panics (dbg partial : bool) (r : flat) (s : bytes) :
  is_panic (fst (fst (read_flat_fixed dbg partial r s))) = false.
Proof. destruct (read_flat_fixed_total dbg partial r s) as [-> | ->]; reflexivity. Qed.

(* refutations for the reader before /repo 206cd69 (current_flat) *)
Definition w_recv : flat := {| fk := KVec; fh := [1; 1; 1; 1]; fd := repeat 0 64%nat |}.
(* n = 2^61, cols = size = max_size = 1, len = 0:  2^61 * 1 * 1 * 8 = 2^64 *)
Definition w_overflow : bytes := le_bytes 8 (2 ^ 61) ++ le_bytes 8 1 ++ le_bytes 8 1 ++ le_bytes 8 1 ++ le_bytes 8 0.

Lemma read_flat_total_refuted_debug :
  fst (fst (read_flat true false w_recv w_overflow)) = PanicOverflow.
Proof. vm_compute. reflexivity. Qed.

Lemma read_flat_total_refuted_release :
  exists r', read_flat false false w_recv w_overflow = (OkWrapped, r', []) /\
             hd_ (fh r') 0 = 2 ^ 61 /\ blen (fd r') = 64 /\ ~ inv_active r'.
Proof.
  eexists. split; [vm_compute; reflexivity|]. split; [vm_compute; reflexivity|]. split; [vm_compute; reflexivity|].
  intros [_ H]. vm_compute in H. apply H. reflexivity.
Qed.

(* honest stream: an object with size = 1 and max_size = 5 read into a 1-limb receiver *)
Definition w_maxsize : bytes := le_bytes 8 1 ++ le_bytes 8 1 ++ le_bytes 8 1 ++ le_bytes 8 5 ++ le_bytes 8 8 ++ repeat 7 8%nat.
Definition w_recv8 : flat := {| fk := KVec; fh := [1; 1; 1; 1]; fd := repeat 0 8%nat |}.

Lemma read_flat_preserves_inv_refuted :
  inv_flat w_recv8 /\
  exists r', read_flat false false w_recv8 w_maxsize = (Ok, r', []) /\ hd_ (fh r') 3 = 5 /\ ~ inv_flat r'.
Proof.
  split.
  - unfold inv_flat. split; [reflexivity|]. split; [vm_compute; discriminate|intros _; vm_compute; discriminate].
  - eexists. split; [vm_compute; reflexivity|]. split; [reflexivity|].
    intros (_ & H & _). vm_compute in H. apply H. reflexivity.
Qed.

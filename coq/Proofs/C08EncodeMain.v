(* C08 encoding: the round trip of an encoder with its decoder and the shape of the written limbs, stated once
   over the pair (`codec`); the three pairs of encoding.rs are instances. *)
From PV Require Import Base.MachineInt Model.Znx Model.Limbs Model.C08Encode Proofs.ZnxDigit Proofs.C08Steps
  Proofs.C08EncodeSpec Proofs.C08EncodeCoef Proofs.C08EncodeDec Proofs.ListFacts.
Open Scope Z_scope.

Lemma mod0_weaken (x a c : Z) : 0 <= a <= c -> x mod 2 ^ c = 0 -> x mod 2 ^ a = 0.
Proof.
  intros H Hx. pose proof (pow2_pos a ltac:(lia)). pose proof (pow2_pos c ltac:(lia)).
  apply Z.mod_divide; [lia|]. apply Z.mod_divide in Hx; [|lia].
  eapply Z.divide_trans; [|exact Hx]. exists (2 ^ (c - a)). rewrite <- Z.pow_add_r by lia. f_equal. lia.
Qed.

Lemma wrap_congr0 (w x : Z) : 1 <= w -> (wrap w x - x) mod 2 ^ w = 0.
Proof.
  intros Hw. destruct (wrap_exists w x Hw) as [q Hq]. rewrite Hq.
  replace (x - q * 2 ^ w - x) with (- q * 2 ^ w) by ring. apply Z_mod_mult.
Qed.

Lemma mod0_add (x y m : Z) : 0 < m -> x mod m = 0 -> y mod m = 0 -> (x + y) mod m = 0.
Proof.
  intros Hm Hx Hy. apply Z.mod_divide; [lia|]. apply Z.mod_divide in Hx; [|lia]. apply Z.mod_divide in Hy; [|lia].
  apply Z.divide_add_r; assumption.
Qed.

(* what a result r in the representable range, congruent to v modulo 2^k, is at the boundary values *)
Lemma boundary_generic (b k r v : Z) : 1 <= b -> 1 <= k ->
  enc_lo b k <= r <= enc_hi b k -> (r - v) mod 2 ^ k = 0 ->
  (v = 2 ^ (k - 1) -> r = - 2 ^ (k - 1)) /\
  (v = - 2 ^ (k - 1) -> r = - 2 ^ (k - 1)) /\
  (v = 2 ^ (k - 1) - 1 -> r = if Nat.eqb (enc_size b k) 1 then 2 ^ (k - 1) - 1 else - 2 ^ (k - 1) - 1).
Proof.
  intros Hb Hk Hr Hm.
  destruct (enc_params b k Hb Hk) as (Esz & Hkr & Hs1).
  pose proof (enc_lo_le b k Hb Hk) as [Hlo Hhi].
  pose proof (enc_hi_nonneg b k Hb Hk) as Hh0.
  pose proof (pow2_pos k ltac:(lia)) as Hpk. pose proof (pow2_split k ltac:(lia)) as Hsk.
  pose proof (pow2_pos (k - 1) ltac:(lia)) as Hpk1.
  assert (Hshift : forall y, v - y = 2 ^ k -> (r - y) mod 2 ^ k = 0).
  { intros y Hy. replace (r - y) with ((r - v) + 2 ^ k) by lia.
    apply mod0_add; [lia|exact Hm|apply Z_mod_same_full]. }
  unfold enc_hi in *.
  assert (U : forall y, enc_lo b k <= y <= enc_lo b k + 2 ^ k - 1 -> (r - y) mod 2 ^ k = 0 -> r = y).
  { intros y Hy. apply (rep_unique k (enc_lo b k)); lia. }
  split; [|split]; intros ->.
  - apply U; [lia|]. apply Hshift. lia.
  - apply U; [lia|exact Hm].
  - destruct (Nat.eqb_spec (enc_size b k) 1) as [E1|E1].
    + destruct (enc_range_size1 b k Hb Hk E1) as [El Eh]. unfold enc_hi in Eh. apply U; [lia|exact Hm].
    + destruct (enc_lo_size2 b k Hb Hk ltac:(lia)) as [Hl2 _]. apply U; [lia|]. apply Hshift. lia.
Qed.

Lemma pow_in_range (w k : Z) : 1 <= k <= w - 1 ->
  in_range w (2 ^ (k - 1)) /\ in_range w (- 2 ^ (k - 1)) /\ in_range w (2 ^ (k - 1) - 1).
Proof.
  intros Hk. pose proof (pow2_pos (k - 1) ltac:(lia)).
  assert (2 * 2 ^ (k - 1) <= 2 ^ (w - 1)).
  { rewrite <- pow2_split by lia. apply Z.pow_le_mono_r; lia. }
  unfold in_range. lia.
Qed.

Lemma small_enc_fits (b k v : Z) : 2 <= b -> 1 <= k -> 4 * Z.abs v < 2 ^ k -> enc_fits b k v = true.
Proof.
  intros Hb Hk Hv. destruct (small_fits b k v Hb Hk Hv) as [H1 H2].
  unfold enc_fits. apply andb_true_intro. split; apply Z.leb_le; assumption.
Qed.

Section RT.
Variable b : Z.
Hypothesis Hb : 1 <= b <= 62.

(* decoding what the encoders write for an effective value V *)
Lemma dec_enc_spec (w k : Z) (a_size : nat) (V : Z) : 64 <= w -> 1 <= k <= Z.of_nat a_size * b ->
  dec_vec w b k (enc_spec b k a_size V) = wrap w (enc_rep b k V).
Proof.
  intros Hw Hk. destruct (enc_params b k ltac:(lia) ltac:(lia)) as (Esz & Hr & Hs1).
  pose proof (enc_size_le b k a_size ltac:(lia) Hk) as Hs2.
  rewrite (dec_vec_spec w b Hw Hb k);
    [|lia|rewrite enc_spec_length by lia; lia|apply enc_spec_in_range; lia].
  rewrite dec_exact_enc_spec by lia. reflexivity.
Qed.

(* decoding at width w the limbs written for a w-bit v: the representative of v, wrapped to the word *)
Lemma rt_spec (w k : Z) (a_size : nat) (v : Z) : 64 <= w -> 1 <= k <= Z.of_nat a_size * b -> in_range w v ->
  let r := dec_vec w b k (enc_spec b k a_size v) in
  in_range w r /\ (r - v) mod 2 ^ (Z.min k w) = 0 /\
  (k <= w - 1 -> enc_lo b k <= r <= enc_hi b k /\ (r - v) mod 2 ^ k = 0) /\
  (enc_lo b k <= v <= enc_hi b k -> r = v).
Proof.
  intros Hw Hk Hv. cbv zeta. rewrite dec_enc_spec by auto.
  pose proof (enc_rep_range b k v ltac:(lia) ltac:(lia)) as Hrr.
  set (R := enc_rep b k v) in *.
  pose proof (wrap_range w R ltac:(lia)) as Hrg.
  assert (Hmod : (wrap w R - v) mod 2 ^ (Z.min k w) = 0).
  { replace (wrap w R - v) with ((wrap w R - R) + (R - v)) by ring.
    apply mod0_add; [apply pow2_pos; lia| |].
    - apply (mod0_weaken _ _ w); [lia|]. apply wrap_congr0. lia.
    - apply (mod0_weaken _ _ k); [lia|]. apply enc_rep_congr; lia. }
  assert (Hsmall : k <= w - 1 -> wrap w R = R).
  { intros Hkw. apply wrap_id; [lia|]. apply (enc_range_word b k); [lia|lia|exact Hrr]. }
  split; [exact Hrg|]. split; [exact Hmod|]. split.
  - intros Hkw. rewrite Z.min_l in Hmod by lia. rewrite Hsmall in * by exact Hkw. split; assumption.
  - intros Hfit. destruct (Z_le_gt_dec k (w - 1)) as [Hkw|Hkw].
    + rewrite Hsmall by exact Hkw. apply enc_rep_fits; [lia|lia|exact Hfit].
    + rewrite Z.min_r in Hmod by lia. apply (in_range_unique w); [lia|exact Hrg|exact Hv|exact Hmod].
Qed.

Lemma enc_spec_shape (k : Z) (a_size : nat) (V : Z) : 1 <= k <= Z.of_nat a_size * b ->
  let l := enc_spec b k a_size V in
  let size := enc_size b k in let krem := enc_krem b k in
  length l = a_size /\ Forall (in_range b) (firstn size l) /\ skipn size l = zeros (a_size - size) /\
  nthZ l (size - 1) mod 2 ^ krem = 0 /\ e_lval b (firstn size l) = enc_rep b k V * 2 ^ krem.
Proof.
  intros Hk. cbv zeta. destruct (enc_params b k ltac:(lia) ltac:(lia)) as (Esz & Hr & Hs1).
  pose proof (enc_size_le b k a_size ltac:(lia) Hk) as Hs2.
  split; [apply enc_spec_length; lia|].
  unfold enc_spec. cbv zeta.
  set (size := enc_size b k) in *. set (krem := enc_krem b k) in *.
  set (hi := rev (ldigs b (size - 1) (bdiv (b - krem) V))).
  set (d := wrap (b - krem) V * 2 ^ krem).
  assert (El : length hi = (size - 1)%nat) by (unfold hi; rewrite rev_length, ldigs_length; reflexivity).
  destruct (split_after hi d (zeros (a_size - size)) size ltac:(lia)) as [Ef Es]. cbn [app].
  rewrite Ef, Es. split; [|split; [reflexivity|split]].
  - apply Forall_app; split.
    + unfold hi. apply Forall_rev. apply ldigs_balanced. lia.
    + constructor; [|constructor]. unfold d. apply shifted_digit_range; [lia|]. apply wrap_range; lia.
  - rewrite nthZ_app_r by lia. replace (size - 1 - length hi)%nat with 0%nat by lia. cbn [app nthZ nth].
    unfold d. apply Z_mod_mult.
  - rewrite lval_app1. unfold hi, d. rewrite lval_rev. unfold enc_rep. cbv zeta. fold size krem.
    assert (E : 2 ^ b = 2 ^ (b - krem) * 2 ^ krem) by (rewrite <- Z.pow_add_r by lia; f_equal; lia).
    rewrite E. ring.
Qed.

(* the torus value of the written limbs is v / 2^k modulo 1 *)
Lemma enc_spec_value_congr (k : Z) (a_size : nat) (v : Z) : 1 <= k <= Z.of_nat a_size * b ->
  (e_lval b (firstn (enc_size b k) (enc_spec b k a_size v)) - v * 2 ^ enc_krem b k)
    mod 2 ^ (Z.of_nat (enc_size b k) * b) = 0.
Proof.
  intros Hk. destruct (enc_params b k ltac:(lia) ltac:(lia)) as (Esz & Hr & Hs1).
  destruct (enc_spec_shape k a_size v Hk) as (_ & _ & _ & _ & Ev). cbv zeta in Ev. rewrite Ev.
  rewrite Esz. rewrite Z.pow_add_r by lia.
  pose proof (enc_rep_congr b k v ltac:(lia) ltac:(lia)) as Hc.
  pose proof (pow2_pos k ltac:(lia)) as Hpk. pose proof (pow2_pos (enc_krem b k) ltac:(lia)) as Hpr.
  replace (enc_rep b k v * 2 ^ enc_krem b k - v * 2 ^ enc_krem b k)
    with ((enc_rep b k v - v) * 2 ^ enc_krem b k) by ring.
  rewrite Zmult_mod_distr_r, Hc. reflexivity.
Qed.

(* `enc` writes enc_spec for every w-bit value, and `dec` reads what it wrote as dec_vec at width w does *)
Definition codec (w : Z) (enc : Z -> nat -> Z -> list Z) (dec : Z -> list Z -> Z) : Prop :=
  64 <= w /\
  forall k (a_size : nat) v, 1 <= k <= Z.of_nat a_size * b -> in_range w v ->
    enc k a_size v = enc_spec b k a_size v /\ dec k (enc k a_size v) = dec_vec w b k (enc k a_size v).

Section Codec.
Variables (w : Z) (enc : Z -> nat -> Z -> list Z) (dec : Z -> list Z -> Z).
Hypothesis C : codec w enc dec.

Theorem rt (k : Z) (a_size : nat) (v : Z) : 1 <= k <= Z.of_nat a_size * b -> in_range w v ->
  let r := dec k (enc k a_size v) in
  in_range w r /\ (r - v) mod 2 ^ (Z.min k w) = 0 /\
  (k <= w - 1 -> enc_lo b k <= r <= enc_hi b k /\ (r - v) mod 2 ^ k = 0) /\
  (enc_lo b k <= v <= enc_hi b k -> r = v).
Proof.
  intros Hk Hv. destruct C as [Hw H]. destruct (H k a_size v Hk Hv) as [E D].
  cbv zeta. rewrite D, E. apply rt_spec; assumption.
Qed.

Theorem rt_fits (k : Z) (a_size : nat) (v : Z) : 1 <= k <= Z.of_nat a_size * b -> in_range w v ->
  enc_fits b k v = true -> dec k (enc k a_size v) = v.
Proof.
  intros Hk Hv Hf. destruct (rt k a_size v Hk Hv) as (_ & _ & _ & H). apply H.
  unfold enc_fits in Hf. apply andb_prop in Hf as [H1 H2]. lia.
Qed.

Theorem rt_small (k : Z) (a_size : nat) (v : Z) : 2 <= b -> 1 <= k <= Z.of_nat a_size * b -> in_range w v ->
  4 * Z.abs v < 2 ^ k -> dec k (enc k a_size v) = v.
Proof. intros H2 Hk Hv Hs. apply rt_fits; auto. apply small_enc_fits; auto; lia. Qed.

Theorem rt_boundary (k : Z) (a_size : nat) : 1 <= k <= Z.of_nat a_size * b -> k <= w - 1 ->
  let rt := fun v => dec k (enc k a_size v) in
  rt (2 ^ (k - 1)) = - 2 ^ (k - 1) /\ rt (- 2 ^ (k - 1)) = - 2 ^ (k - 1) /\
  rt (2 ^ (k - 1) - 1) = if Nat.eqb (enc_size b k) 1 then 2 ^ (k - 1) - 1 else - 2 ^ (k - 1) - 1.
Proof.
  intros Hk Hkw. cbv zeta. destruct (pow_in_range w k ltac:(lia)) as (R1 & R2 & R3).
  assert (B : forall v, in_range w v ->
            enc_lo b k <= dec k (enc k a_size v) <= enc_hi b k /\ (dec k (enc k a_size v) - v) mod 2 ^ k = 0).
  { intros v Hv. destruct (rt k a_size v Hk Hv) as (_ & _ & H & _). exact (H Hkw). }
  destruct (B _ R1) as [Hr1 Hm1]. destruct (boundary_generic b k _ _ ltac:(lia) ltac:(lia) Hr1 Hm1) as (B1 & _ & _).
  destruct (B _ R2) as [Hr2 Hm2]. destruct (boundary_generic b k _ _ ltac:(lia) ltac:(lia) Hr2 Hm2) as (_ & B2 & _).
  destruct (B _ R3) as [Hr3 Hm3]. destruct (boundary_generic b k _ _ ltac:(lia) ltac:(lia) Hr3 Hm3) as (_ & _ & B3).
  split; [exact (B1 eq_refl)|]. split; [exact (B2 eq_refl)|exact (B3 eq_refl)].
Qed.

Theorem enc_digits (k : Z) (a_size : nat) (v : Z) : 1 <= k <= Z.of_nat a_size * b -> in_range w v ->
  let l := enc k a_size v in let size := enc_size b k in
  length l = a_size /\ Forall (in_range b) (firstn size l) /\ skipn size l = zeros (a_size - size) /\
  nthZ l (size - 1) mod 2 ^ enc_krem b k = 0.
Proof.
  intros Hk Hv. cbv zeta. destruct C as [_ H]. destruct (H k a_size v Hk Hv) as [-> _].
  destruct (enc_spec_shape k a_size v Hk) as (A & B & C' & D & _). auto.
Qed.

(* the limbs hold v / 2^k on the torus (as integers: v * 2^krem modulo 2^(size b)) *)
Theorem enc_value (k : Z) (a_size : nat) (v : Z) : 1 <= k <= Z.of_nat a_size * b -> in_range w v ->
  (e_lval b (firstn (enc_size b k) (enc k a_size v)) - v * 2 ^ enc_krem b k)
    mod 2 ^ (Z.of_nat (enc_size b k) * b) = 0.
Proof.
  intros Hk Hv. destruct C as [_ H]. destruct (H k a_size v Hk Hv) as [-> _]. apply enc_spec_value_congr. exact Hk.
Qed.

End Codec.

(* encode_vec_i64 / decode_vec_i64, encode_vec_i128 / decode_vec_i128, encode_coeff_i64 / decode_coeff_i64 *)
Lemma codec_i64 : codec 64 (enc_i64 b) (dec_vec 64 b).
Proof. split; [lia|]. intros k a_size v Hk Hv. split; [apply enc_i64_spec; assumption|reflexivity]. Qed.

Lemma codec_i128 : codec 128 (enc_i128 b) (dec_vec 128 b).
Proof. split; [lia|]. intros k a_size v Hk Hv. split; [apply enc_i128_spec; assumption|reflexivity]. Qed.

Lemma codec_coeff : codec 64 (enc_i64 b) (dec_coeff_i64 b).
Proof.
  split; [lia|]. intros k a_size v Hk Hv. split; [apply enc_i64_spec; assumption|].
  rewrite (enc_i64_spec b Hb k a_size v Hk Hv).
  destruct (enc_params b k ltac:(lia) ltac:(lia)) as (Esz & Hr & Hs1).
  pose proof (enc_size_le b k a_size ltac:(lia) Hk) as Hs2.
  apply dec_coeff_vec; try lia.
  - rewrite enc_spec_length by lia. lia.
  - apply enc_spec_in_range; lia.
Qed.

End RT.

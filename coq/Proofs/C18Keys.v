(* C18 — levels 2 and 3: key sequences (GGLWEToGGSWKey, BlindRotationKey and compressed forms),
   CircuitBootstrappingKey, BDDKey.  Everything is proved for an arbitrary wrapper reader that satisfies the
   level-1 statements, then instantiated with the repaired reader (and, for the round trip, with the reader before the repairs, `current_*`). *)
From PV Require Import Base.MachineInt Model.C18Serial Proofs.C18Bytes Proofs.C18Flat Proofs.C18Wrap Proofs.ListFacts.
Open Scope Z_scope.

Definition Iw (w : wobj) : Prop := inv_wobj w /\ valid_wobj w.
Definition Ik (k : kseq) : Prop := Forall Iw (k_keys k).
Definition Ic (c : cbk) : Prop := Ik (c_brk c) /\ Forall (fun q => Iw (snd q)) (c_atk c) /\ Ik (c_tsk c).
Definition Ib (b : bdd) : Prop :=
  Ic (b_cbt b) /\ match b_ksg b with Some g => Iw g | None => True end /\ Iw (b_ksl b).


Lemma good_is_ok (o : outcome) : good o -> is_ok o = true -> o = Ok.
Proof. intros [-> | ->]; [reflexivity|discriminate]. Qed.
Lemma good_not_ok (o : outcome) : good o -> is_ok o = false -> o = Err.
Proof. intros [-> | ->]; [discriminate|reflexivity]. Qed.

Section Total.
(* a wrapper reader that is total, keeps the invariant, and leaves the metadata alone when it fails *)
Variable rw : wobj -> bytes -> outcome * wobj * bytes.
Hypothesis rw_total : forall w s, good (fst (fst (rw w s))).
Hypothesis rw_inv : forall w s, Iw w -> Iw (snd (fst (rw w s))).
Hypothesis rw_err : forall w s w' t, rw w s = (Err, w', t) -> same_meta_wobj w' w.

(* each key after the call: metadata untouched, or the complete result of a successful read of that key *)
Definition key_atomic (a b : wobj) : Prop := same_meta_wobj b a \/ exists s t, rw a s = (Ok, b, t).

Lemma same_meta_wobj_refl (w : wobj) : same_meta_wobj w w.
Proof. unfold same_meta_wobj, same_meta_flat. auto. Qed.

Lemma read_keys_props (ks : list wobj) (s : bytes) :
  let res := read_keys rw ks s in
  good (fst (fst res)) /\ (Forall Iw ks -> Forall Iw (snd (fst res))) /\ Forall2 key_atomic ks (snd (fst res)).
Proof.
  cbn zeta. revert s. induction ks as [|k t IH]; intros s.
  - cbn [read_keys fst snd]. split; [left; reflexivity|]. split; [auto|constructor].
  - cbn [read_keys]. pose proof (rw_total k s) as Ht. pose proof (rw_inv k s) as Hi. pose proof (rw_err k s) as He.
    destruct (rw k s) as [[oc k'] s'] eqn:E. cbn [fst snd] in *.
    destruct (is_ok oc) eqn:Eo.
    + apply good_is_ok in Eo; [|exact Ht]. subst oc.
      specialize (IH s'). destruct (read_keys rw t s') as [[oc2 t'] s'']. cbn [fst snd seq_oc] in *.
      destruct IH as (G & Hinv & Hat). split; [exact G|]. split.
      * intros HF. inversion HF; subst. constructor; auto.
      * constructor; [right; exists s, s'; exact E|exact Hat].
    + apply good_not_ok in Eo; [|exact Ht]. subst oc. cbn [fst snd]. split; [right; reflexivity|]. split.
      * intros HF. inversion HF; subst. constructor; auto.
      * constructor; [left; eapply He; reflexivity|].
        clear. induction t; constructor; [left; apply same_meta_wobj_refl|assumption].
Qed.

Lemma upd_atk_props (g : Z) (atk : list (Z * wobj)) (s : bytes) (oc : outcome) (atk' : list (Z * wobj)) (t : bytes) :
  upd_atk rw g atk s = Some (oc, atk', t) ->
  good oc /\ (Forall (fun q => Iw (snd q)) atk -> Forall (fun q => Iw (snd q)) atk') /\ map fst atk' = map fst atk.
Proof.
  revert oc atk' t. induction atk as [|[g' w] tl IH]; intros oc atk' t; cbn [upd_atk]; [discriminate|].
  destruct (g =? g') eqn:Eg.
  - pose proof (rw_total w s) as Ht. pose proof (rw_inv w s) as Hi.
    destruct (rw w s) as [[o w'] s']. intros H; inversion H; subst. cbn [fst snd] in *.
    split; [exact Ht|]. split; [|reflexivity].
    intros HF. inversion HF; subst. constructor; auto.
  - destruct (upd_atk rw g tl s) as [[[o t'] s']|] eqn:E; [|discriminate].
    intros H; inversion H; subst. destruct (IH _ _ _ eq_refl) as (G & Hinv & Hm).
    split; [exact G|]. split.
    + intros HF. inversion HF; subst. constructor; auto.
    + cbn [map fst]. rewrite Hm. reflexivity.
Qed.

Lemma read_atk_props (cnt : nat) (atk : list (Z * wobj)) (s : bytes) :
  let res := read_atk rw cnt atk s in
  good (fst (fst res)) /\ (Forall (fun q => Iw (snd q)) atk -> Forall (fun q => Iw (snd q)) (snd (fst res))) /\
  map fst (snd (fst res)) = map fst atk.
Proof.
  cbn zeta. revert atk s. induction cnt as [|c IH]; intros atk s; cbn [read_atk].
  - cbn [fst snd]. split; [left; reflexivity|auto].
  - destruct (rd 8 s) as [[g s1]|]; [|cbn [fst snd]; split; [right; reflexivity|auto]].
    destruct (upd_atk rw (wrap 64 g) atk s1) as [[[oc atk'] s2]|] eqn:E; [|cbn [fst snd]; split; [right; reflexivity|auto]].
    destruct (upd_atk_props _ _ _ _ _ _ E) as (G & Hinv & Hm).
    destruct (is_ok oc) eqn:Eo.
    + apply good_is_ok in Eo; [|exact G]. subst oc.
      specialize (IH atk' s2). destruct (read_atk rw c atk' s2) as [[oc2 atk''] s3]. cbn [fst snd seq_oc] in *.
      destruct IH as (G2 & Hinv2 & Hm2). split; [exact G2|]. split; [auto|]. rewrite Hm2. exact Hm.
    + apply good_not_ok in Eo; [|exact G]. subst oc. cbn [fst snd]. split; [right; reflexivity|auto].
Qed.
End Total.

Section TotalReaders.
(* readers with the (dbg, partial) arguments *)
Variable rw : wobj_reader.
Hypothesis rw_total : forall d p w s, good (fst (fst (rw d p w s))).
Hypothesis rw_inv : forall d p w s, Iw w -> Iw (snd (fst (rw d p w s))).
Hypothesis rw_err : forall d p w s w' t, rw d p w s = (Err, w', t) -> same_meta_wobj w' w.

(* repaired key-sequence reader *)
Lemma read_kseq_fixed_props (d p : bool) (k : kseq) (s : bytes) :
  let res := read_kseq_fixed_with rw d p k s in
  good (fst (fst res)) /\ (Ik k -> Ik (snd (fst res))) /\
  length (k_keys (snd (fst res))) = length (k_keys k) /\
  (fst (fst res) = Err -> k_pre (snd (fst res)) = k_pre k /\
                          Forall2 (key_atomic (rw d p)) (k_keys k) (k_keys (snd (fst res)))).
Proof.
  cbn zeta. unfold read_kseq_fixed_with.
  assert (Hsame : Forall2 (key_atomic (rw d p)) (k_keys k) (k_keys k)).
  { induction (k_keys k); constructor; [left; apply same_meta_wobj_refl|assumption]. }
  destruct (parse_fields (k_pre k) s) as [[pre' s1]|]; [|cbn [fst snd]; split; [right; reflexivity|auto]].
  destruct (rd 8 s1) as [[len s2]|]; [|cbn [fst snd]; split; [right; reflexivity|auto]].
  destruct (len =? Z.of_nat (length (k_keys k))); cbn [negb]; [|cbn [fst snd]; split; [right; reflexivity|auto]].
  pose proof (read_keys_props (rw d p) (rw_total d p) (rw_inv d p) (rw_err d p) (k_keys k) s2) as HP. cbn zeta in HP.
  destruct (read_keys (rw d p) (k_keys k) s2) as [[oc ks'] s3]. cbn [fst snd] in HP.
  destruct HP as (G & Hinv & Hat).
  assert (Hlen : length ks' = length (k_keys k)) by (symmetry; exact (Forall2_length _ _ _ Hat)).
  destruct G as [-> | ->]; cbn [fst snd k_keys k_pre]; unfold Ik; cbn [k_keys].
  - split; [left; reflexivity|]. split; [exact Hinv|]. split; [exact Hlen|discriminate].
  - split; [right; reflexivity|]. split; [exact Hinv|]. split; [exact Hlen|auto].
Qed.

Variable rk : kseq_reader.
Hypothesis rk_total : forall d p k s, good (fst (fst (rk d p k s))).
Hypothesis rk_inv : forall d p k s, Ik k -> Ik (snd (fst (rk d p k s))).

Lemma read_cbk_props (d p : bool) (c : cbk) (s : bytes) :
  let res := read_cbk_with rk rw d p c s in
  good (fst (fst res)) /\ (Ic c -> Ic (snd (fst res))).
Proof.
  cbn zeta. unfold read_cbk_with.
  pose proof (rk_total d p (c_brk c) s) as G1. pose proof (rk_inv d p (c_brk c) s) as I1.
  destruct (rk d p (c_brk c) s) as [[o1 brk'] s1]. cbn [fst snd] in *.
  destruct (is_ok o1) eqn:E1; cbn [negb].
  2:{ apply good_not_ok in E1; [|exact G1]. subst o1. cbn [fst snd]. split; [right; reflexivity|].
      intros (A & B & C). unfold Ic; cbn [c_brk c_atk c_tsk]. auto. }
  apply good_is_ok in E1; [|exact G1]. subst o1.
  destruct (rd 8 s1) as [[n s2]|].
  2:{ cbn [fst snd]. split; [right; reflexivity|]. intros (A & B & C). unfold Ic; cbn [c_brk c_atk c_tsk]. auto. }
  destruct (n =? Z.of_nat (length (c_atk c))); cbn [negb].
  2:{ cbn [fst snd]. split; [right; reflexivity|]. intros (A & B & C). unfold Ic; cbn [c_brk c_atk c_tsk]. auto. }
  pose proof (read_atk_props (rw d p) (rw_total d p) (rw_inv d p) (length (c_atk c)) (c_atk c) s2) as HA. cbn zeta in HA.
  destruct (read_atk (rw d p) (length (c_atk c)) (c_atk c) s2) as [[o2 atk'] s3]. cbn [fst snd] in HA.
  destruct HA as (G2 & I2 & _).
  destruct (is_ok o2) eqn:E2; cbn [negb].
  2:{ apply good_not_ok in E2; [|exact G2]. subst o2. cbn [fst snd]. split; [right; reflexivity|].
      intros (A & B & C). unfold Ic; cbn [c_brk c_atk c_tsk]. auto. }
  apply good_is_ok in E2; [|exact G2]. subst o2.
  pose proof (rk_total d p (c_tsk c) s3) as G3. pose proof (rk_inv d p (c_tsk c) s3) as I3.
  destruct (rk d p (c_tsk c) s3) as [[o3 tsk'] s4]. cbn [fst snd seq_oc] in *.
  split; [exact G3|]. intros (A & B & C). unfold Ic; cbn [c_brk c_atk c_tsk]. auto.
Qed.
End TotalReaders.

Section TotalBdd.
Variable rw : wobj_reader.
Hypothesis rw_total : forall d p w s, good (fst (fst (rw d p w s))).
Hypothesis rw_inv : forall d p w s, Iw w -> Iw (snd (fst (rw d p w s))).
Variable rc : cbk_reader.
Hypothesis rc_total : forall d p c s, good (fst (fst (rc d p c s))).
Hypothesis rc_inv : forall d p c s, Ic c -> Ic (snd (fst (rc d p c s))).

Lemma read_bdd_props (d p : bool) (b : bdd) (s : bytes) :
  let res := read_bdd_with rc rw d p b s in
  good (fst (fst res)) /\ (Ib b -> Ib (snd (fst res))).
Proof.
  cbn zeta. unfold read_bdd_with.
  pose proof (rc_total d p (b_cbt b) s) as G1. pose proof (rc_inv d p (b_cbt b) s) as I1.
  destruct (rc d p (b_cbt b) s) as [[o1 cbt'] s1]. cbn [fst snd] in *.
  destruct (is_ok o1) eqn:E1; cbn [negb].
  2:{ apply good_not_ok in E1; [|exact G1]. subst o1. cbn [fst snd]. split; [right; reflexivity|].
      intros (A & B & C). unfold Ib; cbn [b_cbt b_ksg b_ksl]. auto. }
  apply good_is_ok in E1; [|exact G1]. subst o1.
  assert (Hstay : Ib b -> Ib {| b_cbt := cbt'; b_ksg := b_ksg b; b_ksl := b_ksl b |}).
  { intros (A & B & C). unfold Ib; cbn [b_cbt b_ksg b_ksl]. auto. }
  destruct (rd 1 s1) as [[tag s2]|]; [|cbn [fst snd]; split; [right; reflexivity|exact Hstay]].
  (* the continuation after the optional ks_glwe *)
  assert (Hcont : forall (o2 : outcome) (g : option wobj) (s3 : bytes),
            good o2 -> (Ib b -> match g with Some x => Iw x | None => True end) ->
            let res := (let b2 := {| b_cbt := cbt'; b_ksg := g; b_ksl := b_ksl b |} in
                        if negb (is_ok o2) then (o2, b2, [])
                        else let '(o3, l', s4) := rw d p (b_ksl b) s3 in
                             (seq_oc (seq_oc Ok o2) o3, {| b_cbt := cbt'; b_ksg := g; b_ksl := l' |}, s4)) in
            good (fst (fst res)) /\ (Ib b -> Ib (snd (fst res)))).
  { intros o2 g s3 G2 Hg. cbn zeta. destruct (is_ok o2) eqn:E2; cbn [negb].
    - apply good_is_ok in E2; [|exact G2]. subst o2.
      pose proof (rw_total d p (b_ksl b) s3) as G3. pose proof (rw_inv d p (b_ksl b) s3) as I3.
      destruct (rw d p (b_ksl b) s3) as [[o3 l'] s4]. cbn [fst snd seq_oc] in *.
      split; [exact G3|]. intros HI. pose proof (Hg HI). destruct HI as (A & B & C).
      unfold Ib; cbn [b_cbt b_ksg b_ksl]. auto.
    - apply good_not_ok in E2; [|exact G2]. subst o2. cbn [fst snd]. split; [right; reflexivity|].
      intros HI. pose proof (Hg HI). destruct HI as (A & B & C). unfold Ib; cbn [b_cbt b_ksg b_ksl]. auto. }
  destruct (tag =? 0).
  - destruct (b_ksg b) as [g|] eqn:Eg.
    + cbn [fst snd]. split; [right; reflexivity|]. exact Hstay.
    + apply (Hcont Ok None s2); [left; reflexivity|auto].
  - destruct (tag =? 1).
    + destruct (b_ksg b) as [g|] eqn:Eg.
      * pose proof (rw_total d p g s2) as G2. pose proof (rw_inv d p g s2) as I2.
        destruct (rw d p g s2) as [[o2 g'] s3]. cbn [fst snd] in *.
        apply (Hcont o2 (Some g') s3); [exact G2|]. intros (_ & B & _). rewrite Eg in B. auto.
      * cbn [fst snd]. split; [right; reflexivity|]. exact Hstay.
    + cbn [fst snd]. split; [right; reflexivity|exact Hstay].
Qed.
End TotalBdd.

(* instances: the repaired readers *)
Lemma fixed_wobj_total (d p : bool) (w : wobj) (s : bytes) : good (fst (fst (fixed_wobj d p w s))).
Proof. apply read_wobj_fixed_total. Qed.

Lemma fixed_wobj_inv (d p : bool) (w : wobj) (s : bytes) : Iw w -> Iw (snd (fst (fixed_wobj d p w s))).
Proof.
  intros [Hi Hv]. destruct (fixed_wobj d p w s) as [[o w'] t] eqn:E. cbn [fst snd].
  exact (read_wobj_fixed_preserves_inv _ _ _ _ _ _ _ E Hi Hv).
Qed.

Lemma fixed_wobj_err (d p : bool) (w : wobj) (s : bytes) (w' : wobj) (t : bytes) :
  fixed_wobj d p w s = (Err, w', t) -> same_meta_wobj w' w.
Proof. apply read_wobj_fixed_err_leaves_metadata. Qed.

Lemma fixed_kseq_props (d p : bool) (k : kseq) (s : bytes) :
  let res := fixed_kseq d p k s in
  good (fst (fst res)) /\ (Ik k -> Ik (snd (fst res))) /\
  length (k_keys (snd (fst res))) = length (k_keys k) /\
  (fst (fst res) = Err -> k_pre (snd (fst res)) = k_pre k /\
                          Forall2 (key_atomic (fixed_wobj d p)) (k_keys k) (k_keys (snd (fst res)))).
Proof. exact (read_kseq_fixed_props fixed_wobj fixed_wobj_total fixed_wobj_inv fixed_wobj_err d p k s). Qed.

Lemma fixed_kseq_total (d p : bool) (k : kseq) (s : bytes) : good (fst (fst (fixed_kseq d p k s))).
Proof. exact (proj1 (fixed_kseq_props d p k s)). Qed.
Lemma fixed_kseq_inv (d p : bool) (k : kseq) (s : bytes) : Ik k -> Ik (snd (fst (fixed_kseq d p k s))).
Proof. exact (proj1 (proj2 (fixed_kseq_props d p k s))). Qed.

Lemma fixed_cbk_props (d p : bool) (c : cbk) (s : bytes) :
  good (fst (fst (fixed_cbk d p c s))) /\ (Ic c -> Ic (snd (fst (fixed_cbk d p c s)))).
Proof. exact (read_cbk_props fixed_wobj fixed_wobj_total fixed_wobj_inv fixed_kseq fixed_kseq_total fixed_kseq_inv d p c s). Qed.

Lemma fixed_bdd_props (d p : bool) (b : bdd) (s : bytes) :
  good (fst (fst (fixed_bdd d p b s))) /\ (Ib b -> Ib (snd (fst (fixed_bdd d p b s)))).
Proof.
  exact (read_bdd_props fixed_wobj fixed_wobj_total fixed_wobj_inv fixed_cbk
           (fun d p c s => proj1 (fixed_cbk_props d p c s)) (fun d p c s => proj2 (fixed_cbk_props d p c s)) d p b s).
Qed.

(* round trips of the composites, for any wrapper reader that round-trips *)
Section RoundTrip.
Variable rw : wobj -> bytes -> outcome * wobj * bytes.
Variable fits : wobj -> wobj -> Prop.
Variable res : wobj -> wobj -> wobj.
Hypothesis rw_rt : forall r x tl, fits r x -> rw r (write_wobj x ++ tl) = (Ok, res r x, tl).

Fixpoint map2 (rs xs : list wobj) : list wobj :=
  match rs, xs with r :: rs', x :: xs' => res r x :: map2 rs' xs' | _, _ => [] end.

Lemma read_keys_roundtrip (rs xs : list wobj) (tl : bytes) :
  Forall2 fits rs xs -> read_keys rw rs (write_keys xs ++ tl) = (Ok, map2 rs xs, tl).
Proof.
  induction 1 as [|r x rs xs Hf _ IH]; [reflexivity|].
  cbn [read_keys map2]. unfold write_keys in *. cbn [map concat]. rewrite <- app_assoc.
  rewrite rw_rt by exact Hf. cbn [is_ok]. rewrite IH. reflexivity.
Qed.

(* automorphism keys: association list, the stream names each key *)
Definition afits (q p : Z * wobj) : Prop := fst q = fst p /\ fits (snd q) (snd p).
Fixpoint amap2 (rs xs : list (Z * wobj)) : list (Z * wobj) :=
  match rs, xs with (g, r) :: rs', (_, x) :: xs' => (g, res r x) :: amap2 rs' xs' | _, _ => [] end.

Lemma upd_atk_mid (pre : list (Z * wobj)) (g : Z) (w : wobj) (post : list (Z * wobj)) (s : bytes) :
  ~ In g (map fst pre) ->
  upd_atk rw g (pre ++ (g, w) :: post) s = let '(oc, w', s') := rw w s in Some (oc, pre ++ (g, w') :: post, s').
Proof.
  induction pre as [|[g' w0] pre IH]; intros Hn.
  - cbn [app upd_atk]. rewrite Z.eqb_refl. reflexivity.
  - cbn [app upd_atk]. cbn [map fst In] in Hn.
    replace (g =? g') with false by (symmetry; apply Z.eqb_neq; intros ->; apply Hn; left; reflexivity).
    rewrite IH by (intros H; apply Hn; right; exact H).
    destruct (rw w s) as [[oc w'] s']. reflexivity.
Qed.

Lemma wrap_wrapu64 (g : Z) : in_range 64 g -> wrap 64 (wrapu 64 g) = g.
Proof.
  intros Hr. unfold wrapu. rewrite <- (wrap_id 64 g) at 2 by (try lia; exact Hr).
  apply wrap_eq_mod; [lia|]. rewrite Z.mod_mod by lia. reflexivity.
Qed.

Lemma read_atk_roundtrip (rs xs pre : list (Z * wobj)) (tl : bytes) :
  Forall2 afits rs xs -> Forall (fun q => in_range 64 (fst q)) xs ->
  NoDup (map fst pre ++ map fst xs) ->
  read_atk rw (length xs) (pre ++ rs) (write_atk xs ++ tl) = (Ok, pre ++ amap2 rs xs, tl).
Proof.
  intros HF. revert pre. induction HF as [|[g r] [gx x] rs xs [Hg Hf] _ IH]; intros pre Hr Hnd.
  - cbn [length read_atk amap2 write_atk app]. reflexivity.
  - cbn [fst snd] in Hg, Hf. subst gx. inversion Hr as [|? ? Hg64 Hr']; subst. cbn [fst] in Hg64.
    cbn [length read_atk write_atk amap2]. rewrite <- !app_assoc.
    rewrite rd_le.
    2:{ rewrite pow256_8. unfold wrapu. apply Z.mod_pos_bound. reflexivity. }
    rewrite wrap_wrapu64 by exact Hg64.
    rewrite upd_atk_mid.
    2:{ cbn [map fst] in Hnd. intros Hin. apply NoDup_remove_2 in Hnd. apply Hnd. apply in_or_app. left; exact Hin. }
    rewrite rw_rt by exact Hf. cbn [is_ok].
    replace (pre ++ (g, res r x) :: rs) with ((pre ++ [(g, res r x)]) ++ rs) by (rewrite <- app_assoc; reflexivity).
    rewrite IH.
    + cbn [seq_oc]. rewrite <- app_assoc. reflexivity.
    + exact Hr'.
    + rewrite map_app. cbn [map fst]. rewrite <- app_assoc. exact Hnd.
Qed.
End RoundTrip.

(* key sequences *)
Definition kseq_fits (fits : wobj -> wobj -> Prop) (r x : kseq) : Prop :=
  Forall2 field_fits (k_pre r) (k_pre x) /\ wf_fields (k_pre x) /\ Forall2 fits (k_keys r) (k_keys x) /\
  Z.of_nat (length (k_keys x)) < 2 ^ 64.

Lemma write_kseq_app (k : kseq) (tl : bytes) :
  write_kseq k ++ tl = write_fields (k_pre k) ++ (le_bytes 8 (Z.of_nat (length (k_keys k))) ++ (write_keys (k_keys k) ++ tl)).
Proof. unfold write_kseq. rewrite <- !app_assoc. reflexivity. Qed.

Lemma read_kseq_roundtrip (rw : wobj_reader) (fits : wobj -> wobj -> Prop) (res : wobj -> wobj -> wobj) (d p : bool) :
  (forall r x tl, fits r x -> rw d p r (write_wobj x ++ tl) = (Ok, res r x, tl)) ->
  forall (r x : kseq) (tl : bytes), kseq_fits fits r x -> small_fields (k_pre x) ->
  read_kseq_with rw d p r (write_kseq x ++ tl) = (Ok, {| k_pre := k_pre x; k_keys := map2 res (k_keys r) (k_keys x) |}, tl).
Proof.
  intros Hrt r x tl (Hpre & Hwf & Hk & Hn) Hsm. unfold read_kseq_with. rewrite write_kseq_app.
  rewrite read_fields_roundtrip by assumption. cbn [is_ok negb].
  rewrite rd_le by (rewrite pow256_8; lia).
  rewrite (Forall2_length _ _ _ Hk), Z.eqb_refl. cbn [negb].
  rewrite (read_keys_roundtrip (rw d p) fits res Hrt) by exact Hk. reflexivity.
Qed.

Lemma read_kseq_fixed_roundtrip (rw : wobj_reader) (fits : wobj -> wobj -> Prop) (res : wobj -> wobj -> wobj) (d p : bool) :
  (forall r x tl, fits r x -> rw d p r (write_wobj x ++ tl) = (Ok, res r x, tl)) ->
  forall (r x : kseq) (tl : bytes), kseq_fits fits r x ->
  read_kseq_fixed_with rw d p r (write_kseq x ++ tl) = (Ok, {| k_pre := k_pre x; k_keys := map2 res (k_keys r) (k_keys x) |}, tl).
Proof.
  intros Hrt r x tl (Hpre & Hwf & Hk & Hn). unfold read_kseq_fixed_with. rewrite write_kseq_app.
  rewrite parse_fields_roundtrip by assumption.
  rewrite rd_le by (rewrite pow256_8; lia).
  rewrite (Forall2_length _ _ _ Hk), Z.eqb_refl. cbn [negb].
  rewrite (read_keys_roundtrip (rw d p) fits res Hrt) by exact Hk. reflexivity.
Qed.

(* CircuitBootstrappingKey and BDDKey *)
Section RoundTripCbk.
Variable rw : wobj_reader.
Variable rk : kseq_reader.
Variable fits : wobj -> wobj -> Prop.
Variable res : wobj -> wobj -> wobj.
Variable fitsk : kseq -> kseq -> Prop.
Variable resk : kseq -> kseq -> kseq.
Variables d p : bool.
Hypothesis rw_rt : forall r x tl, fits r x -> rw d p r (write_wobj x ++ tl) = (Ok, res r x, tl).
Hypothesis rk_rt : forall r x tl, fitsk r x -> rk d p r (write_kseq x ++ tl) = (Ok, resk r x, tl).

Definition cbk_fits (r x : cbk) : Prop :=
  fitsk (c_brk r) (c_brk x) /\ Forall2 (afits fits) (c_atk r) (c_atk x) /\
  Forall (fun q => in_range 64 (fst q)) (c_atk x) /\ NoDup (map fst (c_atk x)) /\
  Z.of_nat (length (c_atk x)) < 2 ^ 64 /\ fitsk (c_tsk r) (c_tsk x).

Definition cbk_res (r x : cbk) : cbk :=
  {| c_brk := resk (c_brk r) (c_brk x); c_atk := amap2 res (c_atk r) (c_atk x); c_tsk := resk (c_tsk r) (c_tsk x) |}.

Lemma read_cbk_roundtrip (r x : cbk) (tl : bytes) :
  cbk_fits r x -> read_cbk_with rk rw d p r (write_cbk x ++ tl) = (Ok, cbk_res r x, tl).
Proof.
  intros (Hb & Ha & Hr & Hnd & Hn & Ht). unfold read_cbk_with, write_cbk. rewrite <- !app_assoc.
  rewrite rk_rt by exact Hb. cbn [is_ok negb].
  rewrite rd_le by (rewrite pow256_8; lia).
  rewrite (Forall2_length _ _ _ Ha), Z.eqb_refl. cbn [negb].
  pose proof (read_atk_roundtrip (rw d p) fits res rw_rt (c_atk r) (c_atk x) [] (write_kseq (c_tsk x) ++ tl) Ha Hr) as HA.
  cbn [app map] in HA. rewrite HA by exact Hnd. cbn [is_ok negb].
  rewrite rk_rt by exact Ht. reflexivity.
Qed.

Variable rc : cbk_reader.
Variable fitsc : cbk -> cbk -> Prop.
Variable resc : cbk -> cbk -> cbk.
Hypothesis rc_rt : forall r x tl, fitsc r x -> rc d p r (write_cbk x ++ tl) = (Ok, resc r x, tl).

Definition bdd_fits (r x : bdd) : Prop :=
  fitsc (b_cbt r) (b_cbt x) /\
  match b_ksg r, b_ksg x with Some a, Some b => fits a b | None, None => True | _, _ => False end /\
  fits (b_ksl r) (b_ksl x).

Definition bdd_res (r x : bdd) : bdd :=
  {| b_cbt := resc (b_cbt r) (b_cbt x);
     b_ksg := match b_ksg r, b_ksg x with Some a, Some b => Some (res a b) | _, _ => None end;
     b_ksl := res (b_ksl r) (b_ksl x) |}.

Lemma read_bdd_roundtrip (r x : bdd) (tl : bytes) :
  bdd_fits r x -> read_bdd_with rc rw d p r (write_bdd x ++ tl) = (Ok, bdd_res r x, tl).
Proof.
  intros (Hc & Hg & Hl). unfold read_bdd_with, write_bdd, bdd_res. rewrite <- !app_assoc.
  rewrite rc_rt by exact Hc. cbn [is_ok negb].
  destruct (b_ksg r) as [a|] eqn:Ea; destruct (b_ksg x) as [b|] eqn:Eb; try contradiction.
  - change ([1] ++ write_wobj b) with (le_bytes 1 1 ++ write_wobj b). rewrite <- !app_assoc.
    rewrite rd_le by (rewrite pow256_1; lia).
    change (1 =? 0) with false. change (1 =? 1) with true. cbn iota.
    rewrite rw_rt by exact Hg. cbn [is_ok negb]. rewrite rw_rt by exact Hl. reflexivity.
  - change [0] with (le_bytes 1 0). rewrite rd_le by (rewrite pow256_1; lia).
    change (0 =? 0) with true. cbn iota. cbn [is_ok negb]. rewrite rw_rt by exact Hl. reflexivity.
Qed.
End RoundTripCbk.

(* what no per-object repair gives: a composite whose k-th key fails has already replaced keys 0..k-1 *)
Definition w_key (b : Z) : wobj :=
  {| w_fields := [{| f_role := 1; f_val := VU32 b |}];
     w_body := {| fk := KVec; fh := [1; 1; 1; 1]; fd := repeat 0 8%nat |} |}.
Definition w_two_keys : kseq := {| k_pre := []; k_keys := [w_key 8; w_key 8] |}.
(* two keys announced, the first one complete (base2k = 9), the stream ends inside the second *)
Definition w_second_truncated : bytes := le_bytes 8 2 ++ write_wobj (w_key 9) ++ le_bytes 4 9.

(* instances of the round trips: the readers before the repairs (`current_*`, `_now`) and the repaired ones (`fixed_*`, `_fix`) *)
Definition fits_now (r x : wobj) : Prop := wf_wobj x /\ small_fields (w_fields x) /\ wobj_fits r x.
Definition res_now (r x : wobj) : wobj := {| w_fields := w_fields x; w_body := loaded (fh (w_body x)) (w_body r) (w_body x) |}.
Definition fitsk_now (r x : kseq) : Prop := kseq_fits fits_now r x /\ small_fields (k_pre x).
Definition resk_now (r x : kseq) : kseq := {| k_pre := k_pre x; k_keys := map2 res_now (k_keys r) (k_keys x) |}.

Lemma current_wobj_rt (dbg partial : bool) (r x : wobj) (tl : bytes) :
  fits_now r x -> current_wobj dbg partial r (write_wobj x ++ tl) = (Ok, res_now r x, tl).
Proof. intros (H1 & H2 & H3). exact (read_wobj_roundtrip dbg partial r x tl H1 H2 H3). Qed.

Lemma current_kseq_roundtrip (dbg partial : bool) (r x : kseq) (tl : bytes) :
  kseq_fits fits_now r x -> small_fields (k_pre x) ->
  current_kseq dbg partial r (write_kseq x ++ tl) = (Ok, resk_now r x, tl).
Proof. exact (read_kseq_roundtrip current_wobj fits_now res_now dbg partial (current_wobj_rt dbg partial) r x tl). Qed.

Lemma current_kseq_rt (dbg partial : bool) (r x : kseq) (tl : bytes) :
  fitsk_now r x -> current_kseq dbg partial r (write_kseq x ++ tl) = (Ok, resk_now r x, tl).
Proof. intros [H1 H2]. exact (current_kseq_roundtrip dbg partial r x tl H1 H2). Qed.

Lemma current_cbk_roundtrip (dbg partial : bool) (r x : cbk) (tl : bytes) :
  cbk_fits fits_now fitsk_now r x ->
  current_cbk dbg partial r (write_cbk x ++ tl) = (Ok, cbk_res res_now resk_now r x, tl).
Proof.
  exact (read_cbk_roundtrip current_wobj current_kseq fits_now res_now fitsk_now resk_now dbg partial
           (current_wobj_rt dbg partial) (current_kseq_rt dbg partial) r x tl).
Qed.

Lemma current_bdd_roundtrip (dbg partial : bool) (r x : bdd) (tl : bytes) :
  bdd_fits fits_now (cbk_fits fits_now fitsk_now) r x ->
  current_bdd dbg partial r (write_bdd x ++ tl) = (Ok, bdd_res res_now (cbk_res res_now resk_now) r x, tl).
Proof.
  exact (read_bdd_roundtrip current_wobj fits_now res_now dbg partial (current_wobj_rt dbg partial)
           current_cbk (cbk_fits fits_now fitsk_now) (cbk_res res_now resk_now) (current_cbk_roundtrip dbg partial) r x tl).
Qed.

Definition fits_fix (r x : wobj) : Prop :=
  wf_wobj x /\ valid_wobj x /\ wobj_fits r x /\ (fk (w_body x) = KVec -> hd_ (fh (w_body x)) 2 <= hd_ (fh (w_body x)) 3).
Definition res_fix (r x : wobj) : wobj :=
  {| w_fields := w_fields x;
     w_body := loaded (clamp_hdr (fk (w_body x)) (fh (w_body x)) (blen (fd (w_body r)))) (w_body r) (w_body x) |}.
Definition resk_fix (r x : kseq) : kseq := {| k_pre := k_pre x; k_keys := map2 res_fix (k_keys r) (k_keys x) |}.

Lemma fixed_wobj_rt (dbg partial : bool) (r x : wobj) (tl : bytes) :
  fits_fix r x -> fixed_wobj dbg partial r (write_wobj x ++ tl) = (Ok, res_fix r x, tl).
Proof. intros (H1 & H2 & H3 & H4). exact (read_wobj_fixed_roundtrip dbg partial r x tl H1 H2 H3 H4). Qed.

Lemma fixed_kseq_roundtrip (dbg partial : bool) (r x : kseq) (tl : bytes) :
  kseq_fits fits_fix r x -> fixed_kseq dbg partial r (write_kseq x ++ tl) = (Ok, resk_fix r x, tl).
Proof. exact (read_kseq_fixed_roundtrip fixed_wobj fits_fix res_fix dbg partial (fixed_wobj_rt dbg partial) r x tl). Qed.

Lemma fixed_cbk_roundtrip (dbg partial : bool) (r x : cbk) (tl : bytes) :
  cbk_fits fits_fix (kseq_fits fits_fix) r x ->
  fixed_cbk dbg partial r (write_cbk x ++ tl) = (Ok, cbk_res res_fix resk_fix r x, tl).
Proof.
  exact (read_cbk_roundtrip fixed_wobj fixed_kseq fits_fix res_fix (kseq_fits fits_fix) resk_fix dbg partial
           (fixed_wobj_rt dbg partial) (fixed_kseq_roundtrip dbg partial) r x tl).
Qed.

Lemma fixed_bdd_roundtrip (dbg partial : bool) (r x : bdd) (tl : bytes) :
  bdd_fits fits_fix (cbk_fits fits_fix (kseq_fits fits_fix)) r x ->
  fixed_bdd dbg partial r (write_bdd x ++ tl) = (Ok, bdd_res res_fix (cbk_res res_fix resk_fix) r x, tl).
Proof.
  exact (read_bdd_roundtrip fixed_wobj fits_fix res_fix dbg partial (fixed_wobj_rt dbg partial)
           fixed_cbk (cbk_fits fits_fix (kseq_fits fits_fix)) (cbk_res res_fix resk_fix) (fixed_cbk_roundtrip dbg partial) r x tl).
Qed.

Lemma fixed_cbk_total (d p : bool) (c : cbk) (s : bytes) : good (fst (fst (fixed_cbk d p c s))).
Proof. exact (proj1 (fixed_cbk_props d p c s)). Qed.
Lemma fixed_cbk_inv (d p : bool) (c : cbk) (s : bytes) : Ic c -> Ic (snd (fst (fixed_cbk d p c s))).
Proof. exact (proj2 (fixed_cbk_props d p c s)). Qed.
Lemma fixed_bdd_total (d p : bool) (b : bdd) (s : bytes) : good (fst (fst (fixed_bdd d p b s))).
Proof. exact (proj1 (fixed_bdd_props d p b s)). Qed.
Lemma fixed_bdd_inv (d p : bool) (b : bdd) (s : bytes) : Ib b -> Ib (snd (fst (fixed_bdd d p b s))).
Proof. exact (proj2 (fixed_bdd_props d p b s)). Qed.

(* proposed repair of the composites: validate on copies, replay on success (Model/C18Serial.v `staged`) *)
Section Staged.
Variable A : Type.
Variable rd : A -> bytes -> outcome * A * bytes.
Hypothesis rd_total : forall a s, good (fst (fst (rd a s))).

Lemma staged_total (a : A) (s : bytes) : good (fst (fst (staged rd a s))).
Proof.
  unfold staged. pose proof (rd_total a s) as G. destruct (rd a s) as [[o a'] t]. cbn [fst] in G.
  destruct G as [-> | ->]; cbn [fst]; [left|right]; reflexivity.
Qed.

(* a failure leaves the WHOLE receiver as it was: metadata and bytes *)
Lemma staged_err_unchanged (a : A) (s : bytes) (a' : A) (t : bytes) : staged rd a s = (Err, a', t) -> a' = a.
Proof.
  unfold staged. pose proof (rd_total a s) as G. destruct (rd a s) as [[o a''] t']. cbn [fst] in G.
  destruct G as [-> | ->]; intros H; inversion H; reflexivity.
Qed.

Lemma staged_inv (I : A -> Prop) :
  (forall a s, I a -> I (snd (fst (rd a s)))) -> forall a s, I a -> I (snd (fst (staged rd a s))).
Proof.
  intros Hi a s Ia. unfold staged. specialize (Hi a s Ia). destruct (rd a s) as [[o a'] t]. cbn [fst snd] in Hi.
  destruct o; cbn [fst snd]; assumption.
Qed.

Lemma staged_ok (a : A) (s : bytes) (r : A) (t : bytes) : rd a s = (Ok, r, t) -> staged rd a s = (Ok, r, t).
Proof. intros H. unfold staged. rewrite H. reflexivity. Qed.
End Staged.

Lemma staged_kseq_total (d p : bool) (k : kseq) (s : bytes) : good (fst (fst (staged_kseq d p k s))).
Proof. exact (staged_total kseq (fixed_kseq d p) (fixed_kseq_total d p) k s). Qed.
Lemma staged_cbk_total (d p : bool) (c : cbk) (s : bytes) : good (fst (fst (staged_cbk d p c s))).
Proof. exact (staged_total cbk (fixed_cbk d p) (fixed_cbk_total d p) c s). Qed.
Lemma staged_bdd_total (d p : bool) (b : bdd) (s : bytes) : good (fst (fst (staged_bdd d p b s))).
Proof. exact (staged_total bdd (fixed_bdd d p) (fixed_bdd_total d p) b s). Qed.

Lemma staged_kseq_err (d p : bool) (k : kseq) (s : bytes) (k' : kseq) (t : bytes) : staged_kseq d p k s = (Err, k', t) -> k' = k.
Proof. exact (staged_err_unchanged kseq (fixed_kseq d p) (fixed_kseq_total d p) k s k' t). Qed.
Lemma staged_cbk_err (d p : bool) (c : cbk) (s : bytes) (c' : cbk) (t : bytes) : staged_cbk d p c s = (Err, c', t) -> c' = c.
Proof. exact (staged_err_unchanged cbk (fixed_cbk d p) (fixed_cbk_total d p) c s c' t). Qed.
Lemma staged_bdd_err (d p : bool) (b : bdd) (s : bytes) (b' : bdd) (t : bytes) : staged_bdd d p b s = (Err, b', t) -> b' = b.
Proof. exact (staged_err_unchanged bdd (fixed_bdd d p) (fixed_bdd_total d p) b s b' t). Qed.

Lemma staged_kseq_inv (d p : bool) (k : kseq) (s : bytes) : Ik k -> Ik (snd (fst (staged_kseq d p k s))).
Proof. exact (staged_inv kseq (fixed_kseq d p) Ik (fixed_kseq_inv d p) k s). Qed.
Lemma staged_cbk_inv (d p : bool) (c : cbk) (s : bytes) : Ic c -> Ic (snd (fst (staged_cbk d p c s))).
Proof. exact (staged_inv cbk (fixed_cbk d p) Ic (fixed_cbk_inv d p) c s). Qed.
Lemma staged_bdd_inv (d p : bool) (b : bdd) (s : bytes) : Ib b -> Ib (snd (fst (staged_bdd d p b s))).
Proof. exact (staged_inv bdd (fixed_bdd d p) Ib (fixed_bdd_inv d p) b s). Qed.

Lemma staged_kseq_roundtrip (dbg partial : bool) (r x : kseq) (tl : bytes) :
  kseq_fits fits_fix r x -> staged_kseq dbg partial r (write_kseq x ++ tl) = (Ok, resk_fix r x, tl).
Proof. intros H. apply staged_ok. apply fixed_kseq_roundtrip. exact H. Qed.
Lemma staged_cbk_roundtrip (dbg partial : bool) (r x : cbk) (tl : bytes) :
  cbk_fits fits_fix (kseq_fits fits_fix) r x ->
  staged_cbk dbg partial r (write_cbk x ++ tl) = (Ok, cbk_res res_fix resk_fix r x, tl).
Proof. intros H. apply staged_ok. apply fixed_cbk_roundtrip. exact H. Qed.
Lemma staged_bdd_roundtrip (dbg partial : bool) (r x : bdd) (tl : bytes) :
  bdd_fits fits_fix (cbk_fits fits_fix (kseq_fits fits_fix)) r x ->
  staged_bdd dbg partial r (write_bdd x ++ tl) = (Ok, bdd_res res_fix (cbk_res res_fix resk_fix) r x, tl).
Proof. intros H. apply staged_ok. apply fixed_bdd_roundtrip. exact H. Qed.

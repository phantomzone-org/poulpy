(* C14: "equal up to a bounded error and a multiple of M" on exact polynomials -- the relation in which the phase equation of
   the external product holds (C04: phase(res) = m2 (x) phase(a) + E + 2^P I), closed under the operations of the CGGI loops. *)
From PV Require Import Base.MachineInt Model.Znx Model.Limbs Model.Ring Model.Poly Model.C14Lut Model.C14Blind.
From PV Require Import Proofs.C09Lists Proofs.C09Ring Proofs.C14Rotate Proofs.C14Poly.
Open Scope Z_scope.

Lemma len_padd a b : length (padd a b) = Nat.min (length a) (length b).
Proof. apply map2_length. Qed.
Lemma len_psub a b : length (psub a b) = Nat.min (length a) (length b).
Proof. apply map2_length. Qed.


(* the length of a polynomial expression whose leaves have length L *)
Lemma padd_len L a b : length a = L -> length b = L -> length (padd a b) = L.
Proof. intros Ha Hb. rewrite len_padd, Ha, Hb. apply Nat.min_id. Qed.
Lemma psub_len L a b : length a = L -> length b = L -> length (psub a b) = L.
Proof. intros Ha Hb. rewrite len_psub, Ha, Hb. apply Nat.min_id. Qed.
Lemma pscale_len L c a : length a = L -> length (pscale c a) = L.
Proof. intros Ha. rewrite pscale_length. exact Ha. Qed.
Lemma zrot_len L p a : length a = L -> length (zrot p a) = L.
Proof. intros Ha. rewrite zrot_length. exact Ha. Qed.
Lemma xp_minus_one_len L p a : length a = L -> length (xp_minus_one p a) = L.
Proof. intros Ha. rewrite xp_minus_one_length. exact Ha. Qed.
Lemma len_eq L (a b : poly) : length a = L -> length b = L -> length a = length b.
Proof. intros Ha Hb. rewrite Hb. exact Ha. Qed.
#[export] Hint Resolve padd_len psub_len pscale_len zrot_len xp_minus_one_len zeros_length : zlen.

(* goals  length e = L  and  length e = length e' *)
Ltac zlen L := solve [auto 8 with zlen | apply (len_eq L); auto 8 with zlen].

Lemma zext_pscale c a k : zext (pscale c a) k = c * zext a k.
Proof.
  destruct (Nat.eq_dec (length a) 0) as [H0|H0].
  { destruct a; [|discriminate]. change (pscale c []) with (@nil Z). rewrite !zext_nil. lia. }
  set (n := Z.of_nat (length a)).
  destruct (exp_decomp n k ltac:(lia)) as [q [i [Hk Hi]]].
  rewrite (zext_at_nat (pscale c a) k q i) by (rewrite pscale_length; fold n; auto; lia).
  rewrite (zext_at_nat a k q i) by (fold n; auto; lia).
  rewrite pscale_nth by lia. destruct (Z.even q); lia.
Qed.
Lemma zext_xp_minus_one p a k : zext (xp_minus_one p a) k = zext a (k - p) - zext a k.
Proof. unfold xp_minus_one. rewrite zext_psub by apply zrot_length. rewrite zext_zrot. reflexivity. Qed.
Lemma zext_zeros n k : zext (zeros n) k = 0.
Proof. unfold zext. cbv zeta. rewrite nthZ_zeros. destruct (Z.even _); reflexivity. Qed.

(* identify extension arguments that are equal as integers, so that lia sees the same atoms *)
Ltac zext_norm := repeat match goal with
  | |- context [zext ?a ?k1] =>
      match goal with |- context [zext a ?k2] => assert_fails (constr_eq k1 k2); replace k2 with k1 by lia end
  end.
(* equalities of polynomials of the same length are decided on the extensions, which are linear *)
Ltac pext L := apply zext_inj; [zlen L | intros ?k; repeat (rewrite ?zext_padd, ?zext_psub, ?zext_xp_minus_one, ?zext_zrot, ?zext_pscale, ?zext_zeros by zlen L); zext_norm].

Lemma pscale_0 (a : poly) : pscale 0 a = zeros (length a).
Proof. pext (length a). lia. Qed.

Lemma bounded_weaken B B' a : B <= B' -> bounded B a -> bounded B' a.
Proof. intros H Hb. eapply Forall_impl; [|exact Hb]. cbv beta. intros; lia. Qed.

(* x = y + E + M J, |E|_inf <= B, all of length L *)
Definition approx (L : nat) (M B : Z) (x y : poly) : Prop :=
  length x = L /\ length y = L /\
  exists E J, length E = L /\ length J = L /\ bounded B E /\ x = padd (padd y E) (pscale M J).

Section Approx.
Variables (L : nat) (M : Z).

Lemma approx_refl B x : length x = L -> 0 <= B -> approx L M B x x.
Proof.
  intros Hl HB. split; [auto|]. split; [auto|]. exists (zeros L), (zeros L).
  split; [apply zeros_length|]. split; [apply zeros_length|]. split; [apply bounded_zeros; auto|].
  pext L. lia.
Qed.
Lemma approx_eq B x y : length x = L -> 0 <= B -> x = y -> approx L M B x y.
Proof. intros Hl HB <-. apply approx_refl; auto. Qed.
Lemma approx_weaken B B' x y : B <= B' -> approx L M B x y -> approx L M B' x y.
Proof.
  intros H (Hx & Hy & E & J & HE & HJ & Hb & Heq). split; [auto|]. split; [auto|].
  exists E, J. repeat split; auto. eapply bounded_weaken; eauto.
Qed.
Lemma approx_len_l B x y : approx L M B x y -> length x = L.
Proof. intros H; apply H. Qed.
Lemma approx_len_r B x y : approx L M B x y -> length y = L.
Proof. intros H; apply H. Qed.

Lemma approx_zrot B p x y : approx L M B x y -> approx L M B (zrot p x) (zrot p y).
Proof.
  intros (Hx & Hy & E & J & HE & HJ & Hb & Heq). split; [zlen L|]. split; [zlen L|].
  exists (zrot p E), (zrot p J). split; [zlen L|]. split; [zlen L|]. split; [apply zrot_bounded; auto|].
  rewrite Heq. pext L. lia.
Qed.
Lemma approx_padd B1 B2 x y x' y' :
  approx L M B1 x y -> approx L M B2 x' y' -> approx L M (B1 + B2) (padd x x') (padd y y').
Proof.
  intros (Hx & Hy & E & J & HE & HJ & Hb & Heq) (Hx' & Hy' & E' & J' & HE' & HJ' & Hb' & Heq').
  split; [zlen L|]. split; [zlen L|].
  exists (padd E E'), (padd J J'). split; [zlen L|]. split; [zlen L|].
  split; [apply padd_bounded; auto; lia|]. rewrite Heq, Heq'. pext L. lia.
Qed.
Lemma approx_psub B1 B2 x y x' y' :
  approx L M B1 x y -> approx L M B2 x' y' -> approx L M (B1 + B2) (psub x x') (psub y y').
Proof.
  intros (Hx & Hy & E & J & HE & HJ & Hb & Heq) (Hx' & Hy' & E' & J' & HE' & HJ' & Hb' & Heq').
  split; [zlen L|]. split; [zlen L|].
  exists (psub E E'), (psub J J'). split; [zlen L|]. split; [zlen L|].
  split; [apply psub_bounded; auto; lia|]. rewrite Heq, Heq'. pext L. lia.
Qed.
Lemma approx_trans B1 B2 x y z : approx L M B1 x y -> approx L M B2 y z -> approx L M (B1 + B2) x z.
Proof.
  intros (Hx & Hy & E & J & HE & HJ & Hb & Heq) (_ & Hz & E' & J' & HE' & HJ' & Hb' & Heq').
  split; [auto|]. split; [auto|].
  exists (padd E E'), (padd J J'). split; [zlen L|]. split; [zlen L|].
  split; [apply padd_bounded; auto; lia|]. rewrite Heq, Heq'. pext L. lia.
Qed.
(* one step of a rotating loop: the state after the step approximates X^p times the state before *)
Lemma approx_zrot_trans B1 B2 p q x y z :
  approx L M B1 y (zrot p z) -> approx L M B2 x (zrot q y) -> approx L M (B2 + B1) x (zrot (q + p) z).
Proof. intros H1 H2. rewrite <- zrot_compose. exact (approx_trans _ _ _ _ _ H2 (approx_zrot _ q _ _ H1)). Qed.
Lemma approx_xp_minus_one B p x y : approx L M B x y -> approx L M (2 * B) (xp_minus_one p x) (xp_minus_one p y).
Proof.
  intros H. unfold xp_minus_one. replace (2 * B) with (B + B) by ring.
  apply approx_psub; [apply approx_zrot; exact H | exact H].
Qed.
(* adding something that is approximately zero *)
Lemma approx_padd_zero B1 B2 c c' x : approx L M B1 c c' -> approx L M B2 x (zeros L) -> approx L M (B1 + B2) (padd c x) c'.
Proof.
  intros H1 H2. pose proof (approx_padd _ _ _ _ _ _ H1 H2) as H.
  replace (padd c' (zeros L)) with c' in H; [exact H|].
  pose proof (approx_len_r _ _ _ H1). pext L. lia.
Qed.

(* sums *)
Lemma approx_fold_padd B (xs ys : list poly) : Forall2 (approx L M B) xs ys ->
  forall Ba a a', approx L M Ba a a' ->
  approx L M (Ba + B * Z.of_nat (length xs)) (fold_left padd xs a) (fold_left padd ys a').
Proof.
  induction 1 as [|x y xs ys Hxy Hrest IH]; intros Ba a a' Ha; cbn [fold_left length].
  - replace (Ba + B * Z.of_nat 0) with Ba by lia. exact Ha.
  - pose proof (IH (Ba + B) (padd a x) (padd a' y) (approx_padd _ _ _ _ _ _ Ha Hxy)) as H.
    replace (Ba + B * Z.of_nat (S (length xs))) with (Ba + B + B * Z.of_nat (length xs)) by lia. exact H.
Qed.
Lemma approx_psum B (xs ys : list poly) : 0 <= B -> Forall2 (approx L M B) xs ys ->
  approx L M (B * Z.of_nat (length xs)) (psum L xs) (psum L ys).
Proof.
  intros HB H. unfold psum.
  pose proof (approx_fold_padd B xs ys H 0 (zeros L) (zeros L) (approx_refl 0 _ (zeros_length L) ltac:(lia))) as H1.
  replace (0 + B * Z.of_nat (length xs)) with (B * Z.of_nat (length xs)) in H1 by lia. exact H1.
Qed.

End Approx.


(* C14: the hypothesis `external_product_phase` of the accumulator theorems, instantiated from C04's phase theorem for the
   GLWE x GGSW external product (Proofs/C04Phase.v).
   ciphertexts = column lists (Model/Gadget.v cols_t), phase = Gadget.phase_val P b n sk, M = 2^P,
   acc [x] BRK_i = gadget_product ... K_i with K_i a GGSW encryption of the constant polynomial s_i in {0, 1}.
   What remains a premise after the instantiation is listed at the theorem. *)
From PV Require Import Base.MachineInt Model.Znx Model.Limbs Model.Flat Model.Ring Model.Poly Model.DftAbs Model.Gadget Model.GadgetSpec.
From PV Require Import Proofs.C07Dft Proofs.C07Ring Proofs.GadgetPhase Proofs.C03Phase Proofs.C04Phase.
From PV Require Import Model.C14Blind Proofs.C14Poly Proofs.C14Approx.
Open Scope Z_scope.

(* the GGSW plaintext: the constant polynomial s *)
Definition const_poly (n : nat) (s : Z) : list Z := if s =? 0 then pzero n else pone n.

Lemma phase_val_length P b n sk size (ct : cols_t) :
  (1 <= n)%nat -> wf_cols n (S (length sk)) size ct -> (forall s : list Z, In s sk -> length s = n) ->
  length (phase_val P b n sk ct) = n.
Proof.
  intros Hn Hwf Hsk.
  rewrite (phase_val_phase_f P b n sk ct size Hn Hwf).
  - apply phase_f_length. intros co j Hco Hj. unfold limbs_of. destruct Hwf as [_ H]. apply (H co Hco). exact Hj.
  - intros i Hi. apply Hsk. apply nth_In. exact Hi.
Qed.

Theorem external_product_phase_from_C04
  (P b : Z) (n msize a_size dsize dnum : nat) (clamp : bool) (a res0 : cols_t) (K : pmat) (sk : list (list Z))
  (s B : Z) (e I : nat -> nat -> list Z) :
  (* shapes (C04's own premises) *)
  wf_cols n (S (length sk)) a_size a ->
  acc_shape (S (length sk)) msize clamp res0 ->
  wf_pmat_in n (dnum * S (length sk)) (msize * S (length sk)) K ->
  (1 <= n)%nat -> (1 <= dsize)%nat -> (dsize - 2 <= msize)%nat ->
  (a_size <= dnum * dsize)%nat ->                      (* every limb of the accumulator is decomposed *)
  (forall t : list Z, In t sk -> length t = n) ->
  (forall row ci : nat, length (e row ci) = n) -> (forall row ci : nat, length (I row ci) = n) ->
  0 <= b -> Z.of_nat msize * b <= P -> Z.of_nat dnum * Z.of_nat dsize * b <= P ->
  (* REMAINING PREMISE 1: K is a GGSW encryption of the bit s with row errors e (the statement of C01/C04 key encryption) *)
  s = 0 \/ s = 1 ->
  C04_ggsw_cells P b n (length sk) msize dsize dnum K sk (const_poly n s) e I ->
  (* REMAINING PREMISE 2: the explicit error polynomial of this product is bounded by B (C03/C04 bound theorems give B
     from the digit bound and the key error bound) *)
  bounded B (gadget_err P b n (S (length sk)) (S (length sk)) msize dsize dnum (acol n a) K (sk_ext n sk) e) ->
  exists res : cols_t,
    gadget_product n (S (length sk)) msize res0 a a_size dsize dnum msize clamp K = Some res /\
    approx n (2 ^ P) B (phase_val P b n sk res) (Model.C14Blind.pscale s (phase_val P b n sk a)).
Proof.
  intros Hwa Hacc HK Hn Hds Hms Has Hsk He HI Hb HP1 HP2 Hs Hcells HB.
  assert (Hm2 : length (const_poly n s) = n).
  { unfold const_poly. destruct (s =? 0); [apply pzero_length | apply pone_length; exact Hn]. }
  destruct (C04_external_product_phase_val_lemma P b n msize a_size dsize dnum clamp a res0 K sk (const_poly n s) e I
              Hwa Hacc HK Hn Hds Hms Has Hsk Hm2 He HI Hb HP1 HP2 Hcells) as [res [Hgp Hph]].
  exists res. split; [exact Hgp|].
  pose proof (phase_val_length P b n sk a_size a Hn Hwa Hsk) as Hla.
  pose proof (gadget_err_length P b n (S (length sk)) (S (length sk)) msize dsize dnum (acol n a) K (sk_ext n sk) e
                (acol_length n (S (length sk)) a_size a Hwa)) as HlE.
  pose proof (gadget_int_length b n (S (length sk)) (S (length sk)) msize dsize dnum (acol n a) K (sk_ext n sk) I
                (acol_length n (S (length sk)) a_size a Hwa)) as HlJ.
  assert (Hmul : pmul (const_poly n s) (phase_val P b n sk a) = Model.C14Blind.pscale s (phase_val P b n sk a)).
  { unfold const_poly. destruct Hs as [-> | ->]; cbn [Z.eqb].
    - rewrite <- Hla at 1. rewrite pmul_pzero_l, pscale_0. reflexivity.
    - rewrite <- Hla at 1. rewrite pmul_one_l by lia. symmetry. apply pscale_1. }
  rewrite Hmul in Hph.
  split.
  - rewrite Hph. apply padd_len; [apply padd_len|]; rewrite ?pscale_length; assumption.
  - split; [rewrite pscale_length; exact Hla|].
    eexists _, _. split; [exact HlE|]. split; [exact HlJ|]. split; [exact HB|]. exact Hph.
Qed.

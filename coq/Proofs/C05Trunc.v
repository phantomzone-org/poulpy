(* C05 — the torus position of the convolution output, and E_trunc: the limbs of the product that cnv_apply_dft does not return. *)
From PV Require Import Base.MachineInt Model.Znx Model.Limbs Model.LimbsBig Model.Flat Model.Ring Model.DftAbs
  Model.C05Cnv Model.C05Spec Model.C05Core.
From PV Require Import Proofs.C07Dft Proofs.C07Ring Proofs.C05Cnv Proofs.C05Core.
From PV Require Proofs.GadgetDecomp.
Open Scope Z_scope.

(* the terms of the exact product (sum_u a_u 2^-(u+1)ab)(sum_v b_v 2^-(v+1)ab) 2^(P+cnv), selected by a condition on (u, v) *)
Definition wterm (P cnv ab : Z) (a b : plimbs) (u v : nat) : list Z :=
  pscale (2 ^ (P + cnv - (zn u + zn v + 2) * ab)) (pmul (lim a u) (lim b v)).
Definition psel (n : nat) (a b : plimbs) (c : nat -> nat -> bool) (t : nat -> nat -> list Z) : list Z :=
  psumf n (fun u => psumf n (fun v => if c u v then t u v else pzero n) (length b)) (length a).
Definition prod_full n P cnv ab a b := psel n a b (fun _ _ => true) (wterm P cnv ab a b).
Definition prod_low n P cnv ab hi a b := psel n a b (fun u v => Nat.ltb (u + v) hi) (wterm P cnv ab a b).
Definition prod_win n P cnv ab hi dsz a b := psel n a b (fun u v => Nat.leb hi (u + v) && Nat.ltb (u + v) (hi + dsz)) (wterm P cnv ab a b).
Definition prod_high n P cnv ab hi dsz a b := psel n a b (fun u v => Nat.leb (hi + dsz) (u + v)) (wterm P cnv ab a b).
(* weight of the dropped pairs *)
Definition dropped_w (P cnv ab : Z) (asz bsz lim0 : nat) : Z :=
  zsum (fun u => zsum (fun v => if Nat.leb lim0 (u + v) then 2 ^ (P + cnv - (zn u + zn v + 2) * ab) else 0) bsz) asz.

Section Trunc.
Variables (n : nat) (P cnv ab : Z) (a b : plimbs).
Hypothesis wa : wfl n a.
Hypothesis wb : wfl n b.

Lemma wterm_length u v : (u < length a)%nat -> length (wterm P cnv ab a b u v) = n.
Proof. intros Hu. unfold wterm. rewrite pscale_length, pmul_length. apply wa; exact Hu. Qed.

Lemma psel_length c : length (psel n a b c (wterm P cnv ab a b)) = n.
Proof.
  unfold psel. apply psumf_length. intros u Hu. apply psumf_length. intros v _.
  destruct (c u v); [apply wterm_length; exact Hu|apply pzero_length].
Qed.

Lemma psel_nth c k : nth k (psel n a b c (wterm P cnv ab a b)) 0 =
  zsum (fun u => zsum (fun v => if c u v then nth k (wterm P cnv ab a b u v) 0 else 0) (length b)) (length a).
Proof.
  unfold psel.
  rewrite psumf_coeff by (intros u Hu; apply psumf_length; intros v _; destruct (c u v); [apply wterm_length; exact Hu|apply pzero_length]).
  apply zsum_ext; intros u Hu.
  rewrite psumf_coeff by (intros v _; destruct (c u v); [apply wterm_length; exact Hu|apply pzero_length]).
  apply zsum_ext; intros v _. destruct (c u v); [reflexivity|apply nth_pzero].
Qed.

(* torus position: limb k of the convolution with offset hi, read in radix 2^ab at scale P + lo, is the window
   hi <= u+v < hi+dsz of the exact product: the offset is a number of bits *)
Theorem product_position fft dsz hi lo : (1 <= length a)%nat -> (1 <= length b)%nat -> zn hi * ab + lo = cnv - ab ->
  pval n (P + lo) ab (cnv_apply fft n dsz hi a b) = prod_win n P cnv ab hi dsz a b.
Proof.
  intros Ha Hb Hsplit. pose proof (cnv_apply_wfl fft n dsz hi a b wa wb Ha Hb) as wc.
  apply list_eq_nth; [rewrite pval_length by exact wc; symmetry; apply psel_length|].
  intros c _. rewrite nth_pval by exact wc. unfold cval, prod_win. rewrite cnv_apply_length, psel_nth.
  transitivity (zsum (fun k => zsum (fun u => zsum (fun v =>
       if Nat.eqb (k + hi) (u + v) then 2 ^ (P + lo - (zn k + 1) * ab) * nth c (pmul (lim a u) (lim b v)) 0 else 0) (length b)) (length a)) dsz).
  { apply zsum_ext; intros k Hk. rewrite cnv_apply_spec, bivariate_nth by assumption.
    rewrite <- zsum_mul_l. apply zsum_ext; intros u _. rewrite <- zsum_mul_l. apply zsum_ext; intros v _.
    rewrite (Nat.eqb_sym (k + hi)). destruct (Nat.eqb (u + v) (k + hi)); ring. }
  rewrite zsum_swap. apply zsum_ext; intros u _. rewrite zsum_swap. apply zsum_ext; intros v _. rewrite zsum_diag.
  destruct (Nat.leb_spec hi (u + v)) as [H|H]; destruct (Nat.ltb_spec (u + v) (hi + dsz)); destruct (Nat.ltb_spec (u + v - hi) dsz);
    cbn [andb]; try lia; try reflexivity.
  unfold wterm. rewrite nth_pscale. f_equal. f_equal. unfold zn in *. rewrite Nat2Z.inj_sub, Nat2Z.inj_add by exact H. lia.
Qed.

(* the pairs below the window are multiples of 2^P as soon as lo >= 0 (they vanish on the torus); for cnv < ab there are none *)
Theorem prod_low_integer hi lo : zn hi * ab + lo = cnv - ab -> 0 <= lo -> 0 <= ab -> 0 <= P ->
  prod_low n P cnv ab hi a b =
  pscale (2 ^ P) (psel n a b (fun u v => Nat.ltb (u + v) hi)
                     (fun u v => pscale (2 ^ (cnv - (zn u + zn v + 2) * ab)) (pmul (lim a u) (lim b v)))).
Proof.
  intros Hs Hlo Hab HP. unfold prod_low, psel.
  change (psumf n) with (GadgetSpec.psumf n).
  rewrite GadgetDecomp.pscale_psumf. apply GadgetDecomp.psumf_ext; intros u _.
  rewrite GadgetDecomp.pscale_psumf. apply GadgetDecomp.psumf_ext; intros v _.
  destruct (Nat.ltb_spec (u + v) hi) as [H|H].
  - unfold wterm. change pscale with Gadget.pscale. rewrite GadgetDecomp.pscale_pscale. f_equal.
    rewrite <- Z.pow_add_r by (unfold zn in *; nia). f_equal. lia.
  - symmetry. apply GadgetDecomp.pscale_pzero.
Qed.

(* the dropped pairs: |.| <= n Da Db * (sum of their weights) *)
Theorem prod_high_bound hi dsz Da Db k : 0 <= Da -> 0 <= Db ->
  (forall u i, Z.abs (nth i (lim a u) 0) <= Da) -> (forall v i, Z.abs (nth i (lim b v) 0) <= Db) ->
  P + cnv - (zn (length a) + zn (length b)) * ab >= 0 -> 0 <= ab ->
  Z.abs (nth k (prod_high n P cnv ab hi dsz a b) 0) <= zn n * Da * Db * dropped_w P cnv ab (length a) (length b) (hi + dsz).
Proof.
  intros HDa HDb Ha Hb Hexp Hab. unfold prod_high. rewrite psel_nth. unfold dropped_w.
  rewrite <- zsum_mul_l. apply zsum_abs_le. intros u Hu. rewrite <- zsum_mul_l. apply zsum_abs_le. intros v Hv.
  destruct (Nat.leb (hi + dsz) (u + v)). 2:{ rewrite Z.mul_0_r. apply Z.le_refl. }
  unfold wterm. rewrite nth_pscale, Z.abs_mul.
  assert (Hw : 0 <= 2 ^ (P + cnv - (zn u + zn v + 2) * ab)) by (apply Z.pow_nonneg; lia).
  rewrite (Z.abs_eq _ Hw).
  assert (Hm : Z.abs (nth k (pmul (lim a u) (lim b v)) 0) <= zn n * Da * Db).
  { pose proof (pmul_norm_bound (lim a u) (lim b v) k Da) as B1.
    rewrite wb, wa in B1 by assumption. specialize (B1 eq_refl HDa (Ha u)).
    pose proof (norm1_le (lim b v) Db (Hb v)) as N1. rewrite wb in N1 by exact Hv.
    nia. }
  nia.
Qed.
End Trunc.


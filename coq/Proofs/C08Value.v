(* C08 (pure arithmetic): the torus value of a window of the balanced expansion.
   No machine arithmetic and no loops here. *)
From PV Require Import Base.MachineInt Model.Znx Model.Limbs Model.C08Oracle
  Proofs.ZnxDigit Proofs.C08Steps Proofs.C08Chain.
Open Scope Z_scope.

Definition wt (P b : Z) (i : nat) : Z := 2 ^ (P - (zn i + 1) * b).

Lemma val_scaled_aux (P b : Z) (l : list Z) (s k : Z) :
  fold_left (fun (s : Z * Z) x => (fst s + x * 2 ^ (P - (snd s + 1) * b), snd s + 1)) l (s, k)
  = (s + sumn (length l) (fun i => nthZ l i * 2 ^ (P - (k + zn i + 1) * b)), k + zn (length l)).
Proof.
  revert s k; induction l as [|x t IH]; intros s k.
  - cbn [fold_left length sumn]. unfold zn. f_equal; cbn; lia.
  - cbn [fold_left fst snd]. rewrite IH. cbn [length].
    replace (S (length t)) with (1 + length t)%nat by lia. rewrite sumn_add. cbn [sumn].
    unfold zn. f_equal; [|lia].
    unfold nthZ at 2. cbn [nth]. rewrite Z.add_0_r, Z.add_0_l, <- Z.add_assoc. f_equal. f_equal.
    apply sumn_ext. intros i Hi. unfold nthZ. cbn [nth Nat.add]. f_equal. f_equal. lia.
Qed.

Lemma val_scaled_sumn (P b : Z) (l : list Z) :
  val_scaled P b l = sumn (length l) (fun i => nthZ l i * wt P b i).
Proof.
  unfold val_scaled. rewrite val_scaled_aux. cbn [fst]. rewrite Z.add_0_l.
  apply sumn_ext. intros i Hi. unfold wt. f_equal.
Qed.

Lemma wrap_0_l (x : Z) : wrap 0 x = 0.
Proof. unfold wrap. cbn. rewrite Z.mod_1_r. reflexivity. Qed.

Lemma tor_abs_le (P x : Z) : 0 <= P -> tor_abs P x <= Z.abs x.
Proof.
  intros HP. unfold tor_abs. destruct (Z.eq_dec P 0) as [->|Hne]; [rewrite wrap_0_l; lia|].
  pose proof (wrap_range P x ltac:(lia)) as [H1 H2].
  destruct (Z_le_gt_dec (- 2 ^ (P - 1)) x) as [Hl|Hl]; [destruct (Z_lt_le_dec x (2 ^ (P - 1))) as [Hu|Hu]|].
  - rewrite wrap_id by (unfold in_range; lia). lia.
  - lia.
  - lia.
Qed.

Lemma tor_abs_add_mul (P x y : Z) : 0 <= P -> tor_abs P (x + 2 ^ P * y) = tor_abs P x.
Proof.
  intros HP. unfold tor_abs. destruct (Z.eq_dec P 0) as [->|Hne]; [rewrite !wrap_0_l; reflexivity|].
  rewrite wrap_add_mul by lia. reflexivity.
Qed.

Lemma tor_abs_le_unit (P x : Z) : 0 <= P -> tor_abs P x <= 2 ^ P.
Proof.
  intros HP. unfold tor_abs. destruct (Z.eq_dec P 0) as [->|Hne]; [rewrite wrap_0_l; cbn; lia|].
  pose proof (wrap_range P x ltac:(lia)) as [H1 H2].
  pose proof (pow2_split P ltac:(lia)). pose proof (pow2_pos (P - 1) ltac:(lia)). lia.
Qed.

Lemma tor_abs_0 (P : Z) : 0 <= P -> tor_abs P 0 = 0.
Proof. intros HP. pose proof (tor_abs_le P 0 HP). unfold tor_abs in *. lia. Qed.

(* a (most significant first) shifted by lsh bits, as a least-significant-first sequence padded with 0 *)
Definition vin (a : list Z) (lsh : Z) (t : nat) : Z :=
  if Nat.ltb t (length a) then nthZ a (length a - 1 - t) * 2 ^ lsh else 0.

(* digit of position t of the balanced expansion (0 below position 0) *)
Definition dgz (b : Z) (v : nat -> Z) (t : Z) : Z :=
  if t <? 0 then 0 else dig b v 0 (Z.to_nat t).

(* the integer  sum_t v_t 2^(t b) *)
Definition ival (b : Z) (v : nat -> Z) (n : nat) : Z := sumn n (fun t => v t * 2 ^ (zn t * b)).

(* value of the window of rsz digits whose top digit has position T - 1 *)
Definition dval (P b : Z) (v : nat -> Z) (T : Z) (rsz : nat) : Z :=
  sumn rsz (fun i => dgz b v (T - 1 - zn i) * wt P b i).

Lemma vin_zero (a : list Z) (lsh : Z) (t : nat) : (length a <= t)%nat -> vin a lsh t = 0.
Proof. intros Ht. unfold vin. destruct (Nat.ltb_spec t (length a)); [lia|reflexivity]. Qed.

Lemma dgz_nonneg (b : Z) (v : nat -> Z) (t : Z) : 0 <= t -> dgz b v t = dig b v 0 (Z.to_nat t).
Proof. intros Ht. unfold dgz. destruct (Z.ltb_spec t 0); [lia|reflexivity]. Qed.

Lemma dgz_neg (b : Z) (v : nat -> Z) (t : Z) : t < 0 -> dgz b v t = 0.
Proof. intros Ht. unfold dgz. destruct (Z.ltb_spec t 0); [reflexivity|lia]. Qed.

Section Value.
Variable b : Z.
Hypothesis Hb : 1 <= b.

Lemma pow_zn_S (j : nat) : 2 ^ (zn (S j) * b) = 2 ^ (zn j * b) * 2 ^ b.
Proof. unfold zn. rewrite <- Z.pow_add_r by lia. f_equal. lia. Qed.

Lemma pow_zn_add (j k : nat) : 2 ^ (zn (j + k) * b) = 2 ^ (zn j * b) * 2 ^ (zn k * b).
Proof. unfold zn. rewrite <- Z.pow_add_r by lia. f_equal. lia. Qed.

(* reversal: big-endian weights of a window = scaled little-endian integer *)
Lemma window_rev (d : nat -> Z) (m : nat) (E : Z) : 0 <= E ->
  sumn m (fun i => d (m - 1 - i)%nat * 2 ^ (E + (zn m - zn i - 1) * b))
  = 2 ^ E * sumn m (fun t => d t * 2 ^ (zn t * b)).
Proof.
  intros HE. rewrite sumn_rev, <- sumn_scale. apply sumn_ext. intros t Ht.
  replace (m - 1 - (m - 1 - t))%nat with t by lia.
  replace (E + (zn m - zn (m - 1 - t) - 1) * b) with (E + zn t * b) by (unfold zn; nia).
  rewrite Z.pow_add_r by (unfold zn; nia). ring.
Qed.

Variable v : nat -> Z.
Variable n : nat.
Hypothesis Hv : forall t, (n <= t)%nat -> v t = 0.

(* the total integer seen from any position m: S n = S m + 2^(m b) X *)
Lemma ival_split (m : nat) : exists X, ival b v n = ival b v m + 2 ^ (zn m * b) * X.
Proof.
  unfold ival. destruct (Nat.le_gt_cases m n) as [Hm|Hm].
  - exists (sumn (n - m) (fun t => v (m + t)%nat * 2 ^ (zn t * b))).
    replace n with (m + (n - m))%nat at 1 by lia. rewrite sumn_add. f_equal.
    rewrite <- sumn_scale. apply sumn_ext. intros t Ht. rewrite pow_zn_add. ring.
  - exists 0. replace m with (n + (m - n))%nat at 1 by lia. rewrite sumn_add.
    rewrite (sumn_zero (m - n)); [lia|]. intros t Ht. rewrite Hv by lia. lia.
Qed.

(* the window value, relative to the exact value 2^(P - T b) * S n, modulo 2^P *)
Theorem dval_value (P T : Z) (rsz : nat) : zn rsz * b <= P -> 0 <= P - T * b ->
  exists delta Y, dval P b v T rsz - 2 ^ (P - T * b) * ival b v n = delta + 2 ^ P * Y /\
    Z.abs delta <= 2 ^ (P - zn rsz * b) /\ (T <= zn rsz -> delta = 0).
Proof.
  intros HP HE. set (E := P - T * b) in *.
  destruct (Z_le_gt_dec T (zn rsz)) as [HT|HT].
  - (* nothing truncated *)
    set (T' := Z.to_nat T).
    assert (HT' : (T' <= rsz)%nat) by (unfold T', zn in *; lia).
    destruct (ival_split T') as [X HX].
    pose proof (chain_sum b Hb v 0 T') as HC. fold (ival b v T') in HC.
    assert (Hval : dval P b v T rsz = 2 ^ E * sumn T' (fun t => dig b v 0 t * 2 ^ (zn t * b))).
    { unfold dval. replace rsz with (T' + (rsz - T'))%nat by lia. rewrite sumn_add.
      rewrite (sumn_zero (rsz - T')).
      2:{ intros t Ht. rewrite dgz_neg; [lia|]. unfold T', zn in *; lia. }
      rewrite Z.add_0_r, <- (window_rev _ T' E HE). apply sumn_ext. intros i Hi.
      rewrite dgz_nonneg by (unfold T', zn in *; lia).
      f_equal; [f_equal; unfold T', zn in *; lia|].
      unfold wt. f_equal. unfold E, T', zn in *. nia. }
    destruct (Z_le_gt_dec T 0) as [HT0|HT0].
    + (* everything is an integer *)
      assert (T' = 0%nat) by (unfold T'; lia).
      exists 0, (- 2 ^ (- T * b) * ival b v n). split; [|split; [|reflexivity]].
      * rewrite Hval. replace T' with 0%nat by auto. cbn [sumn].
        replace E with (P + - T * b) by (unfold E; lia). rewrite Z.pow_add_r by (unfold zn in *; nia). ring.
      * cbn [Z.abs]. pose proof (pow2_pos (P - zn rsz * b) ltac:(lia)). lia.
    + exists 0, (- (car b v 0 T' + X)). split; [|split; [|reflexivity]].
      * rewrite Hval, HX.
        assert (EP : 2 ^ P = 2 ^ E * 2 ^ (zn T' * b)).
        { rewrite <- Z.pow_add_r by (unfold zn; nia). f_equal. unfold E, T', zn. nia. }
        rewrite EP. nia.
      * cbn [Z.abs]. pose proof (pow2_pos (P - zn rsz * b) ltac:(lia)). lia.
  - (* k low digits are dropped *)
    set (k := Z.to_nat (T - zn rsz)).
    assert (Hk : zn k = T - zn rsz) by (unfold k, zn in *; lia).
    destruct (ival_split (k + rsz)) as [X HX].
    pose proof (chain_sum b Hb v 0 (k + rsz)) as HC. fold (ival b v (k + rsz)) in HC.
    rewrite sumn_add in HC.
    set (Dlow := sumn k (fun t => dig b v 0 t * 2 ^ (zn t * b))) in *.
    assert (Hmid : sumn rsz (fun t => dig b v 0 (k + t) * 2 ^ (zn (k + t) * b))
                   = 2 ^ (zn k * b) * sumn rsz (fun s => dig b v 0 (k + s) * 2 ^ (zn s * b))).
    { rewrite <- sumn_scale. apply sumn_ext. intros t Ht. rewrite pow_zn_add. ring. }
    rewrite Hmid in HC.
    set (E' := P - zn rsz * b).
    assert (Hval : dval P b v T rsz = 2 ^ E' * sumn rsz (fun s => dig b v 0 (k + s) * 2 ^ (zn s * b))).
    { unfold dval. rewrite <- (window_rev _ rsz E') by (unfold E'; lia). apply sumn_ext. intros i Hi.
      rewrite dgz_nonneg by (unfold zn in *; lia).
      f_equal; [f_equal; unfold zn in *; lia|].
      unfold wt. f_equal. unfold E'. lia. }
    assert (EE : 2 ^ E' = 2 ^ E * 2 ^ (zn k * b)).
    { rewrite <- Z.pow_add_r by (unfold zn in *; nia). f_equal. unfold E, E'. rewrite Hk. ring. }
    assert (EP : 2 ^ P = 2 ^ E * 2 ^ (zn (k + rsz) * b)).
    { rewrite <- Z.pow_add_r by (unfold zn in *; nia). f_equal. unfold E.
      replace (zn (k + rsz)) with T by (unfold zn in *; lia). ring. }
    exists (- 2 ^ E * Dlow), (- (car b v 0 (k + rsz) + X)). split; [|split; [|lia]].
    + rewrite Hval, HX, EE, EP. nia.
    + pose proof (digits_small b Hb (dig b v 0) k ltac:(intros; apply dig_range; auto)) as HD.
      fold Dlow in HD. fold E'. rewrite EE.
      pose proof (pow2_pos E HE). pose proof (pow2_pos (zn k * b) ltac:(unfold zn; nia)).
      rewrite Z.abs_mul, Z.abs_opp, (Z.abs_eq (2 ^ E)) by lia. nia.
Qed.

End Value.

(* value of a limb vector shifted by off = lo b + lsh bits, as the scaled integer of its input sequence *)
Lemma val_scaled_vin (b P lo lsh : Z) (a : list Z) : 1 <= b -> 0 <= lsh ->
  0 <= P - (zn (length a) - lo) * b ->
  val_scaled (P + (lo * b + lsh)) b a = 2 ^ (P - (zn (length a) - lo) * b) * ival b (vin a lsh) (length a).
Proof.
  intros Hb Hl HE. set (E := P - (zn (length a) - lo) * b) in *.
  rewrite val_scaled_sumn, sumn_rev. unfold ival. rewrite <- sumn_scale.
  apply sumn_ext. intros t Ht. unfold vin. destruct (Nat.ltb_spec t (length a)); [|lia].
  unfold wt.
  replace (P + (lo * b + lsh) - (zn (length a - 1 - t) + 1) * b) with (E + lsh + zn t * b)
    by (unfold E, zn; nia).
  rewrite !Z.pow_add_r by (unfold zn; nia). ring.
Qed.

(* dval - exact value = delta (mod 2^P), |delta| <= one unit of the last limb, delta = 0 if nothing is cut *)
Lemma window_core (b P lo lsh : Z) (a : list Z) (rsz : nat) : 1 <= b -> 0 <= lsh < b ->
  zn rsz * b + zn (length a) * b + Z.abs (lo * b + lsh) <= P ->
  exists delta Y,
    dval P b (vin a lsh) (zn (length a) - lo) rsz - val_scaled (P + (lo * b + lsh)) b a = delta + 2 ^ P * Y /\
    Z.abs delta <= 2 ^ (P - zn rsz * b) /\
    (zn (length a) * b - (lo * b + lsh) <= zn rsz * b -> delta = 0).
Proof.
  intros Hb Hl HP.
  set (A := zn (length a)) in *. set (R := zn rsz) in *.
  assert (HA : 0 <= A) by (unfold A, zn; lia). assert (HR : 0 <= R) by (unfold R, zn; lia).
  assert (HP0 : 0 <= P) by nia.
  set (T := A - lo). set (E := P - T * b).
  assert (Hexact : A * b - (lo * b + lsh) <= R * b -> T <= R) by (unfold T; nia).
  destruct (Z_le_gt_dec 0 E) as [HE|HE].
  - rewrite (val_scaled_vin b P lo lsh a Hb ltac:(lia) HE). fold A T E.
    destruct (dval_value b Hb (vin a lsh) (length a) (fun t Ht => vin_zero a lsh t Ht) P T rsz
                ltac:(fold R; nia) HE) as (delta & Y & H1 & H2 & H3).
    exists delta, Y. fold E in H1. fold R in H2, H3. split; [exact H1|]. split; [exact H2|].
    intros Hx. apply H3. apply Hexact. exact Hx.
  - (* only possible when the output is empty and something is truncated *)
    assert (HR0 : R = 0) by (unfold E, T in HE; nia).
    assert (HP1 : 1 <= P) by (unfold E, T in HE; nia).
    set (X := dval P b (vin a lsh) T rsz - val_scaled (P + (lo * b + lsh)) b a).
    destruct (wrap_exists P X HP1) as [q Hq].
    exists (wrap P X), q. split; [lia|]. split.
    + pose proof (wrap_range P X HP1) as [W1 W2].
      pose proof (pow2_split P HP1). pose proof (pow2_pos (P - 1) ltac:(lia)).
      replace (P - R * b) with P by nia. lia.
    + intros Hx. specialize (Hexact Hx). unfold E in HE. nia.
Qed.

(* any routine whose output is  keep * r0 + s * window  (mod 1), s = +-1 *)
Lemma variant_value (b P lo lsh keep s : Z) (a r0 out : list Z) : 1 <= b -> 0 <= lsh < b ->
  s = 1 \/ s = -1 ->
  (exists Z0, val_scaled P b out
     = keep * val_scaled P b r0 + s * dval P b (vin a lsh) (zn (length a) - lo) (length out) + 2 ^ P * Z0) ->
  zn (length out) * b + zn (length a) * b + Z.abs (lo * b + lsh) <= P ->
  let D := tor_abs P (val_scaled P b out - keep * val_scaled P b r0
                      - s * val_scaled (P + (lo * b + lsh)) b a) in
  D <= 2 ^ (P - zn (length out) * b) /\
  (zn (length a) * b - (lo * b + lsh) <= zn (length out) * b -> D = 0).
Proof.
  intros Hb Hl Hs [Z0 HZ] HP. cbv zeta.
  destruct (window_core b P lo lsh a (length out) Hb Hl HP) as (delta & Y & H1 & H2 & H3).
  assert (HP0 : 0 <= P) by (unfold zn in *; nia).
  replace (val_scaled P b out - keep * val_scaled P b r0 - s * val_scaled (P + (lo * b + lsh)) b a)
    with (s * delta + 2 ^ P * (s * Y + Z0)) by (rewrite HZ; nia).
  rewrite tor_abs_add_mul by auto.
  split.
  - pose proof (tor_abs_le P (s * delta) HP0). destruct Hs; subst s; lia.
  - intros Hx. rewrite (H3 Hx). rewrite Z.mul_0_r. apply tor_abs_0; auto.
Qed.

(* value of a list given by index *)
Lemma val_scaled_ext (P b : Z) (l : list Z) (f : nat -> Z) :
  (forall i, (i < length l)%nat -> nthZ l i = f i) ->
  val_scaled P b l = sumn (length l) (fun i => f i * wt P b i).
Proof.
  intros Hf. rewrite val_scaled_sumn. apply sumn_ext. intros i Hi. rewrite Hf by auto. reflexivity.
Qed.

(* out_i = base_i + s * window_i *)
Lemma val_scaled_affine (P b s T : Z) (v : nat -> Z) (l r0 : list Z) (keep : Z) :
  length l = length r0 ->
  (forall i, (i < length l)%nat -> nthZ l i = keep * nthZ r0 i + s * dgz b v (T - 1 - zn i)) ->
  val_scaled P b l = keep * val_scaled P b r0 + s * dval P b v T (length l).
Proof.
  intros Hlen Hn. rewrite (val_scaled_ext P b l _ Hn), (val_scaled_sumn P b r0). unfold dval.
  rewrite <- Hlen, <- !sumn_scale, <- sumn_plus. apply sumn_ext. intros i Hi. ring.
Qed.

Lemma Forall_of_nth (Q : Z -> Prop) (l : list Z) :
  (forall i, (i < length l)%nat -> Q (nthZ l i)) -> Forall Q l.
Proof.
  intros Hn. apply Forall_forall. intros x Hx.
  destruct (In_nth l x 0 Hx) as (i & Hi & Ei). rewrite <- Ei. apply Hn; auto.
Qed.

Lemma dgz_range (b : Z) (v : nat -> Z) (t : Z) : 1 <= b -> in_range b (dgz b v t).
Proof.
  intros Hb. unfold dgz. destruct (t <? 0); [|apply dig_range; auto].
  unfold in_range. pose proof (pow2_pos (b - 1) ltac:(lia)). lia.
Qed.

Lemma window_balanced (b : Z) (v : nat -> Z) (T : Z) (out : list Z) : 1 <= b ->
  (forall i, (i < length out)%nat -> nthZ out i = dgz b v (T - 1 - zn i)) -> Forall (in_range b) out.
Proof. intros Hb Hn. apply Forall_of_nth. intros i Hi. rewrite Hn by auto. apply dgz_range; auto. Qed.

(* out_i = keep * r0_i + s * window_i  ==>  the torus statement *)
Lemma affine_window_value (b P lo lsh keep s : Z) (a r0 out : list Z) :
  1 <= b -> 0 <= lsh < b -> s = 1 \/ s = -1 -> length out = length r0 ->
  (forall i, (i < length out)%nat ->
     nthZ out i = keep * nthZ r0 i + s * dgz b (vin a lsh) (zn (length a) - lo - 1 - zn i)) ->
  zn (length out) * b + zn (length a) * b + Z.abs (lo * b + lsh) <= P ->
  let D := tor_abs P (val_scaled P b out - keep * val_scaled P b r0
                      - s * val_scaled (P + (lo * b + lsh)) b a) in
  D <= 2 ^ (P - zn (length out) * b) /\
  (zn (length a) * b - (lo * b + lsh) <= zn (length out) * b -> D = 0).
Proof.
  intros Hb Hl Hs Hlen Hn HP.
  apply variant_value; auto.
  exists 0. rewrite (val_scaled_affine P b s (zn (length a) - lo) (vin a lsh) out r0 keep Hlen Hn). ring.
Qed.

(* the case where the output is the window itself *)
Lemma window_value (b P lo lsh : Z) (a out : list Z) : 1 <= b -> 0 <= lsh < b ->
  (forall i, (i < length out)%nat ->
     nthZ out i = dgz b (vin a lsh) (zn (length a) - lo - 1 - zn i)) ->
  zn (length out) * b + zn (length a) * b + Z.abs (lo * b + lsh) <= P ->
  let D := tor_abs P (val_scaled P b out - val_scaled (P + (lo * b + lsh)) b a) in
  D <= 2 ^ (P - zn (length out) * b) /\
  (zn (length a) * b - (lo * b + lsh) <= zn (length out) * b -> D = 0).
Proof.
  intros Hb Hl Hn HP.
  pose proof (affine_window_value b P lo lsh 0 1 a out out Hb Hl ltac:(left; reflexivity) eq_refl
                ltac:(intros i Hi; rewrite Hn by exact Hi; ring) HP) as HV.
  cbv zeta in HV |- *.
  replace (val_scaled P b out - val_scaled (P + (lo * b + lsh)) b a)
    with (val_scaled P b out - 0 * val_scaled P b out - 1 * val_scaled (P + (lo * b + lsh)) b a) by ring.
  exact HV.
Qed.

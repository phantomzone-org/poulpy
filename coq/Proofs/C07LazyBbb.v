(* C07: the bbb accumulator (q120b x q120b) and the q120b add/sub/negate congruences. *)
From PV Require Import Base.MachineInt Model.C07Ntt120 Proofs.C07Ntt Proofs.C07Lazy.
From Coq Require Import Znumtheory.
Open Scope Z_scope.

(* q120b add / sub / negate (arithmetic.rs add_bbb_ref, prim.rs NttSub / NttNegate) *)
Section AddSub.
Variable q : Z.
Hypothesis Hq : 0 < q < 2 ^ 30.          (* Primes29 / Primes30: Q[k] << 33 < 2^63 *)

Lemma qshift_val : qshift q = q * 2 ^ 33 /\ 0 < q * 2 ^ 33 < 2 ^ 63.
Proof.
  unfold qshift, q_shift. change (2 ^ 30) with 1073741824 in Hq. change (2 ^ 33) with 8589934592.
  change (2 ^ 63) with 9223372036854775808.
  rewrite u64_id by (change (2 ^ 64) with 18446744073709551616; lia). lia.
Qed.

Lemma mod_qs_congr x : (x mod (q * 2 ^ 33)) mod q = x mod q.
Proof.
  destruct qshift_val as [_ Hs]. symmetry. apply Zmod_div_mod; [lia|lia|]. exists (2 ^ 33). ring.
Qed.

Theorem add_bbb_congr x y :
  add_bbb_k q x y mod q = (x + y) mod q /\ 0 <= add_bbb_k q x y < 2 * qshift q /\ 2 * qshift q < 2 ^ 64.
Proof.
  destruct qshift_val as [E Hs]. unfold add_bbb_k. rewrite E.
  pose proof (Z.mod_pos_bound x (q * 2 ^ 33) ltac:(lia)) as Hx. pose proof (Z.mod_pos_bound y (q * 2 ^ 33) ltac:(lia)) as Hy.
  change (2 ^ 63) with 9223372036854775808 in *. change (2 ^ 64) with 18446744073709551616 in *.
  rewrite u64_id by (change (2 ^ 64) with 18446744073709551616; lia).
  split; [|lia].
  rewrite Z.add_mod, !mod_qs_congr, <- Z.add_mod by lia. reflexivity.
Qed.

Theorem sub_bbb_congr x y :
  sub_bbb_k q x y mod q = (x - y) mod q /\ 0 <= sub_bbb_k q x y < 2 * qshift q.
Proof.
  destruct qshift_val as [E Hs]. unfold sub_bbb_k. rewrite E.
  pose proof (Z.mod_pos_bound x (q * 2 ^ 33) ltac:(lia)) as Hx. pose proof (Z.mod_pos_bound y (q * 2 ^ 33) ltac:(lia)) as Hy.
  change (2 ^ 63) with 9223372036854775808 in *.
  rewrite (u64_id (q * 2 ^ 33 - _)) by (change (2 ^ 64) with 18446744073709551616; lia).
  rewrite u64_id by (change (2 ^ 64) with 18446744073709551616; lia).
  split; [|lia].
  replace (x mod (q * 2 ^ 33) + (q * 2 ^ 33 - y mod (q * 2 ^ 33))) with (x mod (q * 2 ^ 33) - y mod (q * 2 ^ 33) + 2 ^ 33 * q) by ring.
  rewrite Z.mod_add by lia.
  rewrite Zminus_mod, !mod_qs_congr, <- Zminus_mod. reflexivity.
Qed.

Theorem neg_b_congr x : neg_b_k q x mod q = (- x) mod q /\ 0 < neg_b_k q x <= qshift q.
Proof.
  destruct qshift_val as [E Hs]. unfold neg_b_k. rewrite E.
  pose proof (Z.mod_pos_bound x (q * 2 ^ 33) ltac:(lia)) as Hx.
  change (2 ^ 63) with 9223372036854775808 in *.
  rewrite u64_id by (change (2 ^ 64) with 18446744073709551616; lia).
  split; [|lia].
  replace (q * 2 ^ 33 - x mod (q * 2 ^ 33)) with (0 - x mod (q * 2 ^ 33) + 2 ^ 33 * q) by ring.
  rewrite Z.mod_add by lia. rewrite Zminus_mod, mod_qs_congr, <- Zminus_mod. reflexivity.
Qed.
End AddSub.

Definition parts_z (p : Z * Z) : Z * Z * Z * Z :=
  let xl := fst p mod 2 ^ 32 in let xh := fst p / 2 ^ 32 in
  let yl := snd p mod 2 ^ 32 in let yh := snd p / 2 ^ 32 in
  let a := xl * yl in let b := xl * yh in let c := xh * yl in let d := xh * yh in
  (a mod 2 ^ 32, a / 2 ^ 32 + b mod 2 ^ 32 + c mod 2 ^ 32, b / 2 ^ 32 + c / 2 ^ 32 + d mod 2 ^ 32, d / 2 ^ 32).
Definition P1 (p : Z * Z) := fst (fst (fst (parts_z p))).
Definition P2 (p : Z * Z) := snd (fst (fst (parts_z p))).
Definition P3 (p : Z * Z) := snd (fst (parts_z p)).
Definition P4 (p : Z * Z) := snd (parts_z p).
Definition pair_ok (p : Z * Z) : Prop := 0 <= fst p < 2 ^ 64 /\ 0 <= snd p < 2 ^ 64.

Lemma halves x : 0 <= x < 2 ^ 64 -> is_u32 (x mod 2 ^ 32) /\ is_u32 (x / 2 ^ 32) /\ x mod 2 ^ 32 + 2 ^ 32 * (x / 2 ^ 32) = x.
Proof.
  intros H. unfold is_u32. change (2 ^ 64) with (2 ^ 32 * 2 ^ 32) in H. change (2 ^ 32) with 4294967296 in *.
  pose proof (Z.mod_pos_bound x 4294967296 ltac:(lia)). pose proof (Z.div_mod x 4294967296 ltac:(lia)).
  assert (x / 4294967296 < 4294967296) by (apply Z.div_lt_upper_bound; lia).
  pose proof (Z.div_pos x 4294967296). lia.
Qed.

Lemma bbb_parts_ok p : pair_ok p ->
  bbb_parts p = parts_z p /\
  0 <= P1 p <= 2 ^ 32 - 1 /\ 0 <= P2 p <= 3 * (2 ^ 32 - 1) /\ 0 <= P3 p <= 3 * (2 ^ 32 - 1) /\ 0 <= P4 p <= 2 ^ 32 - 2 /\
  P1 p + 2 ^ 32 * P2 p + 2 ^ 64 * P3 p + 2 ^ 96 * P4 p = fst p * snd p.
Proof.
  intros [Hx Hy]. destruct (halves _ Hx) as (Xl & Xh & Ex). destruct (halves _ Hy) as (Yl & Yh & Ey).
  unfold P1, P2, P3, P4, bbb_parts, parts_z. cbv zeta. cbn [fst snd].
  set (xl := fst p mod 2 ^ 32) in *. set (xh := fst p / 2 ^ 32) in *.
  set (yl := snd p mod 2 ^ 32) in *. set (yh := snd p / 2 ^ 32) in *.
  destruct (mul_u32_halves xl yl Xl Yl) as (-> & La & Ha & Sa). destruct (mul_u32_halves xl yh Xl Yh) as (-> & Lb & Hb & Sb).
  destruct (mul_u32_halves xh yl Xh Yl) as (-> & Lc & Hc & Sc). destruct (mul_u32_halves xh yh Xh Yh) as (-> & Ld & Hd & Sd).
  clearbody xl xh yl yh. rewrite <- Ex, <- Ey. clear Ex Ey Xl Xh Yl Yh Hx Hy.
  set (al := (xl * yl) mod 2 ^ 32) in *. set (ah := (xl * yl) / 2 ^ 32) in *. set (bl := (xl * yh) mod 2 ^ 32) in *. set (bh := (xl * yh) / 2 ^ 32) in *.
  set (cl := (xh * yl) mod 2 ^ 32) in *. set (ch := (xh * yl) / 2 ^ 32) in *. set (dl := (xh * yh) mod 2 ^ 32) in *. set (dh := (xh * yh) / 2 ^ 32) in *.
  clearbody al ah bl bh cl ch dl dh.
  change (2 ^ 96) with (2 ^ 32 * 2 ^ 32 * 2 ^ 32). change (2 ^ 64) with (2 ^ 32 * 2 ^ 32) in *. change (2 ^ 32) with 4294967296 in *.
  rewrite (u64_id (ah + bl)), (u64_id (bh + ch)) by lia. rewrite !u64_id by lia.
  split; [reflexivity|]. repeat split; lia.
Qed.

Definition bbb_dot (xy : list (Z * Z)) : Z := lsum (map (fun p => fst p * snd p) xy).

Section Bbb.
Variables (h q : Z) (xy : list (Z * Z)).
Hypothesis Hh : 20 <= h <= 28.          (* the f64 search of BbbMeta::new returns 24 for the three prime sets *)
Hypothesis Hq : 2 ^ 15 <= q < 2 ^ 31.
Hypothesis Hell : Z.of_nat (length xy) <= bbb_max_ell.
Hypothesis Hok : forall p, In p xy -> pair_ok p.

Let s1 := lsum (map P1 xy).
Let s2 := lsum (map P2 xy).
Let s3 := lsum (map P3 xy).
Let s4 := lsum (map P4 xy).

Lemma bbb_sums :
  let ps := map bbb_parts xy in let B := bbb_max_ell * (3 * (2 ^ 32 - 1)) in
  (sum64 (map (fun p => fst (fst (fst p))) ps) = s1 /\ 0 <= s1 <= B) /\ (sum64 (map (fun p => snd (fst (fst p))) ps) = s2 /\ 0 <= s2 <= B) /\
  (sum64 (map (fun p => snd (fst p)) ps) = s3 /\ 0 <= s3 <= B) /\ (sum64 (map (fun p => snd p) ps) = s4 /\ 0 <= s4 <= B).
Proof.
  cbv zeta. rewrite !map_map.
  split; [|split; [|split]]; apply sum64_map_exact; try exact Hell; try (unfold bbb_max_ell; lia).
  all: intros p Hp; destruct (bbb_parts_ok p (Hok p Hp)) as (-> & B1 & B2 & B3 & B4 & _); split; [reflexivity|].
  all: unfold P1, P2, P3, P4 in *; change (2 ^ 32) with 4294967296 in *; lia.
Qed.

Definition bbb_exact : Z :=
  let w32 := 2 ^ 32 mod q in
  let w32h := (w32 * 2 ^ h) mod q in
  let w64 := (w32 * w32) mod q in
  let w64h := (w64 * 2 ^ h) mod q in
  let w96 := (w64 * w32) mod q in
  let w96h := (w96 * 2 ^ h) mod q in
  s1 mod 2 ^ h + s1 / 2 ^ h * 2 ^ h + s2 mod 2 ^ h * w32 + s2 / 2 ^ h * w32h +
  s3 mod 2 ^ h * w64 + s3 / 2 ^ h * w64h + s4 mod 2 ^ h * w96 + s4 / 2 ^ h * w96h.

(* the first accumulator is put together again; the other three enter through their weights *)
Lemma bbb_exact_recomb :
  let w32 := 2 ^ 32 mod q in let w64 := (w32 * w32) mod q in let w96 := (w64 * w32) mod q in
  bbb_exact = s1 + recomb h s2 w32 ((w32 * 2 ^ h) mod q) + recomb h s3 w64 ((w64 * 2 ^ h) mod q) + recomb h s4 w96 ((w96 * 2 ^ h) mod q).
Proof. unfold bbb_exact, recomb. cbv zeta. rewrite (rejoin_eq h s1) by lia. ring. Qed.

Theorem lazy_budget_bbb : bbb_k h q xy = bbb_exact /\ 0 <= bbb_exact < 2 ^ 63.
Proof.
  destruct bbb_sums as ((S1 & B1) & (S2 & B2) & (S3 & B3) & (S4 & B4)). cbv zeta in *.
  unfold bbb_k. cbv zeta. rewrite S1, S2, S3, S4, bbb_exact_recomb. unfold pow2_mod. cbv zeta.
  assert (Hq' : 0 < q < 2 ^ 32) by (change (2 ^ 15) with 32768 in Hq; change (2 ^ 31) with 2147483648 in Hq; change (2 ^ 32) with 4294967296; lia).
  assert (Hm : forall x, 0 <= x mod q <= 2 ^ 31) by (intros x; pose proof (Z.mod_pos_bound x q); lia).
  assert (Hu : forall x, is_u32 (x mod q)) by (intros x; pose proof (Z.mod_pos_bound x q); unfold is_u32; lia).
  assert (HH : is_u32 (2 ^ h)).
  { pose proof (pow2_pos h ltac:(lia)). assert (2 ^ h <= 2 ^ 28) by (apply Z.pow_le_mono_r; lia).
    unfold is_u32. change (2 ^ 28) with 268435456 in *. change (2 ^ 32) with 4294967296. lia. }
  rewrite (u64_id (2 ^ h)) by (destruct HH; split; [assumption|apply Z.lt_trans with (2 ^ 32); [assumption|reflexivity]]).
  rewrite !(u64_mul_u32 (_ mod q)) by first [apply Hu|exact HH].
  set (w32 := 2 ^ 32 mod q). set (w32h := (w32 * 2 ^ h) mod q). set (w64 := (w32 * w32) mod q).
  set (w64h := (w64 * 2 ^ h) mod q). set (w96 := (w64 * w32) mod q). set (w96h := (w96 * 2 ^ h) mod q).
  (* from here on only the range of each weight matters; with `mod q` and `2 ^ h` in sight lia does not come back *)
  pose proof (Hm (2 ^ 32)) as M1. pose proof (Hm (w32 * 2 ^ h)) as M2. pose proof (Hm (w32 * w32)) as M3.
  pose proof (Hm (w64 * 2 ^ h)) as M4. pose proof (Hm (w64 * w32)) as M5. pose proof (Hm (w96 * 2 ^ h)) as M6.
  fold w32 w32h w64 w64h w96 w96h in M1, M2, M3, M4, M5, M6. clearbody w32 w32h w64 w64h w96 w96h. clear Hm Hu HH.
  unfold bbb_max_ell in *. change (2 ^ 32) with 4294967296 in *.
  rewrite (rejoin64 h s1) by (change (2 ^ 64) with 18446744073709551616; lia).
  assert (Hr : 0 <= 20 <= h /\ h <= 28) by lia.
  (* 122879999 = 10000 * 3 * (2^32 - 1) / 2^20, the largest high part *)
  destruct (recomb64 h 20 28 s2 _ 122879999 (2 ^ 31) w32 w32h Hr B2 eq_refl M1 M2 s1) as [-> R2]; [lia|lia|].
  destruct (recomb64 h 20 28 s3 _ 122879999 (2 ^ 31) w64 w64h Hr B3 eq_refl M3 M4 (s1 + recomb h s2 w32 w32h)) as [-> R3]; [lia|lia|].
  destruct (recomb64 h 20 28 s4 _ 122879999 (2 ^ 31) w96 w96h Hr B4 eq_refl M5 M6 (s1 + recomb h s2 w32 w32h + recomb h s3 w64 w64h))
    as [-> R4]; [lia|lia|].
  split; [reflexivity|lia].
Qed.

Theorem bbb_congr : bbb_k h q xy mod q = bbb_dot xy mod q.
Proof.
  destruct lazy_budget_bbb as [-> _]. rewrite bbb_exact_recomb. cbv zeta.
  assert (Hq' : 0 < q) by (change (2 ^ 15) with 32768 in Hq; lia).
  assert (Hqn : q <> 0) by lia.
  assert (Hh0 : 0 <= h) by lia.
  assert (E : bbb_dot xy = s1 + s2 * 2 ^ 32 + s3 * 2 ^ 64 + s4 * 2 ^ 96).
  { unfold bbb_dot, s1, s2, s3, s4.
    rewrite (lsum_map_ext (fun p => fst p * snd p) (fun p => (P1 p + 2 ^ 32 * P2 p) + (2 ^ 64 * P3 p + 2 ^ 96 * P4 p)))
      by (intros p Hp; destruct (bbb_parts_ok p (Hok p Hp)) as (_ & _ & _ & _ & _ & Hid); lia).
    rewrite (lsum_map_add (fun p => P1 p + 2 ^ 32 * P2 p)), (lsum_map_add P1), (lsum_map_add (fun p => 2 ^ 64 * P3 p)).
    rewrite !lsum_map_scale. ring. }
  rewrite E.
  set (w32 := 2 ^ 32 mod q). set (w64 := (w32 * w32) mod q). set (w96 := (w64 * w32) mod q).
  assert (C32 : w32 mod q = 2 ^ 32 mod q) by (apply Z.mod_mod; exact Hqn).
  assert (C64 : w64 mod q = 2 ^ 64 mod q).
  { unfold w64, w32. rewrite Z.mod_mod, <- Z.mul_mod by exact Hqn. reflexivity. }
  assert (C96 : w96 mod q = 2 ^ 96 mod q).
  { unfold w96. rewrite Z.mod_mod, Z.mul_mod, C64, C32, <- Z.mul_mod by exact Hqn. reflexivity. }
  assert (Ch : forall w v, w mod q = v mod q -> ((w * 2 ^ h) mod q) mod q = (v * 2 ^ h) mod q).
  { intros w v C. rewrite Z.mod_mod, Z.mul_mod, C, <- Z.mul_mod by exact Hqn. reflexivity. }
  rewrite add4_mod by exact Hq'.
  rewrite (recomb_congr q h s2 _ _ _ Hq' Hh0 C32 (Ch _ _ C32)), (recomb_congr q h s3 _ _ _ Hq' Hh0 C64 (Ch _ _ C64)),
          (recomb_congr q h s4 _ _ _ Hq' Hh0 C96 (Ch _ _ C96)), <- add4_mod by exact Hq'.
  reflexivity.
Qed.
End Bbb.

(* C08 at w = 64: torus-value theorems for normalize_assign and the shift family of the i64 routines,
   as instances of Proofs/C08WShiftValue.v. *)
From PV Require Import Base.MachineInt Model.Znx Model.Limbs Model.C08Oracle Proofs.C08Chain Proofs.C08Value.
From PV Require Export Proofs.C08WShiftValue.
Open Scope Z_scope.

Definition hr62 (l : list Z) : Prop := Forall (fun x => Z.abs x <= 2 ^ 62) l.

(* the headroom of the width-generic theorems at w = 64 *)
Lemma hr62_w (l : list Z) : hr62 l -> Forall (fun x => Z.abs x <= 2 ^ (64 - 2)) l.
Proof. exact (fun H => H). Qed.

Section ShiftValue.
Variable b : Z.
Hypothesis Hb : 1 <= b <= 62.

Theorem normalize_assign_value (r0 : list Z) : hr62 r0 ->
  let out := normalize_assign 64 b r0 in
  length out = length r0 /\ Forall (in_range b) out /\
  forall P, 2 * zn (length r0) * b <= P -> tor_abs P (val_scaled P b out - val_scaled P b r0) = 0.
Proof. intros Hr. exact (normalize_assign_valueW 64 b Hb r0 (hr62_w r0 Hr)). Qed.

Theorem lsh_assign_value (k : Z) (r0 : list Z) : 0 <= k -> hr62 r0 ->
  let out := lsh_assign 64 b k r0 in
  length out = length r0 /\ Forall (in_range b) out /\
  forall P, 2 * zn (length r0) * b + k <= P ->
    tor_abs P (val_scaled P b out - val_scaled (P + k) b r0) = 0.
Proof. intros Hk Hr. exact (lsh_assign_valueW 64 b Hb k r0 Hk (hr62_w r0 Hr)). Qed.

Theorem lsh_value (ov : bool) (k : Z) (a r0 : list Z) : 0 <= k -> hr62 a -> (ov = false -> hr62 r0) ->
  let out := lsh 64 ov b k a r0 in
  length out = length r0 /\ (ov = true -> Forall (in_range b) out) /\
  forall P, zn (length r0) * b + zn (length a) * b + k <= P ->
    let D := tor_abs P (val_scaled P b out - (if ov then 0 else val_scaled P b r0)
                        - val_scaled (P + k) b a) in
    D <= 2 ^ (P - zn (length r0) * b) /\ (zn (length a) * b - k <= zn (length r0) * b -> D = 0).
Proof.
  intros Hk Ha Hr. exact (lsh_valueW 64 b Hb ov k a r0 Hk (hr62_w a Ha) (fun E => hr62_w r0 (Hr E))).
Qed.

Theorem lsh_sub_value (k : Z) (a r0 : list Z) : 0 <= k -> hr62 a -> hr62 r0 ->
  let out := lsh_sub 64 b k a r0 in
  length out = length r0 /\
  forall P, zn (length r0) * b + zn (length a) * b + k <= P ->
    let D := tor_abs P (val_scaled P b out - val_scaled P b r0 + val_scaled (P + k) b a) in
    D <= 2 ^ (P - zn (length r0) * b) /\ (zn (length a) * b - k <= zn (length r0) * b -> D = 0).
Proof. intros Hk Ha Hr. exact (lsh_sub_valueW 64 b Hb k a r0 Hk (hr62_w a Ha) (hr62_w r0 Hr)). Qed.

Theorem rsh_assign_value (k : Z) (r0 : list Z) : 0 <= k -> hr62 r0 ->
  let out := rsh_assign 64 b k r0 in
  length out = length r0 /\ Forall (in_range b) out /\
  forall P, 2 * zn (length r0) * b + k <= P ->
    let D := tor_abs P (val_scaled P b out - val_scaled (P - k) b r0) in
    D <= 2 ^ (P - zn (length r0) * b) /\ (k = 0 -> D = 0).
Proof.
  intros Hk Hr. apply (rsh_assign_valueW 64 b Hb); [lia|exact Hk|exact (hr62_w r0 Hr)].
Qed.

End ShiftValue.

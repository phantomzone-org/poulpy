(* C08, cross-radix normalisation at any word width: entry invariants of the outer iterations and the
   value statement from the final invariant. *)
From PV Require Import Base.MachineInt Model.Znx Model.Limbs Model.C08Oracle
  Proofs.ZnxDigit Proofs.C08Steps Proofs.C08Chain Proofs.C08Loops Proofs.C08Value Proofs.C08Normalize Proofs.C08CrossInner Proofs.C08CrossGeom Proofs.C08CrossOuter
  Proofs.C08WChain Proofs.C08WLoops Proofs.C08WCrossInner Proofs.C08WCrossOuter.
Open Scope Z_scope.

Lemma drop_bound (Pa T Dlow rho : Z) : 0 < Pa -> 2 <= T -> Z.abs Dlow <= Pa - 1 -> 2 * Z.abs rho <= T ->
  Z.abs (Dlow + Pa * rho) <= Pa * T.
Proof.
  intros HP HT HD Hr.
  assert (Z.abs (Pa * rho) = Pa * Z.abs rho) by (rewrite Z.abs_mul, (Z.abs_eq Pa) by lia; reflexivity).
  nia.
Qed.

Lemma small_g (k ab x lsh : Z) : 0 <= k -> 1 <= ab -> 0 <= x -> (k + 1) * ab + x <= lsh -> lsh < ab -> False.
Proof. intros; nia. Qed.

(* a digit an of x 2^lsh in radix 2^ab keeps the factor 2^take of x 2^lsh when take <= lsh < ab *)
Lemma mult_take (take lsh ab x an ac : Z) : 1 <= take <= lsh -> lsh < ab -> x * 2 ^ lsh = an + 2 ^ ab * ac ->
  an mod 2 ^ take = 0.
Proof.
  intros Ht Hl E.
  assert (El : 2 ^ lsh = 2 ^ (lsh - take) * 2 ^ take) by (rewrite <- pow2_add by lia; f_equal; ring).
  assert (Ea : 2 ^ ab = 2 ^ (ab - take) * 2 ^ take) by (rewrite <- pow2_add by lia; f_equal; ring).
  rewrite El, Ea in E.
  replace an with ((x * 2 ^ (lsh - take) - 2 ^ (ab - take) * ac) * 2 ^ take) by lia.
  apply Z_mod_mult.
Qed.

(* the final invariant scaled by 2^E1: res minus the stream is the dropped part and a multiple of 2^(E1 + g + T) *)
Lemma final_diff (E1 z g T Lv drop V K : Z) : 0 <= E1 -> 0 <= z -> 0 <= g -> 0 <= T ->
  2 ^ z * Lv = 2 ^ z * drop + 2 ^ g * V + 2 ^ (g + T) * K ->
  2 ^ (E1 + g) * V - 2 ^ (E1 + z) * Lv = - (2 ^ (E1 + z) * drop) + 2 ^ (E1 + g + T) * (- K).
Proof.
  intros HE Hz Hg HT EV. rewrite pow2_add in EV by lia. rewrite !pow2_add by lia.
  replace (2 ^ E1 * 2 ^ z * Lv) with (2 ^ E1 * (2 ^ z * Lv)) by ring. rewrite EV. ring.
Qed.

Section Loop.
Variable wd : Z.
Variables rb ab : Z.
Hypothesis Hrb : 1 <= rb <= wd - 2.
Hypothesis Hab : 1 <= ab <= wd - 2.
Variable a : list Z.
Hypothesis Ha : hrlw wd a.
Variable lsh : Z.
Hypothesis Hl : 0 <= lsh < ab.
Variable rsz : nat.
Variables z g : Z.
Hypothesis Hz : 0 <= z.
Hypothesis Hg : 0 <= g.
Hypothesis Hzg : z = 0 \/ g = 0.

Let Hab1 : 1 <= ab. Proof. lia. Qed.
Let Hwd : 3 <= wd. Proof. lia. Qed.
Let HWp : 0 < 2 ^ (wd - 2). Proof. apply pow2_pos; lia. Qed.

Notation OuterI := (OuterW wd rb ab a lsh rsz z g).
Notation EntryI := (EntryW wd rb ab a lsh rsz z g).
Notation FinalI := (Final rb ab a lsh rsz z g).
Notation LvalI := (Lval ab a lsh).

(* the carry of the a_out digits of the stream that lie below res, and what those digits were worth *)
Lemma low_carry (a_out : nat) : (a_out <= length a)%nat ->
  exists ac0 Dlow, carry_phase wd ab lsh a (length a) a_out = ac0 /\ Z.abs ac0 <= 2 ^ (wd - 2) /\
    LvalI a_out = Dlow + 2 ^ (zn a_out * ab) * ac0 /\ Z.abs Dlow <= 2 ^ (zn a_out * ab) - 1 /\
    (a_out = 0%nat -> ac0 = 0 /\ Dlow = 0).
Proof.
  intros Hle. exists (car ab (vin a lsh) 0 a_out), (sumn a_out (fun t => dig ab (vin a lsh) 0 t * 2 ^ (zn t * ab))).
  split; [rewrite (carry_phase_carW wd ab Hab lsh a (length a) a_out Hl Ha); apply car_lowW; exact Hle|].
  split; [apply (car_vin_hrW wd ab Hab); auto|].
  split; [pose proof (chain_sum ab Hab1 (vin a lsh) 0 a_out) as HC; rewrite Z.add_0_r in HC; exact HC|].
  split; [apply (digits_small ab Hab1); intros; apply dig_range; auto|].
  intros E. rewrite E. split; reflexivity.
Qed.

(* the a-digit normalisation step on limb t of the stream *)
Lemma digit_stepW (t : nat) (c : Z) : (t < length a)%nat -> Z.abs c <= 2 ^ (wd - 2) ->
  let X := vin a lsh t + c in
  middle_step wd true ab lsh 0 (nthZ a (length a - 1 - t)) c = (wrap ab X, bdiv ab X) /\
  Z.abs X <= 2 ^ (wd - 2) * 2 ^ (ab - 1) + 2 ^ (wd - 2) /\ Z.abs (wrap ab X) <= 2 ^ ab /\ Z.abs (bdiv ab X) <= 2 ^ (wd - 2) /\
  X = wrap ab X + 2 ^ ab * bdiv ab X.
Proof.
  intros Ht Hc. cbv zeta.
  rewrite (vin_at a lsh t (length a - 1 - t) Ht eq_refl).
  set (x := nthZ a (length a - 1 - t)).
  assert (Hx : Z.abs x <= 2 ^ (wd - 2)) by apply Ha.
  rewrite (middle_step_ideal wd ab lsh Hab Hl true 0 x c Hx Hc ltac:(discriminate)).
  rewrite Z.add_0_l.
  assert (Hs : Z.abs (x * 2 ^ lsh) <= 2 ^ (wd - 2) * 2 ^ (ab - 1)) by (apply shifted_bound; auto; lia).
  split; [reflexivity|]. split; [lia|]. split.
  - pose proof (wrap_range ab (x * 2 ^ lsh + c) Hab1) as [W1 W2].
    pose proof (pow2_pos (ab - 1) ltac:(lia)). pose proof (pow2_split ab Hab1). lia.
  - split; [apply bdiv_chain; auto; lia|]. symmetry. apply wrap_bdiv; auto.
Qed.

(* generic iteration: from the outer invariant to the entry invariant of the inner loop *)
Lemma next_entryW (t : nat) (s : cstate) : OuterI t s -> (t < length a)%nat ->
  let m := middle_step wd true ab lsh 0 (nthZ a (length a - 1 - t)) (c_acarry s) in
  EntryI t {| c_res := c_res s; c_anorm := fst m; c_acarry := snd m; c_rcarry := c_rcarry s;
              c_atake := ab; c_racc := c_racc s; c_rlimb := c_rlimb s |}.
Proof.
  intros (Sh & Hr & Hrc & Hc & HF & drop & Hdrop & EV) Ht. cbv zeta.
  destruct (digit_stepW t (c_acarry s) Ht Hc) as (E & HX & Hw & Hb & Hdec). cbv zeta in E, HX, Hw, Hb, Hdec.
  rewrite E. cbn [fst snd]. set (X := vin a lsh t + c_acarry s) in *.
  unfold EntryW. cbn [c_res c_anorm c_acarry c_rcarry c_atake c_racc c_rlimb].
  assert (EFp : forall an ac, Fpos rb rsz {| c_res := c_res s; c_anorm := an; c_acarry := ac; c_rcarry := c_rcarry s;
                                    c_atake := ab; c_racc := c_racc s; c_rlimb := c_rlimb s |} = Fpos rb rsz s)
    by reflexivity.
  rewrite EFp.
  split; [exact Sh|]. split; [exact Hr|]. split; [lia|]. split; [exact Hw|]. split; [exact Hb|].
  split; [exact Hrc|]. split; [clear - HF; lia|].
  exists drop, X, 0. split; [exact Hdrop|]. split; [|split; [exact HX|split]].
  - rewrite Lval_S, Z.mul_add_distr_l, EV.
    assert (HF0 : 0 <= Fpos rb rsz s) by (apply (Fpos_nonnegW wd rb Hrb); [apply Sh|lia]).
    assert (E1 : 2 ^ (g + Fpos rb rsz s) = 2 ^ (z + zn t * ab)) by (f_equal; clear - HF; lia).
    assert (E2 : 2 ^ (z + (zn t + 1) * ab) = 2 ^ (z + zn t * ab) * 2 ^ ab).
    { rewrite <- pow2_add by (try apply Z.add_nonneg_nonneg; try apply Z.mul_nonneg_nonneg; unfold zn; lia).
      f_equal. ring. }
    assert (E3 : 2 ^ z * (vin a lsh t * 2 ^ (zn t * ab)) = 2 ^ (z + zn t * ab) * vin a lsh t).
    { rewrite pow2_add by (try apply Z.mul_nonneg_nonneg; unfold zn; lia). ring. }
    rewrite E1, E2, E3.
    replace (vin a lsh t) with (wrap ab X + 2 ^ ab * bdiv ab X - c_acarry s) by (unfold X in Hdec |- *; clear - Hdec; lia).
    ring.
  - rewrite Z.sub_diag. change (2 ^ 0) with 1. lia.
  - cbn [Z.abs]. rewrite Z.sub_diag. cbn. lia.
Qed.

(* first iteration, boundary digit straddling the bottom of res: its low `take` bits are rounded away *)
Lemma first_takeW (a_out : nat) (take ac0 Dlow : Z) : (1 <= rsz)%nat ->
  z = 0 -> g = zn a_out * ab + take -> 1 <= take < ab -> (a_out < length a)%nat ->
  LvalI a_out = Dlow + 2 ^ (zn a_out * ab) * ac0 -> Z.abs Dlow <= 2 ^ (zn a_out * ab) - 1 ->
  Z.abs ac0 <= 2 ^ (wd - 2) -> (a_out = 0%nat -> ac0 = 0 /\ Dlow = 0) ->
  let m := middle_step wd true ab lsh 0 (nthZ a (length a - 1 - a_out)) ac0 in
  EntryI a_out {| c_res := zeros rsz; c_anorm := mul_power_of_two wd (- take) (fst m); c_acarry := snd m;
                  c_rcarry := 0; c_atake := ab - take; c_racc := rb; c_rlimb := (rsz - 1)%nat |}.
Proof.
  intros Hrsz Ez Eg Htake Ht EL HD Hc0 H0. cbv zeta.
  destruct (digit_stepW a_out ac0 Ht Hc0) as (E & HX & Hw & Hb & Hdec). cbv zeta in E, HX, Hw, Hb, Hdec.
  rewrite E. cbn [fst snd]. set (X := vin a lsh a_out + ac0) in *.
  set (an := wrap ab X) in *. set (ac := bdiv ab X) in *.
  assert (HanM : Z.abs an <= 2 ^ (wd - 2)).
  { assert (2 ^ ab <= 2 ^ (wd - 2)) by (apply pow2_le_mono; lia). clear - H Hw. lia. }
  destruct (mp2_roundW wd take an Hwd ltac:(clear - Htake Hab; lia) HanM) as (rho & Ern & Hrho & Hexact).
  set (rnd := mul_power_of_two wd (- take) an) in *.
  pose proof (wrap_range ab X Hab1) as [W1 W2]. fold an in W1, W2.
  assert (Eab : 2 ^ ab = 2 ^ take * 2 ^ (ab - take)) by (rewrite <- pow2_add by lia; f_equal; lia).
  pose proof (pow2_pos take ltac:(lia)) as Hpt. pose proof (pow2_pos (ab - take) ltac:(lia)) as Hpr.
  pose proof (pow2_split ab Hab1) as Hsab. pose proof (pow2_pos (ab - 1) ltac:(lia)) as Hpab.
  assert (Hrnd : Z.abs rnd <= 2 ^ (ab - take)).
  { apply (rnd_bound take ab an rho rnd); [lia|split; assumption|exact Ern|exact Hrho]. }
  set (s2 := {| c_res := zeros rsz; c_anorm := rnd; c_acarry := ac; c_rcarry := 0; c_atake := ab - take;
                c_racc := rb; c_rlimb := (rsz - 1)%nat |}).
  assert (EF : Fpos rb rsz s2 = 0).
  { unfold Fpos, s2. cbn [c_rlimb c_racc]. unfold zn. rewrite Nat2Z.inj_sub by lia. cbn. ring. }
  unfold EntryW. rewrite EF.
  change (c_res s2) with (zeros rsz). change (c_anorm s2) with rnd. change (c_acarry s2) with ac.
  change (c_rcarry s2) with 0. change (c_atake s2) with (ab - take). change (c_racc s2) with rb.
  split.
  { unfold shape, s2. cbn [c_res c_rlimb c_racc]. split; [apply zeros_length|]. split; [clear - Hrsz; lia|].
    split; [intros; apply nth_zeros|]. rewrite nth_zeros, Z.sub_diag. cbn. clear; lia. }
  split; [clear - Hrb; lia|]. split; [clear - Htake Hab1; lia|]. split; [exact Hrnd|]. split; [exact Hb|]. split; [reflexivity|].
  split; [rewrite Ez, Eg; ring|].
  assert (Hpa : 0 < 2 ^ (zn a_out * ab)) by (apply pow2_pos; apply Z.mul_nonneg_nonneg; unfold zn; lia).
  exists (Dlow + 2 ^ (zn a_out * ab) * rho), X, rho.
  split; [|split; [|split; [exact HX|split]]].
  - unfold dropok. split.
    + rewrite Eg, pow2_add by (try apply Z.mul_nonneg_nonneg; unfold zn; lia).
      assert (take_ge : 2 <= 2 ^ take).
      { pose proof (pow2_split take ltac:(clear - Htake; lia)) as Hs1. pose proof (pow2_pos (take - 1) ltac:(clear - Htake; lia)) as Hp1. clear - Hs1 Hp1. lia. }
      apply drop_bound; [exact Hpa|exact take_ge|exact HD|exact Hrho].
    + intros Hgl.
      assert (Ea0 : a_out = 0%nat).
      { destruct a_out as [|k]; [reflexivity|]. exfalso.
        apply (small_g (Z.of_nat k) ab take lsh); [lia|lia|lia| |lia].
        unfold zn in Eg. rewrite Nat2Z.inj_succ in Eg. clear - Eg Hgl. lia. }
      destruct (H0 Ea0) as [Hac0 HD0]. rewrite HD0.
      assert (rho = 0); [|subst rho; ring].
      apply Hexact, (mult_take take lsh ab (nthZ a (length a - 1 - a_out)) an ac); [clear - Htake Hgl Eg Ea0; subst a_out; change (zn 0) with 0 in Eg; lia|apply Hl|].
      rewrite <- (vin_at a lsh a_out _ Ht eq_refl), <- Hdec. unfold X. rewrite Hac0. ring.
  - rewrite Ez, Z.pow_0_r, !Z.mul_1_l, Z.add_0_l, Z.add_0_r. rewrite Vres_zeros, Z.mul_0_r, Z.add_0_r.
    rewrite Lval_S, EL.
    assert (E1 : 2 ^ g = 2 ^ (zn a_out * ab) * 2 ^ take) by (rewrite Eg; apply pow2_add; [apply Z.mul_nonneg_nonneg; unfold zn; lia|lia]).
    assert (E2 : 2 ^ ((zn a_out + 1) * ab) = 2 ^ (zn a_out * ab) * 2 ^ ab).
    { rewrite <- pow2_add by (try apply Z.mul_nonneg_nonneg; unfold zn; lia). f_equal. ring. }
    rewrite E1, E2.
    replace (vin a lsh a_out) with (an + 2 ^ ab * ac - ac0) by (clear - Hdec; unfold X in Hdec; clearbody an ac; lia).
    rewrite Ern at 1. ring.
  - replace (ab - (ab - take)) with take by ring. rewrite Hdec at 1. rewrite Ern at 1. ring.
  - replace (ab - (ab - take)) with take by ring. exact Hrho.
Qed.

(* first iteration without a straddling digit: the outer invariant holds for the (adjusted) initial state *)
Lemma first_outerW (a_out res_start : nat) (m racc0 ac0 Dlow an0 at0 : Z) :
  (1 <= res_start <= rsz)%nat -> 0 <= m < rb -> racc0 = rb - m ->
  (zn rsz - zn res_start) * rb + m = z -> g = zn a_out * ab ->
  LvalI a_out = Dlow + 2 ^ (zn a_out * ab) * ac0 -> Z.abs Dlow <= 2 ^ (zn a_out * ab) - 1 ->
  Z.abs ac0 <= 2 ^ (wd - 2) -> (a_out = 0%nat -> Dlow = 0) ->
  OuterI a_out {| c_res := zeros rsz; c_anorm := an0; c_acarry := ac0; c_rcarry := 0; c_atake := at0;
                  c_racc := racc0; c_rlimb := (res_start - 1)%nat |}.
Proof.
  intros Hrs Hm Er Ez Eg EL HD Hc0 H0.
  unfold OuterW. cbn [c_res c_anorm c_acarry c_rcarry c_atake c_racc c_rlimb].
  assert (EF : Fpos rb rsz {| c_res := zeros rsz; c_anorm := an0; c_acarry := ac0; c_rcarry := 0; c_atake := at0;
                              c_racc := racc0; c_rlimb := (res_start - 1)%nat |} = z).
  { unfold Fpos. cbn [c_rlimb c_racc]. rewrite Er, <- Ez. unfold zn. rewrite Nat2Z.inj_sub by lia. cbn. ring. }
  rewrite EF. split.
  { unfold shape. cbn [c_res c_rlimb c_racc]. split; [apply zeros_length|]. split; [lia|].
    split; [intros; apply nth_zeros|]. rewrite nth_zeros, Er. replace (rb - (rb - m)) with m by ring.
    pose proof (pow2_pos m ltac:(lia)). cbn [Z.abs]. lia. }
  split; [lia|]. split; [reflexivity|]. split; [exact Hc0|]. split; [rewrite Eg; ring|].
  assert (Hpa : 0 < 2 ^ (zn a_out * ab)) by (apply pow2_pos; apply Z.mul_nonneg_nonneg; unfold zn; lia).
  exists Dlow. split.
  - unfold dropok. split; [rewrite Eg; lia|]. intros Hgl. apply H0.
    destruct a_out as [|k]; [reflexivity|]. exfalso.
    apply (small_g (Z.of_nat k) ab 0 lsh); [lia|lia|lia| |lia].
    unfold zn in Eg. rewrite Nat2Z.inj_succ in Eg. clear - Eg Hgl. lia.
  - rewrite Vres_zeros, Z.mul_0_r, Z.add_0_r, EL.
    rewrite pow2_add by (try apply Z.mul_nonneg_nonneg; unfold zn; lia). ring.
Qed.

(* all processed digits consumed without a break: the final invariant holds as well *)
Lemma outer_finalW (lo : Z) (t : nat) (s : cstate) : 0 <= lo ->
  (zn (length a) - lo) * ab = zn rsz * rb + g - z -> zn t = zn (length a) - lo ->
  OuterI t s -> FinalI (c_res s).
Proof.
  intros Hlo Hgeo Et (Sh & Hr & Hrc & Hc & HF & drop & Hdrop & EV).
  unfold Final. split; [apply Sh|].
  destruct (ival_split ab Hab1 (vin a lsh) (length a) (fun u Hu => vin_zero a lsh u Hu) t) as [Y HY].
  fold (LvalI (length a)) in HY. fold (LvalI t) in HY.
  exists drop, (c_acarry s + Y). split; [exact Hdrop|].
  rewrite HY, Z.mul_add_distr_l, EV.
  assert (E1 : z + zn t * ab = g + zn rsz * rb) by (rewrite Et; lia).
  rewrite E1.
  assert (E2 : 2 ^ z * (2 ^ (zn t * ab) * Y) = 2 ^ (g + zn rsz * rb) * Y).
  { rewrite <- E1, pow2_add by (try apply Z.mul_nonneg_nonneg; unfold zn; lia). ring. }
  rewrite E2. ring.
Qed.

(* the torus statement from the final invariant; lo of either sign *)
Lemma final_valueW (lo P : Z) (res : list Z) : 0 <= zn (length a) - lo ->
  (zn (length a) - lo) * ab = zn rsz * rb + g - z ->
  FinalI res ->
  zn rsz * rb + (zn (length a) - lo) * ab <= P ->
  let D := tor_abs P (val_scaled P rb res - val_scaled (P + (lo * ab + lsh)) ab a) in
  D <= 2 ^ (P - zn rsz * rb) /\ (zn (length a) * ab - (lo * ab + lsh) <= zn rsz * rb -> D = 0).
Proof.
  intros HT Hgeo (Lr & drop & K & [Hd1 Hd2] & EV) HP. cbv zeta.
  set (A := zn (length a)) in *. set (R := zn rsz) in *.
  assert (HRrb : 0 <= R * rb) by (apply Z.mul_nonneg_nonneg; unfold R, zn; lia).
  assert (HTab : 0 <= (A - lo) * ab) by (apply Z.mul_nonneg_nonneg; lia).
  set (E1 := P - R * rb - g).
  assert (HE1 : 0 <= E1) by (unfold E1; clear - Hzg Hgeo HP HTab HRrb Hz Hg; lia).
  assert (HP0 : 0 <= P) by (clear - HP HTab HRrb; lia).
  rewrite (val_scaled_Vres P rb rsz res ltac:(lia) Lr ltac:(fold R; clear - HP HTab; lia)). fold R.
  rewrite (val_scaled_vin ab P lo lsh a Hab1 ltac:(lia) ltac:(fold A; clear - HP HRrb; lia)). fold A.
  fold (LvalI (length a)).
  replace (P - (A - lo) * ab) with (E1 + z) by (unfold E1; clear - Hgeo; lia).
  replace (P - R * rb) with (E1 + g) by (unfold E1; ring).
  rewrite (final_diff E1 z g (R * rb) _ drop _ K HE1 Hz Hg HRrb EV).
  replace (E1 + g + R * rb) with P by (unfold E1; ring).
  rewrite tor_abs_add_mul by exact HP0.
  assert (Hex : g <= lsh -> tor_abs P (- (2 ^ (E1 + z) * drop)) = 0).
  { intros Hgl. rewrite (Hd2 Hgl), Z.mul_0_r. apply tor_abs_0; exact HP0. }
  split.
  - destruct Hzg as [Ez|Eg]; [|rewrite Hex by lia; apply Z.lt_le_incl, pow2_pos; lia].
    rewrite Ez, Z.add_0_r. apply (Z.le_trans _ _ _ (tor_abs_le P _ HP0)).
    rewrite Z.abs_opp, Z.abs_mul, (Z.abs_eq (2 ^ E1)), pow2_add by (try apply Z.pow_nonneg; lia).
    apply Z.mul_le_mono_nonneg_l; [apply Z.pow_nonneg; lia|exact Hd1].
  - intros Hx. apply Hex. clear - Hx Hgeo Hzg Hl. destruct Hzg; lia.
Qed.

End Loop.

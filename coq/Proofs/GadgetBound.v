(* Sup-norm facts (Gadget.pnorm) and the deterministic bound of the gadget noise  sum_{row,ci} digit (x) e  — the
   `gadget` term of Gadget.gadget_env. *)
From PV Require Import Base.MachineInt Model.Znx Model.Limbs Model.Flat Model.Ring Model.Poly Model.DftAbs Model.Gadget Model.GadgetSpec Proofs.C07Dft Proofs.C07Ring Proofs.GadgetDecomp.
Open Scope Z_scope.

Section Norm.
Lemma pnorm_fold_ge l m : m <= fold_left (fun m x => Z.max m (Z.abs x)) l m.
Proof.
  revert m; induction l as [|x l IH]; intros m; cbn [fold_left]; [lia|].
  pose proof (IH (Z.max m (Z.abs x))). lia.
Qed.

Lemma pnorm_fold_in l m x : In x l -> Z.abs x <= fold_left (fun m x => Z.max m (Z.abs x)) l m.
Proof.
  revert m; induction l as [|y l IH]; intros m H; [destruct H|].
  cbn [fold_left]. destruct H as [->|H]; [|apply IH; exact H].
  pose proof (pnorm_fold_ge l (Z.max m (Z.abs x))). lia.
Qed.

Lemma pnorm_fold_le l m M : m <= M -> (forall x, In x l -> Z.abs x <= M) ->
  fold_left (fun m x => Z.max m (Z.abs x)) l m <= M.
Proof.
  revert m; induction l as [|y l IH]; intros m Hm H; cbn [fold_left]; [exact Hm|].
  apply IH; [|intros; apply H; right; assumption].
  pose proof (H y (or_introl eq_refl)). lia.
Qed.

Lemma pnorm_nonneg a : 0 <= pnorm a.
Proof. apply pnorm_fold_ge. Qed.
Lemma pnorm_in a x : In x a -> Z.abs x <= pnorm a.
Proof. apply pnorm_fold_in. Qed.
Lemma pnorm_le a M : 0 <= M -> (forall x, In x a -> Z.abs x <= M) -> pnorm a <= M.
Proof. apply pnorm_fold_le. Qed.

Lemma pnorm_nth a k : Z.abs (nth k a 0) <= pnorm a.
Proof.
  destruct (Nat.lt_ge_cases k (length a)) as [H|H].
  - apply pnorm_in, nth_In, H.
  - rewrite nth_overflow by exact H. cbn [Z.abs]. apply pnorm_nonneg.
Qed.

Lemma pnorm_le_nth a M : 0 <= M -> (forall k, (k < length a)%nat -> Z.abs (nth k a 0) <= M) -> pnorm a <= M.
Proof.
  intros HM H. apply pnorm_le; [exact HM|]. intros x Hx.
  destruct (In_nth a x 0 Hx) as [k [Hk <-]]. apply H; exact Hk.
Qed.

Lemma pnorm_pzero n : pnorm (pzero n) = 0.
Proof.
  apply Z.le_antisymm; [|apply pnorm_nonneg].
  apply pnorm_le_nth; [lia|]. intros k _. rewrite nth_pzero. cbn; lia.
Qed.

(* triangle inequality, for all lengths (padd truncates to the shorter list) *)
Theorem pnorm_padd a b : pnorm (padd a b) <= pnorm a + pnorm b.
Proof.
  pose proof (pnorm_nonneg a). pose proof (pnorm_nonneg b).
  apply pnorm_le; [lia|]. intros z Hz. unfold padd, map2 in Hz.
  apply in_map_iff in Hz. destruct Hz as [[x y] [<- Hin]]. cbn [fst snd].
  pose proof (pnorm_in a x (in_combine_l _ _ _ _ Hin)).
  pose proof (pnorm_in b y (in_combine_r _ _ _ _ Hin)). lia.
Qed.

Theorem pnorm_pscale c a : pnorm (pscale c a) = Z.abs c * pnorm a.
Proof.
  unfold pnorm, pscale.
  assert (G : forall l m, 0 <= m -> fold_left (fun m x => Z.max m (Z.abs x)) (map (Z.mul c) l) (Z.abs c * m)
                          = Z.abs c * fold_left (fun m x => Z.max m (Z.abs x)) l m).
  { induction l as [|x l IH]; intros m Hm; cbn [map fold_left]; [reflexivity|].
    rewrite <- IH by lia. f_equal. rewrite Z.abs_mul. rewrite Z.mul_max_distr_nonneg_l by lia. reflexivity. }
  rewrite <- G by lia. rewrite Z.mul_0_r. reflexivity.
Qed.

Lemma zsum_abs_le f M m : (forall i, (i < m)%nat -> Z.abs (f i) <= M) -> Z.abs (zsum f m) <= Z.of_nat m * M.
Proof.
  induction m as [|m IH]; intros H; [cbn; lia|].
  rewrite zsum_S. pose proof (IH ltac:(auto with arith)). pose proof (H m ltac:(lia)). lia.
Qed.

Lemma zsum_le f g m : (forall i, (i < m)%nat -> f i <= g i) -> zsum f m <= zsum g m.
Proof.
  induction m as [|m IH]; intros H; [cbn; lia|].
  rewrite !zsum_S. pose proof (IH ltac:(auto with arith)). pose proof (H m ltac:(lia)). lia.
Qed.

Lemma ext'_abs b k : Z.abs (ext' b k) <= pnorm b.
Proof.
  unfold ext'. cbv zeta. unfold nthZ.
  pose proof (pnorm_nth b (Z.to_nat (k mod Z.of_nat (length b)))).
  destruct (Z.even _); lia.
Qed.

(* sup norm of an exact negacyclic product *)
Theorem pnorm_pmul a b : length b = length a ->
  pnorm (pmul a b) <= Z.of_nat (length a) * pnorm a * pnorm b.
Proof.
  intros Hl. pose proof (pnorm_nonneg a). pose proof (pnorm_nonneg b).
  apply pnorm_le_nth; [nia|]. rewrite pmul_length. intros k Hk.
  rewrite pmul_spec by assumption.
  rewrite <- Z.mul_assoc. apply zsum_abs_le. intros i _.
  rewrite Z.abs_mul. pose proof (pnorm_nth a i). pose proof (ext'_abs b (Z.of_nat k - Z.of_nat i)).
  unfold nthZ. apply Z.mul_le_mono_nonneg; lia.
Qed.

Theorem pnorm_psumf n f m : pnorm (psumf n f m) <= zsum (fun i => pnorm (f i)) m.
Proof.
  induction m as [|m IH]; [rewrite psumf_0, pnorm_pzero; cbn; lia|].
  rewrite psumf_S, zsum_S. pose proof (pnorm_padd (psumf n f m) (f m)). lia.
Qed.

Corollary pnorm_psumf_le n f m M : (forall i, (i < m)%nat -> pnorm (f i) <= M) -> pnorm (psumf n f m) <= Z.of_nat m * M.
Proof.
  intros H. pose proof (pnorm_psumf n f m). pose proof (zsum_le _ (fun _ => M) m H). rewrite zsum_const in *. lia.
Qed.

Lemma pnorm_psub a b : pnorm (psub a b) <= pnorm a + pnorm b.
Proof.
  pose proof (pnorm_nonneg a). pose proof (pnorm_nonneg b).
  apply pnorm_le; [lia|]. intros z Hz. unfold psub, map2 in Hz.
  apply in_map_iff in Hz. destruct Hz as [[x y] [<- Hin]]. cbn [fst snd].
  pose proof (pnorm_in a x (in_combine_l _ _ _ _ Hin)).
  pose proof (pnorm_in b y (in_combine_r _ _ _ _ Hin)). lia.
Qed.
End Norm.

Section Bound.
Lemma dgroup_zsum (b : Z) (dsize : nat) :
  fold_left (fun acc t => acc + 2 ^ (Z.of_nat t * b)) (seq 0 dsize) 0 = zsum (fun t => 2 ^ (Z.of_nat t * b)) dsize.
Proof. reflexivity. Qed.

(* a digit group: sum_t 2^((dsize-1-t) b) A_t with |A_t| <= D has norm <= D * sum_t 2^(t b) *)
Theorem pnorm_digit (b : Z) (n dsize : nat) (A : nat -> nat -> list Z) (D : Z) ci row :
  (forall l, pnorm (A ci l) <= D) ->
  pnorm (digit b n dsize A ci row) <= D * zsum (fun t => 2 ^ (Z.of_nat t * b)) dsize.
Proof.
  intros HD. unfold digit.
  eapply Z.le_trans; [apply pnorm_psumf|].
  rewrite (zsum_rev (fun t => 2 ^ (Z.of_nat t * b))). rewrite <- zsum_mul_l.
  apply zsum_le. intros t Ht. rewrite pnorm_pscale.
  pose proof (Z.pow_nonneg 2 (Z.of_nat (dsize - 1 - t) * b) ltac:(lia)) as Hp.
  rewrite Z.abs_eq by exact Hp. rewrite Z.mul_comm. apply Z.mul_le_mono_nonneg_r; [exact Hp|apply HD].
Qed.

(* the `gadget` term of Gadget.gadget_env *)
Theorem C03_keyswitch_bound (b : Z) (n cin dsize rows : nat) (A e : nat -> nat -> list Z) (D B : Z) :
  0 <= B ->
  (forall ci l, length (A ci l) = n) -> (forall row ci, length (e row ci) = n) ->
  (forall ci l, pnorm (A ci l) <= D) -> (forall row ci, pnorm (e row ci) <= B) ->
  pnorm (psumf n (fun row => psumf n (fun ci => pmul (digit b n dsize A ci row) (e row ci)) cin) rows)
  <= Z.of_nat rows * Z.of_nat cin * Z.of_nat n * (D * zsum (fun t => 2 ^ (Z.of_nat t * b)) dsize) * B.
Proof.
  intros HB HA He HD HE.
  set (Dg := D * zsum (fun t => 2 ^ (Z.of_nat t * b)) dsize).
  assert (Hdig : forall ci row, pnorm (digit b n dsize A ci row) <= Dg) by (intros; apply pnorm_digit; auto).
  assert (Ldig : forall ci row, length (digit b n dsize A ci row) = n).
  { intros. unfold digit. apply psumf_length. intros. rewrite pscale_length. apply HA. }
  assert (Hcell : forall row ci, pnorm (pmul (digit b n dsize A ci row) (e row ci)) <= Z.of_nat n * Dg * B).
  { intros row ci. eapply Z.le_trans; [apply pnorm_pmul; rewrite Ldig; apply He|]. rewrite Ldig.
    pose proof (pnorm_nonneg (digit b n dsize A ci row)). pose proof (pnorm_nonneg (e row ci)).
    pose proof (Hdig ci row). pose proof (HE row ci).
    rewrite <- !Z.mul_assoc. apply Z.mul_le_mono_nonneg_l; [lia|]. apply Z.mul_le_mono_nonneg; lia. }
  eapply Z.le_trans; [apply pnorm_psumf_le|].
  - intros row _. apply pnorm_psumf_le. intros ci _. apply Hcell.
  - lia.
Qed.
End Bound.


Section Env.
Lemma ceil_div_mul_ge (a d row : nat) : (1 <= d)%nat -> (ceil_div a d <= row)%nat -> (a <= row * d)%nat.
Proof.
  intros Hd H. unfold ceil_div in H.
  pose proof (Nat.div_mod (a + d - 1) d ltac:(lia)) as E.
  pose proof (Nat.mod_upper_bound (a + d - 1) d ltac:(lia)) as Hr.
  nia.
Qed.

Lemma digit_zero (b : Z) (n dsize a_size : nat) (A : nat -> nat -> list Z) ci row :
  (1 <= dsize)%nat -> (forall l, (a_size <= l)%nat -> A ci l = pzero n) ->
  (ceil_div a_size dsize <= row)%nat -> digit b n dsize A ci row = pzero n.
Proof.
  intros Hd Hz Hrow. unfold digit. apply psumf_zero. intros t _.
  pose proof (ceil_div_mul_ge a_size dsize row Hd Hrow).
  rewrite Hz by lia. apply pscale_pzero.
Qed.

(* rows beyond ceil(a_size/dsize) have a zero digit group: the noise sum has min(ceil(a_size/dsize), dnum) active rows *)
Lemma gadget_noise_active_rows (b : Z) (n cin dsize dnum a_size : nat) (A e : nat -> nat -> list Z) :
  (1 <= dsize)%nat -> (forall ci l, length (A ci l) = n) -> (forall row ci, length (e row ci) = n) ->
  (forall ci l, (a_size <= l)%nat -> A ci l = pzero n) ->
  gadget_noise b n cin dsize dnum A e
  = psumf n (fun row => psumf n (fun ci => pmul (digit b n dsize A ci row) (e row ci)) cin) (Nat.min (ceil_div a_size dsize) dnum).
Proof.
  intros Hd HA He Hz. unfold gadget_noise.
  assert (Ldig : forall ci row, length (digit b n dsize A ci row) = n).
  { intros. unfold digit. apply psumf_length. intros. rewrite pscale_length. apply HA. }
  apply psumf_cut; [lia| |].
  - intros row _. apply psumf_length. intros ci _. rewrite pmul_length. apply Ldig.
  - intros row H1 H2. apply psumf_zero. intros ci _.
    rewrite (digit_zero b n dsize a_size A ci row Hd (Hz ci)) by lia.
    rewrite <- (He row ci). apply pmul_pzero_l.
Qed.

Lemma gadget_env_ge_gadget_term (P N b D : Z) (dsize dnum a_size msize : nat) (cin rank_out S Ssrc Bkey rb : Z) (res_size : nat) (body : bool) :
  0 <= N -> 0 <= D -> 0 <= cin -> 0 <= rank_out -> 0 <= S -> 0 <= Ssrc ->
  Z.of_nat (Nat.min (ceil_div a_size dsize) dnum) * cin * N * (D * zsum (fun t => 2 ^ (Z.of_nat t * b)) dsize) * Bkey
  <= gadget_env P N b D dsize dnum a_size msize cin rank_out S Ssrc Bkey rb res_size body.
Proof.
  intros HN HD Hc Hr HS HSs. unfold gadget_env. cbv zeta. rewrite dgroup_zsum.
  set (rows := Z.of_nat (Nat.min (ceil_div a_size dsize) dnum)).
  assert (0 <= rows) by (unfold rows; lia).
  assert (Hp : forall x, 0 <= 2 ^ x) by (intros; apply Z.pow_nonneg; lia).
  assert (0 <= 1 + rank_out * N * S) by nia.
  assert (T1 : 0 <= (if Nat.ltb (dnum * dsize) a_size
              then cin * N * Ssrc * 2 * D * 2 ^ (P - (Z.of_nat (dnum * dsize) + 1) * b) else 0)).
  { destruct (Nat.ltb _ _); [|lia]. repeat apply Z.mul_nonneg_nonneg; auto; lia. }
  assert (T2 : 0 <= (if Nat.leb 3 dsize
              then Z.of_nat (dsize * dsize) * rows * cin * N * (1 + rank_out * N * S) * D * 2 ^ (b - 1) * 2 ^ (P - (Z.of_nat msize - Z.of_nat dsize + 1) * b) else 0)).
  { destruct (Nat.leb _ _); [|lia]. repeat apply Z.mul_nonneg_nonneg; auto; lia. }
  assert (T3 : 0 <= (if body && Nat.ltb msize a_size then 2 * D * 2 ^ (P - (Z.of_nat msize + 1) * b) else 0)).
  { destruct (_ && _); [|lia]. repeat apply Z.mul_nonneg_nonneg; auto; lia. }
  assert (T4 : 0 <= (1 + rank_out * N * S) * 2 ^ (P - Z.of_nat res_size * rb)).
  { apply Z.mul_nonneg_nonneg; auto. }
  lia.
Qed.

(* the gadget noise of the phase theorems is below the envelope *)
Theorem C03_keyswitch_bound_env (P b D : Z) (n cin dsize dnum a_size msize : nat) (A e : nat -> nat -> list Z)
        (rank_out S Ssrc Bkey rb : Z) (res_size : nat) (body : bool) :
  (1 <= dsize)%nat -> 0 <= D -> 0 <= Bkey -> 0 <= rank_out -> 0 <= S -> 0 <= Ssrc ->
  (forall ci l, length (A ci l) = n) -> (forall row ci, length (e row ci) = n) ->
  (forall ci l, (a_size <= l)%nat -> A ci l = pzero n) ->
  (forall ci l, pnorm (A ci l) <= D) -> (forall row ci, pnorm (e row ci) <= Bkey) ->
  pnorm (gadget_noise b n cin dsize dnum A e)
  <= gadget_env P (Z.of_nat n) b D dsize dnum a_size msize (Z.of_nat cin) rank_out S Ssrc Bkey rb res_size body.
Proof.
  intros Hd HD HB Hr HS HSs HA He Hz HnA Hne.
  rewrite (gadget_noise_active_rows b n cin dsize dnum a_size A e) by assumption.
  eapply Z.le_trans; [apply (C03_keyswitch_bound b n cin dsize _ A e D Bkey); assumption|].
  apply gadget_env_ge_gadget_term; lia.
Qed.
End Env.


(* C07: a one-term bbc product of a u64 residue x (split in halves) with a prepared pair (r, r') is x * r modulo the prime;
   the scalar pipeline theorem of Props/C07.v instantiates x, r, r' with the outputs of b_from_znx64_k / c_from_znx64_k. *)
From PV Require Import Base.MachineInt Model.C07Ntt120 Proofs.C07Ntt Proofs.C07Lazy Proofs.C07LazyBbb.
Open Scope Z_scope.

Lemma bbc_one_term h q x r r' :
  bbc_h_lo <= h < bbc_h_hi -> 2 ^ 15 <= q < 2 ^ 31 -> 0 <= x < 2 ^ 64 -> 0 <= r < q -> 0 <= r' < q ->
  r' mod q = (r * 2 ^ 32) mod q ->
  bbc_k h q [(x mod 2 ^ 32, x / 2 ^ 32, (r, r'))] mod q = (x * r) mod q.
Proof.
  intros Hh Hq Hx Hr Hr' Er'. destruct (halves x Hx) as (Xl & Xh & Ex).
  assert (Hq32 : q < 2 ^ 32) by (apply Z.lt_trans with (2 ^ 31); [apply Hq|reflexivity]).
  rewrite (bbc_congr h q _ Hh Hq).
  - cbn [map lsum dot_z]. rewrite Z.add_0_r, Ex. reflexivity.
  - cbn [length]. unfold bbc_max_ell. lia.
  - intros t [<-|[]]. cbn [term_ok]. unfold is_u32. repeat split; try apply Xl; try apply Xh; lia.
  - intros t [<-|[]]. exact Er'.
Qed.

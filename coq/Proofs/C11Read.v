(* C11, read-back: after write_col the selected column holds exactly the written limbs (each padded / cut to n words),
   so "every limb of the selected column is written" = the column of the result IS the op's column function.
   `col_write` is the form all operations with one destination share; frame, read-back and independence are proved of it. *)
From PV Require Import Base.MachineInt Model.Znx Model.Limbs Model.Flat Model.C09Run Proofs.ListFacts Proofs.C11Frame.
From Coq Require Import Arith PeanoNat List.
Open Scope nat_scope.

(* what write_limb stores for a limb l: the first n words of l, zero-extended *)
Definition pad (n : nat) (l : list Z) : list Z := firstn n (l ++ zeros n).

Lemma pad_length n l : length (pad n l) = n.
Proof. apply firstn_pad_length. Qed.

Lemma pad_id n l : length l = n -> pad n l = l.
Proof.
  intros H. unfold pad. rewrite firstn_app, H, Nat.sub_diag, firstn_O, app_nil_r.
  apply firstn_all2. lia.
Qed.

Lemma map_pad_id n (limbs : list (list Z)) :
  Forall (fun l => length l = n) limbs -> map (pad n) limbs = limbs.
Proof.
  induction 1 as [|l ls Hl _ IH]; [reflexivity|].
  cbn [map]. rewrite IH, (pad_id n l Hl). reflexivity.
Qed.

Lemma map_const_length (A B : Type) (c : B) (l l' : list A) :
  length l = length l' -> map (fun _ => c) l = map (fun _ => c) l'.
Proof.
  revert l'; induction l as [|x l IH]; intros [|y l'] H; cbn [length map] in *; try lia; [reflexivity|].
  f_equal. apply IH. lia.
Qed.

Lemma write_at_nth_inside (data l : list Z) off i d :
  off + length l <= length data -> i < length l ->
  nth (off + i) (write_at data off l) d = nth i l d.
Proof.
  intros Hlen Hi. unfold write_at.
  rewrite app_nth2 by (rewrite firstn_length; lia).
  rewrite firstn_length, Nat.min_l by lia.
  replace (off + i - off) with i by lia.
  apply app_nth1. exact Hi.
Qed.

Lemma write_limb_nth_inside n cols data col j l i d :
  n * (j * cols + col) + n <= length data -> i < n ->
  nth (n * (j * cols + col) + i) (write_limb n cols data col j l) d = nth i (pad n l) d.
Proof.
  intros Hlen Hi. unfold write_limb. fold (pad n l).
  apply write_at_nth_inside; rewrite pad_length; lia.
Qed.

Lemma write_limb_nth_below n cols data col j l idx d :
  n * (j * cols + col) + n <= length data -> idx < n * (j * cols + col) ->
  nth idx (write_limb n cols data col j l) d = nth idx data d.
Proof.
  intros Hlen Hi. unfold write_limb. apply write_at_nth_outside.
  - rewrite firstn_pad_length. lia.
  - left. exact Hi.
Qed.

Definition wstep (n cols col : nat) (s : list Z * nat) (l : list Z) : list Z * nat :=
  (write_limb n cols (fst s) col (snd s) l, S (snd s)).

Lemma wfold_length n cols col size (limbs : list (list Z)) :
  forall data j0, col < cols -> j0 + length limbs <= size -> n * cols * size <= length data ->
  length (fst (fold_left (wstep n cols col) limbs (data, j0))) = length data.
Proof.
  induction limbs as [|l limbs IH]; intros data j0 Hc Hsz Hd; cbn [fold_left length] in *; [reflexivity|].
  unfold wstep at 2. cbn [fst snd].
  assert (Hfit : n * (j0 * cols + col) + n <= length data) by (apply (limb_fits n cols size); lia).
  rewrite IH; [apply write_limb_length; exact Hfit|exact Hc|lia|].
  rewrite write_limb_length by exact Hfit. exact Hd.
Qed.

(* the writes of limbs j0, j0+1, ... never touch a word below the start of limb j0 *)
Lemma wfold_below n cols col size (limbs : list (list Z)) :
  forall data j0 idx d, col < cols -> j0 + length limbs <= size -> n * cols * size <= length data ->
  idx < n * (j0 * cols + col) ->
  nth idx (fst (fold_left (wstep n cols col) limbs (data, j0))) d = nth idx data d.
Proof.
  induction limbs as [|l limbs IH]; intros data j0 idx d Hc Hsz Hd Hi; cbn [fold_left length] in *; [reflexivity|].
  unfold wstep at 2. cbn [fst snd].
  assert (Hfit : n * (j0 * cols + col) + n <= length data) by (apply (limb_fits n cols size); lia).
  rewrite IH; [apply write_limb_nth_below; assumption|exact Hc|lia| |nia].
  rewrite write_limb_length by exact Hfit. exact Hd.
Qed.

Lemma wfold_inside n cols col size (limbs : list (list Z)) :
  forall data j0 k i d, col < cols -> j0 + length limbs <= size -> n * cols * size <= length data ->
  k < length limbs -> i < n ->
  nth (n * ((j0 + k) * cols + col) + i) (fst (fold_left (wstep n cols col) limbs (data, j0))) d
  = nth i (pad n (nth k limbs [])) d.
Proof.
  induction limbs as [|l limbs IH]; intros data j0 k i d Hc Hsz Hd Hk Hi; cbn [fold_left length] in *; [lia|].
  unfold wstep at 2. cbn [fst snd].
  assert (Hfit : n * (j0 * cols + col) + n <= length data) by (apply (limb_fits n cols size); lia).
  assert (Hd' : n * cols * size <= length (write_limb n cols data col j0 l))
    by (rewrite write_limb_length by exact Hfit; exact Hd).
  destruct k as [|k].
  - rewrite Nat.add_0_r. cbn [nth].
    rewrite (wfold_below n cols col size limbs) by (try assumption; try lia; nia).
    apply write_limb_nth_inside; assumption.
  - replace (j0 + S k) with (S j0 + k) by lia. cbn [nth].
    apply IH; try assumption; lia.
Qed.

Lemma limb_at_length n cols data col j :
  n * (j * cols + col) + n <= length data -> length (limb_at n cols data col j) = n.
Proof. intros H. unfold limb_at. rewrite firstn_length, skipn_length. lia. Qed.

Lemma limb_at_nth n cols data col j i d :
  i < n -> nth i (limb_at n cols data col j) d = nth (n * (j * cols + col) + i) data d.
Proof. intros Hi. unfold limb_at. rewrite nth_firstn_lt by exact Hi. apply nth_skipn. Qed.

Lemma col_limbs_length n cols size data col : length (col_limbs n cols size data col) = size.
Proof. unfold col_limbs. rewrite map_length, seq_length. reflexivity. Qed.

Lemma col_limbs_nth n cols size data col j :
  j < size -> nth j (col_limbs n cols size data col) [] = limb_at n cols data col j.
Proof. intros Hj. unfold col_limbs. apply nth_map_seq. exact Hj. Qed.

(* READ-BACK, general form: no hypothesis on the limb lengths *)
Theorem write_col_read_pad n cols size col data (limbs : list (list Z)) :
  col < cols -> length limbs = size -> n * cols * size <= length data ->
  col_limbs n cols size (write_col n cols data col limbs) col = map (pad n) limbs.
Proof.
  intros Hc Hl Hd.
  apply (nth_ext _ _ [] []); [rewrite col_limbs_length, map_length; lia|].
  intros j Hj. rewrite col_limbs_length in Hj. rewrite col_limbs_nth by exact Hj.
  rewrite (nth_indep (map (pad n) limbs) [] (pad n [])) by (rewrite map_length; lia).
  rewrite map_nth. change (write_col n cols data col limbs) with (fst (fold_left (wstep n cols col) limbs (data, 0))).
  assert (Hlen : length (fst (fold_left (wstep n cols col) limbs (data, 0))) = length data)
    by (apply (wfold_length n cols col size); lia).
  apply (nth_ext _ _ 0%Z 0%Z).
  - rewrite limb_at_length, pad_length; [reflexivity|]. rewrite Hlen. apply (limb_fits n cols size); lia.
  - intros i Hi. rewrite limb_at_length in Hi by (rewrite Hlen; apply (limb_fits n cols size); lia).
    rewrite limb_at_nth by exact Hi.
    apply (wfold_inside n cols col size limbs data 0 j i 0%Z); lia.
Qed.

(* limbs of n words are read back unchanged *)
Theorem write_col_read n cols size col data (limbs : list (list Z)) :
  col < cols -> length limbs = size -> Forall (fun l => length l = n) limbs ->
  n * cols * size <= length data ->
  col_limbs n cols size (write_col n cols data col limbs) col = limbs.
Proof.
  intros Hc Hl Hn Hd. rewrite (write_col_read_pad n cols size col data limbs Hc Hl Hd).
  apply map_pad_id. exact Hn.
Qed.

Lemma in_col_other n cols size col col' j i :
  0 < n -> col' < cols -> col' <> col -> i < n ->
  in_col n cols size col (n * (j * cols + col') + i) = false.
Proof.
  intros Hn Hc Hne Hi. unfold in_col.
  rewrite (in_range_limb n cols col' j) by lia.
  rewrite Nat.add_comm, Nat.mod_add by lia. rewrite Nat.mod_small by lia.
  destruct (Nat.eqb_spec col' col); [contradiction|reflexivity].
Qed.

(* one goal per opcode of the list that Hin ranges over, each closed or prepared by tac *)
Ltac code_cases Hin tac :=
  cbn [In] in Hin;
  repeat (destruct Hin as [Hc | Hin]; [subst; tac |]);
  try contradiction.

Lemma getcol_length s d : length (getcol s d) = s_size s.
Proof. apply col_limbs_length. Qed.

Lemma shape_fits s d : shape_ok s d = true -> s_col s < s_cols s /\ s_n s * s_cols s * s_size s <= length d.
Proof.
  intros H. destruct (shape_ok_facts s d H) as (Hc & Hs & Hl). split; [exact Hc|].
  rewrite Hl. apply Nat.mul_le_mono_l. exact Hs.
Qed.

Lemma putcol_frame s d l :
  0 < s_n s -> shape_ok s d = true -> length l <= s_size s ->
  length (putcol s d l) = length d /\
  forall idx dflt, in_col (s_n s) (s_cols s) (s_size s) (s_col s) idx = false -> nth idx (putcol s d l) dflt = nth idx d dflt.
Proof.
  intros Hn Hs Hl. destruct (shape_fits s d Hs) as [Hc Hd]. unfold putcol. apply write_col_frame; assumption.
Qed.

(* res' is res with its selected column replaced by g of that column: the form of every modelled operation with one
   destination.  g is given nothing else of res, so frame, read-back and independence follow for all of them at once. *)
Definition col_write (s : shape) (g : list (list Z) -> option (list (list Z))) (res res' : list Z) : Prop :=
  exists l, g (getcol s res) = Some l /\ length l = s_size s /\ shape_ok s res = true /\ res' = putcol s res l.

Theorem col_write_frame s g res res' : 0 < s_n s -> col_write s g res res' ->
  length res' = length res /\
  forall idx d, in_col (s_n s) (s_cols s) (s_size s) (s_col s) idx = false -> nth idx res' d = nth idx res d.
Proof. intros Hn (l & _ & Hl & Hs & ->). apply putcol_frame; [exact Hn | exact Hs | lia]. Qed.

Theorem col_write_column s g res res' : col_write s g res res' ->
  exists l, g (getcol s res) = Some l /\ length l = s_size s /\ getcol s res' = map (pad (s_n s)) l.
Proof.
  intros (l & Hg & Hl & Hs & ->). exists l. split; [exact Hg|]. split; [exact Hl|].
  destruct (shape_fits s res Hs) as [Hc Hd]. unfold getcol, putcol. apply write_col_read_pad; assumption.
Qed.

(* the column written depends on the prior destination only through what g makes of its selected column *)
Theorem col_write_same s g1 g2 res1 res2 res1' res2' :
  col_write s g1 res1 res1' -> col_write s g2 res2 res2' -> g1 (getcol s res1) = g2 (getcol s res2) ->
  getcol s res1' = getcol s res2'.
Proof.
  intros H1 H2 E.
  destruct (col_write_column _ _ _ _ H1) as (l1 & E1 & _ & ->). destruct (col_write_column _ _ _ _ H2) as (l2 & E2 & _ & ->).
  rewrite E, E2 in E1. injection E1 as ->. reflexivity.
Qed.

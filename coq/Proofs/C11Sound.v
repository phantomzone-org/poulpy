(* C11: the pair-run model run_c11 always satisfies its own oracle (oracle_c11 = 1), for every C08 / C09
   single-destination opcode and any shape with n >= 1.  Here: what run_c11 / oracle_c11 unfold to on a pair record, and
   `oracle_col_write` (two col_writes with the same result column pass); the two theorems stand under
   Props.C11.C11_oracle_c08 / C11_oracle_c09. *)
From PV Require Import Base.MachineInt Model.Znx Model.Limbs Model.Flat Model.Ring Model.C09Run Model.C08Run Model.C11Run
  Proofs.C11Frame Proofs.C11Read Proofs.C11Oracle Proofs.C11Ring Proofs.C11Indep.
From Coq Require Import Arith PeanoNat List Bool.
Open Scope nat_scope.

Lemma with_alt_spec (res alt : list Z) rest : with_alt (res :: rest ++ [alt]) = alt :: rest.
Proof.
  unfold with_alt. f_equal.
  - rewrite app_comm_cons. apply last_last.
  - apply removelast_last.
Qed.

Lemma without_alt_spec (res alt : list Z) rest : without_alt (res :: rest ++ [alt]) = res :: rest.
Proof. unfold without_alt. rewrite app_comm_cons. apply removelast_last. Qed.

Lemma last_alt_spec (res alt : list Z) rest : last (res :: rest ++ [alt]) [] = alt.
Proof. rewrite app_comm_cons. apply last_last. Qed.

(* the oracle's verdict on a pair of runs that rewrite the header's column of res and of alt with the same column *)
Definition oracle_verdict (ps : list Z) (res alt o1 o2 : list Z) : bool :=
  let n := Z.to_nat (nth 1 ps 0%Z) in let cols := Z.to_nat (nth 2 ps 0%Z) in
  let size := Z.to_nat (nth 3 ps 0%Z) in let col := Z.to_nat (nth 5 ps 0%Z) in
  frame_eq n cols size col 0 res o1 && frame_eq n cols size col 0 alt o2 && col_eq n cols size col 0 o1 o2.

Lemma shape_ok_len s (d d' : list Z) : shape_ok s d = true -> shape_ok s d' = true -> length d = length d'.
Proof.
  intros H H'. destruct (shape_ok_facts s d H) as (_ & _ & L). destruct (shape_ok_facts s d' H') as (_ & _ & L'). lia.
Qed.

Lemma oracle_col_write ps s g1 g2 (res alt o1 o2 : list Z) :
  s_n s = Z.to_nat (nth 1 ps 0%Z) -> s_cols s = Z.to_nat (nth 2 ps 0%Z) -> s_size s = Z.to_nat (nth 3 ps 0%Z) ->
  s_col s = Z.to_nat (nth 5 ps 0%Z) ->
  0 < s_n s -> col_write s g1 res o1 -> col_write s g2 alt o2 -> getcol s o1 = getcol s o2 ->
  oracle_verdict ps res alt o1 o2 = true.
Proof.
  unfold oracle_verdict. cbv zeta. intros <- <- <- <- Hn W1 W2 Hcol.
  destruct (col_write_frame _ _ _ _ Hn W1) as [L1 F1]. destruct (col_write_frame _ _ _ _ Hn W2) as [L2 F2].
  destruct W1 as (_ & _ & _ & S1 & _). destruct W2 as (_ & _ & _ & S2 & _).
  destruct (shape_fits _ _ S1) as [Hc Hd]. pose proof (shape_ok_len _ _ _ S1 S2) as Hl.
  rewrite !andb_true_iff. repeat split.
  - apply frame_eq_sound. split; [lia|]. intros idx Hout. symmetry. apply F1. exact Hout.
  - apply frame_eq_sound. split; [lia|]. intros idx Hout. symmetry. apply F2. exact Hout.
  - apply col_eq_col_limbs; try assumption; [lia|]. split; [lia | exact Hcol].
Qed.

Lemma oracle_c11_unfold c ps (res alt : list Z) rest o1 o2 :
  (0 <= c)%Z -> c <> 9021%Z ->
  oracle_c11 (110000 + c) ps (res :: rest ++ [alt]) [o1; o2] = if oracle_verdict ps res alt o1 o2 then 1%Z else 0%Z.
Proof.
  intros Hc Hne. unfold oracle_c11.
  destruct (Z.leb_spec 110000 (110000 + c)) as [_|]; [|lia].
  replace (110000 + c - 110000)%Z with c by lia.
  destruct (Z.eqb_spec c 9021); [contradiction|].
  cbv zeta. rewrite last_alt_spec. reflexivity.
Qed.

Lemma run_c11_unfold c ps (res alt : list Z) rest :
  (0 <= c)%Z ->
  run_c11 (110000 + c) ps (res :: rest ++ [alt]) =
  match base_run c ps (res :: rest), base_run c ps (alt :: rest) with
  | Some (o1 :: _), Some (o2 :: _) => Some [o1; o2]
  | _, _ => None
  end.
Proof.
  intros Hc. unfold run_c11.
  destruct (Z.leb_spec 110000 (110000 + c)) as [_|]; [|lia].
  replace (110000 + c - 110000)%Z with c by lia.
  cbv zeta. rewrite with_alt_spec, without_alt_spec. reflexivity.
Qed.

Lemma base_run_c09 c : In c c09_single_codes ->
  (0 <= c)%Z /\ c <> 9021%Z /\ forall ps vs, base_run c ps vs = run_c09 c ps vs.
Proof.
  intros Hin. unfold c09_single_codes in Hin. cbn [In] in Hin.
  repeat (destruct Hin as [<- | Hin]; [split; [lia|split; [discriminate|reflexivity]]|]). contradiction.
Qed.

Lemma run_c09_single c ps res rest x t :
  In c c09_single_codes -> run_c09 c ps (res :: rest) = Some (x :: t) -> t = [].
Proof.
  intros Hin H. rewrite (run_c09_col c ps res rest Hin) in H.
  destruct (c09_col _ _ _ _); [|discriminate]. destruct (shape_ok _ _); [|discriminate].
  inversion H. reflexivity.
Qed.

Lemma base_run_c08 c : In c c08_flat_codes ->
  (0 <= c)%Z /\ c <> 9021%Z /\ forall ps vs, base_run c ps vs = run_c08_vec c ps vs.
Proof.
  intros Hin. unfold c08_flat_codes in Hin. cbn [In] in Hin.
  repeat (destruct Hin as [<- | Hin]; [split; [lia|split; [discriminate|reflexivity]]|]). contradiction.
Qed.

(* every C08 vector opcode is a col_op on the destination *)
Lemma c08_is_col_op c ps res rest x t :
  In c c08_flat_codes -> run_c08_vec c ps (res :: rest) = Some (x :: t) ->
  t = [] /\ exists f as_ a, col_op f (rshape ps) as_ res a = Some x.
Proof.
  intros Hin H. unfold c08_flat_codes in Hin. cbn [In] in Hin.
  repeat (destruct Hin as [Hc | Hin];
          [subst c; cbv beta iota zeta delta [run_c08_vec C08Run.v nth] in H;
           apply one_inv in H as [H ->]; split; [reflexivity|];
           eexists; eexists; eexists; exact H |]).
  contradiction.
Qed.


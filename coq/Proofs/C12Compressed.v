(* C12 - the seeded ("compressed") encryptions: the declared size suffices on ring degrees that are multiples of 8. *)
From PV Require Import Base.MachineInt Model.C12Scratch Gen.C12TmpBytes_gen Model.C12Trees
  Proofs.C12Arena Proofs.C12Hal Proofs.C12Core Proofs.C12KeySwitch Proofs.C12More Proofs.C12Conv Proofs.C12KeyEnc.
Open Scope Z_scope.

Section Compressed.
  Variables fam n : Z.
  Hypothesis Hf : is_fam fam.
  Hypothesis Hn0 : 0 <= n.
  Hypothesis Hn8 : n mod 8 = 0.

  (* glwe_encrypt_sk_internal against the size of glwe_encrypt_sk, either flavour *)
  Lemma internal_le_enc_sk (res : infos) (flag : bool) : 0 <= i_size res ->
    budget (t_glwe_encrypt_sk_internal fam n (i_size res) (i_rank res + 1) flag) (glwe_encrypt_sk_tmp_bytes fam n res).
  Proof using Hf Hn0 Hn8.
    intros Hs. eapply budget_mono; [exact (enc_sk_internal_spec fam n Hf Hn0 Hn8 (i_size res) (i_rank res + 1) flag Hs)|].
    pose proof (al_vec_znx fam n Hf Hn0 Hn8 1 (i_size res) ltac:(lia) Hs) as Hvz.
    pose proof (al_dft fam n Hf Hn0 Hn8 1 (i_size res) ltac:(lia) Hs) as Hdft.
    pose proof (nn_norm fam n Hf Hn0 Hn8). pose proof (nn_bnorm fam n Hf Hn0 Hn8).
    unfold glwe_encrypt_sk_tmp_bytes. cbv zeta. destruct flag; lia.
  Qed.

  Lemma suffices_glwe_compressed_encrypt_sk (res : infos) : 0 <= i_size res ->
    run_takes (tree_glwe_compressed_encrypt_sk fam n res) (0, glwe_compressed_encrypt_sk_tmp_bytes fam n res) <> None.
  Proof using Hf Hn0 Hn8.
    intros Hs. pose proof (internal_le_enc_sk res false Hs) as Bi. pose proof (budget_nonneg _ _ Bi).
    apply budget_suffices; unfold tree_glwe_compressed_encrypt_sk, glwe_compressed_encrypt_sk_tmp_bytes; cbv zeta; cbn [budget persist].
    split; [lia|]. eapply budget_mono; [exact Bi | lia].
  Qed.

  Lemma gglwe_compressed_spec (res : infos) : wf_infos res -> i_n res = n ->
    budget (tree_gglwe_compressed_encrypt_sk fam n res) (gglwe_compressed_encrypt_sk_tmp_bytes fam n res).
  Proof using Hf Hn0 Hn8.
    intros Hr Hn. assert (Hs : 0 <= i_size res) by (destruct Hr as (_&?&_); lia).
    pose proof (internal_le_enc_sk res false Hs) as Bi. pose proof (budget_nonneg _ _ Bi).
    pose proof (budget_normalize fam n Hf Hn0 Hn8) as Bn. pose proof (nn_norm fam n Hf Hn0 Hn8).
    pose proof (al_vec_znx fam n Hf Hn0 Hn8 1 (i_size res) ltac:(lia) Hs) as Hvz.
    unfold tree_gglwe_compressed_encrypt_sk, gglwe_compressed_encrypt_sk_tmp_bytes. cbv zeta.
    rewrite (plaintext_bytes_eq fam n Hf Hn0 Hn8 res Hr Hn). cbn [budget persist]. leaves.
    all: eapply budget_mono; [eassumption | lia].
  Qed.

  Lemma suffices_gglwe_compressed_encrypt_sk (res : infos) : wf_infos res -> i_n res = n ->
    run_takes (tree_gglwe_compressed_encrypt_sk fam n res) (0, gglwe_compressed_encrypt_sk_tmp_bytes fam n res) <> None.
  Proof using Hf Hn0 Hn8. intros Hr Hn. apply budget_suffices, gglwe_compressed_spec; assumption. Qed.

  Lemma suffices_ggsw_compressed_encrypt_sk (res : infos) : wf_infos res -> i_n res = n ->
    run_takes (tree_ggsw_compressed_encrypt_sk fam n res) (0, ggsw_compressed_encrypt_sk_tmp_bytes fam n res) <> None.
  Proof using Hf Hn0 Hn8.
    intros Hr Hn. pose proof (suffices_ggsw_encrypt_sk fam n Hf Hn0 Hn8 res Hr Hn) as H.
    unfold tree_ggsw_compressed_encrypt_sk, ggsw_compressed_encrypt_sk_tmp_bytes. cbv zeta.
    unfold tree_ggsw_encrypt_sk in H.
    (* same takes; only the outer assertion names the compressed size query, which equals the plain one *)
    unfold run_takes in *. cbn [run_tree] in *. exact H.
  Qed.

  Lemma suffices_glwe_switching_key_compressed_encrypt_sk (res : infos) : wf_infos res -> i_n res = n ->
    run_takes (tree_glwe_switching_key_compressed_encrypt_sk fam n res)
              (0, glwe_switching_key_compressed_encrypt_sk_tmp_bytes fam n res) <> None.
  Proof using Hf Hn0 Hn8.
    intros Hr Hn. pose proof (gglwe_compressed_spec res Hr Hn) as Bg. pose proof (budget_nonneg _ _ Bg).
    pose proof (al_scalar_znx fam n Hf Hn0 Hn8 (i_rank_in res) ltac:(destruct Hr as (_&_&_&?&_); lia)).
    pose proof (al_scalar_znx fam n Hf Hn0 Hn8 1 ltac:(lia)).
    pose proof (al_svp fam n Hf Hn0 Hn8 (i_rank res) ltac:(destruct Hr as (_&_&?&_); lia)).
    apply budget_suffices; unfold tree_glwe_switching_key_compressed_encrypt_sk, glwe_switching_key_compressed_encrypt_sk_tmp_bytes,
      glwe_secret_prepared_bytes_of; cbv zeta.
    cbn [budget persist]. leaves.
    all: eapply budget_mono; [eassumption | lia].
  Qed.

  Lemma suffices_glwe_automorphism_key_compressed_encrypt_sk (res : infos) : wf_infos res -> i_n res = n ->
    run_takes (tree_glwe_automorphism_key_compressed_encrypt_sk fam n res)
              (0, glwe_automorphism_key_compressed_encrypt_sk_tmp_bytes fam n res) <> None.
  Proof using Hf Hn0 Hn8.
    intros Hr Hn. pose proof (gglwe_compressed_spec res Hr Hn) as Bg. pose proof (budget_nonneg _ _ Bg).
    pose proof (al_scalar_znx fam n Hf Hn0 Hn8 (i_rank res) ltac:(destruct Hr as (_&_&?&_); lia)).
    pose proof (al_svp fam n Hf Hn0 Hn8 (i_rank res) ltac:(destruct Hr as (_&_&?&_); lia)).
    apply budget_suffices; unfold tree_glwe_automorphism_key_compressed_encrypt_sk, glwe_automorphism_key_compressed_encrypt_sk_tmp_bytes,
      glwe_secret_prepared_bytes_of_from_infos, glwe_secret_prepared_bytes_of, GLWESecret_bytes_of_from_infos, GLWESecret_bytes_of;
      cbv zeta; rewrite Hn.
    cbn [budget persist]. leaves.
    all: eapply budget_mono; [eassumption | lia].
  Qed.

  Lemma suffices_glwe_tensor_key_compressed_encrypt_sk (res : infos) : wf_infos res -> i_n res = n ->
    run_takes (tree_glwe_tensor_key_compressed_encrypt_sk fam n res)
              (0, glwe_tensor_key_compressed_encrypt_sk_tmp_bytes fam n res) <> None.
  Proof using Hf Hn0 Hn8.
    intros Hr Hn. assert (Hrr : 0 <= i_rank res) by (destruct Hr as (_&_&?&_); lia).
    destruct (pairs_facts (i_rank res) Hrr) as [Hp1 Hp2].
    assert (Wt : wf_infos (tensor_key_layout res) /\ i_n (tensor_key_layout res) = n).
    { destruct Hr as (Hb & Hs & Hrk & Hri & Hdn & Hds). split; [|exact Hn].
      unfold wf_infos, tensor_key_layout, mk_gglwe_layout; cbn [i_base2k i_size i_rank i_rank_in i_dnum i_dsize].
      pose proof (div_ceil_nonneg (i_max_k res) (i_base2k res) ltac:(unfold i_max_k; nia) Hb). lia. }
    destruct Wt as [Wt Nt].
    pose proof (gglwe_compressed_spec (tensor_key_layout res) Wt Nt) as Bg. pose proof (budget_nonneg _ _ Bg).
    pose proof (tensor_prepare_spec fam n Hf Hn0 Hn8 (i_rank res) Hrr) as Bp. pose proof (budget_nonneg _ _ Bp).
    pose proof (al_svp fam n Hf Hn0 Hn8 (i_rank res) Hrr).
    pose proof (al_scalar_znx fam n Hf Hn0 Hn8 (GLWESecretTensor_pairs (i_rank res)) ltac:(lia)).
    pose proof (scalar_znx_mono fam n Hf Hn0 Hn8 _ _ Hp2).
    apply budget_suffices; unfold tree_glwe_tensor_key_compressed_encrypt_sk, glwe_tensor_key_compressed_encrypt_sk_tmp_bytes,
      glwe_secret_prepared_bytes_of, GLWESecretTensor_bytes_of_from_infos, GLWESecretTensor_bytes_of; cbv zeta;
      fold (tensor_key_layout res); rewrite Hn.
    cbn [budget persist]. leaves.
    all: eapply budget_mono; [eassumption | lia].
  Qed.

  Lemma suffices_gglwe_to_ggsw_key_compressed_encrypt_sk (res : infos) : wf_infos res -> i_n res = n ->
    run_takes (tree_gglwe_to_ggsw_key_compressed_encrypt_sk fam n res)
              (0, gglwe_to_ggsw_key_compressed_encrypt_sk_tmp_bytes fam n res) <> None.
  Proof using Hf Hn0 Hn8.
    intros Hr Hn. assert (Hrr : 0 <= i_rank res) by (destruct Hr as (_&_&?&_); lia).
    destruct (pairs_facts (i_rank res) Hrr) as [Hp1 Hp2].
    pose proof (gglwe_compressed_spec res Hr Hn) as Bg. pose proof (budget_nonneg _ _ Bg).
    pose proof (tensor_prepare_spec fam n Hf Hn0 Hn8 (i_rank res) Hrr) as Bp. pose proof (budget_nonneg _ _ Bp).
    pose proof (al_svp fam n Hf Hn0 Hn8 (i_rank res) Hrr).
    pose proof (al_scalar_znx fam n Hf Hn0 Hn8 (GLWESecretTensor_pairs (i_rank res)) ltac:(lia)).
    pose proof (al_scalar_znx fam n Hf Hn0 Hn8 (i_rank res) Hrr).
    pose proof (scalar_znx_mono fam n Hf Hn0 Hn8 _ _ Hp2).
    apply budget_suffices; unfold tree_gglwe_to_ggsw_key_compressed_encrypt_sk, gglwe_to_ggsw_key_compressed_encrypt_sk_tmp_bytes,
      glwe_secret_prepared_bytes_of, GLWESecretTensor_bytes_of_from_infos, GLWESecretTensor_bytes_of, GLWESecret_bytes_of; cbv zeta; rewrite Hn.
    cbn [budget persist]. leaves.
    all: eapply budget_mono; [eassumption | lia].
  Qed.
End Compressed.
